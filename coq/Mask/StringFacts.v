(* Mask/StringFacts.v — the theorems of C14 on path STRINGS: the strings are the printed paths
   (Mask/Print.v, the printer the harness uses), and the tokenizer reads them back. *)
From Coq Require Import List Bool ZArith.
From Coq.Strings Require Import Byte.
From Verif Require Import Base.Bytes Mask.Path Mask.Desc Mask.Trie Mask.Spec Mask.Json Mask.C14Facts
     Mask.JsonFacts Mask.AllFacts Mask.PimFacts Mask.Print Mask.PrintFacts.
Import ListNotations.

Lemma well_typed_wf env d ps : well_typed env d ps = true -> forallb wf_path ps = true.
Proof. intro H. destruct (well_typed_parts _ _ _ H) as [_ [X _]]. exact X. Qed.

Theorem build_sound_strings env d black ps gs m :
  well_typed env d ps = true -> elab_all env d ps = Some gs -> in_domain black gs = true ->
  new_mask env d black (map print_path ps) = Ok m ->
  forall q, walk (Some m) q = spec_pass black (path_set gs) q.
Proof.
  intros Hw He Hd Hm. eapply build_sound; eauto. apply tokenize_print_paths. apply (well_typed_wf _ _ _ Hw).
Qed.

Theorem build_total_strings env d black ps gs :
  well_typed env d ps = true -> elab_all env d ps = Some gs -> no_conflict gs = true ->
  exists m, new_mask env d black (map print_path ps) = Ok m.
Proof.
  intros Hw He Hn. eexists. eapply build_total_on_D; eauto. apply tokenize_print_paths. apply (well_typed_wf _ _ _ Hw).
Qed.

Theorem all_sound_strings env d black ps gs m :
  well_typed env d ps = true -> elab_all env d ps = Some gs -> in_domain black gs = true ->
  (black = true -> no_root_path gs = true) ->
  new_mask env d black (map print_path ps) = Ok m ->
  forall q, walk (Some m) q = true -> all_q (fst (walk_to (Some m) q)) = spec_all black (path_set gs) q.
Proof.
  intros Hw He Hd Hn Hm. eapply all_sound; eauto. apply tokenize_print_paths. apply (well_typed_wf _ _ _ Hw).
Qed.

Theorem path_in_mask_strings env d black ps gs m p g :
  env_ok env = true ->
  well_typed env d ps = true -> elab_all env d ps = Some gs -> in_domain black gs = true ->
  gs <> [] -> forallb no_starf ps = true -> (black = true -> no_root_path gs = true) ->
  new_mask env d black (map print_path ps) = Ok m ->
  forallb simple_seg p = true -> wf_path p = true -> elab env d p = Some g ->
  exists a, path_in_mask env d m (print_path p) = Some (spec_pass black (path_set gs) (qkeys g), a).
Proof.
  intros Henv Hw He Hd Hne Hns Hn Hm Hs Hwf Hg.
  eapply (path_in_mask_sound env d black (map print_path ps) ps gs m p g); eauto.
  - apply tokenize_print_paths. apply (well_typed_wf _ _ _ Hw).
  - apply tokenize_print_path. exact Hwf.
Qed.

Theorem json_roundtrip_strings env d black ps gs m :
  well_typed env d ps = true -> elab_all env d ps = Some gs -> no_conflict gs = true -> gs <> [] ->
  forallb (json_ok (switch_ft env d)) gs = true ->
  new_mask env d black (map print_path ps) = Ok m ->
  exists m', of_json (to_json m) = Ok m' /\
    (forall q, observe (Some m') q = observe (Some m) q) /\
    (forall q, walk (Some m') q = walk (Some m) q) /\
    to_json m' = to_json m.
Proof.
  intros Hw He Hn Hne Hj Hm. eapply json_roundtrip; eauto. apply tokenize_print_paths. apply (well_typed_wf _ _ _ Hw).
Qed.

Theorem order_irrelevant_strings env d black ps gs m ps' gs' :
  well_typed env d ps = true -> well_typed env d ps' = true ->
  elab_all env d ps = Some gs -> elab_all env d ps' = Some gs' ->
  in_domain black gs = true -> in_domain black gs' = true ->
  same_set (path_set gs) (path_set gs') = true ->
  new_mask env d black (map print_path ps) = Ok m ->
  exists m', new_mask env d black (map print_path ps') = Ok m' /\ forall q, walk (Some m) q = walk (Some m') q.
Proof.
  intros Hw Hw' He He' Hd Hd' Hs Hm.
  eapply (order_irrelevant env d black (map print_path ps) ps gs m (map print_path ps') ps' gs'); eauto.
  - apply tokenize_print_paths. apply (well_typed_wf _ _ _ Hw).
  - apply tokenize_print_paths. apply (well_typed_wf _ _ _ Hw').
  - apply same_set_in. exact Hs.
Qed.
