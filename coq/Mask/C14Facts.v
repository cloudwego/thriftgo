(* Mask/C14Facts.v — the theorems of property C14 about the model: masks built from
   well-typed, conflict-free path lists answer every query walk as the path set prescribes
   (white and black lists), building is total there, the order and grouping of the paths
   do not matter, each listed error is an error, and witnesses of what goes wrong outside
   the domain. *)
From Coq Require Import List Bool ZArith Lia Permutation.
From Coq.Strings Require Import Byte String.
From Verif Require Import Base.Bytes Mask.Path Mask.Desc Mask.Trie Mask.Json Mask.Spec
     Mask.TrieFacts Mask.SemFacts Mask.FrameFacts Mask.RefineFacts.
Import ListNotations.

Lemma existsb_map_KI x r : existsb (key_eqb (KI x)) (map KI r) = existsb (Z.eqb x) r.
Proof. induction r as [|y r IH]; [reflexivity|]. cbn. rewrite IH. reflexivity. Qed.
Lemma existsb_map_KS x r : existsb (key_eqb (KS x)) (map KS r) = existsb (beqb x) r.
Proof. induction r as [|y r IH]; [reflexivity|]. cbn. rewrite IH. reflexivity. Qed.

Lemma nodupb_KI ids : nodupb key_eqb (map KI ids) = nodupb Z.eqb ids.
Proof. induction ids as [|x r IH]; [reflexivity|]. cbn [nodupb map]. rewrite IH, existsb_map_KI. reflexivity. Qed.
Lemma nodupb_KS ss : nodupb key_eqb (map KS ss) = nodupb beqb ss.
Proof. induction ss as [|x r IH]; [reflexivity|]. cbn [nodupb map]. rewrite IH, existsb_map_KS. reflexivity. Qed.

Lemma sub_ok_fresh k t P t0 b : sub_ok k t P (fresh t0 b) = P (fresh t b).
Proof. reflexivity. Qed.

Lemma forallb_const {A} (l : list A) : forallb (fun _ => true) l = true.
Proof. induction l; auto. Qed.

Lemma estep_keys env d s gs d' : estep env d s gs d' -> wf_pseg s = true ->
  nonempty (gkeys gs) = true /\ nodupb key_eqb (gkeys gs) = true.
Proof.
  destruct 1 as [fs n x|fs id x|e ids|e|k v ids|k v ss|k v]; cbn [wf_pseg gkeys]; intro Hw; try (split; reflexivity).
  1-2: destruct ids; [discriminate|]; rewrite andb_true_iff in Hw; rewrite nodupb_KI; tauto.
  destruct ss; [discriminate|]. rewrite nodupb_KS. tauto.
Qed.

Theorem compat_fresh_elab : forall env p d g,
  elab env d p = Some g -> wf_path p = true -> forall t b, compat g (fresh t b) = true.
Proof.
  intros env. induction p as [|s p IH]; intros d g He Hwf t b.
  - cbn in He. injection He as <-. reflexivity.
  - cbn [wf_path forallb] in Hwf. rewrite andb_true_iff in Hwf. destruct Hwf as [Hws Hwf].
    destruct (elab_cons _ _ _ _ _ He) as [(gs & d' & g' & Hs & Hok & Hg & ->) | (-> & -> & f0 & fs & _ & Hok & ->)];
      cbn [compat gft]; rewrite Hok; [|reflexivity].
    assert (forallb (fun k => sub_ok k (gft gs) (compat g') (fresh t b)) (gkeys gs) = true) as ->
      by (rewrite forallb_forall; intros k _; rewrite sub_ok_fresh; eapply IH; eauto).
    destruct (estep_keys _ _ _ _ _ Hs Hws) as [Hne Hnd].
    (* what is left of [compat] is non-empty, duplicate-free keys and [star_state] of a fresh node *)
    destruct Hs; try reflexivity; cbn [gkeys] in Hne, Hnd |- *; rewrite Hne, Hnd; reflexivity.
Qed.

Lemma elab_all_cons env d p ps gs :
  elab_all env d (p :: ps) = Some gs ->
  exists g gs', gs = g :: gs' /\ elab env d p = Some g /\ elab_all env d ps = Some gs'.
Proof.
  cbn. destruct (elab env d p) as [g|]; [|discriminate]. destruct (elab_all env d ps) as [gs'|]; [|discriminate].
  intros [= <-]. eauto.
Qed.

Lemma elab_all_Forall env d (W : list pseg -> bool) (P : gpath -> Prop) :
  (forall p g, elab env d p = Some g -> W p = true -> P g) ->
  forall ps gs, elab_all env d ps = Some gs -> forallb W ps = true -> Forall P gs.
Proof.
  intro H. induction ps as [|p ps IH]; intros gs He Hw.
  - cbn in He. injection He as <-. constructor.
  - destruct (elab_all_cons _ _ _ _ _ He) as [g [gs' [-> [Hg Hgs]]]].
    cbn [forallb] in Hw. rewrite andb_true_iff in Hw. constructor; [apply (H p) | apply IH]; tauto.
Qed.

Lemma elab_all_compat_fresh env d ps gs :
  elab_all env d ps = Some gs -> forallb wf_path ps = true ->
  forall t b, forallb (fun g => compat g (fresh t b)) gs = true.
Proof.
  intros He Hwf t b. apply forallb_forall, Forall_forall. revert He Hwf. apply elab_all_Forall.
  intros p g Hg Hw. exact (compat_fresh_elab _ _ _ _ Hg Hw t b).
Qed.

Lemma add_path_root env d p g cur :
  elab env d p = Some g -> wf_path p = true -> compat g (set_typ cur (switch_ft env d)) = true ->
  add_path (path_fuel (tokens_of p)) env (tokens_of p) d cur = Ok (ins g (set_typ cur (switch_ft env d))).
Proof.
  intros He Hwf Hc. unfold path_fuel, tokens_of.
  change (add_path (S (List.length (TRoot :: flat_map seg_tokens p))) env (TRoot :: flat_map seg_tokens p) d cur)
    with (add_path (List.length (TRoot :: flat_map seg_tokens p)) env (flat_map seg_tokens p) d (set_typ cur (switch_ft env d))).
  apply add_path_ins; auto; cbn [List.length]; lia.
Qed.

(* the first path types the node it starts from ($ sets typ), the others find it typed *)
Lemma add_tok_paths_ins env d : forall ps gs,
  elab_all env d ps = Some gs -> forallb wf_path ps = true -> no_conflict gs = true ->
  forall cur, forallb (fun g => compat g (set_typ cur (switch_ft env d))) gs = true ->
  add_tok_paths env d (map tokens_of ps) cur =
  Ok (match gs with [] => cur | _ => ins_all gs (set_typ cur (switch_ft env d)) end).
Proof.
  induction ps as [|p ps IH]; intros gs He Hwf Hnc cur Hall.
  - cbn in He. injection He as <-. reflexivity.
  - destruct (elab_all_cons _ _ _ _ _ He) as [g [gs' [-> [Hg Hgs]]]].
    cbn [forallb] in Hwf. rewrite andb_true_iff in Hwf. destruct Hwf as [Hwp Hwf].
    destruct (ins_all_head _ _ _ Hnc Hall) as (Hcg & Hnc1 & Hall1).
    cbn [map add_tok_paths]. rewrite (add_path_root env d p g cur Hg Hwp Hcg), ins_all_cons.
    set (cur1 := ins g (set_typ cur (switch_ft env d))) in *.
    (* after the first path the node has the type that "$" sets *)
    assert (set_typ cur1 (switch_ft env d) = cur1) as E by (rewrite <- (set_typ_same cur1) at 2; unfold cur1; rewrite ins_typ; reflexivity).
    rewrite (IH gs' Hgs Hwf Hnc1 cur1), E by (rewrite E; exact Hall1). destruct gs'; reflexivity.
Qed.

Definition built (env : senv) (d : ty) (black : bool) (gs : list gpath) : mask :=
  match gs with
  | [] => empty_mask black
  | _ => ins_all gs (fresh (switch_ft env d) black)
  end.

Theorem new_mask_built env d black strs ps gs :
  map tokenize strs = map tokens_of ps ->
  elab_all env d ps = Some gs -> forallb wf_path ps = true -> no_conflict gs = true ->
  new_mask env d black strs = Ok (built env d black gs).
Proof.
  intros Htok He Hwf Hnc. unfold new_mask. rewrite Htok.
  apply (add_tok_paths_ins env d ps gs He Hwf Hnc (empty_mask black)).
  exact (elab_all_compat_fresh _ _ _ _ He Hwf (switch_ft env d) black).
Qed.

Lemma existsb_orb {A} (f g : A -> bool) l : existsb (fun x => f x || g x) l = existsb f l || existsb g l.
Proof.
  induction l as [|x l IH]; [reflexivity|]. cbn. rewrite IH.
  destruct (f x), (g x), (existsb f l), (existsb g l); reflexivity.
Qed.

Lemma existsb_flat_map {A B} (f : B -> bool) (h : A -> list B) l :
  existsb f (flat_map h l) = existsb (fun a => existsb f (h a)) l.
Proof. induction l as [|x l IH]; [reflexivity|]. cbn. rewrite existsb_app, IH. reflexivity. Qed.

Lemma existsb_map {A B} (f : B -> bool) (h : A -> B) l : existsb f (map h l) = existsb (fun a => f (h a)) l.
Proof. induction l as [|x l IH]; [reflexivity|]. cbn. rewrite IH. reflexivity. Qed.

Lemma existsb_ext_in {A} (f g : A -> bool) l : (forall x, In x l -> f x = g x) -> existsb f l = existsb g l.
Proof.
  induction l as [|x r IH]; intro H; [reflexivity|]. cbn [existsb]. rewrite (H x (or_introl eq_refl)), IH; [reflexivity|].
  intros y Hy. apply H. right. exact Hy.
Qed.

Lemma existsb_ext {A} (f g : A -> bool) l : (forall x, f x = g x) -> existsb f l = existsb g l.
Proof. intro H. apply existsb_ext_in. intros x _. apply H. Qed.

Lemma existsb_const_and {A} (f : A -> bool) c l : existsb (fun x => c && f x) l = c && existsb f l.
Proof.
  induction l as [|x l IH]; [cbn; rewrite andb_false_r; reflexivity|]. cbn. rewrite IH. destruct c, (f x), (existsb f l); reflexivity.
Qed.

Lemma existsb_and_const {A} (f : A -> bool) c l : existsb (fun x => f x && c) l = existsb f l && c.
Proof.
  rewrite (existsb_ext _ (fun x => c && f x)) by (intro; apply andb_comm). rewrite existsb_const_and. apply andb_comm.
Qed.

Definition sel (q : list qkey) (p : spath) : bool := covers p q || touches p q.

Lemma sel_nil_q p : sel [] p = true.
Proof. unfold sel. destruct p; reflexivity. Qed.

Lemma sel_cons s p k q : sel (k :: q) (s :: p) = seg_matches s k && sel q p.
Proof. unfold sel. cbn. destruct (seg_matches s k); reflexivity. Qed.

Lemma key_eqb_KF k i : key_eqb (key_of k) (KF i) = seg_matches (SFld i) k.
Proof. destruct k; cbn; try reflexivity. apply Z.eqb_sym. Qed.
Lemma key_eqb_KI k i : key_eqb (key_of k) (KI i) = seg_matches (SInt i) k.
Proof. destruct k; cbn; try reflexivity. apply Z.eqb_sym. Qed.
Lemma key_eqb_KS k s : key_eqb (key_of k) (KS s) = seg_matches (SStr s) k.
Proof. destruct k; cbn; try reflexivity. apply beqb_sym. Qed.

(* one lemma for the relations sel q, covers . q, ...: they share the rule for the head segment *)
Lemma expand_head (F : list qkey -> spath -> bool) (s : gseg) (r : gpath) k q :
  (forall sg p, F (k :: q) (sg :: p) = seg_matches sg k && F q p) ->
  existsb (F (k :: q)) (expand (s :: r)) = gmatch s k && existsb (F q) (expand r).
Proof.
  intro HF. unfold gmatch. destruct s as [i t|ids t|ss t|t|t]; cbn [expand is_gstar gkeys orb].
  - rewrite existsb_map. cbn [existsb]. rewrite orb_false_r, key_eqb_KF.
    rewrite (existsb_ext _ (fun p => seg_matches (SFld i) k && F q p)) by (intro; apply HF).
    apply existsb_const_and.
  - rewrite existsb_flat_map.
    rewrite (existsb_ext _ (fun i => seg_matches (SInt i) k && existsb (F q) (expand r))).
    + rewrite existsb_and_const, existsb_map. f_equal. apply existsb_ext. intro i. symmetry. apply key_eqb_KI.
    + intro i. rewrite existsb_map.
      rewrite (existsb_ext _ (fun p => seg_matches (SInt i) k && F q p)) by (intro; apply HF).
      apply existsb_const_and.
  - rewrite existsb_flat_map.
    rewrite (existsb_ext _ (fun i => seg_matches (SStr i) k && existsb (F q) (expand r))).
    + rewrite existsb_and_const, existsb_map. f_equal. apply existsb_ext. intro i. symmetry. apply key_eqb_KS.
    + intro i. rewrite existsb_map.
      rewrite (existsb_ext _ (fun p => seg_matches (SStr i) k && F q p)) by (intro; apply HF).
      apply existsb_const_and.
  - rewrite existsb_map.
    rewrite (existsb_ext _ (fun p => seg_matches SStar k && F q p)) by (intro; apply HF).
    rewrite existsb_const_and. reflexivity.
  - rewrite existsb_map.
    rewrite (existsb_ext _ (fun p => seg_matches SStarF k && F q p)) by (intro; apply HF).
    rewrite existsb_const_and. reflexivity.
Qed.

Fixpoint groups_nonempty (g : gpath) : bool :=
  match g with
  | [] => true
  | s :: r => nonempty (gkeys s) && groups_nonempty r
  end.

Lemma expand_nonempty g : groups_nonempty g = true -> expand g <> [].
Proof.
  induction g as [|s r IH]; [discriminate|]. cbn [groups_nonempty]. rewrite andb_true_iff. intros [Hs Hr].
  specialize (IH Hr). destruct (expand r) as [|p l] eqn:E; [congruence|].
  destruct s as [i t|ids t|ss t|t|t]; cbn [expand gkeys] in *; rewrite ?E; try discriminate.
  - destruct ids; [discriminate|]. cbn. discriminate.
  - destruct ss; [discriminate|]. cbn. discriminate.
Qed.

Lemma existsb_const {A} (f : A -> bool) c l : l <> [] -> (forall x, In x l -> f x = c) -> existsb f l = c.
Proof.
  intros Hne H. destruct l as [|x r]; [congruence|]. cbn [existsb]. rewrite (H x (or_introl eq_refl)).
  destruct c; [reflexivity|]. cbn [orb]. clear Hne. induction r as [|y r IH]; [reflexivity|].
  cbn [existsb]. rewrite (H y (or_intror (or_introl eq_refl))). cbn [orb]. apply IH. intros z [Hz|Hz]; apply H; [left|right; right]; assumption.
Qed.

Lemma expand_cons_shape s r p : In p (expand (s :: r)) -> exists sg p', p = sg :: p' /\ seg_is_star sg = is_gstar s.
Proof.
  destruct s; cbn [expand is_gstar]; intro Hin.
  - apply in_map_iff in Hin. destruct Hin as [x [<- _]]. eauto.
  - apply in_flat_map in Hin. destruct Hin as [i [_ Hin]]. apply in_map_iff in Hin. destruct Hin as [x [<- _]]. eauto.
  - apply in_flat_map in Hin. destruct Hin as [i [_ Hin]]. apply in_map_iff in Hin. destruct Hin as [x [<- _]]. eauto.
  - apply in_map_iff in Hin. destruct Hin as [x [<- _]]. eauto.
  - apply in_map_iff in Hin. destruct Hin as [x [<- _]]. eauto.
Qed.

(* The relations between a typed path and a query (selg, rejg, allg, ...) and their counterparts on single paths
   differ only where one side runs out: at the end of the query the answer is [c] of "the next segment is a star". *)
Section ExpandRel.
  Variables (G : gpath -> list qkey -> bool) (F : list qkey -> spath -> bool) (c : bool -> bool).
  Hypothesis G_nil : forall q, G [] q = F q [].
  Hypothesis G_end : forall s r, G (s :: r) [] = c (is_gstar s).
  Hypothesis F_end : forall sg p, F [] (sg :: p) = c (seg_is_star sg).
  Hypothesis G_step : forall s r k q, G (s :: r) (k :: q) = gmatch s k && G r q.
  Hypothesis F_step : forall sg p k q, F (k :: q) (sg :: p) = seg_matches sg k && F q p.

  (* [c] constantly false needs no key: an empty expansion answers false as well *)
  Lemma expand_rel : forall g q, groups_nonempty g = true \/ (forall x, c x = false) -> G g q = existsb (F q) (expand g).
  Proof.
    induction g as [|s r IH]; intros q Hne; [cbn [expand existsb]; rewrite G_nil, orb_false_r; reflexivity|].
    destruct q as [|k q].
    - rewrite G_end. symmetry.
      assert (forall p, In p (expand (s :: r)) -> F [] p = c (is_gstar s)) as HF.
      { intros p Hin. destruct (expand_cons_shape _ _ _ Hin) as [sg [p' [-> E]]]. rewrite F_end, E. reflexivity. }
      destruct Hne as [Hne|Hc]; [apply existsb_const; [apply expand_nonempty; exact Hne | exact HF]|].
      rewrite Hc. destruct (existsb (F []) (expand (s :: r))) eqn:E; [|reflexivity].
      apply existsb_exists in E. destruct E as [p [Hin Hp]]. rewrite (HF p Hin), Hc in Hp. discriminate.
    - rewrite G_step, (expand_head F s r k q (fun sg p => F_step sg p k q)), IH; [reflexivity|].
      destruct Hne as [Hne|Hc]; [left | right; exact Hc].
      cbn [groups_nonempty] in Hne. rewrite andb_true_iff in Hne. tauto.
  Qed.
End ExpandRel.

Lemma selg_expand : forall g q, groups_nonempty g = true -> selg g q = existsb (sel q) (expand g).
Proof.
  intros g q Hne. apply (expand_rel selg sel (fun _ => true)); auto using sel_cons.
Qed.

Lemma rejg_expand : forall g q, rejg g q = existsb (fun p => covers p q) (expand g).
Proof. intros g q. apply (expand_rel rejg (fun q p => covers p q) (fun _ => false)); auto. Qed.

Lemma compat_groups_nonempty : forall g cur, compat g cur = true -> groups_nonempty g = true.
Proof.
  induction g as [|s r IH]; intros cur Hc; [reflexivity|].
  destruct (compat_cons _ _ _ Hc) as (Ht & Hne & _ & Hall & _). cbn [groups_nonempty]. rewrite Hne. cbn [andb].
  destruct (gkeys s) as [|k ks]; [discriminate|].
  destruct (sub_ok_slot _ _ _ _ (Hall k (or_introl eq_refl)) Ht) as [HP _]. eapply IH; eauto.
Qed.

Lemma compat_all_groups cur gs : forallb (fun g => compat g cur) gs = true -> forall g, In g gs -> groups_nonempty g = true.
Proof. intros H g Hg. rewrite forallb_forall in H. eapply compat_groups_nonempty. apply H. exact Hg. Qed.

Lemma path_set_nonempty gs : gs <> [] -> (forall g, In g gs -> groups_nonempty g = true) -> path_set gs <> [].
Proof.
  destruct gs as [|g gs]; [congruence|]. intros _ Hgn E. unfold path_set in E. cbn [flat_map] in E.
  apply app_eq_nil in E. destruct E as [E _]. exact (expand_nonempty g (Hgn g (or_introl eq_refl)) E).
Qed.

Lemma match_nonempty {A B} (l : list A) (x y : B) : l <> [] -> match l with [] => x | _ :: _ => y end = y.
Proof. destruct l; [congruence | reflexivity]. Qed.

Lemma existsb_path_set (F : spath -> bool) (G : gpath -> bool) gs :
  (forall g, In g gs -> G g = existsb F (expand g)) -> existsb F (path_set gs) = existsb G gs.
Proof. intro H. unfold path_set. rewrite existsb_flat_map. symmetry. apply existsb_ext_in. exact H. Qed.

Lemma built_nonempty env d black gs : gs <> [] -> built env d black gs = ins_all gs (fresh (switch_ft env d) black).
Proof. destruct gs; [congruence | reflexivity]. Qed.

Lemma walk_empty black q : walk (Some (empty_mask black)) q = true.
Proof. destruct q as [|k q]; [reflexivity|]. rewrite walk_cons. cbn. apply walk_none. Qed.

Lemma nil_in_no_conflict gs : no_conflict gs = true -> In [] gs -> forall g, In g gs -> g = [].
Proof.
  intros Hnc Hin g Hg. rewrite no_conflict_forall in Hnc.
  destruct g as [|s r]; [reflexivity|]. exfalso.
  apply in_split in Hin. destruct Hin as [l1 [l2 ->]].
  apply in_app_or in Hg. destruct Hg as [Hg|[Hg|Hg]]; [| discriminate |].
  - apply in_split in Hg. destruct Hg as [a [b ->]].
    specialize (Hnc a (s :: r) b [] l2). rewrite <- app_assoc in Hnc. specialize (Hnc eq_refl).
    destruct s; cbn in Hnc; discriminate.
  - apply in_split in Hg. destruct Hg as [a [b ->]].
    specialize (Hnc l1 [] a (s :: r) b eq_refl). cbn in Hnc. discriminate.
Qed.

Lemma ins_all_nils gs cur : (forall g, In g gs -> g = []) -> gs <> [] -> ins_all gs cur = set_isall cur true.
Proof.
  revert cur. induction gs as [|g gs IH]; intros cur H Hne; [congruence|].
  assert (g = []) as -> by (apply H; left; reflexivity).
  change (ins_all ([] :: gs) cur) with (ins_all gs (set_isall cur true)).
  destruct gs as [|g2 gs]; [reflexivity|]. rewrite IH; [reflexivity | intros; apply H; right; assumption | discriminate].
Qed.

Theorem built_sound env d black gs :
  ok_ft (switch_ft env d) = true ->
  forallb (fun g => compat g (fresh (switch_ft env d) black)) gs = true ->
  in_domain black gs = true ->
  forall q, walk (Some (built env d black gs)) q = spec_pass black (path_set gs) q.
Proof.
  intros Hok Hall Hdom q. unfold in_domain in Hdom. rewrite andb_true_iff in Hdom. destruct Hdom as [Hnc Hts].
  destruct q as [|k q]; [reflexivity|].
  destruct gs as [|g0 gs0] eqn:Egs.
  - cbn [built path_set flat_map spec_pass]. rewrite walk_empty. destruct black; reflexivity.
  - rewrite <- Egs in *. assert (gs <> []) as Hgne by (rewrite Egs; discriminate). clear g0 gs0 Egs.
    rewrite (built_nonempty _ _ _ _ Hgne).
    pose proof (inv_fresh black _ Hok) as Hi.
    pose proof (compat_all_groups _ _ Hall) as Hgn.
    cbn [spec_pass]. destruct black.
    + (* black list *)
      unfold complete. rewrite (existsb_path_set _ (fun g => rejg g (k :: q))) by (intros; apply rejg_expand).
      destruct (existsb (fun g => match g with [] => true | _ => false end) gs) eqn:Enil.
      * (* the root path is among them: then all of them are *)
        apply existsb_exists in Enil. destruct Enil as [g [Hin Hg]]. destruct g; [|discriminate].
        pose proof (nil_in_no_conflict gs Hnc Hin) as Hall_nil.
        rewrite (ins_all_nils gs _ Hall_nil Hgne), walk_cons, query_black by (rewrite inv_set_isall; exact Hi).
        cbn [set_isall m_isall fresh m_kids klookup fst snd]. unfold has_child.
        cbn [m_kids set_isall fresh]. rewrite andb_false_r. cbn [andb].
        symmetry. rewrite negb_false_iff. apply existsb_exists. exists []. split; [exact Hin | reflexivity].
      * assert (forallb (fun g => nonempty g && negb (ends_with_star g)) gs = true) as Hne.
        { rewrite forallb_forall. intros g Hg. rewrite andb_true_iff. split.
          - destruct g; [|reflexivity]. exfalso. assert (existsb (fun g => match g with [] => true | _ => false end) gs = true) as X
              by (apply existsb_exists; exists []; auto). congruence.
          - unfold no_tail_star in Hts. rewrite forallb_forall in Hts. apply Hts. exact Hg. }
        rewrite (ins_all_walk_black gs _ Hnc Hall Hi Hne), walk_fresh by exact Hok. reflexivity.
    + (* white list *)
      rewrite (ins_all_walk_white gs _ Hnc Hall Hi), walk_fresh by exact Hok. cbn [orb].
      rewrite (match_nonempty (path_set gs)) by exact (path_set_nonempty gs Hgne Hgn).
      unfold complete, touched. rewrite <- existsb_orb. symmetry.
      apply (existsb_path_set (sel (k :: q))). intros g Hg. apply selg_expand, Hgn, Hg.
Qed.

Lemma well_typed_parts env d ps :
  well_typed env d ps = true ->
  ok_ft (switch_ft env d) = true /\ forallb wf_path ps = true /\ exists gs, elab_all env d ps = Some gs.
Proof.
  unfold well_typed. rewrite !andb_true_iff. intros [[H1 H2] H3].
  destruct (elab_all env d ps) as [gs|]; [eauto | discriminate].
Qed.

Theorem build_total_on_D env d black strs ps gs :
  map tokenize strs = map tokens_of ps ->
  well_typed env d ps = true -> elab_all env d ps = Some gs -> no_conflict gs = true ->
  new_mask env d black strs = Ok (built env d black gs).
Proof.
  intros Htok Hwt He Hnc. destruct (well_typed_parts _ _ _ Hwt) as [_ [Hwf _]].
  eapply new_mask_built; eauto.
Qed.

Theorem build_sound env d black strs ps gs m :
  map tokenize strs = map tokens_of ps ->
  well_typed env d ps = true -> elab_all env d ps = Some gs -> in_domain black gs = true ->
  new_mask env d black strs = Ok m ->
  forall q, walk (Some m) q = spec_pass black (path_set gs) q.
Proof.
  intros Htok Hwt He Hdom Hm q. destruct (well_typed_parts _ _ _ Hwt) as [Hok [Hwf _]].
  assert (no_conflict gs = true) as Hnc by (unfold in_domain in Hdom; rewrite andb_true_iff in Hdom; tauto).
  rewrite (build_total_on_D env d black strs ps gs Htok Hwt He Hnc) in Hm. injection Hm as <-.
  apply built_sound; auto. eapply elab_all_compat_fresh; eauto.
Qed.

Lemma existsb_same_elements {A} (f : A -> bool) l l' :
  (forall x, In x l <-> In x l') -> existsb f l = existsb f l'.
Proof.
  intro H. destruct (existsb f l) eqn:E1, (existsb f l') eqn:E2; try reflexivity.
  - apply existsb_exists in E1. destruct E1 as [x [Hin Hx]].
    assert (existsb f l' = true) by (apply existsb_exists; exists x; split; [apply H; exact Hin | exact Hx]). congruence.
  - apply existsb_exists in E2. destruct E2 as [x [Hin Hx]].
    assert (existsb f l = true) by (apply existsb_exists; exists x; split; [apply H; exact Hin | exact Hx]). congruence.
Qed.

Theorem spec_pass_set black ps ps' q :
  (forall p, In p ps <-> In p ps') -> spec_pass black ps q = spec_pass black ps' q.
Proof.
  intro H. unfold spec_pass. destruct q as [|k q]; [reflexivity|].
  unfold complete, touched. rewrite (existsb_same_elements (fun p => covers p (k :: q)) ps ps' H), (existsb_same_elements (fun p => touches p (k :: q)) ps ps' H).
  destruct black; [reflexivity|].
  destruct ps as [|a l], ps' as [|b l']; try reflexivity.
  - exfalso. apply (H b). left; reflexivity.
  - exfalso. apply (H a). left; reflexivity.
Qed.

Theorem spec_all_set black ps ps' q :
  (forall p, In p ps <-> In p ps') -> spec_all black ps q = spec_all black ps' q.
Proof.
  intro H. unfold spec_all, complete, touched, starred.
  rewrite (existsb_same_elements (fun p => covers p q) ps ps' H), (existsb_same_elements (fun p => touches p q) ps ps' H),
          (existsb_same_elements (fun p => star_at p q) ps ps' H).
  destruct black; [reflexivity|].
  destruct ps as [|a l], ps' as [|b l']; try reflexivity.
  - exfalso. apply (H b). left; reflexivity.
  - exfalso. apply (H a). left; reflexivity.
Qed.

Lemma seg_eqb_eq x y : seg_eqb x y = true -> x = y.
Proof.
  destruct x, y; cbn; try discriminate; try reflexivity.
  - rewrite Z.eqb_eq. congruence.
  - rewrite Z.eqb_eq. congruence.
  - rewrite beqb_true. congruence.
Qed.

Lemma spath_eqb_eq : forall a b, spath_eqb a b = true -> a = b.
Proof.
  induction a as [|x a IH]; intros [|y b]; cbn; try discriminate; [reflexivity|].
  rewrite andb_true_iff. intros [H1 H2]. apply seg_eqb_eq in H1. apply IH in H2. congruence.
Qed.

Lemma same_set_in a b : same_set a b = true -> forall p, In p a <-> In p b.
Proof.
  unfold same_set. rewrite andb_true_iff, !forallb_forall. intros [H1 H2] p. split; intro Hin.
  - specialize (H1 p Hin). apply existsb_exists in H1. destruct H1 as [p' [Hp' E]]. apply spath_eqb_eq in E. subst. exact Hp'.
  - specialize (H2 p Hin). apply existsb_exists in H2. destruct H2 as [p' [Hp' E]]. apply spath_eqb_eq in E. subst. exact Hp'.
Qed.

(* two lists of paths (any order, any grouping) that denote the same path set *)
Theorem order_irrelevant env d black strs ps gs m strs' ps' gs' :
  map tokenize strs = map tokens_of ps -> map tokenize strs' = map tokens_of ps' ->
  well_typed env d ps = true -> well_typed env d ps' = true ->
  elab_all env d ps = Some gs -> elab_all env d ps' = Some gs' ->
  in_domain black gs = true -> in_domain black gs' = true ->
  (forall p, In p (path_set gs) <-> In p (path_set gs')) ->
  new_mask env d black strs = Ok m ->
  exists m', new_mask env d black strs' = Ok m' /\ forall q, walk (Some m) q = walk (Some m') q.
Proof.
  intros Ht Ht' Hw Hw' He He' Hd Hd' Hset Hm.
  assert (no_conflict gs' = true) as Hnc' by (unfold in_domain in Hd'; rewrite andb_true_iff in Hd'; tauto).
  exists (built env d black gs'). split; [eapply build_total_on_D; eauto|].
  intro q. rewrite (build_sound env d black strs ps gs m Ht Hw He Hd Hm q).
  rewrite (build_sound env d black strs' ps' gs' _ Ht' Hw' He' Hd' (build_total_on_D _ _ _ _ _ _ Ht' Hw' He' Hnc') q).
  apply spec_pass_set. exact Hset.
Qed.

Lemma elab_all_perm env d ps ps' : Permutation ps ps' -> forall gs, elab_all env d ps = Some gs ->
  exists gs', elab_all env d ps' = Some gs' /\ Permutation gs gs'.
Proof.
  induction 1 as [|x l l' HP IH|x y l|l l' l'' _ IH1 _ IH2]; intros gs He.
  - exists gs. split; [exact He | apply Permutation_refl].
  - destruct (elab_all_cons _ _ _ _ _ He) as [g [gs1 [-> [Hg Hgs]]]].
    destruct (IH _ Hgs) as [gs2 [H1 H2]]. exists (g :: gs2). cbn. rewrite Hg, H1. split; [reflexivity | constructor; exact H2].
  - destruct (elab_all_cons _ _ _ _ _ He) as [g1 [gs1 [-> [Hg1 Hgs1]]]].
    destruct (elab_all_cons _ _ _ _ _ Hgs1) as [g2 [gs2 [-> [Hg2 Hgs2]]]].
    exists (g2 :: g1 :: gs2). cbn. rewrite Hg1, Hg2, Hgs2. split; [reflexivity | constructor].
  - destruct (IH1 _ He) as [g1 [H1 P1]]. destruct (IH2 _ H1) as [g2 [H2 P2]].
    exists g2. split; [exact H2 | eapply Permutation_trans; eauto].
Qed.

Lemma forallb_perm {A} (f : A -> bool) l l' : Permutation l l' -> forallb f l = true -> forallb f l' = true.
Proof.
  intros HP H. rewrite forallb_forall in *. intros x Hx. apply H. eapply Permutation_in; [apply Permutation_sym; exact HP | exact Hx].
Qed.

Lemma in_domain_perm black gs gs' : Permutation gs gs' -> in_domain black gs = true -> in_domain black gs' = true.
Proof.
  intros HP. unfold in_domain. rewrite !andb_true_iff. intros [H1 H2]. split; [eapply no_conflict_perm; eauto|].
  destruct black; [|reflexivity]. unfold no_tail_star in *. eapply forallb_perm; eauto.
Qed.

Lemma path_set_perm gs gs' : Permutation gs gs' -> forall p, In p (path_set gs) <-> In p (path_set gs').
Proof.
  intros HP p. unfold path_set. rewrite !in_flat_map. split; intros [g [H1 H2]]; exists g; split; auto.
  - eapply Permutation_in; eauto.
  - eapply Permutation_in; [apply Permutation_sym; exact HP | exact H1].
Qed.

Theorem order_irrelevant_perm env d black strs ps gs m strs' ps' :
  map tokenize strs = map tokens_of ps -> map tokenize strs' = map tokens_of ps' ->
  Permutation ps ps' ->
  well_typed env d ps = true -> elab_all env d ps = Some gs -> in_domain black gs = true ->
  new_mask env d black strs = Ok m ->
  exists m', new_mask env d black strs' = Ok m' /\ forall q, walk (Some m) q = walk (Some m') q.
Proof.
  intros Ht Ht' HP Hw He Hd Hm.
  destruct (elab_all_perm env d ps ps' HP gs He) as [gs' [He' HPg]].
  assert (well_typed env d ps' = true) as Hw'.
  { destruct (well_typed_parts _ _ _ Hw) as [Hok [Hwf _]]. unfold well_typed. rewrite Hok, He', (forallb_perm _ _ _ HP Hwf). reflexivity. }
  eapply (order_irrelevant env d black strs ps gs m strs' ps' gs'); eauto.
  - eapply in_domain_perm; eauto.
  - apply path_set_perm. exact HPg.
Qed.

Lemma err_propagates env d p r cur e :
  add_path (path_fuel p) env p d cur = Err e -> add_tok_paths env d (p :: r) cur = Err e.
Proof. intro H. cbn [add_tok_paths]. rewrite H. reflexivity. Qed.

Lemma ok_ft_valid t : ok_ft t = true -> ft_eqb t FtInvalid = false.
Proof. apply negb_true_iff. Qed.

Definition stray_token (t : token) : bool :=
  match t with TRoot | TField | TIndexL | TMapL => false | _ => true end.

Lemma err_malformed_stray f env t r d cur : stray_token t = true -> add_path (S f) env (t :: r) d cur = Err EMalformed.
Proof. destruct t; cbn; try discriminate; reflexivity. Qed.

Lemma err_malformed_dot_at_end f env d cur fs :
  struct_fields env d = Some fs -> m_typ cur = FtStruct -> add_path (S f) env [TField] d cur = Err EMalformed.
Proof. intros H1 H2. cbn [add_path]. rewrite H1, H2. reflexivity. Qed.

Lemma err_malformed_field_token f env t r d cur fs :
  struct_fields env d = Some fs -> m_typ cur = FtStruct -> all_of cur = false ->
  match t with TLitStr _ | TLitInt _ | TAny => false | _ => true end = true ->
  add_path (S f) env (TField :: t :: r) d cur = Err EMalformed.
Proof. intros H1 H2 H3 H4. cbn [add_path]. rewrite H1, H2, H3. destruct t; try discriminate; reflexivity. Qed.

Lemma err_malformed_empty_index f env r d cur e :
  list_elem d = Some e -> m_typ cur = FtList -> ok_ft (switch_ft env e) = true ->
  add_path (S f) env (TIndexL :: TIndexR :: r) d cur = Err EMalformed.
Proof.
  intros H1 H2 H3. cbn [add_path]. rewrite H1, H2, (ok_ft_valid _ H3). reflexivity.
Qed.

Lemma err_malformed_empty_keys f env r d cur k v :
  map_kv d = Some (k, v) -> (m_typ cur = FtIntMap \/ m_typ cur = FtStrMap \/ m_typ cur = FtScalar) ->
  ok_ft (switch_ft env v) = true ->
  add_path (S f) env (TMapL :: TMapR :: r) d cur = Err EMalformed.
Proof.
  intros H1 H2 H3. cbn [add_path]. rewrite H1.
  destruct H2 as [H2|[H2|H2]]; rewrite H2; cbn [ft_eqb orb negb]; rewrite (ok_ft_valid _ H3); reflexivity.
Qed.

Lemma err_malformed_field_id_range f env n r d cur fs :
  struct_fields env d = Some fs -> m_typ cur = FtStruct -> all_of cur = false -> (max_int32 < n)%Z ->
  add_path (S f) env (TField :: TLitInt n :: r) d cur = Err EMalformed.
Proof.
  intros H1 H2 H3 H4. cbn [add_path]. rewrite H1, H2, H3. cbn [ft_eqb negb].
  assert ((n <=? max_int32)%Z = false) as -> by (apply Z.leb_gt; exact H4). reflexivity.
Qed.

Lemma err_unknown_field_name f env n r d cur fs :
  struct_fields env d = Some fs -> m_typ cur = FtStruct -> all_of cur = false -> field_by_name fs n = None ->
  add_path (S f) env (TField :: TLitStr n :: r) d cur = Err ENoField.
Proof. intros H1 H2 H3 H4. cbn [add_path]. rewrite H1, H2, H3, H4. reflexivity. Qed.

Lemma err_unknown_field_id f env n r d cur fs :
  struct_fields env d = Some fs -> m_typ cur = FtStruct -> all_of cur = false -> field_by_id fs n = None ->
  add_path (S f) env (TField :: TLitInt n :: r) d cur = Err ENoField \/
  add_path (S f) env (TField :: TLitInt n :: r) d cur = Err EMalformed.
Proof.
  intros H1 H2 H3 H4. cbn [add_path]. rewrite H1, H2, H3, H4. cbn [ft_eqb negb].
  destruct (n <=? max_int32)%Z; auto.
Qed.

Lemma err_kind_not_struct f env r d cur : struct_fields env d = None -> add_path (S f) env (TField :: r) d cur = Err EKind.
Proof. intros H. cbn [add_path]. rewrite H. reflexivity. Qed.
Lemma err_kind_not_list f env r d cur : list_elem d = None -> add_path (S f) env (TIndexL :: r) d cur = Err EKind.
Proof. intros H. cbn [add_path]. rewrite H. reflexivity. Qed.
Lemma err_kind_not_map f env r d cur : map_kv d = None -> add_path (S f) env (TMapL :: r) d cur = Err EKind.
Proof. intros H. cbn [add_path]. rewrite H. reflexivity. Qed.

Lemma err_key_kind_int_on_string_map f env n r d cur k v :
  map_kv d = Some (k, v) -> m_typ cur = FtStrMap -> m_isall cur = false -> ok_ft (switch_ft env v) = true ->
  add_path (S f) env (TMapL :: TLitInt n :: r) d cur = Err EKeyKind.
Proof.
  intros H1 H2 H3 H4. cbn [add_path]. rewrite H1, H2. cbn [ft_eqb orb negb].
  rewrite (ok_ft_valid _ H4). unfold all_of. rewrite H2, H3. reflexivity.
Qed.

Lemma err_key_kind_string_on_int_map f env s r d cur k v :
  map_kv d = Some (k, v) -> m_typ cur = FtIntMap -> m_isall cur = false -> ok_ft (switch_ft env v) = true ->
  add_path (S f) env (TMapL :: TStr s :: r) d cur = Err EKeyKind.
Proof.
  intros H1 H2 H3 H4. cbn [add_path]. rewrite H1, H2. cbn [ft_eqb orb negb].
  rewrite (ok_ft_valid _ H4). unfold all_of. rewrite H2, H3. reflexivity.
Qed.

Lemma err_conflict_field f env t r d cur fs :
  struct_fields env d = Some fs -> m_typ cur = FtStruct -> m_isall cur = true ->
  add_path (S f) env (TField :: t :: r) d cur = Err EConflict.
Proof. intros H1 H2 H3. cbn [add_path]. rewrite H1, H2. unfold all_of. rewrite H2, H3. reflexivity. Qed.

Lemma err_conflict_index f env n r d cur e :
  list_elem d = Some e -> m_typ cur = FtList -> m_isall cur = true -> ok_ft (switch_ft env e) = true ->
  add_path (S f) env (TIndexL :: TLitInt n :: r) d cur = Err EConflict.
Proof.
  intros H1 H2 H3 H4. cbn [add_path]. rewrite H1, H2. cbn [ft_eqb negb].
  rewrite (ok_ft_valid _ H4). unfold all_of. rewrite H2, H3. reflexivity.
Qed.

Lemma err_conflict_index_after_star_inside f env n r d cur e :
  list_elem d = Some e -> m_typ cur = FtList -> ok_ft (switch_ft env e) = true ->
  add_path (S f) env (TIndexL :: TAny :: TElem :: TLitInt n :: r) d cur = Err EConflict.
Proof.
  intros H1 H2 H3. cbn [add_path]. rewrite H1, H2. cbn [ft_eqb negb].
  rewrite (ok_ft_valid _ H3). reflexivity.
Qed.

Lemma err_conflict_key f env t r d cur k v :
  map_kv d = Some (k, v) -> (m_typ cur = FtIntMap \/ m_typ cur = FtStrMap) -> m_isall cur = true ->
  ok_ft (switch_ft env v) = true -> match t with TLitInt _ | TStr _ => true | _ => false end = true ->
  add_path (S f) env (TMapL :: t :: r) d cur = Err EConflict.
Proof.
  intros H1 H2 H3 H4 H5. cbn [add_path]. rewrite H1.
  destruct H2 as [H2|H2]; rewrite H2; cbn [ft_eqb orb negb]; rewrite (ok_ft_valid _ H4); unfold all_of; rewrite H2, H3;
  destruct t; try discriminate; reflexivity.
Qed.

Lemma err_conflict_other_keyed_map f env t r d cur k v :
  map_kv d = Some (k, v) -> m_typ cur = FtScalar -> ok_ft (switch_ft env v) = true ->
  match t with TLitInt _ | TStr _ => true | _ => false end = true ->
  add_path (S f) env (TMapL :: t :: r) d cur = Err EConflict.
Proof.
  intros H1 H2 H3 H4. cbn [add_path]. rewrite H1, H2. cbn [ft_eqb orb negb].
  rewrite (ok_ft_valid _ H3). unfold all_of. rewrite H2.
  destruct t; try discriminate; reflexivity.
Qed.

Definition wenv : senv :=
  [(B "S", [mkfield 1 (B "a") (TyBase (B "i32"));
            mkfield 2 (B "in") (TyStruct (B "In"));
            mkfield 3 (B "li") (TyList (TyStruct (B "In")));
            mkfield 4 (B "ls") (TyList (TyBase (B "string")));
            mkfield 5 (B "mi") (TyMap (TyBase (B "i32")) (TyStruct (B "In")));
            mkfield 6 (B "ms") (TyMap (TyBase (B "string")) (TyStruct (B "In")));
            mkfield 7 (B "u") TyOther;
            mkfield (-1) (B "neg") (TyBase (B "i32"));
            mkfield 64 (B "big") (TyStruct (B "In"))]);
   (B "In", [mkfield 1 (B "x") (TyBase (B "i32")); mkfield 2 (B "y") (TyBase (B "i32")); mkfield 3 (B "self") (TyStruct (B "In"))]);
   (B "F", [mkfield 1 (B "first") (TyStruct (B "In")); mkfield 2 (B "b") (TyBase (B "i32"))])].
Definition wroot : ty := TyStruct (B "S").

Definition w_gs (d : ty) (ps : list (list pseg)) : list gpath :=
  match elab_all wenv d ps with Some g => g | None => [] end.
Definition w_mask (d : ty) (black : bool) (strs : list bytes) : mask :=
  match new_mask wenv d black strs with Ok m => m | _ => empty_mask black end.

(* a later star drops what explicit keys selected; the other order is an error *)
Definition w1_strs := [B "$.li[1].x"; B "$.li[*].y"].
Definition w1_ps := [[PName (B "li"); PIdx [1%Z]; PName (B "x")]; [PName (B "li"); PIdxStar; PName (B "y")]].
Definition w1_q := [QF 3; QI 1; QF 1].

Lemma star_resets_keys_witness :
  map tokenize w1_strs = map tokens_of w1_ps /\ well_typed wenv wroot w1_ps = true /\
  elab_all wenv wroot w1_ps = Some (w_gs wroot w1_ps) /\ no_conflict (w_gs wroot w1_ps) = false /\
  new_mask wenv wroot false w1_strs = Ok (w_mask wroot false w1_strs) /\
  walk (Some (w_mask wroot false w1_strs)) w1_q = false /\
  spec_pass false (path_set (w_gs wroot w1_ps)) w1_q = true /\
  new_mask wenv wroot false (rev w1_strs) = Err EConflict.
Proof. repeat split; vm_compute; reflexivity. Qed.

(* black list: a path ending with a star passes its elements *)
Definition w2_strs := [B "$.ls[*]"].
Definition w2_ps := [[PName (B "ls"); PIdxStar]].
Definition w2_q := [QF 4; QI 0].

Lemma black_tail_star_witness :
  map tokenize w2_strs = map tokens_of w2_ps /\ well_typed wenv wroot w2_ps = true /\
  elab_all wenv wroot w2_ps = Some (w_gs wroot w2_ps) /\ no_conflict (w_gs wroot w2_ps) = true /\
  no_tail_star (w_gs wroot w2_ps) = false /\
  new_mask wenv wroot true w2_strs = Ok (w_mask wroot true w2_strs) /\
  walk (Some (w_mask wroot true w2_strs)) w2_q = true /\
  spec_pass true (path_set (w_gs wroot w2_ps)) w2_q = false.
Proof. repeat split; vm_compute; reflexivity. Qed.

(* black list: a path and its proper prefix (prefix last) reject nothing; prefix first is an error *)
Definition w3_strs := [B "$.in.x"; B "$.in"].
Definition w3_ps := [[PName (B "in"); PName (B "x")]; [PName (B "in")]].
Definition w3_q := [QF 2; QF 1].

Lemma black_prefix_witness :
  map tokenize w3_strs = map tokens_of w3_ps /\ well_typed wenv wroot w3_ps = true /\
  elab_all wenv wroot w3_ps = Some (w_gs wroot w3_ps) /\ no_conflict (w_gs wroot w3_ps) = false /\
  new_mask wenv wroot true w3_strs = Ok (w_mask wroot true w3_strs) /\
  walk (Some (w_mask wroot true w3_strs)) w3_q = true /\
  spec_pass true (path_set (w_gs wroot w3_ps)) w3_q = false /\
  new_mask wenv wroot true (rev w3_strs) = Err EConflict.
Proof. repeat split; vm_compute; reflexivity. Qed.

Lemma malformed_accepted_witness :
  grammatical (tokenize (B "$.li[1")) = false /\ grammatical (tokenize (B "$.li[,]")) = false /\
  grammatical (tokenize []) = false /\
  (exists m, new_mask wenv wroot false [B "$.li[1"] = Ok m) /\
  (exists m, new_mask wenv wroot false [B "$.li[,]"] = Ok m) /\
  (exists m, new_mask wenv wroot false [[]] = Ok m).
Proof. repeat split; try (eexists; vm_compute; reflexivity); vm_compute; reflexivity. Qed.

(* a field whose type has no mask type is accepted but cannot be selected *)
Lemma untyped_field_witness :
  well_typed wenv wroot [[PName (B "u")]] = false /\
  new_mask wenv wroot false [B "$.u"] = Ok (w_mask wroot false [B "$.u"]) /\
  walk (Some (w_mask wroot false [B "$.u"])) [QF 7] = false.
Proof. repeat split; vm_compute; reflexivity. Qed.

(* below a struct star: typed by the first field, looked up in the enclosing struct *)
Lemma struct_star_continuation_witness :
  let d := TyStruct (B "F") in
  well_typed wenv d [[PStarF; PName (B "b")]] = false /\
  new_mask wenv d false [B "$.*.b"] = Ok (w_mask d false [B "$.*.b"]) /\
  walk (Some (w_mask d false [B "$.*.b"])) [QF 1; QF 2] = true /\
  walk (Some (w_mask d false [B "$.*.b"])) [QF 1; QF 1] = false.
Proof. repeat split; vm_compute; reflexivity. Qed.

(* a struct star given twice is an error although the path set is the same *)
Lemma struct_star_twice_witness :
  (exists m, new_mask wenv wroot false [B "$.*"] = Ok m) /\ new_mask wenv wroot false [B "$.*"; B "$.*"] = Err EConflict.
Proof. split; [eexists|]; vm_compute; reflexivity. Qed.

(* JSON: a string key "*" comes back as the any-star; the empty mask does not come back *)
Definition w4_strs := [B "$.ms{""*""}.x"; B "$.ms{""b""}"].
Lemma json_star_key_witness :
  exists m m', new_mask wenv wroot false w4_strs = Ok m /\ of_json (to_json m) = Ok m' /\
  walk (Some m) [QF 6; QS (B "zz")] = false /\ walk (Some m') [QF 6; QS (B "zz")] = true.
Proof.
  exists (w_mask wroot false w4_strs).
  exists (match of_json (to_json (w_mask wroot false w4_strs)) with Ok x => x | _ => zero_mask end).
  repeat split; vm_compute; reflexivity.
Qed.

Lemma json_empty_mask_witness : forall black, of_json (to_json (empty_mask black)) = Err EKind.
Proof. intros []; reflexivity. Qed.

Definition ex_strs :=
  [B "$.a"; B "$.in.x"; B "$.li[1,2].x"; B "$.li[3].self.y"; B "$.mi{7}"; B "$.ms{*}.y"; B "$.64.3.1"; B "$.neg"].
Definition ex_ps :=
  [[PName (B "a")]; [PName (B "in"); PName (B "x")];
   [PName (B "li"); PIdx [1; 2]%Z; PName (B "x")]; [PName (B "li"); PIdx [3%Z]; PName (B "self"); PName (B "y")];
   [PName (B "mi"); PKeyI [7%Z]]; [PName (B "ms"); PKeyStar; PName (B "y")];
   [PId 64; PId 3; PId 1]; [PName (B "neg")]].

Lemma domain_example :
  map tokenize ex_strs = map tokens_of ex_ps /\ well_typed wenv wroot ex_ps = true /\
  elab_all wenv wroot ex_ps = Some (w_gs wroot ex_ps) /\
  in_domain false (w_gs wroot ex_ps) = true /\ in_domain true (w_gs wroot ex_ps) = true /\
  List.length (path_set (w_gs wroot ex_ps)) = 9.
Proof. repeat split; vm_compute; reflexivity. Qed.

(* the same set, regrouped and reordered *)
Definition ex_strs' :=
  [B "$.neg"; B "$.li[2].x"; B "$.64.self.x"; B "$.ms{*}.2"; B "$.li[1].x"; B "$.5{7}"; B "$.li[3].3.y"; B "$.2.1"; B "$.1"].
Definition ex_ps' :=
  [[PName (B "neg")]; [PName (B "li"); PIdx [2%Z]; PName (B "x")]; [PId 64; PName (B "self"); PName (B "x")];
   [PName (B "ms"); PKeyStar; PId 2]; [PName (B "li"); PIdx [1%Z]; PName (B "x")]; [PId 5; PKeyI [7%Z]];
   [PName (B "li"); PIdx [3%Z]; PId 3; PName (B "y")]; [PId 2; PId 1]; [PId 1]].

Lemma regroup_example :
  map tokenize ex_strs' = map tokens_of ex_ps' /\ well_typed wenv wroot ex_ps' = true /\
  elab_all wenv wroot ex_ps' = Some (w_gs wroot ex_ps') /\ in_domain true (w_gs wroot ex_ps') = true /\
  same_set (path_set (w_gs wroot ex_ps)) (path_set (w_gs wroot ex_ps')) = true.
Proof. repeat split; vm_compute; reflexivity. Qed.
