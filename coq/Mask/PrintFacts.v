(* Mask/PrintFacts.v — the tokenizer reads back what the path printer prints:
   tokenize (print_path p) = tokens_of p for well-formed paths. *)
From Coq Require Import List Bool ZArith Lia.
From Coq.Strings Require Import Byte.
From Verif Require Import Base.Bytes Mask.Path Mask.Spec.
From Verif Require Import Mask.Print.
Import ListNotations.

Definition value_lsb (l : bytes) : Z :=
  fold_right (fun b acc => match digit_val b with Some d => acc * 10 + d | None => acc end)%Z 0%Z l.

Lemma dec_value_rev l : dec_value (rev l) = value_lsb l.
Proof.
  unfold dec_value, value_lsb. rewrite <- (rev_involutive l) at 2. symmetry.
  exact (fold_left_rev_right (fun b acc => match digit_val b with Some d => acc * 10 + d | None => acc end)%Z (rev l) 0%Z).
Qed.

Lemma digit_byte_val d : (0 <= d < 10)%Z -> digit_val (digit_byte d) = Some d.
Proof.
  intro H. assert (d = 0 \/ d = 1 \/ d = 2 \/ d = 3 \/ d = 4 \/ d = 5 \/ d = 6 \/ d = 7 \/ d = 8 \/ d = 9)%Z as X by lia.
  repeat (destruct X as [-> | X]; [reflexivity|]). subst. reflexivity.
Qed.

Lemma rdigits_value : forall f n, (0 <= n < 10 ^ Z.of_nat f)%Z -> value_lsb (rdigits f n) = n.
Proof.
  induction f as [|f IH]; intros n H.
  - cbn [rdigits]. unfold value_lsb. cbn [fold_right]. change (Z.of_nat 0) with 0%Z in H. rewrite Z.pow_0_r in H. lia.
  - cbn [rdigits]. unfold value_lsb. cbn [fold_right]. fold (value_lsb (if (n <? 10)%Z then [] else rdigits f (n / 10))).
    rewrite digit_byte_val by (apply Z.mod_pos_bound; lia).
    destruct (n <? 10)%Z eqn:E.
    + apply Z.ltb_lt in E. cbn. rewrite Z.mod_small by lia. reflexivity.
    + apply Z.ltb_ge in E. rewrite IH.
      * pose proof (Z.div_mod n 10). lia.
      * split; [apply Z.div_pos; lia|]. apply Z.div_lt_upper_bound; [lia|].
        rewrite Nat2Z.inj_succ, Z.pow_succ_r in H by lia. lia.
Qed.

Lemma rdigits_digits : forall f n, (0 <= n)%Z -> forallb is_digit (rdigits f n) = true.
Proof.
  induction f as [|f IH]; intros n H; [reflexivity|]. cbn [rdigits forallb].
  unfold is_digit at 1. rewrite digit_byte_val by (apply Z.mod_pos_bound; lia). cbn [andb].
  destruct (n <? 10)%Z; [reflexivity|]. apply IH. apply Z.div_pos; lia.
Qed.

Lemma forallb_rev {A} (f : A -> bool) l : forallb f (rev l) = forallb f l.
Proof.
  induction l as [|x r IH]; [reflexivity|]. cbn [rev]. rewrite forallb_app, IH. cbn. rewrite andb_true_r, andb_comm. reflexivity.
Qed.

Lemma print_int_ok n : lit_ok n = true ->
  print_int n <> [] /\ forallb is_digit (print_int n) = true /\ dec_value (print_int n) = n.
Proof.
  unfold lit_ok. rewrite andb_true_iff, Z.leb_le, Z.leb_le. intros [H0 H1]. unfold print_int. repeat split.
  - cbn [rdigits rev]. intro E. apply app_eq_nil in E. destruct E as [_ E]. discriminate.
  - rewrite forallb_rev. apply rdigits_digits. exact H0.
  - rewrite dec_value_rev. apply rdigits_value. split; [exact H0|]. unfold max_int in H1.
    replace (10 ^ Z.of_nat 20)%Z with 100000000000000000000%Z by (vm_compute; reflexivity). lia.
Qed.

Lemma print_int_token n : lit_ok n = true -> lit_token (print_int n) = TLitInt n.
Proof.
  intro H. destruct (print_int_ok n H) as [Hne [Hd Hv]]. unfold lit_token.
  destruct (print_int n) as [|b r] eqn:E; [congruence|]. rewrite Hd, Hv.
  unfold lit_ok in H. rewrite andb_true_iff in H. destruct H as [_ H]. rewrite H. reflexivity.
Qed.

Lemma is_sep_cases b : is_sep b = true -> In b [x2c; x2a; x24; x2e; x5b; x5d; x7b; x7d; x22; x5c].
Proof. destruct b; intro H; try discriminate H; cbn; tauto. Qed.

(* Unfolding [str_scan], [unq] or [tok_go] on a given byte leaves the recursive call as the bare [fix], and the
   kernel then compares its whole 256-way body with the constant, once for every byte.  So the facts that need a
   case for every byte are proved about the body with the recursive call a variable: [fix_body c] reads that body
   off the definition of [c], and the lemmas [str_scan_eq], [unq_eq], [tok_go_eq] say that each function is the
   fixed point of its body. *)
Ltac fix_body c :=
  let t := eval cbv delta [c] in c in
  lazymatch t with
  | fix f (s : _) {struct s} : _ := @?B f s => exact B
  | fix f (n : _) (s : _) {struct n} : _ := @?B f n s => exact B
  end.

Definition str_scan_body := ltac:(fix_body str_scan).
Definition unq_body := ltac:(fix_body unq).
Definition tok_go_body := ltac:(fix_body tok_go).

Lemma str_scan_eq s : str_scan s = str_scan_body str_scan s.
Proof. change str_scan with (fix f s := str_scan_body f s). destruct s; exact eq_refl. Qed.

Lemma unq_eq s : unq s = unq_body unq s.
Proof. change unq with (fix f s := unq_body f s). destruct s; exact eq_refl. Qed.

Lemma tok_go_eq n s : tok_go n s = tok_go_body tok_go n s.
Proof. change tok_go with (fix f n s := tok_go_body f n s). destruct n; exact eq_refl. Qed.

Lemma tok_default f b r : is_sep b = false ->
  tok_go (S f) (b :: r) = (let (v, rest) := span_lit (b :: r) in lit_token v :: tok_go f rest).
Proof. rewrite tok_go_eq. generalize tok_go as go. intro go. destruct b; intro H; try exact eq_refl; discriminate H. Qed.

Lemma span_lit_len : forall s, List.length (snd (span_lit s)) <= List.length s.
Proof.
  induction s as [|b r IH]; [cbn; lia|]. cbn [span_lit]. destruct (is_sep b); [cbn; lia|].
  destruct (span_lit r) as [v rest]. cbn [snd List.length] in *. lia.
Qed.

Lemma span_lit_cons_len b r : is_sep b = false -> List.length (snd (span_lit (b :: r))) <= List.length r.
Proof.
  intro E. cbn [span_lit]. rewrite E. pose proof (span_lit_len r) as L.
  destruct (span_lit r) as [v rest]. exact L.
Qed.

Definition scan_cons (p : bytes) (x : bytes * bool * bytes) : bytes * bool * bytes :=
  let '(v, cl, rest) := x in (p ++ v, cl, rest).

Lemma str_scan_other b r : b <> x5c -> b <> x22 -> str_scan (b :: r) = scan_cons [b] (str_scan r).
Proof. intros H1 H2. rewrite str_scan_eq. generalize str_scan as scan. intro scan. destruct b; try exact eq_refl; congruence. Qed.

Lemma str_scan_ind (P : bytes -> Prop) :
  P [] -> P [x5c] -> (forall c r, P r -> P (x5c :: c :: r)) -> (forall r, P (x22 :: r)) ->
  (forall b r, b <> x5c -> b <> x22 -> P r -> P (b :: r)) -> forall s, P s.
Proof.
  intros H0 H1 H2 H3 H4. fix IH 1. intros [|b r]; [exact H0|].
  destruct (Byte.byte_eq_dec b x5c) as [->|N1]; [destruct r as [|c r]; [exact H1 | apply H2, IH]|].
  destruct (Byte.byte_eq_dec b x22) as [->|N2]; [apply H3 | apply H4; auto].
Qed.

Lemma str_scan_len : forall s, List.length (snd (str_scan s)) <= List.length s.
Proof.
  induction s as [| |c r IH|r|b r N1 N2 IH] using str_scan_ind.
  - exact (le_n 0).
  - exact (le_S _ _ (le_n 0)).
  - cbn [str_scan]. destruct (str_scan r) as [[v cl] rest]. cbn [snd List.length] in *. lia.
  - exact (le_S _ _ (le_n _)).
  - rewrite str_scan_other by assumption. destruct (str_scan r) as [[v cl] rest]. cbn [scan_cons snd List.length] in *. lia.
Qed.

Lemma tok_fuel : forall f1 f2 s, List.length s < f1 -> List.length s < f2 -> tok_go f1 s = tok_go f2 s.
Proof.
  induction f1 as [|f1 IH]; intros f2 s H1 H2; [lia|]. destruct f2 as [|f2]; [lia|].
  destruct s as [|b r]; [reflexivity|]. cbn [List.length] in H1, H2.
  destruct (is_sep b) eqn:E.
  - apply is_sep_cases in E. cbn [In] in E.
    repeat (destruct E as [<-|E]); try contradiction; cbn [tok_go]; try (f_equal; apply IH; lia).
    pose proof (str_scan_len r) as L. destruct (str_scan r) as [[inner closed] rest]. cbn [snd] in L.
    destruct closed; [|reflexivity]. f_equal. apply IH; lia.
  - rewrite !tok_default by exact E. pose proof (span_lit_cons_len b r E) as L.
    destruct (span_lit (b :: r)) as [v rest]. cbn [snd] in L. f_equal. apply IH; lia.
Qed.

Lemma tokenize_fuel f s : List.length s < f -> tok_go f s = tokenize s.
Proof. intro H. unfold tokenize. apply tok_fuel; lia. Qed.

(* One-byte tokens.  The premise holds by computation for each of the eight bytes; stated on
   [tok_go] with the fuel a variable it is checked at once, on [tokenize] the kernel compares
   the two unfolded 256-way matches. *)
Lemma tokenize_sep b t : (forall f r, tok_go (S f) (b :: r) = t :: tok_go f r) ->
  forall r, tokenize (b :: r) = t :: tokenize r.
Proof. intros H r. exact (H _ r). Qed.

Definition tokenize_root := tokenize_sep x24 TRoot (fun _ _ => eq_refl).
Definition tokenize_field := tokenize_sep x2e TField (fun _ _ => eq_refl).
Definition tokenize_any := tokenize_sep x2a TAny (fun _ _ => eq_refl).
Definition tokenize_elem := tokenize_sep x2c TElem (fun _ _ => eq_refl).
Definition tokenize_indexl := tokenize_sep x5b TIndexL (fun _ _ => eq_refl).
Definition tokenize_indexr := tokenize_sep x5d TIndexR (fun _ _ => eq_refl).
Definition tokenize_mapl := tokenize_sep x7b TMapL (fun _ _ => eq_refl).
Definition tokenize_mapr := tokenize_sep x7d TMapR (fun _ _ => eq_refl).

Lemma tokenize_lit b r : is_sep b = false ->
  tokenize (b :: r) = (let (v, rest) := span_lit (b :: r) in lit_token v :: tokenize rest).
Proof.
  intro E. unfold tokenize at 1. cbn [List.length]. rewrite tok_default by exact E.
  pose proof (span_lit_cons_len b r E) as L.
  destruct (span_lit (b :: r)) as [v rest]. cbn [snd] in L. f_equal. apply tokenize_fuel. lia.
Qed.

Lemma tokenize_quote r :
  tokenize (x22 :: r) =
  (let '(inner, closed, rest) := str_scan r in
   if closed then (match unq inner with UOk v => TStr v | UBad => TErr | UOut => TOut end) :: tokenize rest else [TErr]).
Proof.
  (* unfolded with the fuel a variable: with [S (length r)] in its place the kernel unfolds [tok_go] once more on both sides *)
  assert (forall f, tok_go (S f) (x22 :: r) =
    (let '(inner, closed, rest) := str_scan r in
     if closed then (match unq inner with UOk v => TStr v | UBad => TErr | UOut => TOut end) :: tok_go f rest else [TErr]))
    as E by (intro f; exact eq_refl).
  unfold tokenize at 1. cbn [List.length]. rewrite E.
  pose proof (str_scan_len r) as L.
  destruct (str_scan r) as [[inner closed] rest]. cbn [snd] in L.
  destruct closed; [|reflexivity]. f_equal. apply tokenize_fuel. lia.
Qed.

Definition starts_sep (s : bytes) : bool := match s with [] => true | b :: _ => is_sep b end.

Lemma span_lit_app v rest :
  forallb (fun b => negb (is_sep b)) v = true -> starts_sep rest = true -> span_lit (v ++ rest) = (v, rest).
Proof.
  intros Hv Hr. induction v as [|b v IH]; cbn [app].
  - destruct rest as [|c r]; [reflexivity|]. cbn in *. rewrite Hr. reflexivity.
  - cbn [forallb] in Hv. rewrite andb_true_iff, negb_true_iff in Hv. destruct Hv as [Hb Hv].
    cbn [span_lit]. rewrite Hb, (IH Hv). reflexivity.
Qed.

Lemma digit_not_sep b : is_digit b = true -> is_sep b = false.
Proof. destruct b; try reflexivity; discriminate. Qed.

Lemma digits_not_sep v : forallb is_digit v = true -> forallb (fun b => negb (is_sep b)) v = true.
Proof.
  induction v as [|b v IH]; [reflexivity|]. cbn [forallb]. rewrite !andb_true_iff. intros [H1 H2].
  rewrite (digit_not_sep _ H1). auto.
Qed.

Lemma tokenize_word v rest :
  v <> [] -> forallb (fun b => negb (is_sep b)) v = true -> starts_sep rest = true ->
  tokenize (v ++ rest) = lit_token v :: tokenize rest.
Proof.
  intros Hne Hv Hr. destruct v as [|b v]; [congruence|].
  assert (is_sep b = false) as Hb by (cbn [forallb] in Hv; rewrite andb_true_iff, negb_true_iff in Hv; tauto).
  cbn [app]. rewrite tokenize_lit by exact Hb.
  change (b :: v ++ rest) with ((b :: v) ++ rest). rewrite (span_lit_app _ _ Hv Hr). reflexivity.
Qed.

Lemma tokenize_int n rest : lit_ok n = true -> starts_sep rest = true ->
  tokenize (print_int n ++ rest) = TLitInt n :: tokenize rest.
Proof.
  intros Hn Hr. destruct (print_int_ok n Hn) as [Hne [Hd _]].
  rewrite tokenize_word; auto using digits_not_sep. rewrite print_int_token by exact Hn. reflexivity.
Qed.

Lemma scan_cons_app p q x : scan_cons p (scan_cons q x) = scan_cons (p ++ q) x.
Proof. destruct x as [[v cl] rest]. cbn. rewrite app_assoc. reflexivity. Qed.

Lemma scan_cons_inv p x v cl rest : scan_cons p x = (p ++ v, cl, rest) -> x = (v, cl, rest).
Proof. destruct x as [[v' cl'] rest']. cbn. intro H. injection H as H -> ->. apply app_inv_head in H. subst. reflexivity. Qed.

(* A text whose scan runs exactly up to a quote put after it is passed over in front of anything. *)
Lemma str_scan_app t : forall v : bytes, str_scan (v ++ [x22]) = (v, true, []) -> str_scan (v ++ t) = scan_cons v (str_scan t).
Proof.
  induction v as [| |c r IH|r|b r N1 N2 IH] using str_scan_ind; intro H.
  - cbn [app]. destruct (str_scan t) as [[v cl] rest]. reflexivity.
  - discriminate H.
  - cbn [app] in *. change (str_scan (x5c :: c :: ?s)) with (scan_cons [x5c; c] (str_scan s)) in *.
    apply (scan_cons_inv [x5c; c]) in H. rewrite (IH H). apply scan_cons_app.
  - discriminate H.
  - cbn [app] in *. rewrite str_scan_other in * by assumption.
    apply (scan_cons_inv [b]) in H. rewrite (IH H). apply scan_cons_app.
Qed.

Lemma str_scan_esc b t : str_scan (esc_byte b ++ t) = scan_cons (esc_byte b) (str_scan t).
Proof. apply str_scan_app. destruct b; exact eq_refl. Qed.

Lemma unq_esc b t : unq (esc_byte b ++ t) = uq_cons b (unq t).
Proof. rewrite unq_eq. generalize unq as f. intro f. destruct b; exact eq_refl. Qed.

Lemma str_scan_key s rest :
  str_scan (flat_map esc_byte s ++ x22 :: rest) = (flat_map esc_byte s, true, rest).
Proof.
  induction s as [|b s IH]; [reflexivity|]. cbn [flat_map]. rewrite <- app_assoc, str_scan_esc, IH. reflexivity.
Qed.

Lemma unq_key s : unq (flat_map esc_byte s) = UOk s.
Proof. induction s as [|b s IH]; [reflexivity|]. cbn [flat_map]. rewrite unq_esc, IH. reflexivity. Qed.

Lemma tokenize_key s rest : tokenize (print_key s ++ rest) = TStr s :: tokenize rest.
Proof.
  unfold print_key. cbn [app]. rewrite tokenize_quote. rewrite <- app_assoc. cbn [app].
  rewrite str_scan_key, unq_key. reflexivity.
Qed.

Lemma tokenize_ints close tclose rest : forall ids,
  ids <> [] -> forallb lit_ok ids = true ->
  is_sep close = true -> (forall r, tokenize (close :: r) = tclose :: tokenize r) ->
  tokenize (join_comma (map print_int ids) ++ close :: rest) =
  sep_by TElem (map TLitInt ids) ++ tclose :: tokenize rest.
Proof.
  intros ids Hne Hok Hsc Ht.
  induction ids as [|x r IH]; [congruence|].
  cbn [forallb] in Hok. rewrite andb_true_iff in Hok. destruct Hok as [Hx Hr].
  destruct r as [|y r'].
  - cbn [map join_comma sep_by app]. rewrite tokenize_int, Ht by (auto; cbn; exact Hsc). reflexivity.
  - change (join_comma (map print_int (x :: y :: r'))) with (print_int x ++ x2c :: join_comma (map print_int (y :: r'))).
    change (sep_by TElem (map TLitInt (x :: y :: r'))) with (TLitInt x :: TElem :: sep_by TElem (map TLitInt (y :: r'))).
    rewrite <- app_assoc. cbn [app]. rewrite tokenize_int by (auto; reflexivity).
    rewrite tokenize_elem, IH by (auto; discriminate). reflexivity.
Qed.

Lemma tokenize_keys rest : forall ss, ss <> [] ->
  tokenize (join_comma (map print_key ss) ++ x7d :: rest) = sep_by TElem (map TStr ss) ++ TMapR :: tokenize rest.
Proof.
  induction ss as [|x r IH]; intro Hne; [congruence|].
  destruct r as [|y r'].
  - cbn [map join_comma sep_by app]. rewrite tokenize_key, tokenize_mapr. reflexivity.
  - change (join_comma (map print_key (x :: y :: r'))) with (print_key x ++ x2c :: join_comma (map print_key (y :: r'))).
    change (sep_by TElem (map TStr (x :: y :: r'))) with (TStr x :: TElem :: sep_by TElem (map TStr (y :: r'))).
    rewrite <- app_assoc. cbn [app]. rewrite tokenize_key, tokenize_elem, IH by discriminate. reflexivity.
Qed.

Lemma starts_sep_segs p : starts_sep (flat_map print_seg p) = true.
Proof. destruct p as [|s p]; [reflexivity|]. destruct s; reflexivity. Qed.

Lemma name_token n : n <> [] -> forallb is_digit n = false -> lit_token n = TLitStr n.
Proof. intros Hne H. unfold lit_token. destruct n; [congruence|]. rewrite H. reflexivity. Qed.

Theorem tokenize_segs : forall p, wf_path p = true -> tokenize (flat_map print_seg p) = flat_map seg_tokens p.
Proof.
  induction p as [|s p IH]; intro Hwf; [reflexivity|].
  cbn [wf_path forallb] in Hwf. rewrite andb_true_iff in Hwf. destruct Hwf as [Hs Hp]. specialize (IH Hp).
  pose proof (starts_sep_segs p) as Hsep.
  cbn [flat_map]. destruct s as [n|id| |ids| |ids|ss| ]; cbn [print_seg seg_tokens wf_pseg] in *.
  - (* .name *)
    destruct n as [|b n]; [discriminate|]. cbn [app].
    rewrite tokenize_field.
    change (b :: n ++ flat_map print_seg p) with ((b :: n) ++ flat_map print_seg p).
    pose proof Hs as Hs'. rewrite andb_true_iff, negb_true_iff in Hs'. destruct Hs' as [Hns Hnd].
    rewrite tokenize_word, IH by (auto; discriminate). rewrite name_token by (exact Hnd || discriminate). reflexivity.
  - (* .id *)
    cbn [app]. rewrite tokenize_field.
    assert (lit_ok id = true) as Hl.
    { unfold lit_ok. rewrite andb_true_iff, !Z.leb_le in *. unfold max_int32, max_int in *. lia. }
    rewrite tokenize_int, IH by auto. reflexivity.
  - cbn [app]. rewrite tokenize_field, tokenize_any, IH. reflexivity.
  - destruct ids as [|x ids]; [discriminate|]. rewrite andb_true_iff in Hs. destruct Hs as [Hok _].
    cbn [app]. rewrite tokenize_indexl, <- app_assoc. cbn [app].
    rewrite (tokenize_ints x5d TIndexR) by (auto using tokenize_indexr; discriminate). rewrite IH, <- app_assoc. reflexivity.
  - cbn [app]. rewrite tokenize_indexl, tokenize_any, tokenize_indexr, IH. reflexivity.
  - destruct ids as [|x ids]; [discriminate|]. rewrite andb_true_iff in Hs. destruct Hs as [Hok _].
    cbn [app]. rewrite tokenize_mapl, <- app_assoc. cbn [app].
    rewrite (tokenize_ints x7d TMapR) by (auto using tokenize_mapr; discriminate). rewrite IH, <- app_assoc. reflexivity.
  - destruct ss as [|x ss]; [discriminate|].
    cbn [app]. rewrite tokenize_mapl, <- app_assoc. cbn [app].
    rewrite tokenize_keys by discriminate. rewrite IH, <- app_assoc. reflexivity.
  - cbn [app]. rewrite tokenize_mapl, tokenize_any, tokenize_mapr, IH. reflexivity.
Qed.

Theorem tokenize_print_path p : wf_path p = true -> tokenize (print_path p) = tokens_of p.
Proof.
  intro H. unfold print_path, tokens_of. rewrite tokenize_root, tokenize_segs by exact H. reflexivity.
Qed.

Corollary tokenize_print_paths ps : forallb wf_path ps = true -> map tokenize (map print_path ps) = map tokens_of ps.
Proof.
  induction ps as [|p ps IH]; [reflexivity|]. cbn [forallb map]. rewrite andb_true_iff. intros [H1 H2].
  rewrite tokenize_print_path, IH by assumption. reflexivity.
Qed.
