(* Mask/FrameFacts.v — paths that do not conflict pairwise (Spec.compat2) stay compatible with
   the mask while the others are inserted; the answers of a mask built from a list. *)
From Coq Require Import List Bool ZArith Permutation.
From Coq.Strings Require Import Byte.
From Verif Require Import Base.Bytes Mask.Path Mask.Desc Mask.Trie Mask.Spec Mask.TrieFacts Mask.SemFacts.
Import ListNotations.

Definition same_kind (a b : gseg) : bool :=
  match a, b with
  | GFld _ _, GFld _ _ | GInts _ _, GInts _ _ | GStrs _ _, GStrs _ _ | GStar _, GStar _ => true
  | _, _ => false
  end.

Lemma disjointb_map {A} (eqa : A -> A -> bool) (f : A -> key) x y :
  (forall a b, key_eqb (f a) (f b) = eqa a b) ->
  disjointb key_eqb (map f x) (map f y) = disjointb eqa x y.
Proof.
  intro H. unfold disjointb.
  assert (forall a, existsb (key_eqb (f a)) (map f y) = existsb (eqa a) y) as E.
  { intro a. induction y as [|b y IHy]; [reflexivity|]. cbn [map existsb]. rewrite H, IHy. reflexivity. }
  induction x as [|a x IH]; [reflexivity|]. cbn [map forallb]. rewrite IH, E. reflexivity.
Qed.

Lemma compat2_keys s a s2 b :
  compat2 (s :: a) (s2 :: b) =
  same_kind s s2 &&
  (if disjointb key_eqb (gkeys s) (gkeys s2) then true else ft_eqb (gft s) (gft s2) && compat2 a b).
Proof.
  destruct s, s2; cbn [compat2 same_kind gkeys gft andb]; try reflexivity.
  - unfold disjointb. cbn. destruct (id =? id0)%Z; reflexivity.
  - rewrite (disjointb_map Z.eqb KI); [reflexivity | reflexivity].
  - rewrite (disjointb_map beqb KS); [reflexivity | reflexivity].
Qed.

Lemma disjointb_false_in (x y : list key) :
  disjointb key_eqb x y = true -> forall k, In k x -> In k y -> False.
Proof.
  unfold disjointb. rewrite forallb_forall. intros H k Hx Hy. specialize (H k Hx).
  rewrite negb_true_iff in H. apply existsb_key_In in Hy. congruence.
Qed.

Lemma sub_ok_ins_cons k u P s r cur : nodupb key_eqb (gkeys s) = true ->
  sub_ok k u P (ins (s :: r) cur) =
  if existsb (key_eqb k) (gkeys s)
  then live (ins r (slot k (gft s) cur)) && ft_eqb (m_typ (ins r (slot k (gft s) cur))) u && P (ins r (slot k (gft s) cur))
  else sub_ok k u P cur.
Proof.
  intro Hnd. unfold sub_ok. rewrite ins_cons_kids, ins_black by exact Hnd.
  destruct (existsb (key_eqb k) (gkeys s)); reflexivity.
Qed.

Lemma nokall_ins_cons s r cur : is_gstar s = false -> nodupb key_eqb (gkeys s) = true ->
  nokall (ins (s :: r) cur) = nokall cur.
Proof.
  intros Hs Hnd. unfold nokall. rewrite ins_cons_kids by exact Hnd.
  destruct (existsb (key_eqb KAll) (gkeys s)) eqn:E; [|reflexivity].
  exfalso. exact (gkeys_not_all s Hs KAll (proj1 (existsb_key_In _ _) E) eq_refl).
Qed.

Lemma star_state_put_all c cur : star_state cur = true -> star_state (put KAll c (set_isall cur true)) = true.
Proof.
  intro H. destruct (star_state_cases _ H) as [[_ Hk]|[_ [a Hk]]]; unfold star_state; rewrite m_kids_put;
  cbn [set_isall m_kids]; rewrite Hk; reflexivity.
Qed.

Theorem compat_frame : forall g g2 cur,
  compat g cur = true -> compat g2 cur = true -> compat2 g g2 = true -> compat g2 (ins g cur) = true.
Proof.
  induction g as [|s r IH]; intros g2 cur Hc Hc2 H2.
  - destruct g2; [|cbn in H2; discriminate]. exact Hc.
  - destruct g2 as [|s2 r2]; [destruct s; cbn in H2; discriminate|].
    rewrite compat2_keys, andb_true_iff in H2. destruct H2 as [Hsk Hdis].
    destruct (compat_cons _ _ _ Hc) as (Ht & _ & Hnd & Hall & _).
    destruct (compat_cons _ _ _ Hc2) as (Ht2 & _ & _ & Hall2 & _).
    cbn [compat] in Hc2 |- *. rewrite !andb_true_iff in Hc2. destruct Hc2 as [[_ Hsh] _].
    rewrite Ht2. cbn [andb]. apply andb_true_intro. split.
    + (* the state of the node: a star meets a star, keys meet keys of their kind *)
      destruct s, s2; try discriminate Hsk;
        try (rewrite ins_cons_isall, nokall_ins_cons by (reflexivity || exact Hnd); exact Hsh).
      apply star_state_put_all. exact Hsh.
    + rewrite forallb_forall. intros k Hin. rewrite sub_ok_ins_cons by exact Hnd.
      destruct (existsb (key_eqb k) (gkeys s)) eqn:E; [|apply Hall2; exact Hin].
      (* a key of both groups: the rests do not conflict below it *)
      apply existsb_key_In in E.
      destruct (disjointb key_eqb (gkeys s) (gkeys s2)) eqn:D; [exfalso; exact (disjointb_false_in _ _ D k E Hin)|].
      rewrite andb_true_iff in Hdis. destruct Hdis as [Eft Hr]. apply ft_eqb_eq in Eft.
      destruct (sub_ok_slot _ _ _ _ (Hall k E) Ht) as [HP [Hty Hlv]].
      pose proof (Hall2 k Hin) as H2k. rewrite <- Eft in H2k. destruct (sub_ok_slot _ _ _ _ H2k Ht) as [HP2 _].
      rewrite ins_live, Hlv, ins_typ, Hty, <- Eft, ft_eqb_refl. apply IH; assumption.
Qed.

Definition ins_all (gs : list gpath) (cur : mask) : mask := fold_left (fun c g => ins g c) gs cur.

Lemma ins_all_cons g gs cur : ins_all (g :: gs) cur = ins_all gs (ins g cur).
Proof. reflexivity. Qed.

Lemma ins_all_head g gs cur :
  no_conflict (g :: gs) = true -> forallb (fun g0 => compat g0 cur) (g :: gs) = true ->
  compat g cur = true /\ no_conflict gs = true /\ forallb (fun g0 => compat g0 (ins g cur)) gs = true.
Proof.
  cbn [no_conflict forallb]. rewrite !andb_true_iff, !forallb_forall. intros [Hg Hnc] [Hcg Hall].
  repeat split; [exact Hcg | exact Hnc|]. intros g' Hin. apply compat_frame; auto.
Qed.

Lemma ins_all_ind (I : mask -> Prop) : forall gs cur,
  no_conflict gs = true -> forallb (fun g => compat g cur) gs = true -> I cur ->
  (forall g c, In g gs -> compat g c = true -> I c -> I (ins g c)) -> I (ins_all gs cur).
Proof.
  induction gs as [|g gs IH]; intros cur Hnc Hall Hi Hstep; [exact Hi|].
  destruct (ins_all_head _ _ _ Hnc Hall) as (Hcg & Hnc1 & Hall1). rewrite ins_all_cons.
  apply IH; [exact Hnc1 | exact Hall1 | apply Hstep; [left; reflexivity | exact Hcg | exact Hi]|].
  intros g' c Hin. apply Hstep. right. exact Hin.
Qed.

Lemma ins_all_inv b gs cur :
  no_conflict gs = true -> forallb (fun g => compat g cur) gs = true -> inv b cur = true -> inv b (ins_all gs cur) = true.
Proof. intros Hnc Hall Hi. apply ins_all_ind; auto. intros g c _ Hc Hic. apply ins_inv; assumption. Qed.

Lemma ins_all_walk_white : forall gs cur,
  no_conflict gs = true -> forallb (fun g => compat g cur) gs = true -> inv false cur = true ->
  forall q, walk (Some (ins_all gs cur)) q = walk (Some cur) q || existsb (fun g => selg g q) gs.
Proof.
  induction gs as [|g gs IH]; intros cur Hnc Hall Hi q; [cbn; rewrite orb_false_r; reflexivity|].
  destruct (ins_all_head _ _ _ Hnc Hall) as (Hcg & Hnc1 & Hall1).
  rewrite ins_all_cons, IH, (ins_walk_white g cur Hcg Hi q) by (try apply ins_inv; assumption).
  cbn [existsb]. rewrite orb_assoc. reflexivity.
Qed.

Lemma ins_all_walk_black : forall gs cur,
  no_conflict gs = true -> forallb (fun g => compat g cur) gs = true -> inv true cur = true ->
  forallb (fun g => nonempty g && negb (ends_with_star g)) gs = true ->
  forall q, walk (Some (ins_all gs cur)) q = walk (Some cur) q && negb (existsb (fun g => rejg g q) gs).
Proof.
  induction gs as [|g gs IH]; intros cur Hnc Hall Hi Hne q; [cbn; rewrite andb_true_r; reflexivity|].
  destruct (ins_all_head _ _ _ Hnc Hall) as (Hcg & Hnc1 & Hall1).
  cbn [forallb] in Hne. rewrite !andb_true_iff, negb_true_iff in Hne. destruct Hne as [[Hn He] Hne].
  rewrite ins_all_cons, IH, (ins_walk_black g cur Hcg Hi) by (try apply ins_inv; try (destruct g; [discriminate | congruence]); assumption).
  cbn [existsb]. rewrite negb_orb, andb_assoc. reflexivity.
Qed.

Lemma disjointb_sym (x y : list key) : disjointb key_eqb x y = disjointb key_eqb y x.
Proof.
  assert (forall x y, disjointb key_eqb x y = true -> disjointb key_eqb y x = true) as H.
  { clear. intros x y H. unfold disjointb. rewrite forallb_forall. intros k Hk. rewrite negb_true_iff.
    destruct (existsb (key_eqb k) x) eqn:E; [|reflexivity]. exfalso.
    apply existsb_exists in E. destruct E as [k' [Hin E]]. apply key_eqb_eq in E. subst k'.
    eapply disjointb_false_in; eauto. }
  destruct (disjointb key_eqb x y) eqn:E1, (disjointb key_eqb y x) eqn:E2; try reflexivity.
  - apply H in E1. congruence.
  - apply H in E2. congruence.
Qed.

Lemma compat2_sym : forall a b, compat2 a b = compat2 b a.
Proof.
  induction a as [|s a IH]; intros [|s2 b]; try reflexivity;
    try (destruct s2; reflexivity); try (destruct s; reflexivity).
  rewrite !compat2_keys, (disjointb_sym (gkeys s)), (ft_eqb_sym (gft s)), IH.
  f_equal. destruct s, s2; reflexivity.
Qed.

Lemma no_conflict_forall gs : no_conflict gs = true <->
  (forall l1 g l2 g' l3, gs = l1 ++ g :: l2 ++ g' :: l3 -> compat2 g g' = true).
Proof.
  induction gs as [|x gs IH].
  - split; [|reflexivity]. intros _ l1 g l2 g' l3 H. destruct l1; discriminate.
  - cbn [no_conflict]. rewrite andb_true_iff, IH, forallb_forall. split.
    + intros [H1 H2] l1 g l2 g' l3 E. destruct l1 as [|y l1]; cbn in E; injection E as -> ->.
      * apply H1. apply in_or_app. right. left. reflexivity.
      * eapply H2. reflexivity.
    + intros H. split.
      * intros g' Hin. apply in_split in Hin. destruct Hin as [l2 [l3 ->]]. apply (H [] x l2 g' l3). reflexivity.
      * intros l1 g l2 g' l3 ->. apply (H (x :: l1) g l2 g' l3). reflexivity.
Qed.

Lemma no_conflict_perm gs gs' : Permutation gs gs' -> no_conflict gs = true -> no_conflict gs' = true.
Proof.
  induction 1 as [|x l l' HP IH|x y l|l l' l'' _ IH1 _ IH2]; intro H.
  - reflexivity.
  - cbn [no_conflict] in *. rewrite andb_true_iff in *. destruct H as [H1 H2]. split; [|auto].
    rewrite forallb_forall in *. intros g Hg. apply H1. eapply Permutation_in; [apply Permutation_sym; exact HP | exact Hg].
  - cbn [no_conflict forallb] in *. rewrite !andb_true_iff in *. destruct H as [[H1 H2] [H3 H4]].
    rewrite compat2_sym. tauto.
  - auto.
Qed.
