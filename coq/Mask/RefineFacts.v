(* Mask/RefineFacts.v — on the token lists of grammatical, typed paths the code-shaped
   [add_path] is the clean insertion [ins] of the typed path, provided the mask accepts the
   path ([compat]).  *)
From Coq Require Import List Bool ZArith Lia.
From Coq.Strings Require Import Byte.
From Verif Require Import Base.Bytes Mask.Path Mask.Desc Mask.Trie Mask.Spec Mask.TrieFacts Mask.SemFacts Mask.FrameFacts.
Import ListNotations.

Lemma struct_fields_ft env d fs : struct_fields env d = Some fs -> switch_ft env d = FtStruct.
Proof. destruct d; cbn; try discriminate. intros ->. reflexivity. Qed.

Lemma list_elem_ft env d e : list_elem d = Some e -> switch_ft env d = FtList.
Proof. destruct d; cbn; try discriminate; reflexivity. Qed.

Lemma map_kv_ft env d k v : map_kv d = Some (k, v) -> switch_ft env d = key_ft k.
Proof. destruct d; cbn; try discriminate. intros [= -> ->]. reflexivity. Qed.

Lemma key_ft_cases k : key_ft k = FtIntMap \/ key_ft k = FtStrMap \/ key_ft k = FtScalar.
Proof.
  destruct k; unfold key_ft; auto.
  destruct (existsb (beqb name) int_key_names); auto.
  destruct (existsb (beqb name) str_key_names); auto.
Qed.

Definition container (t : ft) : bool :=
  match t with FtStruct | FtList | FtIntMap | FtStrMap => true | _ => false end.

(* [estep env d s gs d']: against the descriptor d the segment s selects the key group gs,
   and the values below it have descriptor d' *)
Inductive estep (env : senv) (d : ty) : pseg -> gseg -> ty -> Prop :=
| ES_name fs n x : struct_fields env d = Some fs -> field_by_name fs n = Some x ->
    estep env d (PName n) (GFld (f_id x) (switch_ft env (f_ty x))) (f_ty x)
| ES_id fs id x : struct_fields env d = Some fs -> field_by_id fs id = Some x ->
    estep env d (PId id) (GFld (f_id x) (switch_ft env (f_ty x))) (f_ty x)
| ES_idx e ids : list_elem d = Some e -> estep env d (PIdx ids) (GInts ids (switch_ft env e)) e
| ES_idx_star e : list_elem d = Some e -> estep env d PIdxStar (GStar (switch_ft env e)) e
| ES_key_int k v ids : map_kv d = Some (k, v) -> key_ft k = FtIntMap -> estep env d (PKeyI ids) (GInts ids (switch_ft env v)) v
| ES_key_str k v ss : map_kv d = Some (k, v) -> key_ft k = FtStrMap -> estep env d (PKeyS ss) (GStrs ss (switch_ft env v)) v
| ES_key_star k v : map_kv d = Some (k, v) -> estep env d PKeyStar (GStar (switch_ft env v)) v.

Lemma elab_cons env d s p g : elab env d (s :: p) = Some g ->
  (exists gs d' g', estep env d s gs d' /\ ok_ft (gft gs) = true /\ elab env d' p = Some g' /\ g = gs :: g') \/
  (s = PStarF /\ p = [] /\ exists f0 fs, struct_fields env d = Some (f0 :: fs) /\
     ok_ft (switch_ft env (f_ty f0)) = true /\ g = [GStarF (switch_ft env (f_ty f0))]).
Proof.
  destruct s as [n|id| |ids| |ids|ss| ]; cbn [elab]; intro He.
  (* goals in the order of the constructors of [pseg]: PName, PId, PStarF, PIdx, PIdxStar, PKeyI, PKeyS,
     PKeyStar; once the third is closed, 1-2 are the fields, 3-4 the list steps, 5-7 the map steps *)
  3: { right. destruct (struct_fields env d) as [[|f0 fs]|]; try discriminate. destruct p; [|discriminate].
       destruct (ok_ft (switch_ft env (f_ty f0))) eqn:Eok; [|discriminate]. injection He as <-. eauto 8. }
  all: left.
  1: destruct (struct_fields env d) as [fs|] eqn:E1; [destruct (field_by_name fs n) as [x|] eqn:E2|]; try discriminate.
  2: destruct (struct_fields env d) as [fs|] eqn:E1; [destruct (field_by_id fs id) as [x|] eqn:E2|]; try discriminate.
  3-4: destruct (list_elem d) as [e|] eqn:E1; [|discriminate].
  5-7: destruct (map_kv d) as [[k v]|] eqn:E1; [|discriminate].
  5-6: destruct (ft_eqb (key_ft k) _) eqn:E2; [apply ft_eqb_eq in E2; cbn [andb] in He | discriminate].
  all: destruct (ok_ft _) eqn:Eok; [|discriminate]; destruct (elab env _ p) as [g'|] eqn:Eg; [|discriminate];
       injection He as <-; do 3 eexists; (split; [econstructor; eassumption | repeat split; [exact Eok | exact Eg]]).
Qed.

Lemma estep_gft env d s gs d' : estep env d s gs d' -> gft gs = switch_ft env d'.
Proof. destruct 1; reflexivity. Qed.

Lemma estep_container env d s gs d' : estep env d s gs d' -> is_gstar gs || container (switch_ft env d) = true.
Proof.
  destruct 1 as [fs n x H|fs id x H|e ids H|e H|k v ids H Hk|k v ss H Hk|k v H]; try reflexivity; cbn [is_gstar orb].
  1-2: rewrite (struct_fields_ft _ _ _ H); reflexivity.
  - rewrite (list_elem_ft env _ _ H). reflexivity.
  - rewrite (map_kv_ft env _ _ _ H), Hk. reflexivity.
  - rewrite (map_kv_ft env _ _ _ H), Hk. reflexivity.
Qed.

Lemma with_child_ins k t cur gf h (Q : mask -> bool) :
  (forall c, Q c = true -> m_typ c = t -> gf c = Ok (h c)) -> ok_ft t = true -> sub_ok k t Q cur = true ->
  with_child k t cur gf = Ok (child_ins k t h cur).
Proof.
  intros Hg Ht Hk. destruct (sub_ok_slot _ _ _ _ Hk Ht) as [HP [Hty _]].
  unfold with_child, child_ins. rewrite (Hg _ HP Hty). reflexivity.
Qed.

Lemma fold_keys_ins ks t gf h (Q : mask -> bool) :
  (forall c, Q c = true -> m_typ c = t -> gf c = Ok (h c)) ->
  ok_ft t = true ->
  forall cur, nodupb key_eqb ks = true -> (forall k, In k ks -> sub_ok k t Q cur = true) ->
  fold_keys ks t gf cur = Ok (ins_keys ks t h cur).
Proof.
  intros Hg Ht. induction ks as [|k0 ks IH]; intros cur Hnd Hall; [reflexivity|].
  apply nodupb_cons in Hnd. destruct Hnd as [Hne Hnd].
  cbn [fold_keys]. rewrite (with_child_ins k0 t cur gf h Q Hg Ht (Hall _ (or_introl eq_refl))), ins_keys_cons.
  apply IH; [exact Hnd|]. intros k' Hin. unfold child_ins. rewrite sub_ok_put_other; auto. apply Hall. right. exact Hin.
Qed.

Lemma scan_idx_items rest cur : forall r x acc e,
  scan_idx (sep_by TElem (map TLitInt (x :: r)) ++ TIndexR :: rest) cur false acc e =
  SOk cur false (acc ++ x :: r) [] rest.
Proof.
  induction r as [|y r IH]; intros x acc e.
  - reflexivity.
  - change (sep_by TElem (map TLitInt (x :: y :: r))) with (TLitInt x :: TElem :: sep_by TElem (map TLitInt (y :: r))).
    cbn [app scan_idx]. rewrite IH, <- app_assoc. reflexivity.
Qed.

Lemma scan_map_ints rest cur : forall r x acc strs e,
  scan_map (sep_by TElem (map TLitInt (x :: r)) ++ TMapR :: rest) cur false true false acc strs e =
  SOk cur false (acc ++ x :: r) strs rest.
Proof.
  induction r as [|y r IH]; intros x acc strs e.
  - reflexivity.
  - change (sep_by TElem (map TLitInt (x :: y :: r))) with (TLitInt x :: TElem :: sep_by TElem (map TLitInt (y :: r))).
    cbn [app scan_map]. rewrite IH, <- app_assoc. reflexivity.
Qed.

Lemma scan_map_strs rest cur : forall r x ids acc e,
  scan_map (sep_by TElem (map TStr (x :: r)) ++ TMapR :: rest) cur false false true ids acc e =
  SOk cur false ids (acc ++ x :: r) rest.
Proof.
  induction r as [|y r IH]; intros x ids acc e.
  - reflexivity.
  - change (sep_by TElem (map TStr (x :: y :: r))) with (TStr x :: TElem :: sep_by TElem (map TStr (y :: r))).
    cbn [app scan_map]. rewrite IH, <- app_assoc. reflexivity.
Qed.

Lemma reset_store_nokids p cur : m_kids cur = [] -> reset_store p cur = cur.
Proof. destruct cur as [t a b ks]. cbn. intros ->. reflexivity. Qed.

Lemma reset_store_star p cur : p KAll = false -> star_state cur = true -> reset_store p cur = cur.
Proof.
  intros Hp H. destruct (star_state_cases _ H) as [[_ Hk]|[_ [a Hk]]].
  - apply reset_store_nokids; exact Hk.
  - destruct cur as [t al b ks]. cbn [m_kids] in Hk. subst ks. unfold reset_store, set_kids.
    cbn [m_kids m_typ m_isall m_black map fst snd]. rewrite Hp. reflexivity.
Qed.

Lemma length_app_lt {A} (a b : list A) f : a <> [] -> List.length (a ++ b) < S f -> List.length b < f.
Proof. intros Ha. rewrite app_length. destruct a; [congruence|]. cbn. lia. Qed.

Lemma all_of_false cur : m_isall cur = false -> container (m_typ cur) = true -> all_of cur = false.
Proof. unfold all_of. intros -> H. destruct (m_typ cur); try discriminate H; reflexivity. Qed.

Theorem add_path_ins : forall env p d g,
  elab env d p = Some g -> wf_path p = true ->
  forall f cur, List.length (flat_map seg_tokens p) < f -> m_typ cur = switch_ft env d ->
  compat g cur = true ->
  add_path f env (flat_map seg_tokens p) d cur = Ok (ins g cur).
Proof.
  intros env. induction p as [|s p IH]; intros d g He Hwf f cur Hf Hty Hc.
  - cbn in He. injection He as <-. destruct f; [cbn in Hf; lia|]. reflexivity.
  - cbn [wf_path forallb] in Hwf. rewrite andb_true_iff in Hwf. destruct Hwf as [Hws Hwf].
    cbn [flat_map] in *. destruct f as [|f]; [lia|].
    destruct (elab_cons _ _ _ _ _ He) as [(gs & d' & g' & Hs & Hok & Hg & ->) | (-> & -> & f0 & fs & Esf & Hok & ->)].
    + (* a segment with a rest: below every slot of its keys [add_path] goes on as [ins g'] *)
      assert (forall c, compat g' c = true -> m_typ c = gft gs ->
                add_path f env (flat_map seg_tokens p) d' c = Ok (ins g' c)) as Hrec.
      { intros c Hcc Hct. apply IH; auto; [|rewrite <- (estep_gft _ _ _ _ _ Hs); exact Hct].
        eapply (length_app_lt (seg_tokens s)); [destruct s; discriminate | exact Hf]. }
      destruct (compat_cons _ _ _ Hc) as (Ht & _ & Hnd & Hall & Hst). unfold ok_ft in Hok. rewrite negb_true_iff in Hok.
      pose proof (estep_container _ _ _ _ _ Hs) as Hcont. rewrite <- Hty in Hcont.
      destruct Hs as [fs n x Esf Ef|fs id x Esf Ef|e ids El|e El|k v ids Em Ek|k v ss Em Ek|k v Em];
        cbn [is_gstar gkeys gft orb] in *.
      * rewrite (struct_fields_ft _ _ _ Esf) in Hty.
        cbn [seg_tokens app add_path]. rewrite Esf, Hty, (all_of_false cur (proj1 Hst) Hcont), Ef.
        exact (with_child_ins _ _ _ _ _ _ Hrec Ht (Hall _ (or_introl eq_refl))).
      * rewrite (struct_fields_ft _ _ _ Esf) in Hty.
        cbn [wf_pseg] in Hws. rewrite andb_true_iff in Hws. destruct Hws as [_ Hid].
        cbn [seg_tokens app add_path]. rewrite Esf, Hty, (all_of_false cur (proj1 Hst) Hcont), Hid, Ef.
        exact (with_child_ins _ _ _ _ _ _ Hrec Ht (Hall _ (or_introl eq_refl))).
      * rewrite (list_elem_ft env _ _ El) in Hty.
        cbn [wf_pseg] in Hws. destruct ids as [|x ids]; [discriminate|].
        cbn [seg_tokens]. rewrite <- app_comm_cons, <- app_assoc. cbn [app add_path].
        rewrite El, Hty, Hok, (all_of_false cur (proj1 Hst) Hcont), scan_idx_items. exact (fold_keys_ins _ _ _ _ _ Hrec Ht cur Hnd Hall).
      * rewrite (list_elem_ft env _ _ El) in Hty.
        cbn [seg_tokens app add_path]. rewrite El, Hty, Hok. cbn [ft_eqb negb scan_idx]. rewrite (reset_store_star is_KI cur eq_refl Hst).
        exact (with_child_ins _ _ (set_isall cur true) _ _ _ Hrec Ht (Hall _ (or_introl eq_refl))).
      * rewrite (map_kv_ft env _ _ _ Em), Ek in Hty.
        cbn [wf_pseg] in Hws. destruct ids as [|x ids]; [discriminate|].
        cbn [seg_tokens]. rewrite <- app_comm_cons, <- app_assoc. cbn [app add_path].
        rewrite Em, Hty, Hok, (all_of_false cur (proj1 Hst) Hcont), scan_map_ints. exact (fold_keys_ins _ _ _ _ _ Hrec Ht cur Hnd Hall).
      * rewrite (map_kv_ft env _ _ _ Em), Ek in Hty.
        cbn [wf_pseg] in Hws. destruct ss as [|x ss]; [discriminate|].
        cbn [seg_tokens]. rewrite <- app_comm_cons, <- app_assoc. cbn [app add_path].
        rewrite Em, Hty, Hok, (all_of_false cur (proj1 Hst) Hcont), scan_map_strs. exact (fold_keys_ins _ _ _ _ _ Hrec Ht cur Hnd Hall).
      * rewrite (map_kv_ft env _ _ _ Em) in Hty.
        cbn [seg_tokens app add_path]. rewrite Em, Hty, Hok.
        assert (negb (ft_eqb (key_ft k) FtIntMap || ft_eqb (key_ft k) FtStrMap || ft_eqb (key_ft k) FtScalar) = false) as ->
          by (destruct (key_ft_cases k) as [E|[E|E]]; rewrite E; reflexivity).
        cbn [scan_map]. rewrite (reset_store_star is_KIS cur eq_refl Hst).
        exact (with_child_ins _ _ (set_isall cur true) _ _ _ Hrec Ht (Hall _ (or_introl eq_refl))).
    + (* the closing struct star *)
      rewrite (struct_fields_ft _ _ _ Esf) in Hty.
      cbn [compat gft gkeys forallb] in Hc. rewrite !andb_true_iff in Hc. destruct Hc as [[_ [Hfs _]] _].
      unfold fresh_state in Hfs. rewrite andb_true_iff, !negb_true_iff in Hfs. destruct Hfs as [Ha Hk].
      assert (m_kids cur = []) as Hk' by (destruct (m_kids cur); [reflexivity | discriminate]).
      cbn [seg_tokens app add_path]. rewrite Esf, Hty. cbn [ft_eqb negb].
      rewrite (all_of_false cur Ha) by (rewrite Hty; reflexivity). rewrite (reset_store_nokids _ _ Hk').
      apply (with_child_ins _ _ _ _ (ins []) (fun _ => true)); [|exact Hok | unfold sub_ok; cbn [set_isall m_kids]; rewrite Hk'; reflexivity].
      intros c _ _. destruct f; [cbn in Hf; lia | reflexivity].
Qed.
