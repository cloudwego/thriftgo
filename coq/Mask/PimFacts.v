(* Mask/PimFacts.v — GetPath / PathInMask on paths without star and with single keys:
   the answer is the answer of the query walk along the path, hence (on the domain) what
   the path set prescribes. *)
From Coq Require Import List Bool ZArith Lia.
From Coq.Strings Require Import Byte.
From Verif Require Import Base.Bytes Mask.Path Mask.Desc Mask.Trie Mask.Spec Mask.TrieFacts Mask.SemFacts
     Mask.FrameFacts Mask.RefineFacts Mask.C14Facts.
Import ListNotations.

Lemma field_by_id_in fs id x : field_by_id fs id = Some x -> In x fs /\ f_id x = id.
Proof.
  induction fs as [|f r IH]; cbn; [discriminate|]. destruct (f_id f =? id)%Z eqn:E.
  - intros [= <-]. apply Z.eqb_eq in E. auto.
  - intro H. destruct (IH H). auto.
Qed.

Lemma field_by_name_in fs n x : field_by_name fs n = Some x -> In x fs.
Proof.
  induction fs as [|f r IH]; cbn; [discriminate|]. destruct (beqb (f_name f) n); [intros [= <-]; auto | auto].
Qed.

Lemma field_by_id_unique fs x : nodupb Z.eqb (map f_id fs) = true -> In x fs -> field_by_id fs (f_id x) = Some x.
Proof.
  induction fs as [|f r IH]; intros Hnd Hin; [destruct Hin|].
  cbn [map nodupb] in Hnd. rewrite andb_true_iff, negb_true_iff in Hnd. destruct Hnd as [H1 H2].
  cbn [field_by_id]. destruct Hin as [->|Hin]; [rewrite Z.eqb_refl; reflexivity|].
  destruct (f_id f =? f_id x)%Z eqn:E; [|auto]. exfalso. apply Z.eqb_eq in E.
  assert (existsb (Z.eqb (f_id f)) (map f_id r) = true) as X.
  { apply existsb_exists. exists (f_id x). split; [apply in_map; exact Hin | apply Z.eqb_eq; exact E]. }
  congruence.
Qed.

Lemma struct_fields_nodup env d fs : env_ok env = true -> struct_fields env d = Some fs -> nodupb Z.eqb (map f_id fs) = true.
Proof.
  intros He Hs. destruct d; cbn in Hs; try discriminate. apply lookup_In in Hs.
  unfold env_ok in He. rewrite forallb_forall in He. exact (He _ Hs).
Qed.

Definition child_ty (env : senv) (d : ty) (k : key) : option ty :=
  match k with
  | KF id => match struct_fields env d with
             | Some fs => option_map f_ty (field_by_id fs id)
             | None => None
             end
  | KS _ => option_map snd (map_kv d)
  | KI _ | KAll => match list_elem d with
                   | Some e => Some e
                   | None => option_map snd (map_kv d)
                   end
  end.

(* every node carries the mask type of its descriptor; no star child below a struct *)
Fixpoint mtyped (env : senv) (m : mask) (d : ty) : bool :=
  match m with
  | Node t _ _ ks =>
      ft_eqb t (switch_ft env d) &&
      (fix go (l : list (key * mask)) : bool :=
         match l with
         | [] => true
         | (k, c) :: r => match child_ty env d k with Some d' => mtyped env c d' | None => false end && go r
         end) ks
  end.

Definition tyQ (env : senv) (d : ty) (k : key) (c : mask) : bool :=
  match child_ty env d k with Some d' => mtyped env c d' | None => false end.

Lemma mtyped_unfold env m d :
  mtyped env m d = ft_eqb (m_typ m) (switch_ft env d) && kforall (tyQ env d) (m_kids m).
Proof.
  destruct m as [t a b ks]. cbn [mtyped m_typ m_kids]. f_equal.
  induction ks as [|[k c] r IH]; [reflexivity|]. cbn [kforall]. unfold tyQ at 1. rewrite IH. reflexivity.
Qed.

Lemma mtyped_typ env m d : mtyped env m d = true -> m_typ m = switch_ft env d.
Proof. rewrite mtyped_unfold, andb_true_iff. intros [H _]. apply ft_eqb_eq. exact H. Qed.

Lemma mtyped_fresh env d b : mtyped env (fresh (switch_ft env d) b) d = true.
Proof. rewrite mtyped_unfold. cbn. rewrite ft_eqb_refl. reflexivity. Qed.

Lemma mtyped_set_isall env m d a : mtyped env (set_isall m a) d = mtyped env m d.
Proof. rewrite !mtyped_unfold. reflexivity. Qed.

Lemma mtyped_child env cur d k c :
  mtyped env cur d = true -> klookup k (m_kids cur) = Some c -> exists d', child_ty env d k = Some d' /\ mtyped env c d' = true.
Proof.
  rewrite mtyped_unfold, andb_true_iff. intros [_ H] Hk. pose proof (kforall_klookup _ _ _ _ H Hk) as X.
  unfold tyQ in X. destruct (child_ty env d k) as [d'|]; [eauto | discriminate].
Qed.

Lemma mtyped_slot env cur d k d' P :
  mtyped env cur d = true -> child_ty env d k = Some d' -> sub_ok k (switch_ft env d') P cur = true ->
  mtyped env (slot k (switch_ft env d') cur) d' = true.
Proof.
  intros Hm Hk Hs. unfold sub_ok in Hs. unfold slot. destruct (klookup k (m_kids cur)) as [c|] eqn:E.
  - rewrite !andb_true_iff in Hs. destruct Hs as [[-> _] _]. destruct (mtyped_child _ _ _ _ _ Hm E) as [d2 [E2 Hc]]. congruence.
  - apply mtyped_fresh.
Qed.

Lemma struct_no_all env d fs : struct_fields env d = Some fs -> child_ty env d KAll = None.
Proof. destruct d; cbn; try discriminate. reflexivity. Qed.

Lemma child_ty_list env d e k : list_elem d = Some e -> (k = KAll \/ exists i, k = KI i) -> child_ty env d k = Some e.
Proof. intros H [->|[i ->]]; cbn [child_ty]; rewrite H; reflexivity. Qed.

Lemma child_ty_map env d kk v k : map_kv d = Some (kk, v) -> (k = KAll \/ (exists i, k = KI i) \/ exists x, k = KS x) -> child_ty env d k = Some v.
Proof.
  intros H Hk. destruct d; cbn in H; try discriminate. injection H as <- <-.
  destruct Hk as [->|[[i ->]|[x ->]]]; reflexivity.
Qed.

Lemma estep_child_ty env d s gs d' : env_ok env = true -> estep env d s gs d' ->
  forall k, In k (gkeys gs) -> child_ty env d k = Some d'.
Proof.
  intros Henv Hs k. destruct Hs as [fs n x Esf Ef|fs id x Esf Ef|e ids El|e El|kk v ids Em _|kk v ss Em _|kk v Em]; cbn [gkeys].
  - intros [<-|[]]. cbn [child_ty]. rewrite Esf, (field_by_id_unique fs x (struct_fields_nodup _ _ _ Henv Esf) (field_by_name_in _ _ _ Ef)). reflexivity.
  - intros [<-|[]]. cbn [child_ty]. rewrite Esf. destruct (field_by_id_in _ _ _ Ef) as [_ ->]. rewrite Ef. reflexivity.
  - rewrite in_map_iff. intros [i [<- _]]. apply (child_ty_list env d e _ El). right. eauto.
  - intros [<-|[]]. apply (child_ty_list env d e _ El). left. reflexivity.
  - rewrite in_map_iff. intros [i [<- _]]. apply (child_ty_map env d kk v _ Em). right. left. eauto.
  - rewrite in_map_iff. intros [i [<- _]]. apply (child_ty_map env d kk v _ Em). right. right. eauto.
  - intros [<-|[]]. apply (child_ty_map env d kk v _ Em). left. reflexivity.
Qed.

Lemma estep_child_ty_all env d s gs d' : estep env d s gs d' -> forall d2, child_ty env d KAll = Some d2 -> d2 = d'.
Proof.
  intros Hs d2. destruct Hs as [fs n x Esf _|fs id x Esf _|e ids El|e El|kk v ids Em _|kk v ss Em _|kk v Em].
  1-2: rewrite (struct_no_all _ _ _ Esf); discriminate.
  1-2: rewrite (child_ty_list env d e _ El) by (left; reflexivity); congruence.
  all: rewrite (child_ty_map env d kk v _ Em) by (left; reflexivity); congruence.
Qed.

Theorem ins_mtyped env : env_ok env = true -> forall p d g,
  elab env d p = Some g -> no_starf p = true ->
  forall cur, mtyped env cur d = true -> compat g cur = true -> mtyped env (ins g cur) d = true.
Proof.
  intros Henv. induction p as [|s p IH]; intros d g He Hns cur Hm Hc.
  - cbn in He. injection He as <-. cbn [ins]. rewrite mtyped_set_isall. exact Hm.
  - destruct (elab_cons _ _ _ _ _ He) as [(gs & d' & g' & Hs & _ & Hg & ->) | (-> & _)]; [|discriminate Hns].
    assert (no_starf p = true) as Hns' by (destruct Hs; exact Hns).
    destruct (compat_cons _ _ _ Hc) as (Ht & _ & Hnd & Hall & _).
    pose proof Hm as Hm0. rewrite mtyped_unfold, andb_true_iff in Hm0. destruct Hm0 as [Hty Hk].
    rewrite mtyped_unfold, ins_typ, Hty. apply ins_cons_kforall; [exact Hnd | exact Hk|].
    intros k Hin. unfold tyQ. rewrite (estep_child_ty _ _ _ _ _ Henv Hs k Hin).
    destruct (sub_ok_slot _ _ _ _ (Hall k Hin) Ht) as [HP _].
    apply (IH _ _ Hg Hns'); [|exact HP].
    pose proof (Hall k Hin) as Hk0. rewrite (estep_gft _ _ _ _ _ Hs) in Hk0 |- *.
    exact (mtyped_slot _ _ _ _ _ _ Hm (estep_child_ty _ _ _ _ _ Henv Hs k Hin) Hk0).
Qed.

(* black lists: every child stored under the star key has children, at every depth (a black
   star is never the end of a path); trivially true of white masks ([allok_false]) *)
Fixpoint allok (b : bool) (m : mask) : bool :=
  match m with
  | Node _ _ _ ks =>
      (fix go (l : list (key * mask)) : bool :=
         match l with
         | [] => true
         | (k, c) :: r => (match k with KAll => negb b || has_child c | _ => true end) && allok b c && go r
         end) ks
  end.

Definition okQ (b : bool) (k : key) (c : mask) : bool :=
  (match k with KAll => negb b || has_child c | _ => true end) && allok b c.

Lemma allok_unfold b m : allok b m = kforall (okQ b) (m_kids m).
Proof.
  destruct m as [t a bl ks]. cbn [allok m_kids].
  induction ks as [|[k c] r IH]; [reflexivity|]. cbn [kforall]. unfold okQ at 1. rewrite IH. reflexivity.
Qed.

Lemma allok_set_isall b m a : allok b (set_isall m a) = allok b m.
Proof. rewrite !allok_unfold. reflexivity. Qed.

Lemma allok_fresh b t bl : allok b (fresh t bl) = true.
Proof. reflexivity. Qed.

Lemma allok_slot b k t cur : allok b cur = true -> allok b (slot k t cur) = true.
Proof.
  intro H. unfold slot. destruct (klookup k (m_kids cur)) as [c|] eqn:E; [|reflexivity].
  rewrite allok_unfold in H. pose proof (kforall_klookup _ _ _ _ H E) as X. unfold okQ in X. rewrite andb_true_iff in X.
  destruct (live c); [tauto|]. unfold assign. rewrite allok_unfold. cbn [m_kids]. rewrite <- allok_unfold. tauto.
Qed.

Theorem ins_allok b : forall g cur, compat g cur = true -> ends_with_star g = false ->
  allok b cur = true -> allok b (ins g cur) = true.
Proof.
  induction g as [|s r IH]; intros cur Hc He Ha; [cbn [ins]; rewrite allok_set_isall; exact Ha|].
  destruct (compat_cons _ _ _ Hc) as (Ht & _ & Hnd & Hall & _).
  rewrite allok_unfold. apply ins_cons_kforall; [exact Hnd | rewrite <- allok_unfold; exact Ha|].
  intros k Hin. destruct (sub_ok_slot _ _ _ _ (Hall k Hin) Ht) as [HP [_ Hlv]]. unfold okQ.
  rewrite (IH _ HP (ends_with_star_tail _ _ He) (allok_slot b k _ cur Ha)), andb_true_r.
  destruct k; try reflexivity.
  (* the star child: the path goes on below it *)
  assert (is_gstar s = true) as Hs by (destruct (is_gstar s) eqn:E; [reflexivity | exfalso; exact (gkeys_not_all s E KAll Hin eq_refl)]).
  rewrite (has_child_ins _ _ HP (star_goes_on _ _ Hs He) Hlv). apply orb_true_r.
Qed.

(* the condition of [allok] for the node itself: a black starred node has a child.  At a starred
   node GetPath goes on with the star child unconditionally, while the query of a black starred
   node passes only if the node has children ([gscan_idx_single]). *)
Definition okc (c : mask) : bool := negb (m_black c) || negb (m_isall c) || has_child c.

Lemma get_path_none env f toks d last : 0 < f -> exists r, get_path f env toks d None last = Some (r, true).
Proof. intro H. destruct f; [lia|]. destruct toks; cbn [get_path]; eauto. Qed.

Lemma query_child env b c d q c' :
  inv b c = true -> allok b c = true -> mtyped env c d = true ->
  query (Some c) q = (Some c', true) ->
  exists d', child_ty env d (if m_isall c then KAll else key_of q) = Some d' /\
             mtyped env c' d' = true /\ inv b c' = true /\ allok b c' = true /\ okc c' = true.
Proof.
  intros Hi Ha Hm Hq. unfold query in Hq. rewrite (inv_live _ _ Hi) in Hq. cbn [negb] in Hq.
  rewrite allok_unfold in Ha.
  destruct (m_isall c) eqn:Eall.
  - apply pair_equal_spec in Hq. destruct Hq as [Hk _]. destruct (mtyped_child _ _ _ _ _ Hm Hk) as [d' [E1 E2]].
    destruct (inv_child _ _ _ _ Hi Hk) as [I1 _].
    pose proof (kforall_klookup _ _ _ _ Ha Hk) as X. unfold okQ in X. rewrite andb_true_iff in X. destruct X as [X1 X2].
    exists d'. repeat split; auto. unfold okc. rewrite (inv_black _ _ I1).
    destruct b; [cbn in X1; rewrite X1; apply orb_true_r | reflexivity].
  - unfold ret, get in Hq. destruct (klookup (key_of q) (m_kids c)) as [c0|] eqn:Ek;
      [|destruct (m_black c); discriminate].
    destruct (live c0) eqn:El; [|destruct (m_black c); discriminate].
    assert (c0 = c') as -> by (destruct (m_black c); congruence).
    destruct (mtyped_child _ _ _ _ _ Hm Ek) as [d' [E1 E2]].
    destruct (inv_child _ _ _ _ Hi Ek) as [I1 _].
    pose proof (kforall_klookup _ _ _ _ Ha Ek) as X. unfold okQ in X. rewrite andb_true_iff in X. destruct X as [_ X2].
    exists d'. repeat split; auto. unfold okc. rewrite (inv_black _ _ I1).
    rewrite (inv_black _ _ Hi) in Hq. destruct b; [|reflexivity]. cbn [ret] in Hq. apply pair_equal_spec in Hq. destruct Hq as [_ Hh]. rewrite Hh. apply orb_true_r.
Qed.

Lemma query_isall c k : live c = true -> okc c = true -> m_isall c = true ->
  query (Some c) k = (klookup KAll (m_kids c), true).
Proof.
  intros Hl Hk Ha. unfold query. rewrite Hl, Ha. cbn [negb]. unfold okc in Hk. rewrite Ha in Hk. cbn [negb orb] in Hk.
  rewrite orb_false_r in Hk. rewrite Hk. reflexivity.
Qed.

Lemma gscan_idx_single c i rest :
  live c = true -> okc c = true -> m_typ c = FtList ->
  gscan_idx (TLitInt i :: TIndexR :: rest) c (all_of c) (klookup KAll (m_kids c)) =
  (let (nf, ex) := query (Some c) (QI i) in if ex then Some (nf, rest) else None).
Proof.
  intros Hl Hk Ht. unfold all_of. rewrite Ht. cbn [gscan_idx].
  destruct (m_isall c) eqn:Ea.
  - rewrite (query_isall c _ Hl Hk Ea). reflexivity.
  - destruct (query (Some c) (QI i)) as [nf ex]. destruct ex; reflexivity.
Qed.

Lemma gscan_map_int c i rest :
  live c = true -> okc c = true -> m_typ c = FtIntMap ->
  gscan_map (TLitInt i :: TMapR :: rest) c (klookup KAll (m_kids c)) =
  (let (nf, ex) := query (Some c) (QI i) in if ex then Some (nf, rest) else None).
Proof.
  intros Hl Hk Ht. cbn [gscan_map]. unfold all_of. rewrite Ht.
  destruct (m_isall c) eqn:Ea.
  - rewrite (query_isall c _ Hl Hk Ea). reflexivity.
  - cbn [ft_eqb negb]. destruct (query (Some c) (QI i)) as [nf ex]. destruct ex; reflexivity.
Qed.

Lemma gscan_map_str c x rest :
  live c = true -> okc c = true -> m_typ c = FtStrMap ->
  gscan_map (TStr x :: TMapR :: rest) c (klookup KAll (m_kids c)) =
  (let (nf, ex) := query (Some c) (QS x) in if ex then Some (nf, rest) else None).
Proof.
  intros Hl Hk Ht. cbn [gscan_map]. unfold all_of. rewrite Ht.
  destruct (m_isall c) eqn:Ea.
  - rewrite (query_isall c _ Hl Hk Ea). reflexivity.
  - cbn [ft_eqb negb]. destruct (query (Some c) (QS x)) as [nf ex]. destruct ex; reflexivity.
Qed.

Lemma get_path_continue env b f rest d' g' c d qk last :
  (forall c' last', mtyped env c' d' = true -> inv b c' = true -> allok b c' = true -> okc c' = true ->
      exists r, get_path f env rest d' (Some c') last' = Some (r, walk (Some c') (qkeys g'))) ->
  0 < f ->
  inv b c = true -> allok b c = true -> mtyped env c d = true ->
  (forall d2, child_ty env d (if m_isall c then KAll else key_of qk) = Some d2 -> d2 = d') ->
  exists r, (let (nf, ex) := query (Some c) qk in
             if ex then get_path f env rest d' nf last else Some (None, false)) =
            Some (r, walk (Some c) (qk :: qkeys g')).
Proof.
  intros IH Hf Hi Ha Hm Hty. rewrite walk_cons.
  destruct (query (Some c) qk) as [nf ex] eqn:Eq. cbn [fst snd].
  destruct ex; [|eexists; reflexivity]. cbn [andb].
  destruct nf as [c'|].
  - destruct (query_child env b c d qk c' Hi Ha Hm Eq) as [d2 [E1 [E2 [E3 [E4 E5]]]]].
    rewrite (Hty _ E1) in *. apply IH; assumption.
  - rewrite walk_none. apply get_path_none. exact Hf.
Qed.

Theorem get_path_walk env : env_ok env = true -> forall p d g,
  elab env d p = Some g -> forallb simple_seg p = true -> wf_path p = true ->
  forall f c last b, List.length (flat_map seg_tokens p) < f ->
  mtyped env c d = true -> inv b c = true -> allok b c = true -> okc c = true ->
  exists r, get_path f env (flat_map seg_tokens p) d (Some c) last = Some (r, walk (Some c) (qkeys g)).
Proof.
  intros Henv. induction p as [|s p IH]; intros d g He Hs Hwf f c last b Hf Hm Hi Ha Hk.
  - cbn in He. injection He as <-. destruct f; [cbn in Hf; lia|]. eexists. reflexivity.
  - cbn [forallb] in Hs. rewrite andb_true_iff in Hs. destruct Hs as [Hs1 Hs].
    cbn [wf_path forallb] in Hwf. rewrite andb_true_iff in Hwf. destruct Hwf as [Hw1 Hwf].
    cbn [flat_map] in *. destruct f as [|f]; [lia|].
    pose proof (mtyped_typ _ _ _ Hm) as Hty. pose proof (inv_live _ _ Hi) as Hl.
    destruct (elab_cons _ _ _ _ _ He) as [(gs & d' & g' & Hst & _ & Hg & ->) | (-> & _)]; [|discriminate Hs1].
    (* one query, then on below the sub mask it returns *)
    assert (forall qk, In (key_of qk) (gkeys gs) ->
              exists r, (let (nf, ex) := query (Some c) qk in
                         if ex then get_path f env (flat_map seg_tokens p) d' nf (Some c) else Some (None, false)) =
                        Some (r, walk (Some c) (qk :: qkeys g'))) as Hgo.
    { intros qk Hin. apply (get_path_continue env b f _ d' g' c d qk (Some c)); auto.
      - intros c' last' H1 H2 H3 H4. eapply IH; eauto. eapply (length_app_lt (seg_tokens s)); [destruct s; discriminate | exact Hf].
      - rewrite app_length in Hf. destruct (seg_tokens s) as [|t1 [|t2 l]] eqn:Es; [destruct s; discriminate| |cbn in Hf; lia].
        destruct s; cbn in Es; try discriminate; injection Es as _ Es; apply app_eq_nil in Es; destruct Es; discriminate.
      - intros d2. destruct (m_isall c); [apply (estep_child_ty_all _ _ _ _ _ Hst)|].
        rewrite (estep_child_ty _ _ _ _ _ Henv Hst _ Hin). congruence. }
    destruct Hst as [fs n x Esf Ef|fs id x Esf Ef|e ids El|e El|kk v ids Em Ek|kk v ss Em Ek|kk v Em];
      cbn [simple_seg gkeys] in Hs1, Hgo; try discriminate Hs1.
    + rewrite (struct_fields_ft _ _ _ Esf) in Hty.
      cbn [seg_tokens app get_path qkeys]. rewrite Esf, Hty, Ef. apply (Hgo (QF (f_id x))). left. reflexivity.
    + rewrite (struct_fields_ft _ _ _ Esf) in Hty.
      cbn [wf_pseg] in Hw1. rewrite andb_true_iff in Hw1. destruct Hw1 as [_ Hid].
      cbn [seg_tokens app get_path qkeys]. rewrite Esf, Hty, Hid, Ef. apply (Hgo (QF (f_id x))). left. reflexivity.
    + destruct ids as [|i [|i2 ids]]; try discriminate Hs1.
      rewrite (list_elem_ft env _ _ El) in Hty.
      cbn [seg_tokens map sep_by app get_path qkeys]. rewrite El, Hty. cbn [ft_eqb negb].
      rewrite (gscan_idx_single c i _ Hl Hk Hty).
      destruct (Hgo (QI i) (or_introl eq_refl)) as [r Hr].
      exists r. rewrite <- Hr. destruct (query (Some c) (QI i)) as [nf ex]. destruct ex; reflexivity.
    + destruct ids as [|i [|i2 ids]]; try discriminate Hs1.
      rewrite (map_kv_ft env _ _ _ Em), Ek in Hty.
      cbn [seg_tokens map sep_by app get_path qkeys]. rewrite Em, Hty. cbn [ft_eqb negb orb].
      rewrite (gscan_map_int c i _ Hl Hk Hty).
      destruct (Hgo (QI i) (or_introl eq_refl)) as [r Hr].
      exists r. rewrite <- Hr. destruct (query (Some c) (QI i)) as [nf ex]. destruct ex; reflexivity.
    + destruct ss as [|x [|x2 ss]]; try discriminate Hs1.
      rewrite (map_kv_ft env _ _ _ Em), Ek in Hty.
      cbn [seg_tokens map sep_by app get_path qkeys]. rewrite Em, Hty. cbn [ft_eqb negb orb].
      rewrite (gscan_map_str c x _ Hl Hk Hty).
      destruct (Hgo (QS x) (or_introl eq_refl)) as [r Hr].
      exists r. rewrite <- Hr. destruct (query (Some c) (QS x)) as [nf ex]. destruct ex; reflexivity.
Qed.

Lemma allok_false : forall m, allok false m = true.
Proof.
  fix IH 1. intros [t a b ks]. cbn [allok].
  induction ks as [|[k c] r IHr]; [reflexivity|]. rewrite (IH c), IHr. destruct k; reflexivity.
Qed.

Lemma ins_all_mtyped env d : env_ok env = true -> forall ps gs,
  elab_all env d ps = Some gs -> forallb no_starf ps = true -> no_conflict gs = true ->
  forall cur, mtyped env cur d = true -> forallb (fun g => compat g cur) gs = true ->
  mtyped env (ins_all gs cur) d = true.
Proof.
  intros Henv ps gs He Hns Hnc cur Hm Hall.
  pose proof (elab_all_Forall env d no_starf _ (fun p g Hg Hn => ins_mtyped env Henv p d g Hg Hn) ps gs He Hns) as HF.
  rewrite Forall_forall in HF. apply ins_all_ind; [exact Hnc | exact Hall | exact Hm|]. intros g c Hin Hc Hmc. apply (HF g Hin); assumption.
Qed.

Lemma ins_all_allok b gs cur :
  no_conflict gs = true -> forallb (fun g => compat g cur) gs = true ->
  forallb (fun g => negb (ends_with_star g)) gs = true ->
  allok b cur = true -> allok b (ins_all gs cur) = true.
Proof.
  intros Hnc Hall Hts Ha. rewrite forallb_forall in Hts. apply ins_all_ind; [exact Hnc | exact Hall | exact Ha|].
  intros g c Hin Hc Hac. apply ins_allok; auto. apply negb_true_iff, Hts, Hin.
Qed.

Lemma ins_keeps_children g cur : nonempty (m_kids cur) = true -> nonempty (m_kids (ins g cur)) = true.
Proof. destruct g as [|s r]; intro H; [exact H|]. rewrite ins_cons_nonempty, H. apply orb_true_r. Qed.

Lemma ins_all_keeps_children gs : forall cur, nonempty (m_kids cur) = true -> nonempty (m_kids (ins_all gs cur)) = true.
Proof.
  induction gs as [|g gs IH]; intros cur H; [exact H|].
  rewrite ins_all_cons. apply IH. apply ins_keeps_children. exact H.
Qed.

Lemma ins_all_live gs : forall cur, live (ins_all gs cur) = live cur.
Proof. induction gs as [|g gs IH]; intro cur; [reflexivity|]. rewrite ins_all_cons, IH, ins_live. reflexivity. Qed.

Lemma ins_all_root_has_child g0 gs0 root :
  live root = true -> g0 <> [] -> compat g0 root = true -> has_child (ins_all (g0 :: gs0) root) = true.
Proof.
  intros Hl Hg Hc. rewrite has_child_nonempty, ins_all_live, Hl, ins_all_cons. cbn [andb].
  apply ins_all_keeps_children.
  pose proof (has_child_ins g0 root Hc Hg Hl) as Y. rewrite has_child_nonempty, andb_true_iff in Y. tauto.
Qed.

(* PathInMask on a star-free single-key path, for masks built on the domain without struct stars *)
Theorem path_in_mask_sound env d black strs ps gs m p g :
  env_ok env = true ->
  map tokenize strs = map tokens_of ps ->
  well_typed env d ps = true -> elab_all env d ps = Some gs -> in_domain black gs = true ->
  gs <> [] -> forallb no_starf ps = true ->
  (black = true -> no_root_path gs = true) ->
  new_mask env d black strs = Ok m ->
  forallb simple_seg p = true -> wf_path p = true -> elab env d p = Some g ->
  forall path, tokenize path = tokens_of p ->
  exists a, path_in_mask env d m path = Some (spec_pass black (path_set gs) (qkeys g), a).
Proof.
  intros Henv Htok Hwt He Hdom Hgne Hns Hbne Hm Hsimple Hwfp Hg path Hpath.
  change (black = true -> forallb (fun g => nonempty g) gs = true) in Hbne.
  destruct (well_typed_parts _ _ _ Hwt) as [Hok [Hwf _]].
  pose proof Hdom as Hdom0. unfold in_domain in Hdom. rewrite andb_true_iff in Hdom. destruct Hdom as [Hnc Hts].
  rewrite (build_total_on_D env d black strs ps gs Htok Hwt He Hnc) in Hm. injection Hm as <-.
  pose proof (elab_all_compat_fresh _ _ _ _ He Hwf (switch_ft env d) black) as Hall.
  destruct gs as [|g0 gs0] eqn:Egs; [congruence|]. rewrite <- Egs in *.
  pose proof (built_nonempty env d black gs Hgne) as Eb.
  set (root := fresh (switch_ft env d) black) in *.
  pose proof (inv_fresh black _ Hok) as Hi0.
  pose proof (ins_all_inv black gs root Hnc Hall Hi0) as Hinv.
  assert (mtyped env (ins_all gs root) d = true) as Hmt
    by (eapply ins_all_mtyped; eauto; apply mtyped_fresh).
  assert (allok black (ins_all gs root) = true) as Hao.
  { destruct black; [|apply allok_false]. apply ins_all_allok; auto. }
  assert (okc (ins_all gs root) = true) as Hokc.
  { unfold okc. rewrite (inv_black _ _ Hinv). destruct black; [|reflexivity]. cbn [negb orb].
    specialize (Hbne eq_refl). rewrite Egs in Hbne, Hall |- *. cbn [forallb] in Hbne, Hall. rewrite andb_true_iff in Hbne, Hall.
    rewrite ins_all_root_has_child; [apply orb_true_r | exact (inv_live _ _ Hi0) | | tauto].
    destruct g0; [destruct Hbne; discriminate | discriminate]. }
  unfold path_in_mask. rewrite Hpath. unfold tokens_of, path_fuel.
  change (get_path (S (List.length (TRoot :: flat_map seg_tokens p))) env (TRoot :: flat_map seg_tokens p) d
            (Some (built env d black gs)) (Some (built env d black gs)))
    with (get_path (List.length (TRoot :: flat_map seg_tokens p)) env (flat_map seg_tokens p) d
            (Some (built env d black gs)) (Some (built env d black gs))).
  rewrite Eb.
  destruct (get_path_walk env Henv p d g Hg Hsimple Hwfp (List.length (TRoot :: flat_map seg_tokens p))
              (ins_all gs root) (Some (ins_all gs root)) black ltac:(cbn [List.length]; lia) Hmt Hinv Hao Hokc) as [r Hr].
  rewrite Hr. exists (all_q r). f_equal. f_equal.
  rewrite <- Eb. apply built_sound; auto.
Qed.
