(* Mask/AllFacts.v — the answer of All() on the sub mask reached by a passing query walk,
   against the path-set specification spec_all (white and black lists). *)
From Coq Require Import List Bool ZArith.
From Coq.Strings Require Import Byte.
From Verif Require Import Base.Bytes Mask.Path Mask.Desc Mask.Trie Mask.Spec Mask.TrieFacts Mask.SemFacts Mask.FrameFacts Mask.RefineFacts Mask.C14Facts.
Import ListNotations.

Definition pall (m : option mask) (q : list qkey) : bool :=
  let (c, ok) := walk_to m q in ok && all_q c.

Lemma pall_nil m : pall m [] = all_q m.
Proof. reflexivity. Qed.

Lemma pall_cons m k r : pall m (k :: r) = snd (query m k) && pall (fst (query m k)) r.
Proof.
  unfold pall. cbn [walk_to]. destruct (query m k) as [c ok]. cbn [fst snd].
  destruct (walk_to c r) as [c' ok']. rewrite andb_assoc. reflexivity.
Qed.

Lemma pall_none q : pall None q = true.
Proof. induction q as [|k q IH]; [reflexivity|]. rewrite pall_cons. cbn. exact IH. Qed.

Lemma pall_walk m q : pall m q = true -> walk m q = true.
Proof. unfold pall, walk. destruct (walk_to m q) as [c ok]. cbn. rewrite andb_true_iff. tauto. Qed.

(* explicit keys only below nodes of a container type (what typing against a descriptor gives) *)
Fixpoint gtyped (t : ft) (g : gpath) : bool :=
  match g with
  | [] => true
  | s :: r => (is_gstar s || container t) && gtyped (gft s) r
  end.

(* the path ends at the position or above it, or goes on from it with a star *)
Fixpoint allg (g : gpath) (q : list qkey) : bool :=
  match g, q with
  | [], _ => true
  | s :: _, [] => is_gstar s
  | s :: r, k :: q' => gmatch s k && allg r q'
  end.

(* the path runs through the position and goes on *)
Fixpoint beyondg (g : gpath) (q : list qkey) : bool :=
  match g, q with
  | [], _ => false
  | _ :: _, [] => true
  | s :: r, k :: q' => gmatch s k && beyondg r q'
  end.

(* ... and goes on with a star *)
Fixpoint starat (g : gpath) (q : list qkey) : bool :=
  match g, q with
  | [], _ => false
  | s :: _, [] => is_gstar s
  | s :: r, k :: q' => gmatch s k && starat r q'
  end.

Lemma all_of_isall_true m : m_isall m = true -> all_of m = true.
Proof. unfold all_of. intros ->. destruct (m_typ m); reflexivity. Qed.

Lemma all_of_fresh t b : all_of (fresh t b) = negb (container t).
Proof. destruct t; reflexivity. Qed.

Lemma gtyped_allg_nil t r : gtyped t r = true -> container t = false -> allg r [] = true.
Proof. destruct r as [|s r]; [reflexivity|]. cbn [gtyped allg]. intros H Hc. rewrite Hc, orb_false_r, andb_true_iff in H. tauto. Qed.

Lemma ins_head_all s r cur : all_of (ins (s :: r) cur) = is_gstar s || all_of cur.
Proof. unfold all_of. rewrite ins_typ, ins_cons_isall. destruct (is_gstar s), (m_typ cur); reflexivity. Qed.

Lemma pall_fresh t b q : ok_ft t = true ->
  pall (Some (fresh t b)) q = match q with [] => negb (container t) | _ => b end.
Proof.
  intro Ht. destruct q as [|k q]; [rewrite pall_nil; apply all_of_fresh|].
  rewrite pall_cons, query_fresh by exact Ht. cbn [fst snd]. rewrite pall_none. apply andb_true_r.
Qed.

(* as [walk_slot_white]: at the empty walk a fresh slot of a non-container type says All(),
   and there [allg r []] holds of a typed rest r *)
Lemma pall_slot_white k t P cur q r :
  sub_ok k t P cur = true -> ok_ft t = true -> m_black cur = false -> gtyped t r = true ->
  pall (Some (slot k t cur)) q || allg r q =
  is_some (klookup k (m_kids cur)) && pall (klookup k (m_kids cur)) q || allg r q.
Proof.
  intros Hs Ht Hb Hg. unfold sub_ok in Hs. unfold slot.
  destruct (klookup k (m_kids cur)) as [c|].
  - rewrite !andb_true_iff in Hs. destruct Hs as [[H1 _] _]. rewrite H1. reflexivity.
  - rewrite Hb, pall_fresh by assumption. destruct q; [|reflexivity].
    destruct (container t) eqn:Ec; [reflexivity|]. rewrite (gtyped_allg_nil t r Hg Ec). reflexivity.
Qed.

Theorem ins_pall_white : forall g cur, compat g cur = true -> inv false cur = true ->
  gtyped (m_typ cur) g = true ->
  forall q, pall (Some (ins g cur)) q = pall (Some cur) q || allg g q.
Proof.
  induction g as [|s r IH]; intros cur Hc Hi Hg q.
  - cbn [ins allg]. rewrite orb_true_r. destruct q as [|k q].
    + rewrite pall_nil. apply all_of_isall_true. reflexivity.
    + rewrite pall_cons, query_white by (rewrite inv_set_isall; exact Hi).
      cbn [set_isall m_isall m_kids fst snd andb].
      cbn [compat] in Hc. destruct (m_kids cur); [|discriminate]. cbn. apply pall_none.
  - cbn [gtyped] in Hg. rewrite andb_true_iff in Hg. destruct Hg as [Hg1 Hg2].
    destruct q as [|k q].
    + rewrite !pall_nil. cbn [all_q allg]. rewrite ins_head_all. apply orb_comm.
    + destruct (compat_cons _ _ _ Hc) as (Ht & _ & _ & Hall & _).
      rewrite !pall_cons. cbn [allg]. pose proof (query_ins_white s r cur k Hc Hi) as Hq.
      destruct (gmatch s k); [|rewrite Hq, orb_false_r; reflexivity].
      destruct Hq as (k0 & Hin & -> & ->). cbn [fst snd andb].
      destruct (sub_ok_slot _ _ _ _ (Hall k0 Hin) Ht) as [HP [Hty _]].
      rewrite (IH _ HP (sub_ok_slot_inv false _ _ _ _ (Hall k0 Hin) Ht Hi)) by (rewrite Hty; exact Hg2).
      apply (pall_slot_white _ _ _ _ _ _ (Hall k0 Hin) Ht (inv_black _ _ Hi) Hg2).
Qed.

(* black lists: "passes and All" after the insertion of g, from pc, wc = "passes and All" /
   "passes" before it *)
Definition pall_after (pc wc : bool) (g : gpath) (q : list qkey) : bool :=
  (pc && negb (rejg g q) && negb (beyondg g q)) || (wc && starat g q).

Lemma pall_after_cons pc wc s r k q : pall_after pc wc (s :: r) (k :: q) = if gmatch s k then pall_after pc wc r q else pc.
Proof.
  unfold pall_after. cbn [rejg beyondg starat]. destruct (gmatch s k); [reflexivity|].
  cbn [andb negb]. rewrite !andb_true_r, andb_false_r. apply orb_false_r.
Qed.

Lemma beyondg_nil_r g : g <> [] -> beyondg g [] = true.
Proof. destruct g; [congruence | reflexivity]. Qed.

(* below the slot of k, seen from the unchanged parent; the path goes on below, so at the
   slot itself it is the path that decides *)
Lemma pall_slot_black k t r cur q :
  sub_ok k t (compat r) cur = true -> ok_ft t = true -> inv true cur = true -> r <> [] ->
  pall_after (pall (Some (slot k t cur)) q) (walk (Some (slot k t cur)) q) r q =
  pall_after (child_passes (klookup k (m_kids cur)) && pall (klookup k (m_kids cur)) q)
     (child_passes (klookup k (m_kids cur)) && walk (klookup k (m_kids cur)) q) r q.
Proof.
  intros Hs Ht Hi Hr. rewrite (walk_slot_black _ _ _ _ _ Hs Ht Hi Hr). unfold sub_ok in Hs. unfold slot.
  destruct (klookup k (m_kids cur)) as [c|] eqn:E.
  - rewrite !andb_true_iff in Hs. destruct Hs as [[Hl _] Hc]. rewrite Hl. destruct (inv_child _ _ _ _ Hi E) as [_ Hd].
    cbn [child_passes]. rewrite (compat_done_has_child r c Hc Hr Hd Hl). reflexivity.
  - rewrite (inv_black _ _ Hi), pall_fresh, pall_none by exact Ht. cbn [child_passes andb].
    destruct q; [|reflexivity]. unfold pall_after. rewrite (beyondg_nil_r r Hr). cbn [negb]. rewrite !andb_false_r. reflexivity.
Qed.

Theorem ins_pall_black : forall g cur, compat g cur = true -> inv true cur = true ->
  g <> [] -> ends_with_star g = false -> gtyped (m_typ cur) g = true ->
  forall q, pall (Some (ins g cur)) q = pall_after (pall (Some cur) q) (walk (Some cur) q) g q.
Proof.
  induction g as [|s r IH]; intros cur Hc Hi Hne He Hg q; [congruence|].
  cbn [gtyped] in Hg. rewrite andb_true_iff in Hg. destruct Hg as [Hg1 Hg2].
  destruct (compat_cons _ _ _ Hc) as (Ht & _ & _ & Hall & Hst).
  destruct q as [|k q].
  - (* the node itself *)
    rewrite !pall_nil. cbn [all_q]. rewrite ins_head_all. unfold pall_after. cbn [rejg beyondg starat negb andb].
    rewrite andb_false_r. cbn [orb]. destruct (is_gstar s); [reflexivity|].
    cbn [orb] in *. apply all_of_false; [exact (proj1 Hst) | exact Hg1].
  - rewrite !pall_cons, walk_cons, pall_after_cons. pose proof (query_ins_black s r cur k Hc Hi He) as Hq.
    destruct (gmatch s k); [|rewrite Hq; reflexivity].
    destruct Hq as (k0 & Hin & -> & ->). cbn [fst snd].
    destruct r as [|s' r'].
    + rewrite (has_child_ins_end _ _ _ (Hall _ Hin) Ht). unfold pall_after. cbn [rejg starat negb andb]. rewrite !andb_false_r. reflexivity.
    + destruct (sub_ok_slot _ _ _ _ (Hall k0 Hin) Ht) as [HP [Hty Hlv]].
      rewrite (has_child_ins _ _ HP ltac:(discriminate) Hlv). cbn [andb].
      rewrite (IH _ HP (sub_ok_slot_inv true _ _ _ _ (Hall k0 Hin) Ht Hi))
        by first [discriminate | exact (ends_with_star_tail _ _ He) | rewrite Hty; exact Hg2].
      apply (pall_slot_black _ _ _ _ _ (Hall k0 Hin) Ht Hi). discriminate.
Qed.

Lemma ins_all_typ gs : forall cur, m_typ (ins_all gs cur) = m_typ cur.
Proof. induction gs as [|g gs IH]; intro cur; [reflexivity|]. rewrite ins_all_cons, IH, ins_typ. reflexivity. Qed.

Lemma ins_all_pall_white : forall gs cur,
  no_conflict gs = true -> forallb (fun g => compat g cur) gs = true -> inv false cur = true ->
  forallb (gtyped (m_typ cur)) gs = true ->
  forall q, pall (Some (ins_all gs cur)) q = pall (Some cur) q || existsb (fun g => allg g q) gs.
Proof.
  induction gs as [|g gs IH]; intros cur Hnc Hall Hi Hty q; [cbn; rewrite orb_false_r; reflexivity|].
  destruct (ins_all_head _ _ _ Hnc Hall) as (Hcg & Hnc1 & Hall1).
  cbn [forallb] in Hty. rewrite andb_true_iff in Hty. destruct Hty as [Htg Hty].
  rewrite ins_all_cons, IH, (ins_pall_white g cur Hcg Hi Htg q) by (try apply ins_inv; try rewrite ins_typ; assumption).
  cbn [existsb]. rewrite orb_assoc. reflexivity.
Qed.

Lemma starat_beyondg g q : starat g q = true -> beyondg g q = true.
Proof.
  revert q. induction g as [|s r IH]; intros q H; [discriminate|]. destruct q as [|k q]; [reflexivity|].
  cbn [starat beyondg] in *. rewrite andb_true_iff in *. destruct H as [H1 H2]. split; auto.
Qed.

Lemma beyondg_not_rejg g q : beyondg g q = true -> rejg g q = false.
Proof.
  revert q. induction g as [|s r IH]; intros q H; [discriminate|]. destruct q as [|k q]; [reflexivity|].
  cbn [rejg beyondg] in *. rewrite andb_true_iff in H. destruct H as [H1 H2]. rewrite H1, (IH _ H2). reflexivity.
Qed.

Lemma gmatch_common s s2 k :
  same_kind s s2 = true -> gmatch s k = true -> gmatch s2 k = true -> disjointb key_eqb (gkeys s) (gkeys s2) = false.
Proof.
  intros Hk H1 H2. destruct (disjointb key_eqb (gkeys s) (gkeys s2)) eqn:E; [|reflexivity]. exfalso.
  unfold gmatch in *. destruct (is_gstar s) eqn:Hs.
  - assert (is_gstar s2 = true) by (destruct s, s2; try discriminate; reflexivity).
    rewrite (gstar_keys _ Hs), (gstar_keys _ H) in E. discriminate.
  - assert (is_gstar s2 = false) as Hs2 by (destruct s, s2; try discriminate; reflexivity).
    rewrite Hs2 in H2. cbn [orb] in *. apply existsb_exists in H1, H2.
    destruct H1 as [a [Ha Ea]]. destruct H2 as [b [Hb Eb]]. apply key_eqb_eq in Ea, Eb. subst.
    eapply disjointb_false_in; eauto.
Qed.

Lemma starat_compat2 : forall g g2 q,
  compat2 g g2 = true -> starat g q = true -> beyondg g2 q = true -> starat g2 q = true.
Proof.
  induction g as [|s r IH]; intros g2 q Hc Hs Ht; [discriminate|].
  destruct g2 as [|s2 r2]; [discriminate|].
  rewrite compat2_keys, andb_true_iff in Hc. destruct Hc as [Hk Hd].
  destruct q as [|k q]; cbn [starat beyondg] in *.
  - destruct s, s2; try discriminate; reflexivity.
  - rewrite andb_true_iff in *. destruct Hs as [Hm Hs]. destruct Ht as [Hm2 Ht]. split; [exact Hm2|].
    rewrite (gmatch_common s s2 k Hk Hm Hm2), andb_true_iff in Hd. eapply IH; eauto. tauto.
Qed.

(* the step of [ins_all_pall_black]: R, B, S say of the other paths what rejg, beyondg, starat say of g.  A truth
   table; the hypothesis and [starat_beyondg], [beyondg_not_rejg] exclude the rows on which the two sides differ *)
Lemma pall_after_step pc wc g q R B S :
  (starat g q = true -> B = true -> S = true) ->
  pall_after pc wc g q && negb R && negb B || wc && negb (rejg g q) && negb R && S =
  pc && negb (rejg g q || R) && negb (beyondg g q || B) || wc && negb (rejg g q || R) && (starat g q || S).
Proof.
  intro H3. pose proof (starat_beyondg g q) as H1. pose proof (beyondg_not_rejg g q) as H2. unfold pall_after.
  destruct (starat g q), (beyondg g q), (rejg g q); try discriminate (H1 eq_refl); try discriminate (H2 eq_refl);
    destruct B; try rewrite (H3 eq_refl eq_refl); destruct pc, wc, R, S; reflexivity.
Qed.

Lemma ins_all_pall_black : forall gs cur,
  no_conflict gs = true -> forallb (fun g => compat g cur) gs = true -> inv true cur = true ->
  forallb (gtyped (m_typ cur)) gs = true ->
  forallb (fun g => nonempty g && negb (ends_with_star g)) gs = true ->
  forall q, pall (Some (ins_all gs cur)) q =
    (pall (Some cur) q && negb (existsb (fun g => rejg g q) gs) && negb (existsb (fun g => beyondg g q) gs)) ||
    (walk (Some cur) q && negb (existsb (fun g => rejg g q) gs) && existsb (fun g => starat g q) gs).
Proof.
  induction gs as [|g gs IH]; intros cur Hnc Hall Hi Hty Hne q.
  - cbn [ins_all fold_left existsb negb]. rewrite !andb_true_r, andb_false_r, orb_false_r. reflexivity.
  - destruct (ins_all_head _ _ _ Hnc Hall) as (Hcg & Hnc1 & Hall1).
    cbn [no_conflict] in Hnc. rewrite andb_true_iff in Hnc. destruct Hnc as [Hg _].
    cbn [forallb] in Hty, Hne. rewrite andb_true_iff in Hty, Hne. destruct Hty as [Htg Hty]. destruct Hne as [Hn1 Hne].
    rewrite andb_true_iff, negb_true_iff in Hn1. destruct Hn1 as [Hgn Hge].
    assert (g <> []) as Hgne by (destruct g; [discriminate | congruence]).
    rewrite ins_all_cons, IH by (try apply ins_inv; try rewrite ins_typ; assumption).
    rewrite (ins_pall_black g cur Hcg Hi Hgne Hge Htg q), (ins_walk_black g cur Hcg Hi Hgne Hge q).
    cbn [existsb]. apply pall_after_step.
    (* where g goes on with a star, every other path that runs through q does too *)
    intros Hs Ht. apply existsb_exists in Ht. destruct Ht as [g' [Hin Ht]]. apply existsb_exists. exists g'. split; [exact Hin|].
    rewrite forallb_forall in Hg. eapply starat_compat2; eauto.
Qed.

Theorem gtyped_elab : forall env p d g, elab env d p = Some g -> gtyped (switch_ft env d) g = true.
Proof.
  intros env. induction p as [|s p IH]; intros d g He; [cbn in He; injection He as <-; reflexivity|].
  destruct (elab_cons _ _ _ _ _ He) as [(gs & d' & g' & Hs & _ & Hg & ->) | (-> & -> & f0 & fs & _ & _ & ->)]; [|reflexivity].
  cbn [gtyped]. rewrite (estep_container _ _ _ _ _ Hs), (estep_gft _ _ _ _ _ Hs), (IH _ _ Hg). reflexivity.
Qed.

Lemma gtyped_elab_all env d ps gs : elab_all env d ps = Some gs -> forallb (gtyped (switch_ft env d)) gs = true.
Proof.
  intro He. apply forallb_forall, Forall_forall.
  apply (elab_all_Forall env d (fun _ => true) _ (fun p g Hg _ => gtyped_elab _ _ _ _ Hg) ps gs He). apply forallb_const.
Qed.

(* "covered or goes on with a star", position first, as [expand_rel] and [existsb] take it *)
Definition Fall (q : list qkey) (p : spath) : bool := covers p q || star_at p q.

Lemma Fall_cons sg p k q : Fall (k :: q) (sg :: p) = seg_matches sg k && Fall q p.
Proof. unfold Fall. cbn [covers star_at]. destruct (seg_matches sg k); reflexivity. Qed.

Lemma allg_expand g q : groups_nonempty g = true -> allg g q = existsb (Fall q) (expand g).
Proof.
  intro Hne. apply (expand_rel allg Fall (fun star => star)); auto using Fall_cons.
Qed.

Lemma starat_expand g q : groups_nonempty g = true -> starat g q = existsb (fun p => star_at p q) (expand g).
Proof.
  intro Hne. apply (expand_rel starat (fun q p => star_at p q) (fun star => star)); auto.
  intros []; reflexivity.
Qed.

(* the path runs through the position (it may end exactly there) *)
Fixpoint touchesg (g : gpath) (q : list qkey) : bool :=
  match q, g with
  | [], _ => true
  | _ :: _, [] => false
  | k :: q', s :: r => gmatch s k && touchesg r q'
  end.

Lemma touchesg_expand g q : groups_nonempty g = true -> touchesg g q = existsb (fun p => touches p q) (expand g).
Proof.
  intro Hne. apply (expand_rel touchesg (fun q p => touches p q) (fun _ => true)); auto.
Qed.

Lemma touchesg_beyondg : forall g q, rejg g q = false -> touchesg g q = beyondg g q.
Proof.
  induction g as [|s r IH]; intros q H; [discriminate|]. destruct q as [|k q]; [reflexivity|].
  cbn [rejg touchesg beyondg] in *. destruct (gmatch s k); [cbn [andb] in *; apply IH; exact H | reflexivity].
Qed.

Lemma pall_empty black q : pall (Some (empty_mask black)) q = true.
Proof. destruct q as [|k q]; [reflexivity|]. rewrite pall_cons. cbn. apply pall_none. Qed.

Theorem built_pall_white env d gs :
  ok_ft (switch_ft env d) = true ->
  forallb (fun g => compat g (fresh (switch_ft env d) false)) gs = true ->
  no_conflict gs = true -> forallb (gtyped (switch_ft env d)) gs = true ->
  forall q, pall (Some (built env d false gs)) q = spec_all false (path_set gs) q.
Proof.
  intros Hok Hall Hnc Hty q.
  destruct gs as [|g0 gs0] eqn:Egs; [cbn [built path_set flat_map spec_all]; apply pall_empty|].
  rewrite <- Egs in *. assert (gs <> []) as Hgne by (rewrite Egs; discriminate).
  rewrite (built_nonempty _ _ _ _ Hgne).
  pose proof (inv_fresh false _ Hok) as Hi.
  pose proof (compat_all_groups _ _ Hall) as Hgn.
  rewrite (ins_all_pall_white gs _ Hnc Hall Hi Hty q).
  assert (spec_all false (path_set gs) q = existsb (fun g => allg g q) gs) as ->.
  { unfold spec_all, complete, starred. rewrite (match_nonempty (path_set gs)) by exact (path_set_nonempty gs Hgne Hgn).
    rewrite <- existsb_orb. apply (existsb_path_set (Fall q)). intros g Hg. apply allg_expand, Hgn, Hg. }
  rewrite pall_fresh by exact Hok.
  destruct q as [|k q]; [|reflexivity].
  destruct (container (switch_ft env d)) eqn:Ec; [reflexivity|]. cbn [negb orb]. symmetry.
  rewrite Egs. cbn [existsb]. rewrite Egs in Hty. cbn [forallb] in Hty. rewrite andb_true_iff in Hty.
  rewrite (gtyped_allg_nil _ g0 (proj1 Hty) Ec). reflexivity.
Qed.

Theorem built_pall_black env d gs :
  ok_ft (switch_ft env d) = true ->
  forallb (fun g => compat g (fresh (switch_ft env d) true)) gs = true ->
  in_domain true gs = true -> forallb (gtyped (switch_ft env d)) gs = true ->
  no_root_path gs = true ->
  forall q, walk (Some (built env d true gs)) q = true ->
  pall (Some (built env d true gs)) q = spec_all true (path_set gs) q.
Proof.
  intros Hok Hall Hdom Hty Hne q Hw. change (forallb (fun g => nonempty g) gs = true) in Hne.
  destruct gs as [|g0 gs0] eqn:Egs; [cbn [built path_set flat_map spec_all]; rewrite pall_empty; reflexivity|].
  rewrite <- Egs in *. rewrite built_nonempty in * by (rewrite Egs; discriminate).
  unfold in_domain in Hdom. rewrite andb_true_iff in Hdom. destruct Hdom as [Hnc Hts].
  pose proof (inv_fresh true _ Hok) as Hi.
  pose proof (compat_all_groups _ _ Hall) as Hgn.
  assert (forallb (fun g => nonempty g && negb (ends_with_star g)) gs = true) as Hne2.
  { rewrite forallb_forall in *. intros g Hg. rewrite (Hne g Hg). unfold no_tail_star in Hts. rewrite forallb_forall in Hts. apply Hts. exact Hg. }
  (* the walk passes: no path ends at q or above *)
  rewrite (ins_all_walk_black gs _ Hnc Hall Hi Hne2 q), walk_fresh in Hw by exact Hok. cbn [orb andb] in Hw. rewrite negb_true_iff in Hw.
  rewrite (ins_all_pall_black gs _ Hnc Hall Hi Hty Hne2 q), Hw, walk_fresh by exact Hok. cbn [negb orb andb].
  rewrite !andb_true_r.
  assert (starred (path_set gs) q = existsb (fun g => starat g q) gs) as Hs
    by (apply (existsb_path_set (fun p => star_at p q)); intros g Hg; apply starat_expand, Hgn, Hg).
  assert (touched (path_set gs) q = existsb (fun g => beyondg g q) gs) as Ht.
  { apply (existsb_path_set (fun p => touches p q)). intros g Hg. rewrite <- touchesg_expand by (apply Hgn; exact Hg).
    symmetry. apply touchesg_beyondg. destruct (rejg g q) eqn:E; [|reflexivity].
    assert (existsb (fun g1 => rejg g1 q) gs = true) by (apply existsb_exists; exists g; auto). congruence. }
  unfold spec_all. rewrite Hs, Ht. rewrite pall_fresh by exact Hok.
  destruct q as [|k q]; [|cbn [andb]; apply orb_comm].
  (* at the root: some path runs through it *)
  assert (existsb (fun g => beyondg g []) gs = true) as ->.
  { rewrite Egs. cbn [existsb]. rewrite Egs in Hne. cbn [forallb] in Hne. rewrite andb_true_iff in Hne.
    destruct g0; [destruct Hne; discriminate | reflexivity]. }
  cbn [negb]. rewrite andb_false_r, orb_false_r. reflexivity.
Qed.

Lemma pall_split m q : pall m q = walk m q && all_q (fst (walk_to m q)).
Proof. unfold pall, walk. destruct (walk_to m q) as [c ok]. reflexivity. Qed.

(* All() of the sub mask a passing walk reaches is what the path set prescribes *)
Theorem all_sound env d black strs ps gs m :
  map tokenize strs = map tokens_of ps ->
  well_typed env d ps = true -> elab_all env d ps = Some gs -> in_domain black gs = true ->
  (black = true -> forallb (fun g => nonempty g) gs = true) ->
  new_mask env d black strs = Ok m ->
  forall q, walk (Some m) q = true -> all_q (fst (walk_to (Some m) q)) = spec_all black (path_set gs) q.
Proof.
  intros Htok Hwt He Hdom Hne Hm q Hw. destruct (well_typed_parts _ _ _ Hwt) as [Hok [Hwf _]].
  assert (no_conflict gs = true) as Hnc by (unfold in_domain in Hdom; rewrite andb_true_iff in Hdom; tauto).
  rewrite (build_total_on_D env d black strs ps gs Htok Hwt He Hnc) in Hm. injection Hm as <-.
  pose proof (elab_all_compat_fresh _ _ _ _ He Hwf (switch_ft env d) black) as Hall.
  pose proof (gtyped_elab_all _ _ _ _ He) as Hty.
  assert (pall (Some (built env d black gs)) q = spec_all black (path_set gs) q) as Hp.
  { destruct black; [apply built_pall_black; auto | apply built_pall_white; auto]. }
  rewrite pall_split, Hw in Hp. exact Hp.
Qed.
