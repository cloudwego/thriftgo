(* Mask/TrieFacts.v — [ins], the clean insertion of one typed grouped path into a mask of
   Mask/Trie.v, [compat], the (decidable) condition under which the code-shaped [add_path]
   coincides with it, and the equations through which the other files see both. *)
From Coq Require Import List Bool ZArith.
From Coq.Strings Require Import Byte.
From Verif Require Import Base.Bytes Mask.Path Mask.Desc Mask.Trie Mask.Spec.
Import ListNotations.

Lemma key_eqb_eq a b : key_eqb a b = true <-> a = b.
Proof.
  destruct a, b; cbn; try (split; [discriminate | discriminate]); try tauto.
  - rewrite Z.eqb_eq. split; congruence.
  - rewrite Z.eqb_eq. split; congruence.
  - rewrite beqb_true. split; congruence.
Qed.

Lemma key_eqb_refl a : key_eqb a a = true.
Proof. apply key_eqb_eq; reflexivity. Qed.

Lemma key_eqb_neq a b : key_eqb a b = false <-> a <> b.
Proof.
  split.
  - intros H E. apply key_eqb_eq in E. congruence.
  - intros H. destruct (key_eqb a b) eqn:E; [apply key_eqb_eq in E; contradiction | reflexivity].
Qed.

Lemma key_eqb_sym a b : key_eqb a b = key_eqb b a.
Proof.
  destruct (key_eqb a b) eqn:E; symmetry.
  - apply key_eqb_eq in E; subst. apply key_eqb_refl.
  - apply key_eqb_neq. apply key_eqb_neq in E. congruence.
Qed.

Lemma ft_eqb_eq a b : ft_eqb a b = true -> a = b.
Proof. destruct a, b; cbn; congruence. Qed.
Lemma ft_eqb_refl a : ft_eqb a a = true.
Proof. destruct a; reflexivity. Qed.
Lemma ft_eqb_sym a b : ft_eqb a b = ft_eqb b a.
Proof. destruct a, b; reflexivity. Qed.

Lemma existsb_key_In k ks : existsb (key_eqb k) ks = true <-> In k ks.
Proof.
  rewrite existsb_exists. split.
  - intros [k' [Hin E]]. apply key_eqb_eq in E. subst. exact Hin.
  - intro Hin. exists k. split; [exact Hin | apply key_eqb_refl].
Qed.

Lemma klookup_kupsert_same k c l : klookup k (kupsert k c l) = Some c.
Proof.
  induction l as [|[k' c'] l IH]; cbn; [rewrite key_eqb_refl; reflexivity|].
  destruct (key_eqb k k') eqn:E; cbn; [rewrite key_eqb_refl | rewrite E]; auto.
Qed.

Lemma klookup_app_other k k' c l : k <> k' -> klookup k' (l ++ [(k, c)]) = klookup k' l.
Proof.
  intro Hne. induction l as [|[k2 c2] l IH]; cbn [app klookup]; [|rewrite IH; reflexivity].
  assert (key_eqb k' k = false) as -> by (apply key_eqb_neq; congruence). reflexivity.
Qed.

Lemma klookup_kupsert_other k k' c l : k <> k' -> klookup k' (kupsert k c l) = klookup k' l.
Proof.
  intro Hne. induction l as [|[k2 c2] l IH]; cbn.
  - assert (key_eqb k' k = false) as -> by (apply key_eqb_neq; congruence). reflexivity.
  - destruct (key_eqb k k2) eqn:E; cbn.
    + apply key_eqb_eq in E; subst k2.
      assert (key_eqb k' k = false) as -> by (apply key_eqb_neq; congruence). reflexivity.
    + destruct (key_eqb k' k2); auto.
Qed.

Definition nonempty {A} (l : list A) : bool := match l with [] => false | _ => true end.

Lemma nonempty_kupsert k c l : nonempty (kupsert k c l) = true.
Proof. destruct l as [|[k' c'] l]; cbn; [reflexivity|]. destruct (key_eqb k k'); reflexivity. Qed.

Fixpoint kforall (Q : key -> mask -> bool) (l : list (key * mask)) : bool :=
  match l with
  | [] => true
  | (k, c) :: r => Q k c && kforall Q r
  end.

Lemma kforall_klookup Q l k c : kforall Q l = true -> klookup k l = Some c -> Q k c = true.
Proof.
  induction l as [|[k' c'] r IH]; cbn; [discriminate|]. rewrite andb_true_iff. intros [H1 H2].
  destruct (key_eqb k k') eqn:E; [|auto]. apply key_eqb_eq in E. subst. intros [= <-]. exact H1.
Qed.

Lemma kforall_kupsert Q l k c : kforall Q l = true -> Q k c = true -> kforall Q (kupsert k c l) = true.
Proof.
  intros H Hc. induction l as [|[k' c'] r IH]; cbn; [rewrite Hc; reflexivity|].
  cbn in H. rewrite andb_true_iff in H. destruct H as [H1 H2].
  destruct (key_eqb k k'); cbn; [rewrite Hc, H2; reflexivity | rewrite H1, IH; auto].
Qed.

Lemma kforall_forallb Q l : kforall Q l = forallb (fun kc => Q (fst kc) (snd kc)) l.
Proof. induction l as [|[k c] r IH]; [reflexivity|]. cbn. rewrite IH. reflexivity. Qed.

Lemma nodupb_cons k ks : nodupb key_eqb (k :: ks) = true -> (forall k', In k' ks -> k <> k') /\ nodupb key_eqb ks = true.
Proof.
  cbn. rewrite andb_true_iff, negb_true_iff. intros [H1 H2]. split; [|exact H2].
  intros k' Hin E. subst k'. apply existsb_key_In in Hin. congruence.
Qed.

Lemma mask_eta m : Node (m_typ m) (m_isall m) (m_black m) (m_kids m) = m.
Proof. destruct m; reflexivity. Qed.

Lemma set_typ_same m : set_typ m (m_typ m) = m.
Proof. destruct m; reflexivity. Qed.

Lemma m_kids_put k c cur : m_kids (put k c cur) = kupsert k c (m_kids cur).
Proof. reflexivity. Qed.
Lemma m_typ_put k c cur : m_typ (put k c cur) = m_typ cur.
Proof. reflexivity. Qed.
Lemma m_isall_put k c cur : m_isall (put k c cur) = m_isall cur.
Proof. reflexivity. Qed.
Lemma m_black_put k c cur : m_black (put k c cur) = m_black cur.
Proof. reflexivity. Qed.

Lemma live_put k c cur : live (put k c cur) = live cur.
Proof. reflexivity. Qed.

Lemma slot_put_other k k' t c cur : k <> k' -> slot k' t (put k c cur) = slot k' t cur.
Proof. intro H. unfold slot. rewrite m_kids_put, klookup_kupsert_other, m_black_put by assumption. reflexivity. Qed.

Definition child_ins (k : key) (t : ft) (f : mask -> mask) (cur : mask) : mask :=
  put k (f (slot k t cur)) cur.

Definition ins_keys (ks : list key) (t : ft) (f : mask -> mask) (cur : mask) : mask :=
  fold_left (fun c k => child_ins k t f c) ks cur.

Definition gkeys (s : gseg) : list key :=
  match s with
  | GFld i _ => [KF i]
  | GInts ids _ => map KI ids
  | GStrs ss _ => map KS ss
  | GStar _ | GStarF _ => [KAll]
  end.
Definition gft (s : gseg) : ft :=
  match s with GFld _ t | GInts _ t | GStrs _ t | GStar t | GStarF t => t end.
Definition is_gstar (s : gseg) : bool :=
  match s with GStar _ | GStarF _ => true | _ => false end.

Fixpoint ins (g : gpath) (cur : mask) : mask :=
  match g with
  | [] => set_isall cur true
  | s :: r => ins_keys (gkeys s) (gft s) (ins r) (if is_gstar s then set_isall cur true else cur)
  end.

Definition nokall (cur : mask) : bool :=
  match klookup KAll (m_kids cur) with None => true | Some _ => false end.

Definition sub_ok (k : key) (t : ft) (rest_ok : mask -> bool) (cur : mask) : bool :=
  match klookup k (m_kids cur) with
  | None => rest_ok (fresh t (m_black cur))
  | Some c => live c && ft_eqb (m_typ c) t && rest_ok c
  end.

Definition fresh_state (cur : mask) : bool := negb (m_isall cur) && negb (nonempty (m_kids cur)).

Definition star_state (cur : mask) : bool :=
  match m_kids cur with
  | [] => negb (m_isall cur)
  | [(KAll, _)] => m_isall cur
  | _ => false
  end.

Fixpoint compat (g : gpath) (cur : mask) : bool :=
  match g with
  | [] => negb (nonempty (m_kids cur))
  | s :: r =>
      ok_ft (gft s) &&
      (match s with
       | GStarF _ => fresh_state cur && negb (nonempty r)
       | GStar _ => star_state cur
       | _ => negb (m_isall cur) && nokall cur && nonempty (gkeys s) && nodupb key_eqb (gkeys s)
       end) &&
      forallb (fun k => sub_ok k (gft s) (compat r) cur) (gkeys s)
  end.

Lemma ins_keys_cons k ks t f cur : ins_keys (k :: ks) t f cur = ins_keys ks t f (child_ins k t f cur).
Proof. reflexivity. Qed.

Lemma ins_keys_typ ks t f : forall cur, m_typ (ins_keys ks t f cur) = m_typ cur.
Proof. induction ks as [|k ks IH]; intros cur; [reflexivity|]. rewrite ins_keys_cons, IH. reflexivity. Qed.
Lemma ins_keys_black ks t f : forall cur, m_black (ins_keys ks t f cur) = m_black cur.
Proof. induction ks as [|k ks IH]; intros cur; [reflexivity|]. rewrite ins_keys_cons, IH. reflexivity. Qed.
Lemma ins_keys_isall ks t f : forall cur, m_isall (ins_keys ks t f cur) = m_isall cur.
Proof. induction ks as [|k ks IH]; intros cur; [reflexivity|]. rewrite ins_keys_cons, IH. reflexivity. Qed.

(* the children after the insertion of a key group without repetition: a key of the group
   holds what f made of its slot in the ORIGINAL node, the others are untouched *)
Lemma klookup_ins_keys t f ks : forall cur k, nodupb key_eqb ks = true ->
  klookup k (m_kids (ins_keys ks t f cur)) =
  if existsb (key_eqb k) ks then Some (f (slot k t cur)) else klookup k (m_kids cur).
Proof.
  induction ks as [|k0 ks IH]; intros cur k Hnd; [reflexivity|].
  apply nodupb_cons in Hnd. destruct Hnd as [Hne Hnd].
  rewrite ins_keys_cons, (IH _ _ Hnd). cbn [existsb]. unfold child_ins.
  destruct (existsb (key_eqb k) ks) eqn:E.
  - apply existsb_key_In in E.
    rewrite orb_true_r, slot_put_other by (apply Hne; exact E). reflexivity.
  - rewrite orb_false_r, m_kids_put. destruct (key_eqb k k0) eqn:E0.
    + apply key_eqb_eq in E0. subst k0. apply klookup_kupsert_same.
    + apply key_eqb_neq in E0. apply klookup_kupsert_other. congruence.
Qed.

Lemma kforall_ins_keys Q t f ks : forall cur, nodupb key_eqb ks = true ->
  kforall Q (m_kids cur) = true -> (forall k, In k ks -> Q k (f (slot k t cur)) = true) ->
  kforall Q (m_kids (ins_keys ks t f cur)) = true.
Proof.
  induction ks as [|k0 ks IH]; intros cur Hnd Hc HQ; [exact Hc|].
  apply nodupb_cons in Hnd. destruct Hnd as [Hne Hnd]. rewrite ins_keys_cons. unfold child_ins. apply IH; [exact Hnd| |].
  - rewrite m_kids_put. apply kforall_kupsert; [exact Hc | apply HQ; left; reflexivity].
  - intros k Hin. rewrite slot_put_other by (apply Hne; exact Hin). apply HQ. right. exact Hin.
Qed.

Lemma nonempty_ins_keys t f ks : forall cur,
  nonempty (m_kids (ins_keys ks t f cur)) = nonempty ks || nonempty (m_kids cur).
Proof.
  induction ks as [|k ks IH]; intros cur; [reflexivity|].
  rewrite ins_keys_cons, IH. unfold child_ins. rewrite m_kids_put, nonempty_kupsert. apply orb_true_r.
Qed.

Lemma ins_cons_kids s r cur k : nodupb key_eqb (gkeys s) = true ->
  klookup k (m_kids (ins (s :: r) cur)) =
  if existsb (key_eqb k) (gkeys s) then Some (ins r (slot k (gft s) cur)) else klookup k (m_kids cur).
Proof. intro H. cbn [ins]. rewrite (klookup_ins_keys _ _ _ _ _ H). destruct (is_gstar s); reflexivity. Qed.

Lemma ins_cons_kforall Q s r cur : nodupb key_eqb (gkeys s) = true ->
  kforall Q (m_kids cur) = true -> (forall k, In k (gkeys s) -> Q k (ins r (slot k (gft s) cur)) = true) ->
  kforall Q (m_kids (ins (s :: r) cur)) = true.
Proof. intros Hnd Hc HQ. cbn [ins]. apply kforall_ins_keys; [exact Hnd | |]; destruct (is_gstar s); assumption. Qed.

Lemma ins_cons_nonempty s r cur : nonempty (m_kids (ins (s :: r) cur)) = nonempty (gkeys s) || nonempty (m_kids cur).
Proof. cbn [ins]. rewrite nonempty_ins_keys. destruct (is_gstar s); reflexivity. Qed.

Lemma ins_cons_isall s r cur : m_isall (ins (s :: r) cur) = is_gstar s || m_isall cur.
Proof. cbn [ins]. rewrite ins_keys_isall. destruct (is_gstar s); reflexivity. Qed.

Lemma ins_typ g cur : m_typ (ins g cur) = m_typ cur.
Proof. destruct g as [|s r]; [reflexivity|]. cbn [ins]. rewrite ins_keys_typ. destruct (is_gstar s); reflexivity. Qed.

Lemma ins_black g cur : m_black (ins g cur) = m_black cur.
Proof. destruct g as [|s r]; [reflexivity|]. cbn [ins]. rewrite ins_keys_black. destruct (is_gstar s); reflexivity. Qed.

Lemma ins_live g cur : live (ins g cur) = live cur.
Proof. unfold live. rewrite ins_typ. reflexivity. Qed.

Lemma gstar_keys s : is_gstar s = true -> gkeys s = [KAll].
Proof. destruct s; cbn; try discriminate; reflexivity. Qed.

Lemma gkeys_not_all s : is_gstar s = false -> forall k, In k (gkeys s) -> k <> KAll.
Proof.
  destruct s; cbn; try discriminate; intros _ k.
  - intros [<-|[]]; discriminate.
  - rewrite in_map_iff. intros [x [<- _]]; discriminate.
  - rewrite in_map_iff. intros [x [<- _]]; discriminate.
Qed.

Lemma star_state_cases cur :
  star_state cur = true ->
  (m_isall cur = false /\ m_kids cur = []) \/ (m_isall cur = true /\ exists a, m_kids cur = [(KAll, a)]).
Proof.
  unfold star_state. destruct (m_kids cur) as [|[k a] [|x l]]; try discriminate.
  - rewrite negb_true_iff. auto.
  - destruct k; try discriminate. intros ->. right. split; [reflexivity | exists a; reflexivity].
  - destruct k; discriminate.
Qed.

Lemma compat_cons s r cur : compat (s :: r) cur = true ->
  ok_ft (gft s) = true /\ nonempty (gkeys s) = true /\ nodupb key_eqb (gkeys s) = true /\
  (forall k, In k (gkeys s) -> sub_ok k (gft s) (compat r) cur = true) /\
  (if is_gstar s then star_state cur = true else m_isall cur = false /\ nokall cur = true).
Proof.
  cbn [compat]. rewrite !andb_true_iff, forallb_forall. intros [[Ht H] Hall].
  split; [exact Ht|]. cut (nonempty (gkeys s) = true /\ nodupb key_eqb (gkeys s) = true /\
    if is_gstar s then star_state cur = true else m_isall cur = false /\ nokall cur = true); [tauto|].
  destruct s; cbn [gkeys is_gstar]; rewrite ?andb_true_iff, ?negb_true_iff in H; try tauto.
  repeat split. destruct H as [H _]. unfold fresh_state in H. rewrite andb_true_iff, !negb_true_iff in H.
    unfold star_state. destruct H as [-> H]. destruct (m_kids cur); [auto | discriminate].
Qed.
