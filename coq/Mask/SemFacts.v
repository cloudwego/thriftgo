(* Mask/SemFacts.v — what one clean insertion [ins] does to every query walk, for white and
   black lists, and the invariant of masks built without conflicts. *)
From Coq Require Import List Bool ZArith.
From Coq.Strings Require Import Byte.
From Verif Require Import Base.Bytes Mask.Path Mask.Desc Mask.Trie Mask.Spec Mask.TrieFacts.
Import ListNotations.

(* a node some path went through or ended at *)
Definition done (c : mask) : bool := m_isall c || nonempty (m_kids c).

(* every node is set and carries the mode b; every child is done *)
Fixpoint inv (b : bool) (m : mask) : bool :=
  match m with
  | Node t a bl ks =>
      negb (ft_eqb t FtInvalid) && Bool.eqb bl b &&
      (fix go (l : list (key * mask)) : bool :=
         match l with
         | [] => true
         | (_, c) :: r => done c && inv b c && go r
         end) ks
  end.

Lemma inv_unfold b m :
  inv b m = live m && Bool.eqb (m_black m) b && kforall (fun _ c => done c && inv b c) (m_kids m).
Proof.
  destruct m as [t a bl ks]. cbn [inv live m_typ m_black m_kids]. f_equal.
  induction ks as [|[k c] ks IH]; [reflexivity|]. cbn [kforall]. rewrite IH. reflexivity.
Qed.

Lemma inv_live b m : inv b m = true -> live m = true.
Proof. rewrite inv_unfold, !andb_true_iff. tauto. Qed.
Lemma inv_black b m : inv b m = true -> m_black m = b.
Proof. rewrite inv_unfold, !andb_true_iff. intros [[_ H] _]. apply eqb_prop in H. exact H. Qed.

Lemma inv_child b m k c : inv b m = true -> klookup k (m_kids m) = Some c -> inv b c = true /\ done c = true.
Proof.
  rewrite inv_unfold, !andb_true_iff. intros [_ H] Hk.
  pose proof (kforall_klookup _ _ _ _ H Hk) as H1. rewrite andb_true_iff in H1. tauto.
Qed.

Lemma inv_set_isall b m a : inv b (set_isall m a) = inv b m.
Proof. rewrite !inv_unfold. reflexivity. Qed.

Lemma inv_fresh b t : ok_ft t = true -> inv b (fresh t b) = true.
Proof. intro H. rewrite inv_unfold. unfold fresh, live. cbn. unfold ok_ft in H. rewrite H, eqb_reflx. reflexivity. Qed.

Lemma get_inv b cur k : inv b cur = true -> get k cur = klookup k (m_kids cur).
Proof.
  intro Hi. unfold get. destruct (klookup k (m_kids cur)) as [c|] eqn:E; [|reflexivity].
  destruct (inv_child _ _ _ _ Hi E) as [Hc _]. rewrite (inv_live _ _ Hc). reflexivity.
Qed.

Lemma sub_ok_slot k t (P : mask -> bool) cur :
  sub_ok k t P cur = true -> ok_ft t = true ->
  P (slot k t cur) = true /\ m_typ (slot k t cur) = t /\ live (slot k t cur) = true.
Proof.
  unfold sub_ok, slot. destruct (klookup k (m_kids cur)) as [c|].
  - rewrite !andb_true_iff. intros [[H1 H2] H3] _. rewrite H1. repeat split; auto.
    destruct (m_typ c), t; cbn in H2; congruence.
  - intros H Ht. repeat split; auto.
Qed.

Lemma sub_ok_slot_inv b k t (P : mask -> bool) cur :
  sub_ok k t P cur = true -> ok_ft t = true -> inv b cur = true -> inv b (slot k t cur) = true.
Proof.
  unfold sub_ok, slot. intros H Ht Hi. destruct (klookup k (m_kids cur)) as [c|] eqn:E.
  - rewrite !andb_true_iff in H. destruct H as [[H1 _] _]. rewrite H1. eapply inv_child; eauto.
  - rewrite (inv_black _ _ Hi). apply inv_fresh; assumption.
Qed.

Lemma sub_ok_put_other k k' t P c cur : k <> k' -> sub_ok k' t P (put k c cur) = sub_ok k' t P cur.
Proof. intro H. unfold sub_ok. rewrite m_kids_put, klookup_kupsert_other, m_black_put by assumption. reflexivity. Qed.

Lemma ins_inv b : forall g cur, compat g cur = true -> inv b cur = true ->
  inv b (ins g cur) = true /\ done (ins g cur) = true.
Proof.
  induction g as [|s r IH]; intros cur Hc Hi.
  - cbn [ins]. rewrite inv_set_isall. split; [exact Hi | reflexivity].
  - destruct (compat_cons _ _ _ Hc) as (Ht & Hne & Hnd & Hall & _). split.
    + pose proof Hi as Hi0. rewrite inv_unfold, !andb_true_iff in Hi0. destruct Hi0 as [[Hl Hb] Hk].
      rewrite inv_unfold, ins_live, ins_black, Hl, Hb. apply ins_cons_kforall; [exact Hnd | exact Hk|].
      intros k Hin. destruct (sub_ok_slot _ _ _ _ (Hall k Hin) Ht) as [HP _].
      destruct (IH _ HP (sub_ok_slot_inv b _ _ _ _ (Hall k Hin) Ht Hi)) as [A B]. rewrite A, B. reflexivity.
    + unfold done. rewrite ins_cons_nonempty, Hne. apply orb_true_r.
Qed.

Lemma has_child_nonempty m : has_child m = live m && nonempty (m_kids m).
Proof. reflexivity. Qed.

Lemma walk_nil m : walk m [] = true.
Proof. reflexivity. Qed.

Lemma walk_cons m k r : walk m (k :: r) = snd (query m k) && walk (fst (query m k)) r.
Proof. unfold walk. cbn [walk_to]. destruct (query m k) as [c ok]. cbn [fst snd]. destruct (walk_to c r). reflexivity. Qed.

Lemma walk_none q : walk None q = true.
Proof. induction q as [|k q IH]; [reflexivity|]. rewrite walk_cons. cbn. exact IH. Qed.

Definition is_some {A} (o : option A) : bool := match o with Some _ => true | None => false end.

Lemma query_white cur k : inv false cur = true ->
  query (Some cur) k =
  if m_isall cur then (klookup KAll (m_kids cur), true)
  else (klookup (key_of k) (m_kids cur), is_some (klookup (key_of k) (m_kids cur))).
Proof.
  intros Hi. unfold query, ret. rewrite (get_inv _ _ _ Hi), (inv_live _ _ Hi), (inv_black _ _ Hi). cbn [negb orb].
  destruct (m_isall cur); [reflexivity|]. destruct (klookup (key_of k) (m_kids cur)); reflexivity.
Qed.

Definition child_passes (o : option mask) : bool := match o with None => true | Some c => has_child c end.

Lemma query_black cur k : inv true cur = true ->
  query (Some cur) k =
  if m_isall cur then (klookup KAll (m_kids cur), has_child cur)
  else (klookup (key_of k) (m_kids cur), child_passes (klookup (key_of k) (m_kids cur))).
Proof.
  intros Hi. unfold query, ret. rewrite (get_inv _ _ _ Hi), (inv_live _ _ Hi), (inv_black _ _ Hi). cbn [negb orb].
  destruct (m_isall cur); reflexivity.
Qed.

Definition gmatch (s : gseg) (k : qkey) : bool :=
  is_gstar s || existsb (key_eqb (key_of k)) (gkeys s).

(* white: the path and the position agree as far as both go *)
Fixpoint selg (g : gpath) (q : list qkey) : bool :=
  match g, q with
  | [], _ => true
  | _, [] => true
  | s :: r, k :: q' => gmatch s k && selg r q'
  end.

(* black: the path ends at the position or above it *)
Fixpoint rejg (g : gpath) (q : list qkey) : bool :=
  match g, q with
  | [], _ => true
  | _ :: _, [] => false
  | s :: r, k :: q' => gmatch s k && rejg r q'
  end.

Lemma selg_nil_r g : selg g [] = true.
Proof. destruct g; reflexivity. Qed.

Lemma key_of_not_all k : key_of k <> KAll.
Proof. destruct k; discriminate. Qed.

Lemma query_fresh t b k : ok_ft t = true -> query (Some (fresh t b)) k = (None, b).
Proof. intro Ht. destruct b; [rewrite query_black | rewrite query_white]; try (apply inv_fresh; exact Ht); reflexivity. Qed.

Lemma walk_fresh t b q : ok_ft t = true -> walk (Some (fresh t b)) q = b || match q with [] => true | _ => false end.
Proof.
  intro Ht. destruct q as [|k q]; [symmetry; apply orb_true_r|]. rewrite walk_cons, query_fresh by exact Ht. cbn [fst snd].
  rewrite walk_none, orb_false_r. apply andb_true_r.
Qed.

Lemma slot_cases k t cur :
  (klookup k (m_kids cur) = None /\ slot k t cur = fresh t (m_black cur)) \/
  (exists c, klookup k (m_kids cur) = Some c /\ (live c = true -> slot k t cur = c)).
Proof.
  unfold slot. destruct (klookup k (m_kids cur)) as [c|]; [right|left; auto].
  exists c. split; [reflexivity|]. intros ->. reflexivity.
Qed.

(* the walk below the slot of k, seen from the unchanged parent (white).  A free slot is a
   fresh node, which passes the empty walk, while "no child" does not; [selg r [] = true] for
   any rest r absorbs this one difference, and with [|| selg r q] on both sides the equation
   is the step of [ins_walk_white]. *)
Lemma walk_slot_white k t P cur q r :
  sub_ok k t P cur = true -> ok_ft t = true -> m_black cur = false ->
  walk (Some (slot k t cur)) q || selg r q =
  is_some (klookup k (m_kids cur)) && walk (klookup k (m_kids cur)) q || selg r q.
Proof.
  intros Hs Ht Hb. unfold sub_ok in Hs. unfold slot.
  destruct (klookup k (m_kids cur)) as [c|].
  - rewrite !andb_true_iff in Hs. destruct Hs as [[H1 _] _]. rewrite H1. reflexivity.
  - rewrite Hb, walk_fresh by assumption. cbn [orb]. destruct q; [rewrite selg_nil_r; reflexivity | reflexivity].
Qed.

Lemma query_ins_white s r cur k : compat (s :: r) cur = true -> inv false cur = true ->
  if gmatch s k
  then exists k0, In k0 (gkeys s) /\
         query (Some (ins (s :: r) cur)) k = (Some (ins r (slot k0 (gft s) cur)), true) /\
         query (Some cur) k = (klookup k0 (m_kids cur), is_some (klookup k0 (m_kids cur)))
  else query (Some (ins (s :: r) cur)) k = query (Some cur) k.
Proof.
  intros Hc Hi. destruct (compat_cons _ _ _ Hc) as (_ & _ & Hnd & _ & Hst).
  rewrite (query_white (ins (s :: r) cur)), (query_white cur) by (try apply ins_inv; assumption).
  rewrite ins_cons_isall, !ins_cons_kids by exact Hnd. unfold gmatch.
  destruct (is_gstar s) eqn:Hs; cbn [orb].
  - exists KAll. rewrite (gstar_keys _ Hs). cbn [existsb key_eqb orb]. split; [left; reflexivity|]. split; [reflexivity|].
    destruct (star_state_cases _ Hst) as [[-> ->]|[-> [a ->]]]; reflexivity.
  - destruct Hst as [-> _]. destruct (existsb (key_eqb (key_of k)) (gkeys s)) eqn:E; [|reflexivity].
    exists (key_of k). split; [apply existsb_key_In; exact E | split; reflexivity].
Qed.

Theorem ins_walk_white : forall g cur, compat g cur = true -> inv false cur = true ->
  forall q, walk (Some (ins g cur)) q = walk (Some cur) q || selg g q.
Proof.
  induction g as [|s r IH]; intros cur Hc Hi q.
  - cbn [ins selg]. rewrite orb_true_r. destruct q as [|k q]; [reflexivity|].
    rewrite walk_cons, query_white by (rewrite inv_set_isall; exact Hi).
    cbn [set_isall m_isall m_kids fst snd andb].
    cbn [compat] in Hc. destruct (m_kids cur); [|discriminate]. cbn. apply walk_none.
  - destruct q as [|k q]; [reflexivity|].
    destruct (compat_cons _ _ _ Hc) as (Ht & _ & _ & Hall & _).
    rewrite !walk_cons. cbn [selg]. pose proof (query_ins_white s r cur k Hc Hi) as Hq.
    destruct (gmatch s k); [|rewrite Hq, orb_false_r; reflexivity].
    destruct Hq as (k0 & Hin & -> & ->). cbn [fst snd andb].
    destruct (sub_ok_slot _ _ _ _ (Hall k0 Hin) Ht) as [HP _].
    rewrite (IH _ HP (sub_ok_slot_inv false _ _ _ _ (Hall k0 Hin) Ht Hi)).
    apply (walk_slot_white _ _ _ _ _ _ (Hall k0 Hin) Ht (inv_black _ _ Hi)).
Qed.

Lemma ends_with_star_cons s r : r <> [] -> ends_with_star (s :: r) = ends_with_star r.
Proof. destruct r as [|x r]; [congruence|]. intros _. destruct s; reflexivity. Qed.

Lemma ends_with_star_single s : ends_with_star [s] = is_gstar s.
Proof. destruct s; reflexivity. Qed.

Lemma ends_with_star_tail s r : ends_with_star (s :: r) = false -> ends_with_star r = false.
Proof. intro H. destruct r as [|x r]; [reflexivity|]. rewrite <- (ends_with_star_cons s) by discriminate. exact H. Qed.

Lemma star_goes_on s r : is_gstar s = true -> ends_with_star (s :: r) = false -> r <> [].
Proof. intros Hs He E. subst r. rewrite ends_with_star_single in He. congruence. Qed.

Lemma rejg_nil_r g : g <> [] -> rejg g [] = false.
Proof. destruct g; [congruence | reflexivity]. Qed.

Lemma compat_done_has_child r c :
  compat r c = true -> r <> [] -> done c = true -> live c = true -> has_child c = true.
Proof.
  intros Hc Hr Hd Hl. destruct r as [|s r]; [congruence|].
  rewrite has_child_nonempty, Hl. unfold done in Hd.
  destruct (compat_cons _ _ _ Hc) as (_ & _ & _ & _ & Hst). destruct (is_gstar s).
  - destruct (star_state_cases _ Hst) as [[Ha Hk]|[_ [a ->]]]; [|reflexivity]. rewrite Ha, Hk in Hd. discriminate.
  - destruct Hst as [Ha _]. rewrite Ha in Hd. exact Hd.
Qed.

Lemma has_child_ins_nil c : has_child (ins [] c) = has_child c.
Proof. reflexivity. Qed.

Lemma has_child_ins r c : compat r c = true -> r <> [] -> live c = true -> has_child (ins r c) = true.
Proof.
  intros Hc Hr Hl. destruct r as [|s r]; [congruence|]. destruct (compat_cons _ _ _ Hc) as (_ & Hne & _).
  rewrite has_child_nonempty, ins_live, Hl, ins_cons_nonempty, Hne. reflexivity.
Qed.

Lemma walk_slot_black k t r cur q :
  sub_ok k t (compat r) cur = true -> ok_ft t = true -> inv true cur = true -> r <> [] ->
  walk (Some (slot k t cur)) q = child_passes (klookup k (m_kids cur)) && walk (klookup k (m_kids cur)) q.
Proof.
  intros Hs Ht Hi Hr. unfold sub_ok in Hs. unfold slot. destruct (klookup k (m_kids cur)) as [c|] eqn:E.
  - rewrite !andb_true_iff in Hs. destruct Hs as [[Hl _] Hc]. rewrite Hl. destruct (inv_child _ _ _ _ Hi E) as [_ Hd].
    cbn [child_passes]. rewrite (compat_done_has_child r c Hc Hr Hd Hl). reflexivity.
  - rewrite (inv_black _ _ Hi), walk_fresh, walk_none by exact Ht. reflexivity.
Qed.

Lemma has_child_ins_end k t cur : sub_ok k t (compat []) cur = true -> ok_ft t = true ->
  has_child (ins [] (slot k t cur)) = false.
Proof.
  intros Hs Ht. destruct (sub_ok_slot _ _ _ _ Hs Ht) as [HP _]. cbn [compat] in HP.
  rewrite has_child_ins_nil, has_child_nonempty. rewrite negb_true_iff in HP. rewrite HP. apply andb_false_r.
Qed.

Lemma query_ins_black s r cur k : compat (s :: r) cur = true -> inv true cur = true -> ends_with_star (s :: r) = false ->
  if gmatch s k
  then exists k0, In k0 (gkeys s) /\
         query (Some (ins (s :: r) cur)) k =
           (Some (ins r (slot k0 (gft s) cur)), has_child (ins r (slot k0 (gft s) cur))) /\
         query (Some cur) k = (klookup k0 (m_kids cur), child_passes (klookup k0 (m_kids cur)))
  else query (Some (ins (s :: r) cur)) k = query (Some cur) k.
Proof.
  intros Hc Hi He. destruct (compat_cons _ _ _ Hc) as (Ht & _ & Hnd & Hall & Hst).
  rewrite (query_black (ins (s :: r) cur)), (query_black cur) by (try apply ins_inv; assumption).
  rewrite ins_cons_isall, !ins_cons_kids by exact Hnd. unfold gmatch.
  destruct (is_gstar s) eqn:Hs; cbn [orb].
  - (* star: the path goes on below it, so the node and the star child have children *)
    pose proof (star_goes_on _ _ Hs He) as Hr. exists KAll. rewrite (gstar_keys _ Hs) in *. cbn [existsb key_eqb orb]. split; [left; reflexivity|].
    pose proof (Hall KAll (or_introl eq_refl)) as Hk. destruct (sub_ok_slot _ _ _ _ Hk Ht) as [HP [_ Hlv]].
    rewrite (has_child_ins _ _ Hc ltac:(discriminate) (inv_live _ _ Hi)), (has_child_ins r _ HP Hr Hlv). split; [reflexivity|].
    unfold sub_ok in Hk.
    destruct (star_state_cases _ Hst) as [[Ha Hks]|[Ha [a Hks]]]; rewrite Ha; [rewrite Hks; reflexivity|].
    destruct (inv_child true cur KAll a Hi) as [_ Hd]; [rewrite Hks; reflexivity|].
    rewrite has_child_nonempty, (inv_live _ _ Hi), Hks in *. cbn [klookup key_eqb child_passes] in *.
    rewrite !andb_true_iff in Hk. destruct Hk as [[Hl _] Hca].
    rewrite (compat_done_has_child r a Hca Hr Hd Hl). reflexivity.
  - destruct Hst as [-> _]. destruct (existsb (key_eqb (key_of k)) (gkeys s)) eqn:E; [|reflexivity].
    exists (key_of k). split; [apply existsb_key_In; exact E | split; reflexivity].
Qed.

Theorem ins_walk_black : forall g cur, compat g cur = true -> inv true cur = true ->
  g <> [] -> ends_with_star g = false ->
  forall q, walk (Some (ins g cur)) q = walk (Some cur) q && negb (rejg g q).
Proof.
  induction g as [|s r IH]; intros cur Hc Hi Hg He q; [congruence|].
  destruct q as [|k q]; [reflexivity|].
  destruct (compat_cons _ _ _ Hc) as (Ht & _ & _ & Hall & _).
  rewrite !walk_cons. cbn [rejg]. pose proof (query_ins_black s r cur k Hc Hi He) as Hq.
  destruct (gmatch s k); [|rewrite Hq, andb_true_r; reflexivity].
  destruct Hq as (k0 & Hin & -> & ->). cbn [fst snd andb].
  destruct r as [|s' r'].
  - rewrite (has_child_ins_end _ _ _ (Hall _ Hin) Ht). cbn [rejg negb]. rewrite andb_false_r. reflexivity.
  - destruct (sub_ok_slot _ _ _ _ (Hall k0 Hin) Ht) as [HP [_ Hlv]].
    rewrite (has_child_ins _ _ HP ltac:(discriminate) Hlv). cbn [andb].
    rewrite (IH _ HP (sub_ok_slot_inv true _ _ _ _ (Hall k0 Hin) Ht Hi)) by (discriminate || exact (ends_with_star_tail _ _ He)).
    rewrite (walk_slot_black _ _ _ _ _ (Hall k0 Hin) Ht Hi) by discriminate. reflexivity.
Qed.
