(* Mask/JsonFacts.v — the JSON model (Mask/Json.v): the children of every emitted node are
   sorted; [norm] is the mask that comes back from the JSON form (children re-ordered by key);
   on [canon] masks [of_json (to_json m) = Ok (norm m)], and [norm m] answers every query
   sequence and prints as m does; [ins] keeps masks [canon], so masks built on the domain are. *)
From Coq Require Import List Bool ZArith NArith Lia Permutation.
From Coq.Strings Require Import Byte.
From Verif Require Import Base.Bytes Mask.Path Mask.Desc Mask.Trie Mask.Spec Mask.Json Mask.TrieFacts Mask.SemFacts Mask.FrameFacts Mask.RefineFacts Mask.C14Facts.
Import ListNotations.

Lemma mask_ind' (P : mask -> Prop) :
  (forall t a b ks, Forall (fun kc => P (snd kc)) ks -> P (Node t a b ks)) -> forall m, P m.
Proof.
  intros H. fix IH 1. intros [t a b ks]. apply H.
  induction ks as [|[k c] ks IHks]; constructor; [apply IH | exact IHks].
Qed.

(* what marshalRec hands the parent for one child: key, whether the child is set, its JSON *)
Definition entry_of (kc : key * mask) : entry := (fst kc, live (snd kc), to_jt (jpath_of_key (fst kc)) (snd kc)).

Lemma to_jt_unfold p m :
  to_jt p m = node_json p (m_typ m) (m_isall m) (m_black m) (map entry_of (m_kids m)).
Proof.
  destruct m as [t a b ks]. cbn [to_jt m_typ m_isall m_black m_kids]. f_equal.
  all: induction ks as [|[k c] ks IH]; [reflexivity|]; cbn [map entry_of fst snd]; rewrite IH; reflexivity.
Qed.

Lemma jsorted_unfold p t b h kids :
  jsorted (JNode p t b h kids) = paths_sorted kids && forallb jsorted kids.
Proof.
  reflexivity.
Qed.

Lemma bytes_leb_total : forall a b, bytes_leb a b = false -> bytes_leb b a = true.
Proof.
  induction a as [|x a IH]; intros [|y b]; cbn; try discriminate; try reflexivity.
  destruct (Byte.to_N x <? Byte.to_N y)%N eqn:E1; [discriminate|].
  destruct (Byte.to_N y <? Byte.to_N x)%N eqn:E2; [reflexivity|]. apply IH.
Qed.

Lemma key_leb_total a b : key_leb a b = false -> key_leb b a = true.
Proof.
  destruct a, b; cbn; try discriminate; try reflexivity.
  - rewrite Z.leb_gt, Z.leb_le. lia.
  - rewrite Z.leb_gt, Z.leb_le. lia.
  - apply bytes_leb_total.
Qed.

Definition ekey (e : entry) : key := fst (fst e).

Fixpoint esorted (l : list entry) : bool :=
  match l with
  | [] => true
  | x :: r => match r with
              | [] => true
              | y :: _ => key_leb (ekey x) (ekey y) && esorted r
              end
  end.

Lemma insert_sorted_esorted e : forall l, esorted l = true -> esorted (insert_sorted e l) = true.
Proof.
  induction l as [|x r IH]; intros Hs; [reflexivity|].
  cbn [insert_sorted]. fold (ekey e) (ekey x). destruct (key_leb (ekey e) (ekey x)) eqn:E.
  - cbn [esorted]. rewrite E. exact Hs.
  - apply key_leb_total in E.
    destruct r as [|y r'].
    + cbn [insert_sorted esorted]. rewrite E. reflexivity.
    + cbn [esorted] in Hs. rewrite andb_true_iff in Hs. destruct Hs as [H1 H2].
      specialize (IH H2). cbn [insert_sorted] in *. fold (ekey e) (ekey y) in *.
      destruct (key_leb (ekey e) (ekey y)) eqn:E2.
      * cbn [esorted]. rewrite E, E2. exact H2.
      * change (esorted (x :: y :: insert_sorted e r') = true). cbn [esorted]. rewrite H1. exact IH.
Qed.

Lemma sort_entries_esorted l : esorted (sort_entries l) = true.
Proof. induction l as [|x r IH]; [reflexivity|]. cbn [sort_entries fold_right]. apply insert_sorted_esorted. exact IH. Qed.

Lemma sort_entries_of_sorted : forall l, esorted l = true -> sort_entries l = l.
Proof.
  induction l as [|x r IH]; intro Hs; [reflexivity|].
  cbn [sort_entries fold_right]. change (fold_right insert_sorted [] r) with (sort_entries r).
  destruct r as [|y r']; [reflexivity|].
  cbn [esorted] in Hs. rewrite andb_true_iff in Hs. destruct Hs as [H1 H2].
  rewrite (IH H2). cbn [insert_sorted]. fold (ekey x) (ekey y). rewrite H1. reflexivity.
Qed.

Lemma sort_entries_idem l : sort_entries (sort_entries l) = sort_entries l.
Proof. apply sort_entries_of_sorted, sort_entries_esorted. Qed.

Lemma insert_sorted_forall (P : entry -> Prop) e l : P e -> Forall P l -> Forall P (insert_sorted e l).
Proof.
  intros He Hl. induction Hl as [|x r Hx Hr IH]; cbn [insert_sorted]; [constructor; auto|].
  destruct (key_leb (fst (fst e)) (fst (fst x))); constructor; auto.
Qed.

Lemma sort_entries_forall (P : entry -> Prop) l : Forall P l -> Forall P (sort_entries l).
Proof. induction 1 as [|x r Hx Hr IH]; [constructor|]. cbn [sort_entries fold_right]. apply insert_sorted_forall; assumption. Qed.

Lemma filter_forall {A} (P : A -> Prop) f l : Forall P l -> Forall P (filter f l).
Proof. induction 1 as [|x r Hx Hr IH]; cbn; [constructor|]. destruct (f x); [constructor|]; auto. Qed.

Lemma filter_forall_true {A} (f : A -> bool) l : Forall (fun x => f x = true) (filter f l).
Proof. induction l as [|x r IH]; cbn; [constructor|]. destruct (f x) eqn:E; [constructor|]; auto. Qed.

Lemma store_leb t a b : store_of t a = true -> store_of t b = true ->
  key_leb a b = jpath_leb (jpath_of_key a) (jpath_of_key b).
Proof. destruct t, a, b; cbn; try discriminate; reflexivity. Qed.

Definition entry_ok (e : entry) : Prop := jt_path (snd e) = jpath_of_key (ekey e) /\ jsorted (snd e) = true.

Lemma node_json_head p t a b sub : jt_path (node_json p t a b sub) = p /\ jt_typ (node_json p t a b sub) = t.
Proof.
  unfold node_json. destruct (match t with FtStruct | FtList | FtIntMap | FtStrMap => a | _ => true end); [|split; reflexivity].
  destruct (find_all sub) as [[lv j]|]; split; reflexivity.
Qed.

Lemma jt_path_to_jt p m : jt_path (to_jt p m) = p.
Proof. rewrite to_jt_unfold. apply node_json_head. Qed.

Lemma paths_sorted_cons2 a b r : paths_sorted (a :: b :: r) = jpath_leb (jt_path a) (jt_path b) && paths_sorted (b :: r).
Proof. reflexivity. Qed.

Lemma paths_sorted_of_esorted t : forall l,
  Forall entry_ok l -> Forall (fun e => store_of t (ekey e) = true) l -> esorted l = true ->
  paths_sorted (map snd l) = true.
Proof.
  induction l as [|x r IH]; intros Hok Hst Hs; [reflexivity|].
  inversion Hok as [|? ? Hx Hr]; subst. inversion Hst as [|? ? Sx Sr]; subst.
  destruct r as [|y r']; [reflexivity|].
  cbn [esorted] in Hs. rewrite andb_true_iff in Hs. destruct Hs as [H1 H2].
  inversion Hr as [|? ? Hy _]; subst. inversion Sr as [|? ? Sy _]; subst.
  change (map snd (x :: y :: r')) with (snd x :: snd y :: map snd r').
  change (map snd (y :: r')) with (snd y :: map snd r') in IH.
  rewrite paths_sorted_cons2, (IH Hr Sr H2), andb_true_r.
  destruct Hx as [Px _], Hy as [Py _]. rewrite Px, Py, <- (store_leb t _ _ Sx Sy). exact H1.
Qed.

Lemma find_all_in l lv j : find_all l = Some (lv, j) -> exists k, In (k, lv, j) l.
Proof.
  induction l as [|[[k b] x] r IH]; cbn; [discriminate|].
  destruct k; try (intro H; destruct (IH H) as [k' Hk]; exists k'; right; exact Hk).
  intros [= <- <-]. exists KAll. left. reflexivity.
Qed.

Lemma node_json_sorted p t a b sub : Forall entry_ok sub -> jsorted (node_json p t a b sub) = true.
Proof.
  intro Hok. unfold node_json.
  destruct (match t with FtStruct | FtList | FtIntMap | FtStrMap => a | _ => true end).
  - destruct (find_all sub) as [[lv j]|] eqn:E; [|reflexivity].
    destruct (find_all_in _ _ _ E) as [k Hin]. rewrite Forall_forall in Hok. destruct (Hok _ Hin) as [_ Hj].
    cbn [snd] in Hj. rewrite jsorted_unfold. destruct lv; cbn [paths_sorted forallb andb]; [rewrite Hj|]; reflexivity.
  - rewrite jsorted_unfold.
    set (fl := filter (fun e => store_of t (fst (fst e)) && snd (fst e)) sub).
    assert (Forall entry_ok (sort_entries fl)) as H1 by (apply sort_entries_forall, filter_forall; exact Hok).
    assert (Forall (fun e => store_of t (ekey e) = true) (sort_entries fl)) as H2.
    { apply sort_entries_forall. unfold fl. pose proof (filter_forall_true (fun e : entry => store_of t (fst (fst e)) && snd (fst e)) sub) as X.
      eapply Forall_impl; [|exact X]. cbn. intros e He. rewrite andb_true_iff in He. tauto. }
    rewrite (paths_sorted_of_esorted t _ H1 H2 (sort_entries_esorted fl)). cbn [andb].
    rewrite forallb_forall. intros j Hj. apply in_map_iff in Hj. destruct Hj as [e [<- He]].
    rewrite Forall_forall in H1. apply H1. exact He.
Qed.

Theorem to_jt_sorted : forall m p, jsorted (to_jt p m) = true.
Proof.
  induction m as [t a b ks IH] using mask_ind'. intro p. rewrite to_jt_unfold. apply node_json_sorted.
  cbn [m_kids]. rewrite Forall_forall. intros e He. apply in_map_iff in He.
  destruct He as [[k c] [<- Hin]]. rewrite Forall_forall in IH. split; cbn [snd fst ekey].
  - apply jt_path_to_jt.
  - apply (IH (k, c) Hin).
Qed.

Theorem to_json_sorted m : jsorted (to_json m) = true.
Proof. apply to_jt_sorted. Qed.

Lemma canon_unfold m :
  canon m = live m && forallb (fun kc => canon (snd kc)) (m_kids m) &&
            (if m_isall m then match m_kids m with [] => true | [(KAll, _)] => true | _ => false end
             else nonempty (m_kids m) && nodupb key_eqb (map fst (m_kids m)) && forallb (fun kc => key_ok (m_typ m) (fst kc)) (m_kids m)).
Proof.
  destruct m as [t a b ks]. cbn [canon live m_typ m_isall m_kids]. f_equal. f_equal.
  induction ks as [|[k c] ks IH]; [reflexivity|]. cbn [forallb snd]. rewrite IH. reflexivity.
Qed.

(* insertion sort of children by key (the order sort.Stable gives the JSON children) *)
Fixpoint kinsert (e : key * mask) (l : list (key * mask)) : list (key * mask) :=
  match l with
  | [] => [e]
  | x :: r => if key_leb (fst e) (fst x) then e :: l else x :: kinsert e r
  end.
Definition ksort (l : list (key * mask)) : list (key * mask) := fold_right kinsert [] l.

Fixpoint norm (m : mask) : mask :=
  match m with
  | Node t a b ks =>
      let ks' := (fix go (l : list (key * mask)) : list (key * mask) :=
                    match l with [] => [] | (k, c) :: r => (k, norm c) :: go r end) ks in
      if a then Node t true b ks' else Node t false b (ksort ks')
  end.

Definition nmap (ks : list (key * mask)) : list (key * mask) := map (fun kc => (fst kc, norm (snd kc))) ks.

Lemma norm_unfold m :
  norm m = Node (m_typ m) (m_isall m) (m_black m) (if m_isall m then nmap (m_kids m) else ksort (nmap (m_kids m))).
Proof.
  destruct m as [t a b ks]. cbn [norm m_typ m_isall m_black m_kids].
  assert ((fix go (l : list (key * mask)) : list (key * mask) :=
             match l with [] => [] | (k, c) :: r => (k, norm c) :: go r end) ks = nmap ks) as ->.
  { induction ks as [|[k c] ks IH]; [reflexivity|]. cbn [nmap map fst snd]. rewrite IH. reflexivity. }
  destruct a; reflexivity.
Qed.

Lemma kinsert_map (f : mask -> mask) e l :
  map (fun kc => (fst kc, f (snd kc))) (kinsert e l) = kinsert (fst e, f (snd e)) (map (fun kc => (fst kc, f (snd kc))) l).
Proof.
  induction l as [|x r IH]; [reflexivity|]. cbn [kinsert map fst snd].
  destruct (key_leb (fst e) (fst x)); cbn [map fst snd]; [reflexivity | rewrite IH; reflexivity].
Qed.

Lemma ksort_map (f : mask -> mask) l :
  map (fun kc => (fst kc, f (snd kc))) (ksort l) = ksort (map (fun kc => (fst kc, f (snd kc))) l).
Proof.
  induction l as [|x r IH]; [reflexivity|]. cbn [ksort fold_right map]. rewrite kinsert_map. f_equal. exact IH.
Qed.

Lemma insert_sorted_entries e l : map entry_of (kinsert e l) = insert_sorted (entry_of e) (map entry_of l).
Proof.
  induction l as [|x r IH]; [reflexivity|]. cbn [kinsert map insert_sorted].
  change (fst (fst (entry_of e))) with (fst e). change (fst (fst (entry_of x))) with (fst x).
  destruct (key_leb (fst e) (fst x)); cbn [map]; [reflexivity | rewrite IH; reflexivity].
Qed.

Lemma sort_entries_of l : sort_entries (map entry_of l) = map entry_of (ksort l).
Proof.
  induction l as [|x r IH]; [reflexivity|]. cbn [map sort_entries ksort fold_right].
  change (fold_right insert_sorted [] (map entry_of r)) with (sort_entries (map entry_of r)).
  rewrite IH, insert_sorted_entries. reflexivity.
Qed.

Lemma kinsert_perm e l : Permutation (kinsert e l) (e :: l).
Proof.
  induction l as [|x r IH]; [reflexivity|]. cbn [kinsert]. destruct (key_leb (fst e) (fst x)); [reflexivity|].
  eapply perm_trans; [apply perm_skip, IH | apply perm_swap].
Qed.

Lemma ksort_perm l : Permutation (ksort l) l.
Proof.
  induction l as [|x r IH]; [reflexivity|]. cbn [ksort fold_right].
  eapply perm_trans; [apply kinsert_perm | apply perm_skip, IH].
Qed.

Lemma in_ksort l x : In x (ksort l) <-> In x l.
Proof. split; apply Permutation_in; [|symmetry]; apply ksort_perm. Qed.

Lemma ksort_nonempty l : nonempty (ksort l) = nonempty l.
Proof. pose proof (Permutation_length (ksort_perm l)) as H. destruct (ksort l), l; try discriminate H; reflexivity. Qed.

Lemma NoDup_keys_ksort l : NoDup (map fst l) -> NoDup (map fst (ksort l)).
Proof. apply Permutation_NoDup, Permutation_map, Permutation_sym, ksort_perm. Qed.

Lemma klookup_nmap k l : klookup k (nmap l) = option_map norm (klookup k l).
Proof.
  induction l as [|[k' c] r IH]; [reflexivity|]. cbn [nmap map klookup fst snd].
  destruct (key_eqb k k'); [reflexivity | exact IH].
Qed.

Lemma klookup_none_notin k l : klookup k l = None <-> ~ In k (map fst l).
Proof.
  induction l as [|[k' c] r IH]; cbn [klookup map fst In]; [tauto|].
  destruct (key_eqb k k') eqn:E.
  - apply key_eqb_eq in E. subst. split; [discriminate | tauto].
  - apply key_eqb_neq in E. rewrite IH. split; [intros H [H1|H1]; congruence | tauto].
Qed.

Lemma nodupb_NoDup l : nodupb key_eqb l = true <-> NoDup l.
Proof.
  induction l as [|x r IH]; cbn [nodupb]; [split; [constructor | reflexivity]|].
  rewrite andb_true_iff, negb_true_iff, IH. split.
  - intros [H1 H2]. constructor; [|exact H2]. intro Hin. apply existsb_key_In in Hin. congruence.
  - intro H. inversion H as [|? ? H1 H2]; subst. split; [|exact H2].
    destruct (existsb (key_eqb x) r) eqn:E; [|reflexivity]. apply existsb_key_In in E. contradiction.
Qed.

Lemma klookup_kinsert k e l :
  ~ In (fst e) (map fst l) ->
  klookup k (kinsert e l) = if key_eqb k (fst e) then Some (snd e) else klookup k l.
Proof.
  intro Hn. induction l as [|[k' c] r IH]; [destruct e; reflexivity|].
  cbn [kinsert fst]. destruct (key_leb (fst e) k').
  - destruct e as [ke ce]. reflexivity.
  - cbn [klookup]. rewrite IH by (intro H; apply Hn; right; exact H).
    destruct (key_eqb k k') eqn:E1, (key_eqb k (fst e)) eqn:E2; try reflexivity.
    exfalso. apply key_eqb_eq in E1, E2. subst. apply Hn. left. reflexivity.
Qed.

Lemma klookup_ksort k l : NoDup (map fst l) -> klookup k (ksort l) = klookup k l.
Proof.
  induction l as [|[k' c] r IH]; intro Hnd; [reflexivity|].
  cbn [map fst] in Hnd. inversion Hnd as [|? ? H1 H2]; subst.
  cbn [ksort fold_right]. change (fold_right kinsert [] r) with (ksort r).
  rewrite klookup_kinsert.
  - cbn [fst snd klookup]. rewrite (IH H2). reflexivity.
  - cbn [fst]. intro Hin. apply H1. apply in_map_iff in Hin. destruct Hin as [y [<- Hy]]. apply (proj1 (in_ksort _ _)) in Hy.
    apply in_map_iff. exists y. auto.
Qed.

Lemma map_fst_nmap l : map fst (nmap l) = map fst l.
Proof. unfold nmap. rewrite map_map. reflexivity. Qed.

Lemma kupsert_absent k c l : klookup k l = None -> kupsert k c l = l ++ [(k, c)].
Proof.
  induction l as [|[k' c'] r IH]; [reflexivity|]. cbn [klookup kupsert].
  destruct (key_eqb k k'); [discriminate|]. intro H. rewrite (IH H). reflexivity.
Qed.

Lemma key_ok_not_star t k : key_ok t k = true -> jpath_eqb (jpath_of_key k) star_path = false.
Proof.
  unfold key_ok. rewrite andb_true_iff. intros [_ H]. destruct k; cbn; try reflexivity; try discriminate.
  rewrite negb_true_iff in H. exact H.
Qed.

Lemma key_ok_key_for t k : key_ok t k = true -> key_for t (jpath_of_key k) = Some k.
Proof.
  unfold key_ok. rewrite andb_true_iff. intros [Hs H].
  destruct t, k; cbn in Hs; try discriminate; cbn [jpath_of_key key_for]; try rewrite H; reflexivity.
Qed.

Lemma key_ok_container t k : key_ok t k = true ->
  t = FtStruct \/ t = FtList \/ t = FtIntMap \/ t = FtStrMap.
Proof. unfold key_ok. rewrite andb_true_iff. intros [Hs _]. destruct t, k; cbn in Hs; try discriminate; auto. Qed.

Definition transfers (c : mask) : Prop :=
  forall p self, m_isall self = false -> m_kids self = [] -> transfer (to_jt p c) self = Ok (norm c).

Lemma jt_typ_to_jt p m : jt_typ (to_jt p m) = m_typ m.
Proof. rewrite to_jt_unfold. apply node_json_head. Qed.

(* the loop of TransferFrom over the sorted children *)
Definition go_loop (t : ft) :=
  fix go (l : list jtree) (cur : mask) : res mask :=
    match l with
    | [] => Ok cur
    | n :: r =>
        if is_star n then
          match transfer n zero_mask with
          | Ok a => Ok (put KAll a (set_isall cur true))
          | Err e => Err e
          | Fuel => Fuel
          end
        else match key_for t (jt_path n) with
             | None => Err EKind
             | Some k =>
                 match with_child k (jt_typ n) cur (transfer n) with
                 | Ok c => go r c
                 | Err e => Err e
                 | Fuel => Fuel
                 end
             end
    end.

Lemma go_loop_sorted t : forall L cur,
  Forall (fun kc => transfers (snd kc)) L ->
  forallb (fun kc => key_ok t (fst kc)) L = true ->
  NoDup (map fst L) -> (forall k, In k (map fst L) -> klookup k (m_kids cur) = None) ->
  go_loop t (map snd (map entry_of L)) cur = Ok (set_kids cur (m_kids cur ++ nmap L)).
Proof.
  induction L as [|[k c] L IH]; intros cur HT Hok Hnd Hfree.
  - cbn. rewrite app_nil_r. destruct cur; reflexivity.
  - inversion HT as [|? ? Hc HL]; subst. cbn [forallb fst] in Hok. rewrite andb_true_iff in Hok. destruct Hok as [Hk Hok].
    cbn [map fst] in Hnd. inversion Hnd as [|? ? N1 N2]; subst.
    cbn [map entry_of snd fst go_loop].
    unfold is_star. rewrite jt_path_to_jt, (key_ok_not_star _ _ Hk), (key_ok_key_for _ _ Hk), jt_typ_to_jt.
    assert (klookup k (m_kids cur) = None) as Hfk by (apply Hfree; left; reflexivity).
    unfold with_child, slot. rewrite Hfk.
    cbn [snd] in Hc. rewrite (Hc (jpath_of_key k) (fresh (m_typ c) (m_black cur)) eq_refl eq_refl).
    rewrite IH; auto.
    + unfold put. cbn [set_kids m_kids m_typ m_isall m_black]. rewrite (kupsert_absent _ _ _ Hfk), <- app_assoc. reflexivity.
    + intros k' Hin. unfold put. cbn [set_kids m_kids].
      rewrite (kupsert_absent _ _ _ Hfk), klookup_app_other by (intro E; subst; contradiction).
      apply Hfree. right. exact Hin.
Qed.

Lemma transfer_unfold p t b h kids self :
  transfer (JNode p t b h kids) self =
  if ft_eqb t FtInvalid then Err EKind else
  let self1 := Node t (m_isall self) b (m_kids self) in
  match kids with
  | [] => Ok (set_isall self1 true)
  | n0 :: _ =>
      match t with
      | FtScalar => if is_star n0 then
                      match transfer n0 zero_mask with
                      | Ok a => Ok (put KAll a (set_isall self1 true))
                      | Err e => Err e
                      | Fuel => Fuel
                      end
                    else Err EKind
      | FtInvalid => Err EKind
      | _ => go_loop t kids self1
      end
  end.
Proof. destruct t; reflexivity. Qed.

Lemma forallb_filter_id {A} (f : A -> bool) l : forallb f l = true -> filter f l = l.
Proof. induction l as [|x r IH]; [reflexivity|]. cbn. rewrite andb_true_iff. intros [H1 H2]. rewrite H1, IH; auto. Qed.

Lemma canon_live m : canon m = true -> live m = true.
Proof. rewrite canon_unfold, !andb_true_iff. tauto. Qed.

Lemma entries_all_kept t l :
  forallb (fun kc => key_ok t (fst kc)) l = true -> forallb (fun kc => live (snd kc)) l = true ->
  filter (fun e : key * bool * jtree => store_of t (fst (fst e)) && snd (fst e)) (map entry_of l) = map entry_of l.
Proof.
  intros Hok Hlv. apply forallb_filter_id. rewrite forallb_forall. intros e He. apply in_map_iff in He.
  destruct He as [[k c] [<- Hin]]. cbn [entry_of fst snd]. rewrite forallb_forall in Hok, Hlv.
  specialize (Hok _ Hin). specialize (Hlv _ Hin). cbn [fst snd] in *.
  unfold key_ok in Hok. rewrite andb_true_iff in Hok. destruct Hok as [-> _]. rewrite Hlv. reflexivity.
Qed.

Lemma forallb_ksort (f : key * mask -> bool) l : forallb f l = true -> forallb f (ksort l) = true.
Proof. rewrite !forallb_forall. intros H x Hx. apply H, in_ksort, Hx. Qed.

Lemma node_json_keys p t b l :
  nonempty l = true -> forallb (fun kc => key_ok t (fst kc)) l = true -> forallb (fun kc => live (snd kc)) l = true ->
  node_json p t false b (map entry_of l) = JNode p t b true (map snd (sort_entries (map entry_of l))).
Proof.
  intros Hne Hok Hlv. unfold node_json. rewrite (entries_all_kept t l Hok Hlv).
  destruct l as [|[k c] r]; [discriminate|]. cbn [forallb fst] in Hok. rewrite andb_true_iff in Hok.
  destruct (key_ok_container t k (proj1 Hok)) as [-> | [-> | [-> | ->]]]; reflexivity.
Qed.

Lemma canon_kids_live (ks : list (key * mask)) : forallb (fun kc => canon (snd kc)) ks = true -> forallb (fun kc => live (snd kc)) ks = true.
Proof. rewrite !forallb_forall. intros H kc Hin. apply canon_live, H, Hin. Qed.

Theorem transfer_to_jt : forall m, canon m = true -> transfers m.
Proof.
  induction m as [t a b ks IH] using mask_ind'. intros Hc p self Hsa Hsk.
  rewrite canon_unfold in Hc. cbn [live m_typ m_isall m_kids] in Hc. rewrite !andb_true_iff in Hc.
  destruct Hc as [[Hlive Hkids] Hshape].
  assert (ft_eqb t FtInvalid = false) as Hti by (unfold live in Hlive; cbn [m_typ] in Hlive; rewrite negb_true_iff in Hlive; exact Hlive).
  assert (Forall (fun kc => transfers (snd kc)) ks) as HT.
  { rewrite Forall_forall in *. rewrite forallb_forall in Hkids. intros kc Hin. apply IH; auto. }
  rewrite to_jt_unfold, norm_unfold. cbn [m_typ m_isall m_black m_kids].
  destruct a.
  - (* isAll *)
    unfold node_json.
    (* with isAll set the guard of [node_json] is true at every type *)
    assert ((match t with FtStruct | FtList | FtIntMap | FtStrMap => true | _ => true end) = true) as -> by (destruct t; reflexivity).
    destruct ks as [|[k c] ks']; [|destruct k; try discriminate; destruct ks' as [|x ks']; try discriminate].
    + cbn [map find_all nmap]. rewrite transfer_unfold, Hti. cbn [set_isall m_typ m_isall m_black m_kids].
      rewrite Hsk. reflexivity.
    + cbn [map entry_of find_all fst snd nmap].
      inversion HT as [|? ? Hc0 _]; subst. cbn [forallb snd] in Hkids. rewrite andb_true_r in Hkids.
      rewrite (canon_live _ Hkids). rewrite transfer_unfold, Hti.
      assert (is_star (to_jt (jpath_of_key KAll) c) = true) as Hst by (unfold is_star; rewrite jt_path_to_jt; reflexivity).
      assert (transfer (to_jt (jpath_of_key KAll) c) zero_mask = Ok (norm c)) as Htr by (apply Hc0; reflexivity).
      (* every valid type takes the star child in the same way *)
      destruct t; try discriminate; cbn [go_loop]; rewrite Hst, Htr; unfold put; cbn [set_isall set_kids m_typ m_isall m_black m_kids];
        rewrite Hsk; reflexivity.
  - (* explicit children *)
    rewrite !andb_true_iff in Hshape. destruct Hshape as [[Hne Hnd] Hok].
    assert (t = FtStruct \/ t = FtList \/ t = FtIntMap \/ t = FtStrMap) as Hcont.
    { destruct ks as [|[k c] r]; [discriminate|]. cbn [forallb fst] in Hok. rewrite andb_true_iff in Hok. eapply key_ok_container. apply Hok. }
    rewrite (node_json_keys p t b ks Hne Hok (canon_kids_live ks Hkids)), sort_entries_of, transfer_unfold, Hti.
    cbn zeta.
    assert (exists n0 r0, map snd (map entry_of (ksort ks)) = n0 :: r0) as [n0 [r0 En]].
    { pose proof (ksort_nonempty ks) as X. rewrite Hne in X. destruct (ksort ks) as [|y r']; [discriminate|]. cbn [map]. eauto. }
    rewrite En.
    assert (go_loop t (n0 :: r0) (Node t (m_isall self) b (m_kids self)) = Ok (Node t false b (ksort (nmap ks)))) as Hgo.
    { rewrite <- En. rewrite go_loop_sorted.
      - cbn [set_kids m_kids m_typ m_isall m_black]. rewrite Hsk, Hsa. cbn [app]. unfold nmap. rewrite ksort_map. reflexivity.
      - rewrite Forall_forall in *. intros kc Hin. apply HT. apply in_ksort. exact Hin.
      - apply forallb_ksort, Hok.
      - apply NoDup_keys_ksort, nodupb_NoDup, Hnd.
      - intros k _. cbn [m_kids]. rewrite Hsk. reflexivity. }
    destruct Hcont as [-> | [-> | [-> | ->]]]; exact Hgo.
Qed.

Theorem of_json_to_json m : canon m = true -> of_json (to_json m) = Ok (norm m).
Proof.
  intro Hc. unfold of_json, to_json. rewrite jt_path_to_jt. cbn [jpath_eqb root_path].
  rewrite beqb_refl. apply (transfer_to_jt m Hc); reflexivity.
Qed.

Lemma canon_child m k c : canon m = true -> klookup k (m_kids m) = Some c -> canon c = true.
Proof.
  rewrite canon_unfold, !andb_true_iff. intros [[_ H] _] Hk.
  revert Hk. induction (m_kids m) as [|[k' c'] r IH]; cbn [klookup]; [discriminate|].
  cbn [forallb snd] in H. rewrite andb_true_iff in H. destruct H as [H1 H2].
  destruct (key_eqb k k'); [intros [= <-]; exact H1 | auto].
Qed.

Lemma norm_typ m : m_typ (norm m) = m_typ m.
Proof. rewrite norm_unfold. reflexivity. Qed.
Lemma norm_isall m : m_isall (norm m) = m_isall m.
Proof. rewrite norm_unfold. reflexivity. Qed.
Lemma norm_black m : m_black (norm m) = m_black m.
Proof. rewrite norm_unfold. reflexivity. Qed.
Lemma norm_live m : live (norm m) = live m.
Proof. unfold live. rewrite norm_typ. reflexivity. Qed.

Lemma nmap_nonempty l : nonempty (nmap l) = nonempty l.
Proof. destruct l; reflexivity. Qed.

Lemma norm_kids_nonempty m : nonempty (m_kids (norm m)) = nonempty (m_kids m).
Proof.
  rewrite norm_unfold. cbn [m_kids]. destruct (m_isall m); [apply nmap_nonempty|].
  rewrite ksort_nonempty. apply nmap_nonempty.
Qed.

Lemma norm_has_child m : has_child (norm m) = has_child m.
Proof.
  unfold has_child. rewrite norm_live. f_equal.
  pose proof (norm_kids_nonempty m) as H. destruct (m_kids (norm m)), (m_kids m); cbn in H; congruence.
Qed.

Lemma klookup_norm m k : canon m = true -> klookup k (m_kids (norm m)) = option_map norm (klookup k (m_kids m)).
Proof.
  intro Hc. rewrite norm_unfold. cbn [m_kids]. destruct (m_isall m) eqn:Ea; [apply klookup_nmap|].
  rewrite klookup_ksort, klookup_nmap; [reflexivity|].
  rewrite map_fst_nmap. rewrite canon_unfold, Ea, !andb_true_iff in Hc. apply nodupb_NoDup. tauto.
Qed.

Lemma all_of_norm m : all_of (norm m) = all_of m.
Proof. unfold all_of. rewrite norm_typ, norm_isall. reflexivity. Qed.

Definition onorm (o : option mask) : option mask := option_map norm o.
Definition ocanon (o : option mask) : Prop := match o with Some c => canon c = true | None => True end.

Lemma query_norm m q : canon m = true ->
  query (Some (norm m)) q = (onorm (fst (query (Some m) q)), snd (query (Some m) q)) /\ ocanon (fst (query (Some m) q)).
Proof.
  intro Hc. unfold query. rewrite norm_live, norm_isall, norm_black, norm_has_child.
  destruct (live m) eqn:El; cbn [negb]; [|split; [reflexivity | exact I]].
  destruct (m_isall m) eqn:Ea.
  - rewrite (klookup_norm m KAll Hc). cbn [fst snd]. split; [reflexivity|].
    destruct (klookup KAll (m_kids m)) as [c|] eqn:E; [|exact I]. eapply canon_child; eauto.
  - unfold ret, get. rewrite norm_black, (klookup_norm m (key_of q) Hc).
    destruct (klookup (key_of q) (m_kids m)) as [c|] eqn:E; cbn [option_map].
    + pose proof (canon_child _ _ _ Hc E) as Hcc.
      rewrite norm_live. destruct (live c) eqn:Elc.
      * destruct (m_black m); cbn [fst snd onorm option_map]; rewrite ?norm_has_child; (split; [reflexivity | exact Hcc]).
      * destruct (m_black m); cbn [fst snd onorm option_map]; (split; [reflexivity | exact I]).
    + destruct (m_black m); cbn [fst snd onorm option_map]; (split; [reflexivity | exact I]).
Qed.

Lemma observe_none q : observe None q = (map (fun _ => true) q, true, false).
Proof. induction q as [|k q IH]; [reflexivity|]. cbn [observe query map]. rewrite IH. reflexivity. Qed.

Theorem observe_norm : forall q m, canon m = true -> observe (Some (norm m)) q = observe (Some m) q.
Proof.
  induction q as [|k q IH]; intros m Hc.
  - cbn [observe all_q exist_q]. rewrite all_of_norm, norm_live. reflexivity.
  - cbn [observe]. destruct (query_norm m k Hc) as [E Hoc]. rewrite E.
    destruct (query (Some m) k) as [c ok]. cbn [fst snd] in *.
    destruct c as [c|]; cbn [onorm option_map]; [rewrite (IH c Hoc)|]; reflexivity.
Qed.

Lemma walk_observe : forall q m, walk m q = forallb (fun ok => ok) (fst (fst (observe m q))).
Proof.
  unfold walk. induction q as [|k q IH]; intro m; [reflexivity|]. cbn [walk_to observe].
  destruct (query m k) as [c ok]. specialize (IH c).
  destruct (walk_to c q) as [c' ok'], (observe c q) as [[oks a] e]. cbn [fst snd forallb] in *. rewrite IH. reflexivity.
Qed.

Theorem walk_norm q m : canon m = true -> walk (Some (norm m)) q = walk (Some m) q.
Proof. intro Hc. rewrite !walk_observe, (observe_norm q m Hc). reflexivity. Qed.

(* the keys of the typed path can be carried by the JSON form of nodes of these types *)
Fixpoint json_okk (t : ft) (g : gpath) : bool :=
  match g with
  | [] => true
  | s :: r => (if is_gstar s then true else forallb (key_ok t) (gkeys s)) && json_okk (gft s) r
  end.

Definition precanon (cur : mask) : bool :=
  live cur && negb (m_isall cur) && forallb (fun kc => canon (snd kc)) (m_kids cur) &&
  nodupb key_eqb (map fst (m_kids cur)) && forallb (fun kc => key_ok (m_typ cur) (fst kc)) (m_kids cur).

Lemma canon_of_precanon cur : precanon cur = true -> nonempty (m_kids cur) = true -> canon cur = true.
Proof.
  unfold precanon. rewrite !andb_true_iff, negb_true_iff. intros [[[[H1 H2] H3] H4] H5] Hne.
  rewrite canon_unfold, H1, H2, H3, Hne, H4, H5. reflexivity.
Qed.

Lemma precanon_of_canon cur : canon cur = true -> m_isall cur = false -> precanon cur = true.
Proof.
  rewrite canon_unfold. intros H Ha. rewrite Ha, !andb_true_iff in H. unfold precanon. rewrite Ha. cbn [negb].
  destruct H as [[H1 H2] [[H3 H4] H5]]. rewrite H1, H2, H4, H5. reflexivity.
Qed.

Lemma precanon_of_fresh cur : fresh_state cur = true -> live cur = true -> precanon cur = true.
Proof.
  unfold fresh_state, precanon. rewrite andb_true_iff, !negb_true_iff. intros [Ha Hk] Hl.
  destruct (m_kids cur); [|discriminate]. rewrite Hl, Ha. reflexivity.
Qed.

Lemma existsb_keys x l : existsb (key_eqb x) (map fst l) = is_some (klookup x l).
Proof. induction l as [|[k c] r IH]; [reflexivity|]. cbn [map fst existsb klookup]. destruct (key_eqb x k); [reflexivity | exact IH]. Qed.

Lemma nodup_keys_kupsert k c l : nodupb key_eqb (map fst l) = true -> nodupb key_eqb (map fst (kupsert k c l)) = true.
Proof.
  induction l as [|[k' c'] r IH]; [reflexivity|]. cbn [kupsert map fst nodupb]. rewrite andb_true_iff. intros [H1 H2].
  destruct (key_eqb k k') eqn:E; cbn [map fst nodupb].
  - apply key_eqb_eq in E. subst k'. rewrite H1, H2. reflexivity.
  - apply key_eqb_neq in E. rewrite (IH H2), andb_true_r. rewrite existsb_keys in H1 |- *.
    rewrite klookup_kupsert_other by exact E. exact H1.
Qed.

Lemma nodup_keys_ins_keys ks t f : forall cur,
  nodupb key_eqb (map fst (m_kids cur)) = true -> nodupb key_eqb (map fst (m_kids (ins_keys ks t f cur))) = true.
Proof.
  induction ks as [|k ks IH]; intros cur H; [exact H|]. rewrite ins_keys_cons. apply IH.
  unfold child_ins. rewrite m_kids_put. apply nodup_keys_kupsert. exact H.
Qed.

Lemma ins_keys_precanon ks t f cur :
  (forall k, In k ks -> canon (f (slot k t cur)) = true) ->
  precanon cur = true -> nodupb key_eqb ks = true -> forallb (key_ok (m_typ cur)) ks = true ->
  precanon (ins_keys ks t f cur) = true.
Proof.
  unfold precanon, live. rewrite !andb_true_iff, ins_keys_typ, ins_keys_isall.
  intros Hc [[[[H1 H2] H3] H4] H5] Hnd Hok. rewrite forallb_forall in Hok. repeat split; auto.
  - rewrite <- (kforall_forallb (fun _ c => canon c)). apply kforall_ins_keys; [exact Hnd | rewrite kforall_forallb; exact H3 | exact Hc].
  - apply nodup_keys_ins_keys. exact H4.
  - rewrite <- (kforall_forallb (fun k _ => key_ok (m_typ cur) k)). apply kforall_ins_keys; [exact Hnd | rewrite kforall_forallb; exact H5 | exact Hok].
Qed.

Theorem ins_canon : forall g cur,
  compat g cur = true -> json_okk (m_typ cur) g = true -> live cur = true ->
  (fresh_state cur = true \/ canon cur = true) -> canon (ins g cur) = true.
Proof.
  induction g as [|s r IH]; intros cur Hc Hj Hl Hst.
  - cbn [ins compat] in *. rewrite canon_unfold.
    change (live (set_isall cur true)) with (live cur). change (m_kids (set_isall cur true)) with (m_kids cur).
    change (m_isall (set_isall cur true)) with true. rewrite Hl.
    destruct (m_kids cur); [reflexivity | discriminate].
  - destruct (compat_cons _ _ _ Hc) as (Ht & Hne & Hnd & Hall & Hsh).
    cbn [json_okk] in Hj. rewrite andb_true_iff in Hj. destruct Hj as [Hjk Hjr].
    (* below a key of the group: a new node, or a canonical child that was there *)
    assert (forall k, In k (gkeys s) -> canon (ins r (slot k (gft s) cur)) = true) as Hch.
    { intros k Hin. pose proof (Hall k Hin) as Hk. destruct (sub_ok_slot _ _ _ _ Hk Ht) as [HP [Hty Hlv]].
      apply IH; [exact HP | rewrite Hty; exact Hjr | exact Hlv|].
      unfold sub_ok in Hk. unfold slot. destruct (klookup k (m_kids cur)) as [c|] eqn:E; [|left; reflexivity].
      rewrite !andb_true_iff in Hk. destruct Hk as [[-> _] _]. right.
      destruct Hst as [Hfs|Hcc]; [|exact (canon_child _ _ _ Hcc E)].
      unfold fresh_state in Hfs. rewrite andb_true_iff, !negb_true_iff in Hfs. destruct (m_kids cur); [discriminate E | destruct Hfs; discriminate]. }
    cbn [ins]. destruct (is_gstar s) eqn:Hs.
    + rewrite (gstar_keys _ Hs) in *.
      change (ins_keys [KAll] (gft s) (ins r) (set_isall cur true))
        with (put KAll (ins r (slot KAll (gft s) cur)) (set_isall cur true)).
      rewrite canon_unfold, live_put, m_isall_put, m_kids_put.
      change (live (set_isall cur true)) with (live cur). rewrite Hl. cbn [set_isall m_isall m_kids andb].
      destruct (star_state_cases _ Hsh) as [[_ ->]|[_ [a ->]]]; cbn [kupsert key_eqb forallb snd];
        rewrite (Hch KAll (or_introl eq_refl)); reflexivity.
    + destruct Hsh as [Ha _].
      assert (precanon cur = true) as Hp by (destruct Hst as [Hfs|Hcc]; [apply precanon_of_fresh | apply precanon_of_canon]; auto).
      apply canon_of_precanon; [apply ins_keys_precanon; assumption|]. rewrite nonempty_ins_keys, Hne. reflexivity.
Qed.

Lemma ins_all_canon : forall gs cur,
  no_conflict gs = true -> forallb (fun g => compat g cur) gs = true ->
  forallb (json_okk (m_typ cur)) gs = true -> live cur = true ->
  (fresh_state cur = true \/ canon cur = true) -> gs <> [] -> canon (ins_all gs cur) = true.
Proof.
  induction gs as [|g gs IH]; intros cur Hnc Hall Hj Hl Hst Hne; [congruence|].
  destruct (ins_all_head _ _ _ Hnc Hall) as (Hcg & Hnc1 & Hall1).
  cbn [forallb] in Hj. rewrite andb_true_iff in Hj. destruct Hj as [Hjg Hj].
  pose proof (ins_canon g cur Hcg Hjg Hl Hst) as Hc1. rewrite ins_all_cons.
  destruct gs as [|g2 gs2]; [exact Hc1|].
  apply IH; auto; [rewrite ins_typ; exact Hj | rewrite ins_live; exact Hl | discriminate].
Qed.

Lemma entries_nmap l :
  Forall (fun kc => canon (snd kc) = true /\ forall p, to_jt p (norm (snd kc)) = to_jt p (snd kc)) l ->
  map entry_of (nmap l) = map entry_of l.
Proof.
  induction 1 as [|[k c] r [Hc Ht] Hr IH]; [reflexivity|].
  cbn [nmap map fst snd]. unfold entry_of at 1 3. cbn [fst snd]. rewrite norm_live, Ht. f_equal. exact IH.
Qed.

Theorem to_jt_norm : forall m, canon m = true -> forall p, to_jt p (norm m) = to_jt p m.
Proof.
  induction m as [t a b ks IH] using mask_ind'. intros Hc p.
  rewrite canon_unfold in Hc. cbn [live m_typ m_isall m_kids] in Hc. rewrite !andb_true_iff in Hc.
  destruct Hc as [[Hlive Hkids] Hshape].
  assert (Forall (fun kc => canon (snd kc) = true /\ forall p, to_jt p (norm (snd kc)) = to_jt p (snd kc)) ks) as HF.
  { rewrite Forall_forall in *. rewrite forallb_forall in Hkids. intros kc Hin. split; [apply Hkids; exact Hin|].
    intro p0. apply IH; auto. }
  rewrite !to_jt_unfold, norm_typ, norm_isall, norm_black.
  rewrite norm_unfold. cbn [m_kids m_isall m_typ m_black].
  destruct a.
  - rewrite (entries_nmap _ HF). reflexivity.
  - rewrite !andb_true_iff in Hshape. destruct Hshape as [[Hne Hnd] Hok].
    pose proof (canon_kids_live ks Hkids) as Hlv.
    assert (Forall (fun kc => canon (snd kc) = true /\ forall p, to_jt p (norm (snd kc)) = to_jt p (snd kc)) (ksort ks)) as HF2.
    { rewrite Forall_forall in *. intros kc Hin. apply HF. apply in_ksort. exact Hin. }
    unfold nmap. rewrite <- ksort_map. fold (nmap (ksort ks)). rewrite (entries_nmap _ HF2).
    rewrite !node_json_keys by (rewrite ?ksort_nonempty; auto using forallb_ksort).
    rewrite <- (sort_entries_of ks), sort_entries_idem. reflexivity.
Qed.

Theorem to_json_norm m : canon m = true -> to_json (norm m) = to_json m.
Proof. intro H. apply to_jt_norm. exact H. Qed.

Lemma forallb_map_keys {A} (f : A -> key) (P : key -> bool) l : forallb P (map f l) = forallb (fun x => P (f x)) l.
Proof. induction l as [|x r IH]; [reflexivity|]. cbn. rewrite IH. reflexivity. Qed.

Lemma json_ok_okk : forall g t, json_ok t g = true -> json_okk t g = true.
Proof.
  induction g as [|s r IH]; intros t H; [reflexivity|].
  cbn [json_ok json_okk] in *. rewrite andb_true_iff in *. destruct H as [H1 H2]. split.
  - destruct s; cbn [is_gstar gkeys seg_json_ok forallb] in *; try reflexivity.
    + rewrite H1. reflexivity.
    + rewrite forallb_map_keys. exact H1.
    + rewrite forallb_map_keys. exact H1.
  - assert (gft s = seg_ft s) as -> by (destruct s; reflexivity). apply IH. exact H2.
Qed.

Lemma built_canon env d black ps gs :
  well_typed env d ps = true -> elab_all env d ps = Some gs -> no_conflict gs = true -> gs <> [] ->
  forallb (json_ok (switch_ft env d)) gs = true -> canon (built env d black gs) = true.
Proof.
  intros Hwt He Hnc Hne Hj. destruct (well_typed_parts _ _ _ Hwt) as [Hok [Hwf _]].
  destruct gs as [|g0 gs0] eqn:E; [congruence|]. rewrite <- E in *.
  assert (built env d black gs = ins_all gs (fresh (switch_ft env d) black)) as -> by (rewrite E; reflexivity).
  apply ins_all_canon; auto.
  all: try (eapply elab_all_compat_fresh; eauto; fail).
  all: try (left; reflexivity).
  all: cbn [fresh m_typ]; rewrite forallb_forall in *; intros g Hg; apply json_ok_okk; apply Hj; exact Hg.
Qed.

Theorem json_roundtrip_canonical m : canon m = true ->
  exists m', of_json (to_json m) = Ok m' /\
    (forall q, observe (Some m') q = observe (Some m) q) /\
    (forall q, walk (Some m') q = walk (Some m) q) /\
    to_json m' = to_json m.
Proof.
  intro Hc. exists (norm m). split; [apply of_json_to_json; exact Hc|].
  split; [intro q; apply observe_norm; exact Hc|]. split; [intro q; apply walk_norm; exact Hc|].
  apply to_json_norm. exact Hc.
Qed.

Theorem json_roundtrip_canon m : canon m = true ->
  exists m', of_json (to_json m) = Ok m' /\
  (forall q, observe (Some m') q = observe (Some m) q) /\ (forall q, walk (Some m') q = walk (Some m) q).
Proof. intro Hc. destruct (json_roundtrip_canonical m Hc) as (m' & H1 & H2 & H3 & _). eauto. Qed.

(* MarshalJSON then Unmarshal of a mask built on the domain: a mask comes back, it answers
   every query sequence identically, and it prints to the same JSON again *)
Theorem json_roundtrip env d black strs ps gs m :
  map tokenize strs = map tokens_of ps ->
  well_typed env d ps = true -> elab_all env d ps = Some gs -> no_conflict gs = true -> gs <> [] ->
  forallb (json_ok (switch_ft env d)) gs = true ->
  new_mask env d black strs = Ok m ->
  exists m', of_json (to_json m) = Ok m' /\
    (forall q, observe (Some m') q = observe (Some m) q) /\
    (forall q, walk (Some m') q = walk (Some m) q) /\
    to_json m' = to_json m.
Proof.
  intros Htok Hwt He Hnc Hne Hj Hm.
  rewrite (build_total_on_D env d black strs ps gs Htok Hwt He Hnc) in Hm. injection Hm as <-.
  apply json_roundtrip_canonical. exact (built_canon env d black ps gs Hwt He Hnc Hne Hj).
Qed.

Lemma json_domain_example :
  forallb (json_ok (switch_ft wenv wroot)) (w_gs wroot ex_ps) = true /\ w_gs wroot ex_ps <> [] /\
  canon (w_mask wroot true ex_strs) = true.
Proof. repeat split; try (vm_compute; reflexivity). vm_compute. discriminate. Qed.
