(* Wire/MaskedReadInit.v — Read under a mask into an ARBITRARY start object (not only NewX()), for every
   current state of the object; the proof is masked_read_from in Wire/MaskedReadFacts.v. *)
From Coq Require Import List ZArith Bool.
From Verif Require Import Base.Bytes Base.BE Wire.TType Wire.WVal Wire.Codec Wire.CodecFacts
  Wire.Schema Wire.Value Wire.Std Wire.StdFacts Wire.Masked Wire.MaskedFacts Wire.MaskedRead
  Wire.MaskedReadFacts.
Import ListNotations.
Open Scope Z_scope.

Theorem masked_read_any_init cfg m e s fs0 wfs v0 :
  find_struct e (s_name s) = Some s ->
  from_wire e s (VStruct fs0) (WStruct wfs) = Ok v0 ->
  exists v, from_wire_masked cfg m e s (VStruct fs0) (WStruct wfs) = Ok v /\
            from_wire (relax e) (relax_s s) (VStruct fs0)
                      (filter_w_mask e m (TRef (s_name s)) (WStruct wfs)) = Ok v.
Proof. exact (masked_read_from cfg m e s fs0 wfs v0). Qed.
