(* Wire/MaskedOwnFacts.v — facts about a mask set by the user on a non-root struct value
   (Wire/MaskedOwn.v). *)
From Coq Require Import List ZArith Bool.
From Verif Require Import Base.Bytes Base.BE Wire.TType Wire.WVal Wire.Codec Wire.CodecFacts
  Wire.Schema Wire.Value Wire.Std Wire.StdFacts Wire.Masked Wire.MaskedFacts
  Wire.MaskedHalfway Wire.MaskedHalfwayFacts Wire.MaskedOwn.
Import ListNotations.
Open Scope Z_scope.

(* an object whose own mask is what arrives anyway is written as under that mask *)
Theorem to_wm_again_same cfg e m t v : to_wm_again cfg e m m t v = to_wm_mask cfg e m t v.
Proof. apply to_wm_again_inert. right. reflexivity. Qed.

(* a struct value with a non-nil mask of its own (fresh sub objects) is written exactly like a root
   object under that mask, whatever its parent passes *)
Theorem own_mask_wins cfg e m st n fs :
  to_wm_again cfg e (Some m) st (TRef n) (VStruct fs) = to_wm_mask cfg e (Some m) (TRef n) (VStruct fs).
Proof.
  (* at a struct the mask in force is own_or (Some m) st = Some m: st is never consulted, so both sides
     unfold to the same term *)
  rewrite <- to_wm_again_same. reflexivity.
Qed.

(* a mask on the sub object that has no effect where the sub object is written has none on the
   objects around it *)
Lemma own_mask_without_effect cfg e m_own :
  (forall st n v, to_wm_own cfg e [] m_own st n v = to_wm_mask cfg e st (TRef n) v) ->
  forall path st n v, to_wm_own cfg e path m_own st n v = to_wm_mask cfg e st (TRef n) v.
Proof.
  intros Hnil path. induction path as [|id rest IH]; intros st n v; [apply Hnil|].
  cbn [to_wm_own]. destruct v; try reflexivity. unfold to_wm_mask. rewrite to_wm_struct.
  destruct (find_struct e n) as [s|]; [|reflexivity]. cbn zeta.
  destruct (is_union s && negb (count_set (s_fields s) fs =? 1)%nat); [reflexivity|].
  f_equal. apply mapM_ext. intros p _. unfold wfield_m.
  destruct (find_field (fst p) (s_fields s)) as [f|]; [|reflexivity].
  destruct (present f (snd p)); [|reflexivity]. cbn zeta.
  destruct (snd (mquery st (QF (f_id f))) || (is_required f && negb (zero_required cfg))); [|reflexivity].
  destruct (base_ptr f); [reflexivity|].
  destruct (f_ty f); try reflexivity. destruct (f_id f =? id); [|reflexivity]. rewrite IH. reflexivity.
Qed.

(* without field_mask_halfway the mask the user set on the sub object is overwritten: no effect *)
Theorem own_mask_default_ignored cfg e m_own : halfway cfg = false ->
  forall path st n v, to_wm_own cfg e path m_own st n v = to_wm_mask cfg e st (TRef n) v.
Proof. intro Hh. apply own_mask_without_effect. intros st n v. cbn [to_wm_own]. rewrite Hh. reflexivity. Qed.

(* field_mask_halfway, nil mask on the sub object: nothing to keep *)
Theorem own_mask_nil cfg e :
  forall path st n v, to_wm_own cfg e path None st n v = to_wm_mask cfg e st (TRef n) v.
Proof.
  apply own_mask_without_effect. intros st n v. cbn [to_wm_own].
  destruct (halfway cfg); [apply to_wm_again_fresh | reflexivity].
Qed.

(* field_mask_halfway: the sub object at the end of the path is written under ITS mask *)
Theorem own_mask_halfway_at cfg e m st n fs : halfway cfg = true ->
  to_wm_own cfg e [] (Some m) st n (VStruct fs) = to_wm_mask cfg e (Some m) (TRef n) (VStruct fs).
Proof. intro Hh. cbn [to_wm_own]. rewrite Hh. apply own_mask_wins. Qed.
