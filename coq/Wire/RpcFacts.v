(* Wire/RpcFacts.v — proofs about Wire/Rpc.v (property C08).

     read_msg_begin_msg_begin   the strict message header reads back (lenient reader)
     read_app_exc_enc           TApplicationException round trip
     rpc_wf_method              every method of every dispatch table of a well-formed program has its
                                synthesized structs in the env
     args_roundtrip             XArgs written by the client and read into XArgs{} by the processor
     request_processed / recv_reply_of    one call, server side and client side

   Built on Wire/StdFacts.v (write_read, to_w_wf, wire_shape, to_from, field_good) and
   Wire/CodecFacts.v (dec_struct_enc). *)
From Coq Require Import List ZArith Bool Lia.
From Coq.Strings Require Import Byte.
From Verif Require Import Base.Bytes Base.BE Wire.TType Wire.WVal Wire.Codec Wire.CodecFacts
  Wire.Schema Wire.Value Wire.Std Wire.StdFacts Wire.Rpc.
Import ListNotations.
Open Scope Z_scope.

Lemma take_app (a b : bytes) : take (length a) (a ++ b) = Some (a, b).
Proof.
  unfold take. rewrite app_length.
  destruct (Nat.ltb_spec (length a + length b) (length a)) as [H|H]; [lia|].
  rewrite firstn_app, Nat.sub_diag, firstn_all. cbn [firstn]. rewrite app_nil_r.
  rewrite skipn_app, Nat.sub_diag, skipn_all. cbn [skipn app]. reflexivity.
Qed.

Lemma put_be_4_signed z : put_be 4 z = put_be 4 (z - 4294967296).
Proof.
  rewrite (put_be_mod 4 z), (put_be_mod 4 (z - 4294967296)).
  f_equal. change (256 ^ Z.of_nat 4) with 4294967296.
  replace (z - 4294967296) with (z + (-1) * 4294967296) by lia. rewrite Z.mod_add by lia. reflexivity.
Qed.

Theorem read_msg_begin_msg_begin name ty seq rest :
  len_ok name = true -> 0 <= ty < 256 -> in_srange 4 seq ->
  read_msg_begin (msg_begin name ty seq ++ rest) = Some (name, ty, seq, rest).
Proof.
  intros Hname Hty Hseq. unfold msg_begin, read_msg_begin.
  rewrite put_be_4_signed. rewrite <- !app_assoc.
  rewrite get_s_put; [|lia|apply in_srange_4; unfold VERSION_1; lia].
  assert (Hneg : (VERSION_1 + ty - 4294967296 <? 0) = true) by (apply Z.ltb_lt; unfold VERSION_1; lia).
  rewrite Hneg.
  assert (Hu : (VERSION_1 + ty - 4294967296) mod 4294967296 = VERSION_1 + ty).
  { replace (VERSION_1 + ty - 4294967296) with (VERSION_1 + ty + (-1) * 4294967296) by lia.
    rewrite Z.mod_add by lia. apply Z.mod_small. unfold VERSION_1. lia. }
  rewrite Hu.
  assert (Hv : (VERSION_1 + ty) / 65536 * 65536 = VERSION_1).
  { unfold VERSION_1. replace (2147549184 + ty) with (ty + 32769 * 65536) by lia.
    rewrite Z.div_add by lia. rewrite (Z.div_small ty) by lia. reflexivity. }
  rewrite Hv, Z.eqb_refl. cbn [negb].
  rewrite get_count_put by (apply len_ok_srange; assumption).
  rewrite take_app.
  rewrite get_s_put by (try lia; assumption).
  assert (Ht : (VERSION_1 + ty) mod 256 = ty).
  { unfold VERSION_1. replace (2147549184 + ty) with (ty + 8388864 * 256) by lia.
    rewrite Z.mod_add by lia. apply Z.mod_small. lia. }
  rewrite Ht. reflexivity.
Qed.

Lemma msg_fits_len_ok f text : msg_fits f text = true -> len_ok (msg_internal (fn_name f) text) = true.
Proof.
  unfold msg_fits, len_ok, msg_internal. rewrite !app_length. cbn [length].
  intro H. apply Z.ltb_lt in H. apply Z.ltb_lt. lia.
Qed.

Lemma app_exc_wf msg tid : len_ok msg = true -> in_srange 4 tid -> wf (app_exc msg tid).
Proof.
  intros Hm Ht. unfold app_exc. cbn [wf wtype].
  split; [split; [reflexivity | split; [apply in_srange_2; lia | apply len_ok_srange; assumption]]|].
  split; [split; [reflexivity | split; [apply in_srange_2; lia | exact Ht]] | exact I].
Qed.

Theorem read_app_exc_enc msg tid rest :
  len_ok msg = true -> in_srange 4 tid ->
  read_app_exc (enc (app_exc msg tid) ++ rest) = Some (msg, tid, rest).
Proof.
  intros Hm Ht. unfold read_app_exc.
  pose proof (app_exc_wf msg tid Hm Ht) as Hwf. unfold app_exc in *.
  rewrite dec_struct_enc by assumption. reflexivity.
Qed.

Lemma find_struct_in_nodup l s :
  nodup_names (map s_name l) = true -> In s l -> find_struct_in l (s_name s) = Some s.
Proof.
  induction l as [|a l IH]; intros Hnd Hin; [destruct Hin|].
  cbn [map nodup_names] in Hnd. apply andb_true_iff in Hnd. destruct Hnd as [Hna Hnd].
  cbn [find_struct_in]. destruct Hin as [->|Hin].
  - rewrite beqb_refl. reflexivity.
  - destruct (beqb (s_name s) (s_name a)) eqn:E.
    + exfalso. apply negb_true_iff in Hna.
      assert (Hex : existsb (beqb (s_name a)) (map s_name l) = true).
      { apply existsb_exists. exists (s_name s). split; [apply in_map; assumption|].
        rewrite beqb_sym. exact E. }
      congruence.
    + apply IH; assumption.
Qed.

Lemma find_service_In ss n s : find_service ss n = Some s -> In s ss /\ sv_name s = n.
Proof.
  induction ss as [|a ss IH]; cbn [find_service]; [discriminate|].
  destruct (beqb n (sv_name a)) eqn:E.
  - intro H. injection H as <-. apply beqb_true in E. split; [left; reflexivity | congruence].
  - intro H. destruct (IH H) as [Hin Hn]. split; [right; assumption | assumption].
Qed.

Lemma own_methods_In s m : In m (own_methods s) -> fst m = sv_name s /\ In (snd m) (sv_funs s).
Proof.
  unfold own_methods. intro H. apply in_map_iff in H. destruct H as (f & <- & Hf). cbn. auto.
Qed.

Lemma method_table_In fuel ss : forall n t m,
  method_table fuel ss n = Some t -> In m t ->
  exists s, In s ss /\ fst m = sv_name s /\ In (snd m) (sv_funs s).
Proof.
  induction fuel as [|k IH]; intros n t m Ht Hin; cbn [method_table] in Ht; [discriminate|].
  destruct (find_service ss n) as [s|] eqn:Hs; [|discriminate].
  destruct (find_service_In _ _ _ Hs) as [Hss _].
  destruct (sv_extends s) as [b|].
  - destruct (method_table k ss b) as [tb|] eqn:Hb; [|discriminate]. injection Ht as <-.
    apply in_app_or in Hin. destruct Hin as [Hin|Hin].
    + exists s. destruct (own_methods_In _ _ Hin). auto.
    + eapply IH; eassumption.
  - injection Ht as <-. exists s. destruct (own_methods_In _ _ Hin). auto.
Qed.

Lemma find_method_In tbl name m : find_method tbl name = Some m -> In m tbl /\ fn_name (snd m) = name.
Proof.
  induction tbl as [|a tbl IH]; cbn [find_method]; [discriminate|].
  destruct (beqb name (fn_name (snd a))) eqn:E.
  - intro H. injection H as <-. apply beqb_true in E. split; [left; reflexivity | congruence].
  - intro H. destruct (IH H). split; [right; assumption | assumption].
Qed.

Lemma synth_In e ss s f : In s ss -> In f (sv_funs s) ->
  In (args_schema (sv_name s, f)) (structs (rpc_env e ss)) /\
  In (result_schema (sv_name s, f)) (structs (rpc_env e ss)).
Proof.
  intros Hs Hf. cbn [rpc_env structs].
  split; apply in_or_app; right; apply in_flat_map; exists s; (split; [assumption|]);
    unfold synth_of; apply in_flat_map; exists f; (split; [assumption|]); cbn [In]; auto.
Qed.

(* what rpc_wf gives for one method of a dispatch table *)
Record method_ok (E : env) (m : method) : Prop := {
  mo_args : find_struct E (s_name (args_schema m)) = Some (args_schema m);
  mo_res : find_struct E (s_name (result_schema m)) = Some (result_schema m);
  mo_fun : fun_ok (snd m) = true
}.

Lemma rpc_wf_env e ss : rpc_wf e ss = true -> wf_env (rpc_env e ss) = true.
Proof. unfold rpc_wf. rewrite !andb_true_iff. tauto. Qed.

Lemma rpc_wf_method e ss fuel n t m :
  rpc_wf e ss = true -> method_table fuel ss n = Some t -> In m t -> method_ok (rpc_env e ss) m.
Proof.
  intros Hwf Ht Hin. destruct (method_table_In _ _ _ _ _ Ht Hin) as (s & Hs & Hown & Hf).
  unfold rpc_wf in Hwf. rewrite !andb_true_iff in Hwf. destruct Hwf as [[_ Hnd] Hfun].
  destruct m as [o f]. cbn [fst snd] in *. subst o.
  destruct (synth_In e ss s f Hs Hf) as [Ha Hr].
  constructor.
  1, 2: unfold find_struct; apply find_struct_in_nodup; assumption.
  cbn [snd]. rewrite forallb_forall in Hfun. specialize (Hfun s Hs).
  rewrite forallb_forall in Hfun. apply Hfun. assumption.
Qed.

Lemma struct_wt_parts E s fs :
  find_struct E (s_name s) = Some s -> wt E s (VStruct fs) = true ->
  map fst fs = map f_id (s_fields s) /\ Forall (fun p => slot_ok E s p = true) fs /\
  (is_union s && negb (count_set (s_fields s) fs =? 1)%nat = false).
Proof. intros Hs Hwt. exact (wt_struct_parts _ _ _ _ _ Hs (wt_wt_val _ _ _ Hwt)). Qed.

Lemma slots_good E s fs :
  wf_env E = true -> Forall (fun p => slot_ok E s p = true) fs ->
  Forall (fun p => forall f, find_field (fst p) (s_fields s) = Some f -> field_good E s f p) fs.
Proof.
  intros Henv H. eapply Forall_impl; [|exact H]. intros p Hok f Hf.
  apply field_good_intro; try assumption.
  - apply to_from. assumption.
  - intros x _. apply to_from. assumption.
Qed.

(* the processor reads XArgs into XArgs{} (no defaults applied); since no argument is optional,
   every field is on the wire and the start object does not matter *)
Theorem args_roundtrip E s fs ini :
  wf_env E = true -> find_struct E (s_name s) = Some s ->
  forallb (fun a => negb (is_optional a)) (s_fields s) = true ->
  wt E s (VStruct fs) = true ->
  map fst ini = map f_id (s_fields s) ->
  exists wfs, to_wire E s (VStruct fs) = Ok (WStruct wfs) /\
              from_wire E s (VStruct ini) (WStruct wfs) = Ok (norm_struct E s (VStruct fs)).
Proof.
  intros Henv Hs Hnopt Hwt Hini.
  destruct (struct_wt_parts _ _ _ Hs Hwt) as (Hids & Hslots & Hu).
  pose proof (wf_struct_nodup _ (wf_env_struct _ _ _ Henv Hs)) as Hnd.
  assert (Hgood : Forall (fun p => forall f x0, find_field (fst p) (s_fields s) = Some f -> In (f_id f, x0) ini ->
                                   slot_good (wfield_fn E s) (read_step E s) (norm_fn E s) f p x0) fs).
  { eapply Forall_impl; [|exact (slots_good _ _ _ Henv Hslots)]. intros p Hp f x0 Hf _.
    apply field_good_slot; [exact Hf | exact (Hp f Hf) | left].
    rewrite forallb_forall in Hnopt. destruct (find_field_In _ _ _ Hf) as [Hin _].
    specialize (Hnopt f Hin). apply negb_true_iff in Hnopt. exact Hnopt. }
  destruct (fold_slots_all s _ _ _ Hnd fs ini Hids Hini Hgood) as (ofs & Hm & Hread).
  exists (cat_somes ofs). split.
  - unfold to_wire. rewrite to_w_struct, Hs. cbn zeta. rewrite Hu, Hm. reflexivity.
  - unfold from_wire, norm_struct. rewrite norm_struct_eq, Hs. exact Hread.
Qed.

Theorem args_roundtrip_bytes E s fs ini :
  wf_env E = true -> find_struct E (s_name s) = Some s ->
  forallb (fun a => negb (is_optional a)) (s_fields s) = true ->
  wt E s (VStruct fs) = true ->
  map fst ini = map f_id (s_fields s) ->
  exists wfs, write_bytes E s (VStruct fs) = Ok (enc (WStruct wfs)) /\
              to_wire E s (VStruct fs) = Ok (WStruct wfs) /\
              forall rest, read_bytes E s (VStruct ini) (enc (WStruct wfs) ++ rest) = Ok (norm_struct E s (VStruct fs)).
Proof.
  intros Henv Hs Hnopt Hwt Hini.
  destruct (args_roundtrip E s fs ini Henv Hs Hnopt Hwt Hini) as (wfs & Hw & Hr).
  exists wfs. split; [unfold write_bytes; rewrite Hw; reflexivity|]. split; [assumption|].
  intro rest. unfold read_bytes.
  destruct (to_w_wf E Henv (VStruct fs) _ _ _ (wt_wt_val _ _ _ Hwt) Hw) as [Hwf _].
  rewrite dec_struct_enc by assumption. exact Hr.
Qed.

(* a struct-like without defaults: NewX() is the zero object *)
Lemma zero_is_new E s :
  forallb (fun g => negb (has_default g)) (s_fields s) = true -> zero_struct E s = new_struct E s.
Proof.
  intro H. unfold zero_struct, new_struct, zero_fields, new_fields. f_equal. apply map_ext_in.
  intros g Hin. rewrite forallb_forall in H. specialize (H g Hin). unfold init_slot, has_default in *.
  destruct (f_default g); [discriminate | reflexivity].
Qed.

Lemma slot_of_map (X : field -> value) l g :
  NoDup (map f_id l) -> In g l -> slot_of (f_id g) (map (fun x => (f_id x, X x)) l) = X g.
Proof.
  unfold slot_of. induction l as [|a l IH]; intros Hnd Hin; [destruct Hin|].
  cbn [map] in Hnd. inversion Hnd as [|? ? Hna Hnd']; subst.
  cbn [map find fst]. destruct Hin as [->|Hin].
  - rewrite Z.eqb_refl. reflexivity.
  - destruct (Z.eqb_spec (f_id a) (f_id g)) as [E|E].
    + exfalso. apply Hna. rewrite E. apply in_map. assumption.
    + apply IH; assumption.
Qed.

(* the inner part of Std.norm on one slot *)
Definition norm_slot (E : env) (g : field) (v : value) : value :=
  if present g v then
    (if base_ptr g then match v with VSome x => VSome (norm E (f_ty g) x) | o => o end
     else norm E (f_ty g) v)
  else init_slot g.

Lemma map_norm_fn_fields E s (X : field -> value) :
  NoDup (map f_id (s_fields s)) ->
  map (norm_fn E s) (map (fun g => (f_id g, X g)) (s_fields s)) =
  map (fun g => (f_id g, norm_slot E g (X g))) (s_fields s).
Proof.
  intro Hnd. rewrite map_map. apply map_ext_in. intros g Hin.
  unfold norm_fn, norm_slot. cbn [fst snd]. rewrite (find_field_nodup _ _ Hnd Hin).
  destruct (present g (X g)); [|reflexivity].
  destruct (base_ptr g); [|reflexivity]. destruct (X g); reflexivity.
Qed.

Lemma norm_not_nil E t v : is_nil v = false -> is_nil (norm E t v) = false.
Proof.
  destruct v; cbn [norm is_nil]; intro H; try reflexivity; try discriminate.
  - destruct t; reflexivity.
  - destruct t; reflexivity.
  - destruct t; reflexivity.
  - destruct t; try reflexivity. destruct (find_struct E name); reflexivity.
Qed.

(* arguments: no field optional, so every slot is normalised in place *)
Lemma norm_args_fields E s : NoDup (map f_id (s_fields s)) ->
  forallb (fun a => negb (is_optional a)) (s_fields s) = true ->
  forall l args, incl l (s_fields s) ->
    map snd (map (norm_fn E s) (combine (map f_id l) args)) =
    map (fun p => norm E (f_ty (fst p)) (snd p)) (combine l args).
Proof.
  intros Hnd Hno. induction l as [|a l IH]; intros args Hl; [reflexivity|].
  destruct args as [|v args]; [reflexivity|]. cbn [map combine fst snd]. f_equal.
  - pose proof (Hl a (or_introl eq_refl)) as Hin.
    unfold norm_fn. cbn [fst snd]. rewrite (find_field_nodup _ _ Hnd Hin).
    rewrite forallb_forall in Hno. specialize (Hno a Hin). apply negb_true_iff in Hno.
    unfold present, base_ptr. rewrite Hno. reflexivity.
  - apply IH. intros x Hx. apply Hl. right. exact Hx.
Qed.

Definition rslot (set : option (Z * value)) (g : field) : value :=
  match set with
  | Some (id, slot) => if f_id g =? id then slot else zero_slot g
  | None => zero_slot g end.

Lemma rslot_set g slot : rslot (Some (f_id g, slot)) g = slot.
Proof. unfold rslot. rewrite Z.eqb_refl. reflexivity. Qed.

Lemma rslot_unset set g :
  match set with Some (id, _) => f_id g <> id | None => True end -> rslot set g = zero_slot g.
Proof.
  unfold rslot. destruct set as [[id slot]|]; [|reflexivity].
  intro Hne. destruct (Z.eqb_spec (f_id g) id); [contradiction | reflexivity].
Qed.

Lemma result_value_eq f set :
  result_value f set = VStruct (map (fun g => (f_id g, rslot set g)) (result_fields f)).
Proof. reflexivity. Qed.

(* fields of a synthesized result: optional, no default *)
Definition res_field_ok (g : field) : bool := is_optional g && negb (has_default g).

Lemma result_fields_ok f : fun_ok f = true -> forallb res_field_ok (result_fields f) = true.
Proof.
  unfold fun_ok. rewrite !andb_true_iff. intros [[[_ _] Hth] _].
  unfold result_fields. rewrite forallb_app. apply andb_true_iff. split.
  - destruct (fn_ret f); reflexivity.
  - rewrite forallb_forall in *. intros g Hin. specialize (Hth g Hin).
    rewrite !andb_true_iff in Hth. unfold res_field_ok. destruct Hth as [[-> ->] _]. reflexivity.
Qed.

Lemma res_field_no_default f : fun_ok f = true ->
  forallb (fun g => negb (has_default g)) (result_fields f) = true.
Proof.
  intro H. pose proof (result_fields_ok f H) as Hr. rewrite forallb_forall in *.
  intros g Hin. specialize (Hr g Hin). unfold res_field_ok in Hr. apply andb_true_iff in Hr. tauto.
Qed.

Lemma res_not_ptr g : res_field_ok g = true -> base_ptr g = false ->
  zero_val (f_ty g) = VNil /\ negb (is_base (f_ty g)) || is_binary (f_ty g) = true.
Proof.
  unfold res_field_ok, base_ptr. intro H. apply andb_true_iff in H. destruct H as [-> ->]. cbn [andb].
  destruct (f_ty g); cbn; intro; try discriminate; split; reflexivity.
Qed.

Lemma res_field_parts g : res_field_ok g = true -> is_optional g = true /\ f_default g = None.
Proof.
  unfold res_field_ok, has_default. intro H. apply andb_true_iff in H. destruct H as [Ho Hd].
  split; [exact Ho|]. destruct (f_default g); [discriminate | reflexivity].
Qed.

Lemma res_present g v : res_field_ok g = true -> present g v = negb (is_nil v).
Proof.
  intro H. destruct (res_field_parts g H) as [Ho Hd]. unfold present, isset. rewrite Ho, Hd. reflexivity.
Qed.

Lemma res_zero_slot g : res_field_ok g = true -> zero_slot g = VNil.
Proof.
  intro H. unfold zero_slot. destruct (base_ptr g) eqn:Eb; [reflexivity|]. apply (res_not_ptr g H Eb).
Qed.

Lemma res_norm_nil E g : res_field_ok g = true -> norm_slot E g VNil = VNil.
Proof.
  intro H. destruct (res_field_parts g H) as [_ Hd].
  unfold norm_slot, init_slot. rewrite (res_present g VNil H), Hd. exact (res_zero_slot g H).
Qed.

Lemma struct_val_not_nil v : is_struct_val v = true -> is_nil v = false.
Proof. destruct v; (discriminate || reflexivity). Qed.

(* what may be assigned to a result field *)
Definition slot_fits (E : env) (g : field) (slot : value) : Prop :=
  if base_ptr g then exists x, slot = VSome x /\ wt_val E false (f_ty g) x = true
  else is_nil slot = true \/ wt_val E false (f_ty g) slot = true.

Definition set_fits (E : env) (f : function) (set : option (Z * value)) : Prop :=
  match set with
  | None => True
  | Some (id, slot) => forall g, In g (result_fields f) -> f_id g = id -> slot_fits E g slot
  end.

Lemma res_slot_ok E s g v :
  find_field (f_id g) (s_fields s) = Some g -> res_field_ok g = true -> v = VNil \/ slot_fits E g v ->
  slot_ok E s (f_id g, v) = true.
Proof.
  intros Hf Hok Hv. unfold slot_ok. cbn [fst snd]. rewrite Hf.
  destruct (res_field_parts g Hok) as [Hopt _]. rewrite Hopt. cbn [andb]. unfold slot_fits in Hv.
  destruct (base_ptr g) eqn:Eb.
  - destruct Hv as [->|(x & -> & Hx)]; [reflexivity | exact Hx].
  - destruct (is_nil v) eqn:En; [apply (res_not_ptr g Hok Eb)|].
    destruct Hv as [->|[Hn|Hw]]; [discriminate | congruence | exact Hw].
Qed.

Lemma result_wt E m set :
  find_struct E (s_name (result_schema m)) = Some (result_schema m) ->
  NoDup (map f_id (result_fields (snd m))) ->
  forallb res_field_ok (result_fields (snd m)) = true ->
  set_fits E (snd m) set ->
  wt E (result_schema m) (result_value (snd m) set) = true.
Proof.
  intros Hs Hnd Hok Hfit. unfold wt. rewrite Hs, result_value_eq. cbn [andb].
  rewrite wt_struct_eq, Hs. cbn [result_schema s_fields is_union s_kind].
  rewrite andb_true_r. apply andb_true_iff. split.
  - apply list_eqbZ_eq. rewrite map_map. reflexivity.
  - apply forallb_forall. intros p Hp. apply in_map_iff in Hp. destruct Hp as (g & <- & Hin).
    rewrite forallb_forall in Hok. specialize (Hok g Hin).
    apply res_slot_ok; [exact (find_field_nodup _ _ Hnd Hin) | exact Hok |].
    unfold rslot. destruct set as [[id slot]|]; [|left; exact (res_zero_slot g Hok)].
    destruct (Z.eqb_spec (f_id g) id) as [Eid|Eid]; [right; exact (Hfit g Hin Eid) | left; exact (res_zero_slot g Hok)].
Qed.

Lemma result_norm E m set :
  find_struct E (s_name (result_schema m)) = Some (result_schema m) ->
  NoDup (map f_id (result_fields (snd m))) ->
  norm_struct E (result_schema m) (result_value (snd m) set) =
  VStruct (map (fun g => (f_id g, norm_slot E g (rslot set g))) (result_fields (snd m))).
Proof.
  intros Hs Hnd. unfold norm_struct. rewrite result_value_eq, norm_struct_eq, Hs. f_equal.
  apply (map_norm_fn_fields E (result_schema m)). exact Hnd.
Qed.

Lemma first_exc_none throws fs :
  (forall t, In t throws -> is_nil (slot_of (f_id t) fs) = true) -> first_exc throws fs = None.
Proof.
  induction throws as [|t r IH]; intro H; [reflexivity|]. cbn [first_exc].
  rewrite (H t (or_introl eq_refl)). apply IH. intros u Hu. apply H. right. exact Hu.
Qed.

Lemma first_exc_one throws fs g :
  In g throws ->
  is_nil (slot_of (f_id g) fs) = false ->
  (forall t, In t throws -> f_id t <> f_id g -> is_nil (slot_of (f_id t) fs) = true) ->
  exists t, first_exc throws fs = Some (t, slot_of (f_id g) fs) /\ f_id t = f_id g /\ In t throws.
Proof.
  induction throws as [|t r IH]; intros Hin Hg Hoth; [destruct Hin|]. cbn [first_exc].
  destruct (Z.eq_dec (f_id t) (f_id g)) as [E|E].
  - exists t. split; [rewrite E, Hg; reflexivity|]. split; [exact E | left; reflexivity].
  - rewrite (Hoth t (or_introl eq_refl) E).
    destruct Hin as [->|Hin]; [congruence|].
    destruct (IH Hin Hg) as (u & Hu & Hid & Hur).
    { intros u Hu. apply Hoth. right. exact Hu. }
    exists u. split; [exact Hu|]. split; [exact Hid | right; exact Hur].
Qed.

Lemma nodup_id_inj l a b : NoDup (map f_id l) -> In a l -> In b l -> f_id a = f_id b -> a = b.
Proof.
  intros Hnd Ha Hb Hid. pose proof (find_field_nodup l a Hnd Ha) as H1.
  pose proof (find_field_nodup l b Hnd Hb) as H2. rewrite Hid in H1. congruence.
Qed.

Lemma find_throw_spec n throws g : find_throw n throws = Some g -> In g throws /\ f_ty g = TRef n.
Proof.
  unfold find_throw. intro H. apply find_some in H. destruct H as [Hin Ht]. split; [assumption|].
  unfold ty_is_ref in Ht. destruct (f_ty g); try discriminate. apply beqb_true in Ht. congruence.
Qed.

(* a base type returned through a pointer field: the handler's value itself is never nil *)
Lemma base_ptr_success_not_nil E t v :
  base_ptr (success_field t) = true -> wt_val E false t v = true -> is_nil v = false.
Proof.
  intros Eb Hok. destruct v; try reflexivity. exfalso. unfold success_field, base_ptr in Eb. cbn in Eb.
  destruct t; cbn in Eb, Hok; discriminate.
Qed.

(* so the success slot is nil exactly when the returned value is; the premise is outcome_ok of [Ret v] *)
Lemma success_slot_nil E t v :
  (if base_ptr (success_field t) then wt_val E false t v else is_nil v || wt_val E false t v) = true ->
  is_nil (success_slot t v) = is_nil v.
Proof.
  intro Hok. unfold success_slot. destruct (base_ptr (success_field t)) eqn:Eb; [|reflexivity].
  rewrite (base_ptr_success_not_nil E t v Eb Hok). reflexivity.
Qed.

(* GetSuccess() of the struct the client read *)
Lemma getter_success E t v :
  (if base_ptr (success_field t) then wt_val E false t v else is_nil v || wt_val E false t v) = true ->
  getter (success_field t) (norm_slot E (success_field t) (success_slot t v)) = ret_view E t v.
Proof.
  intro Hok. set (sf := success_field t) in *.
  assert (Hrok : res_field_ok sf = true) by reflexivity.
  assert (Hget : forall x, getter sf x = if is_nil x then zero_val t else deref sf x).
  { intro x. unfold getter, supports_isset, isset, default_var.
    cbn [sf success_field f_default is_optional f_req req_eqb f_ty]. rewrite orb_true_r.
    destruct (is_nil x); reflexivity. }
  rewrite Hget. unfold success_slot, norm_slot, ret_view, deref. fold sf. rewrite (res_present sf _ Hrok).
  destruct (base_ptr sf) eqn:Eb.
  - rewrite (base_ptr_success_not_nil E t v Eb Hok). reflexivity.
  - destruct (is_nil v) eqn:En; cbn [negb].
    + change (init_slot sf) with (zero_slot sf). rewrite (res_zero_slot sf Hrok). apply (res_not_ptr sf Hrok Eb).
    + change (f_ty sf) with t. rewrite (norm_not_nil E t v En). reflexivity.
Qed.

Lemma next_seq_range st : in_srange 4 (next_seq st).
Proof. apply wrap32_in_srange. Qed.

Lemma next_seq_small st : in_srange 4 (st + 1) -> next_seq st = st + 1.
Proof. apply wrap32_small. Qed.

(* whatever bytes arrive: if the header names a method the table lacks, the reply is the
   UNKNOWN_METHOD exception under the same name and sequence id and the handler is not called *)
Theorem unknown_method_reply E tbl h bs name ty seq body :
  read_msg_begin bs = Some (name, ty, seq, body) -> find_method tbl name = None ->
  process E tbl h bs = (Some (exc_reply name seq (msg_unknown name) UNKNOWN_METHOD), []).
Proof. intros Hr Hn. unfold process. rewrite Hr, Hn. reflexivity. Qed.

(* whatever bytes arrive: a request naming a oneway method never produces a reply *)
Theorem oneway_no_reply E tbl h bs name ty seq body m :
  read_msg_begin bs = Some (name, ty, seq, body) -> find_method tbl name = Some m ->
  fn_oneway (snd m) = true -> fst (process E tbl h bs) = None.
Proof.
  intros Hr Hm Hone. unfold process. rewrite Hr, Hm, Hone.
  destruct (read_bytes E (args_schema m) (zero_struct E (args_schema m)) body) as [v|]; [|reflexivity].
  destruct v; reflexivity.
Qed.

Lemma throws_in_result f t : In t (fn_throws f) -> In t (result_fields f).
Proof. intro H. unfold result_fields. apply in_or_app. right. exact H. Qed.

Lemma success_in_result f t : fn_ret f = Some t -> result_fields f = success_field t :: fn_throws f.
Proof. intro H. unfold result_fields. rewrite H. reflexivity. Qed.

Lemma success_in_fields f t : fn_ret f = Some t -> In (success_field t) (result_fields f).
Proof. intro H. rewrite (success_in_result _ _ H). left. reflexivity. Qed.

Lemma emitted_hdrs_args s : NoDup (map f_id (s_fields s)) ->
  forallb (fun a => negb (is_optional a)) (s_fields s) = true ->
  forall l args, incl l (s_fields s) -> (length l <= length args)%nat ->
    emitted_hdrs s (combine (map f_id l) args) = map (fun a => (spec_ttype (f_ty a), f_id a)) l.
Proof.
  intros Hnd Hno. induction l as [|a l IH]; intros args Hl Hlen; [reflexivity|].
  destruct args as [|v args]; [cbn in Hlen; lia|]. unfold emitted_hdrs in *. cbn [map combine fst snd].
  pose proof (Hl a (or_introl eq_refl)) as Hin. rewrite (find_field_nodup _ _ Hnd Hin).
  rewrite forallb_forall in Hno. pose proof (Hno a Hin) as Ha. apply negb_true_iff in Ha.
  unfold present at 1. rewrite Ha. cbn [negb orb cat_somes]. f_equal.
  apply IH; [intros x Hx; apply Hl; right; exact Hx | cbn in Hlen; lia].
Qed.

Lemma emitted_hdrs_result m set :
  NoDup (map f_id (result_fields (snd m))) ->
  emitted_hdrs (result_schema m) (map (fun g => (f_id g, rslot set g)) (result_fields (snd m))) =
  result_hdrs (snd m) set.
Proof.
  intro Hnd. unfold emitted_hdrs, result_hdrs. rewrite map_map. f_equal. apply map_ext_in.
  intros g Hin. cbn [fst snd result_schema s_fields]. rewrite (find_field_nodup _ _ Hnd Hin). reflexivity.
Qed.

Lemma present_zero g : res_field_ok g = true -> present g (zero_slot g) = false.
Proof. intro H. rewrite (res_present g _ H), (res_zero_slot g H). reflexivity. Qed.

Definition hdr_fn (set : option (Z * value)) (g : field) : option (ttype * Z) :=
  if present g (rslot set g) then Some (spec_ttype (f_ty g), f_id g) else None.

Lemma result_hdrs_eq f set : result_hdrs f set = cat_somes (map (hdr_fn set) (result_fields f)).
Proof. reflexivity. Qed.

Lemma hdrs_absent set l :
  (forall x, In x l -> res_field_ok x = true /\ match set with Some (id, _) => f_id x <> id | None => True end) ->
  cat_somes (map (hdr_fn set) l) = [].
Proof.
  induction l as [|a l IH]; intro H; [reflexivity|]. cbn [map].
  destruct (H a (or_introl eq_refl)) as [Hok Hne].
  unfold hdr_fn at 1. rewrite (rslot_unset set a Hne), (present_zero a Hok). cbn [cat_somes].
  apply IH. intros x Hx. apply H. right. exact Hx.
Qed.

Lemma hdrs_present l g slot :
  NoDup (map f_id l) -> In g l -> (forall x, In x l -> res_field_ok x = true) ->
  cat_somes (map (hdr_fn (Some (f_id g, slot))) l) =
  if present g slot then [(spec_ttype (f_ty g), f_id g)] else [].
Proof.
  induction l as [|a l IH]; intros Hnd Hin Hok; [destruct Hin|].
  cbn [map] in Hnd. inversion Hnd as [|? ? Hna Hnd']; subst. cbn [map].
  destruct Hin as [->|Hin].
  - assert (Hrest : cat_somes (map (hdr_fn (Some (f_id g, slot))) l) = []).
    { apply hdrs_absent. intros x Hx. split; [apply Hok; right; exact Hx|].
      intro Eid. apply Hna. rewrite <- Eid. apply in_map. exact Hx. }
    unfold hdr_fn at 1. rewrite rslot_set. destruct (present g slot); cbn [cat_somes]; rewrite Hrest; reflexivity.
  - assert (Hne : f_id a <> f_id g).
    { intro Eid. apply Hna. rewrite Eid. apply in_map. exact Hin. }
    unfold hdr_fn at 1. rewrite (rslot_unset (Some (f_id g, slot)) a Hne), (present_zero a (Hok a (or_introl eq_refl))).
    cbn [cat_somes]. apply IH; [assumption | assumption | intros x Hx; apply Hok; right; exact Hx].
Qed.

(* one client and one processor over the dispatch table of a service of a well-formed program *)
Section Calls.
  Variable e : env.
  Variable ss : list service.
  Hypothesis Hwf : rpc_wf e ss = true.
  Variable fuel : nat.
  Variable svc : bytes.
  Variable tbl : list method.
  Hypothesis Htbl : method_table fuel ss svc = Some tbl.
  (* a notation, not a Let: a Let would show up in every statement after End *)
  Local Notation E := (rpc_env e ss).

  Lemma E_wf : wf_env E = true.
  Proof. apply rpc_wf_env. exact Hwf. Qed.

  Lemma tbl_ok m : In m tbl -> method_ok E m.
  Proof. intro H. exact (rpc_wf_method e ss fuel svc tbl m Hwf Htbl H). Qed.

  Lemma args_nodup m : In m tbl -> NoDup (map f_id (fn_args (snd m))).
  Proof.
    intro H. destruct (tbl_ok m H) as [Ha _ _].
    exact (wf_struct_nodup _ (wf_env_struct _ _ _ E_wf Ha)).
  Qed.

  Lemma result_nodup m : In m tbl -> NoDup (map f_id (result_fields (snd m))).
  Proof.
    intro H. destruct (tbl_ok m H) as [_ Hr _].
    exact (wf_struct_nodup _ (wf_env_struct _ _ _ E_wf Hr)).
  Qed.

  Lemma args_not_optional m : In m tbl -> forallb (fun a => negb (is_optional a)) (fn_args (snd m)) = true.
  Proof.
    intro H. destruct (tbl_ok m H) as [_ _ Hf]. unfold fun_ok in Hf. rewrite !andb_true_iff in Hf. tauto.
  Qed.

  Lemma name_len_ok m : In m tbl -> len_ok (fn_name (snd m)) = true.
  Proof.
    intro H. destruct (tbl_ok m H) as [_ _ Hf]. unfold fun_ok in Hf. rewrite !andb_true_iff in Hf. tauto.
  Qed.

  Lemma result_ok m : In m tbl -> forall g, In g (result_fields (snd m)) -> res_field_ok g = true.
  Proof.
    intro H. destruct (tbl_ok m H) as [_ _ Hf]. apply forallb_forall, result_fields_ok. exact Hf.
  Qed.

  Lemma client_send_spec m st args :
    In m tbl -> wt_args E m args = true ->
    exists wfs,
      client_send E m st args =
        Ok (next_seq st, msg_begin (fn_name (snd m)) M_CALL (next_seq st) ++ enc (WStruct wfs)) /\
      to_wire E (args_schema m) (args_value (snd m) args) = Ok (WStruct wfs) /\
      forall rest, exists fs',
        read_bytes E (args_schema m) (zero_struct E (args_schema m)) (enc (WStruct wfs) ++ rest) = Ok (VStruct fs') /\
        map snd fs' = norm_args E (snd m) args.
  Proof.
    intros Hin Hwt. destruct (tbl_ok m Hin) as [Ha _ _].
    unfold wt_args, args_value in Hwt.
    assert (Hini : map fst (zero_fields (args_schema m)) = map f_id (s_fields (args_schema m))).
    { unfold zero_fields. rewrite map_map. reflexivity. }
    destruct (args_roundtrip_bytes E (args_schema m) _ (zero_fields (args_schema m)) E_wf Ha
                (args_not_optional m Hin) Hwt Hini) as (wfs & Hw & Htw & Hr).
    exists wfs. split; [|split].
    - unfold client_send, args_value. rewrite Hw. reflexivity.
    - exact Htw.
    - intro rest. eexists. split.
      + unfold zero_struct. rewrite Hr. unfold norm_struct. rewrite norm_struct_eq, Ha. reflexivity.
      + unfold norm_args. apply (norm_args_fields E (args_schema m) (args_nodup m Hin) (args_not_optional m Hin)).
        apply incl_refl.
  Qed.

  (* request: <method name as written in the IDL, CALL, next sequence id> ++ the arguments in
     declaration order under their IDL ids with the wire types Thrift prescribes *)
  Theorem request_shape m st args :
    In m tbl -> wt_args E m args = true ->
    exists wfs,
      client_send E m st args =
        Ok (next_seq st, msg_begin (fn_name (snd m)) M_CALL (next_seq st) ++ enc (WStruct wfs)) /\
      map hdr wfs = map (fun a => (spec_ttype (f_ty a), f_id a)) (fn_args (snd m)) /\
      read_msg_begin (msg_begin (fn_name (snd m)) M_CALL (next_seq st) ++ enc (WStruct wfs)) =
        Some (fn_name (snd m), M_CALL, next_seq st, enc (WStruct wfs)).
  Proof.
    intros Hin Hwt.
    destruct (client_send_spec m st args Hin Hwt) as (wfs & Hsend & Htw & _).
    destruct (tbl_ok m Hin) as [Ha _ _].
    exists wfs. split; [exact Hsend|]. split.
    - destruct (wire_shape E (args_schema m) _ wfs Ha Htw) as [Hh _]. rewrite Hh.
      destruct (struct_wt_parts E (args_schema m) _ Ha Hwt) as (Hids & _ & _).
      apply (emitted_hdrs_args (args_schema m) (args_nodup m Hin) (args_not_optional m Hin)); [apply incl_refl|].
      cbn [args_schema s_fields] in Hids.
      assert (Hl : length (map fst (combine (map f_id (fn_args (snd m))) args)) = length (map f_id (fn_args (snd m))))
        by (rewrite Hids; reflexivity).
      rewrite !map_length, combine_length, map_length in Hl. lia.
    - apply read_msg_begin_msg_begin; [apply name_len_ok; assumption | unfold M_CALL; lia | apply next_seq_range].
  Qed.

  Lemma request_processed (h : handler) m st args :
    find_method tbl (fn_name (snd m)) = Some m -> wt_args E m args = true ->
    exists wfs,
      client_send E m st args =
        Ok (next_seq st, msg_begin (fn_name (snd m)) M_CALL (next_seq st) ++ enc (WStruct wfs)) /\
      process E tbl h (msg_begin (fn_name (snd m)) M_CALL (next_seq st) ++ enc (WStruct wfs)) =
        (if fn_oneway (snd m) then None else reply_of E m (next_seq st) (h m (norm_args E (snd m) args)),
         [(m, norm_args E (snd m) args)]).
  Proof.
    intros Hfind Hwt. destruct (find_method_In _ _ _ Hfind) as [Hin _].
    destruct (client_send_spec m st args Hin Hwt) as (wfs & Hsend & _ & Hr).
    exists wfs. split; [exact Hsend|].
    destruct (Hr []) as (fs' & Hrd & Hargs). rewrite app_nil_r in Hrd.
    unfold process.
    rewrite read_msg_begin_msg_begin; [|apply name_len_ok; assumption|unfold M_CALL; lia|apply next_seq_range].
    rewrite Hfind, Hrd, Hargs. destruct (fn_oneway (snd m)); reflexivity.
  Qed.

  Lemma recv_exception m seq msg tid :
    In m tbl -> fn_oneway (snd m) = false -> in_srange 4 seq -> len_ok msg = true -> in_srange 4 tid ->
    client_recv E m seq (Some (exc_reply (fn_name (snd m)) seq msg tid)) = CAppExc tid.
  Proof.
    intros Hin Hnow Hseq Hmsg Htid. unfold client_recv, exc_reply. rewrite Hnow.
    rewrite read_msg_begin_msg_begin; [|apply name_len_ok; assumption|unfold M_EXCEPTION; lia|assumption].
    rewrite beqb_refl, Z.eqb_refl. cbn [negb]. change (M_EXCEPTION =? M_EXCEPTION) with true. cbn iota.
    rewrite <- (app_nil_r (enc (app_exc msg tid))). rewrite read_app_exc_enc by assumption. reflexivity.
  Qed.

  Lemma recv_internal_error m seq text :
    In m tbl -> fn_oneway (snd m) = false -> in_srange 4 seq -> msg_fits (snd m) text = true ->
    client_recv E m seq (internal_error m seq text) = CAppExc INTERNAL_ERROR.
  Proof.
    intros Hin Hnow Hseq Hfit. apply recv_exception; try assumption; [apply msg_fits_len_ok; assumption|].
    apply in_srange_4. unfold INTERNAL_ERROR. lia.
  Qed.

  Lemma recv_result m seq set :
    In m tbl -> fn_oneway (snd m) = false -> in_srange 4 seq -> set_fits E (snd m) set ->
    exists wfs,
      reply_with E m seq (result_value (snd m) set) = Some (msg_begin (fn_name (snd m)) M_REPLY seq ++ enc (WStruct wfs)) /\
      to_wire E (result_schema m) (result_value (snd m) set) = Ok (WStruct wfs) /\
      client_recv E m seq (reply_with E m seq (result_value (snd m) set)) =
        client_pick (snd m) (map (fun g => (f_id g, norm_slot E g (rslot set g))) (result_fields (snd m))).
  Proof.
    intros Hin Hnow Hseq Hfit. destruct (tbl_ok m Hin) as [_ Hr Hf].
    pose proof (result_wt E m set Hr (result_nodup m Hin) (result_fields_ok _ Hf) Hfit) as Hwt.
    destruct (write_read E (result_schema m) _ E_wf Hr Hwt) as (wfs & Htw & Hrd).
    destruct (to_w_wf E E_wf _ _ _ _ (wt_wt_val _ _ _ Hwt) Htw) as [Hwfw _].
    exists wfs.
    assert (Hrw : reply_with E m seq (result_value (snd m) set) =
                  Some (msg_begin (fn_name (snd m)) M_REPLY seq ++ enc (WStruct wfs))).
    { unfold reply_with, write_bytes. rewrite Htw. reflexivity. }
    split; [exact Hrw|]. split; [exact Htw|].
    rewrite Hrw. unfold client_recv. rewrite Hnow.
    rewrite read_msg_begin_msg_begin; [|apply name_len_ok; assumption|unfold M_REPLY; lia|assumption].
    rewrite beqb_refl, Z.eqb_refl. cbn [negb].
    change (M_REPLY =? M_EXCEPTION) with false. change (M_REPLY =? M_REPLY) with true. cbn iota. cbn [negb].
    unfold read_bytes. rewrite <- (app_nil_r (enc (WStruct wfs))). rewrite dec_struct_enc by assumption.
    rewrite (zero_is_new E (result_schema m)) by (apply res_field_no_default; assumption).
    unfold read_new in Hrd. rewrite Hrd. rewrite (result_norm E m set Hr (result_nodup m Hin)). reflexivity.
  Qed.

  (* a REPLY: <name, REPLY, seq> ++ result struct whose emitted fields are result_hdrs *)
  Lemma reply_struct_shape m seq set :
    In m tbl -> fn_oneway (snd m) = false -> in_srange 4 seq -> set_fits E (snd m) set ->
    exists rfs,
      reply_with E m seq (result_value (snd m) set) =
        Some (msg_begin (fn_name (snd m)) M_REPLY seq ++ enc (WStruct rfs)) /\
      map hdr rfs = result_hdrs (snd m) set.
  Proof.
    intros Hin Hone Hseq Hfit.
    destruct (recv_result m seq set Hin Hone Hseq Hfit) as (rfs & Hrw & Htw & _).
    destruct (tbl_ok m Hin) as [_ Hr _].
    exists rfs. split; [exact Hrw|]. rewrite result_value_eq in Htw.
    destruct (wire_shape E (result_schema m) _ rfs Hr Htw) as [Hh _]. rewrite Hh.
    apply emitted_hdrs_result. apply result_nodup. exact Hin.
  Qed.

  Lemma slot_after m set t :
    In m tbl -> In t (result_fields (snd m)) ->
    slot_of (f_id t) (map (fun g => (f_id g, norm_slot E g (rslot set g))) (result_fields (snd m))) =
    norm_slot E t (rslot set t).
  Proof.
    intros Hin Ht. apply (slot_of_map (fun g => norm_slot E g (rslot set g))); [apply result_nodup|]; assumption.
  Qed.

  Lemma unset_is_nil m set t :
    In m tbl -> In t (fn_throws (snd m)) ->
    (match set with Some (id, _) => f_id t <> id | None => True end) ->
    is_nil (slot_of (f_id t) (map (fun g => (f_id g, norm_slot E g (rslot set g))) (result_fields (snd m)))) = true.
  Proof.
    intros Hin Ht Hne. pose proof (throws_in_result _ _ Ht) as Htr.
    pose proof (result_ok m Hin t Htr) as Hok.
    rewrite (slot_after m set t Hin Htr), (rslot_unset set t Hne), (res_zero_slot t Hok), (res_norm_nil E t Hok).
    reflexivity.
  Qed.

  Lemma pick_void m :
    In m tbl -> fn_ret (snd m) = None ->
    client_pick (snd m) (map (fun g => (f_id g, norm_slot E g (rslot None g))) (result_fields (snd m))) = CVoid.
  Proof.
    intros Hin Hret. unfold client_pick. rewrite first_exc_none.
    - rewrite Hret. reflexivity.
    - intros t Ht. apply (unset_is_nil m None t Hin Ht). exact I.
  Qed.

  Lemma throws_id_nonzero m t g :
    In m tbl -> fn_ret (snd m) = Some t -> In g (fn_throws (snd m)) -> f_id g <> 0.
  Proof.
    intros Hin Hret Hg. pose proof (result_nodup m Hin) as Hnd. rewrite (success_in_result _ _ Hret) in Hnd.
    cbn [map] in Hnd. inversion Hnd as [|? ? Hna _]; subst. intro E0. apply Hna.
    change (f_id (success_field t)) with 0. rewrite <- E0. apply in_map. exact Hg.
  Qed.

  (* the third premise is outcome_ok of [Ret v] for a function returning t *)
  Lemma pick_ret m t v :
    In m tbl -> fn_ret (snd m) = Some t ->
    (if base_ptr (success_field t) then wt_val E false t v else is_nil v || wt_val E false t v) = true ->
    set_fits E (snd m) (Some (0, success_slot t v)) /\
    client_pick (snd m) (map (fun g => (f_id g, norm_slot E g (rslot (Some (0, success_slot t v)) g)))
                             (result_fields (snd m))) = CRet (ret_view E t v).
  Proof.
    intros Hin Hret Hok. split.
    - cbn [set_fits]. intros g Hg Hid.
      assert (g = success_field t).
      { rewrite (success_in_result _ _ Hret) in Hg. destruct Hg as [<-|Hg]; [reflexivity|].
        exfalso. exact (throws_id_nonzero m t g Hin Hret Hg Hid). }
      subst g. unfold slot_fits, success_slot. destruct (base_ptr (success_field t)).
      + eexists. split; [reflexivity | exact Hok].
      + apply orb_true_iff in Hok. exact Hok.
    - unfold client_pick. rewrite first_exc_none.
      + rewrite Hret. f_equal. change 0 with (f_id (success_field t)).
        rewrite (slot_after m _ _ Hin (success_in_fields _ _ Hret)), rslot_set.
        apply getter_success. exact Hok.
      + intros g Hg. apply (unset_is_nil m (Some (0, success_slot t v)) g Hin Hg). exact (throws_id_nonzero m t g Hin Hret Hg).
  Qed.

  Lemma pick_throw m n v g :
    In m tbl -> find_throw n (fn_throws (snd m)) = Some g ->
    is_struct_val v = true -> wt_val E false (TRef n) v = true ->
    set_fits E (snd m) (Some (f_id g, v)) /\
    client_pick (snd m) (map (fun x => (f_id x, norm_slot E x (rslot (Some (f_id g, v)) x)))
                             (result_fields (snd m))) = CExc n (norm E (TRef n) v).
  Proof.
    intros Hin Hft Hsv Hwt. destruct (find_throw_spec _ _ _ Hft) as [Hg Hty].
    pose proof (result_nodup m Hin) as Hnd. pose proof (throws_in_result _ _ Hg) as Hgr.
    pose proof (result_ok m Hin g Hgr) as Hgok.
    assert (Hbp : base_ptr g = false).
    { unfold base_ptr. rewrite Hty. cbn. rewrite !andb_false_r. reflexivity. }
    split.
    - cbn [set_fits]. intros g' Hg' Hid. rewrite (nodup_id_inj _ g' g Hnd Hg' Hgr Hid).
      unfold slot_fits. rewrite Hbp, Hty. right. exact Hwt.
    - assert (Hslot : slot_of (f_id g) (map (fun x => (f_id x, norm_slot E x (rslot (Some (f_id g, v)) x)))
                                         (result_fields (snd m))) = norm E (TRef n) v).
      { rewrite (slot_after m _ g Hin Hgr), rslot_set.
        unfold norm_slot. rewrite (res_present g v Hgok), (struct_val_not_nil v Hsv), Hbp, Hty. reflexivity. }
      assert (Hnn : is_nil (norm E (TRef n) v) = false) by (apply norm_not_nil, struct_val_not_nil, Hsv).
      unfold client_pick.
      destruct (first_exc_one (fn_throws (snd m))
                  (map (fun x => (f_id x, norm_slot E x (rslot (Some (f_id g, v)) x))) (result_fields (snd m)))
                  g Hg) as (t0 & Hfe & Hid0 & Ht0).
      + rewrite Hslot. exact Hnn.
      + intros t Ht Hne. apply (unset_is_nil m (Some (f_id g, v)) t Hin Ht). exact Hne.
      + rewrite Hfe, Hslot.
        rewrite (nodup_id_inj _ t0 g Hnd (throws_in_result _ _ Ht0) Hgr Hid0).
        unfold exc_name. rewrite Hty. reflexivity.
  Qed.

  (* client_recv of what the processor function writes = the image of the handler outcome *)
  Lemma recv_reply_of m seq oc :
    In m tbl -> fn_oneway (snd m) = false -> in_srange 4 seq -> outcome_ok E (snd m) oc = true ->
    client_recv E m seq (reply_of E m seq oc) = image E (snd m) oc.
  Proof.
    intros Hin Hnow Hseq Hok. destruct oc as [v| |n v|text]; unfold reply_of, image; cbn [outcome_ok] in Hok.
    - destruct (fn_ret (snd m)) as [t|] eqn:Hret; [|discriminate].
      destruct (pick_ret m t v Hin Hret Hok) as [Hfit Hpick].
      destruct (recv_result m seq _ Hin Hnow Hseq Hfit) as (wfs & _ & _ & Hrecv).
      rewrite Hrecv. exact Hpick.
    - destruct (fn_ret (snd m)) as [t|] eqn:Hret; [discriminate|].
      destruct (recv_result m seq None Hin Hnow Hseq I) as (wfs & _ & _ & Hrecv).
      rewrite Hrecv. apply pick_void; assumption.
    - destruct (find_throw n (fn_throws (snd m))) as [g|] eqn:Hft; [|apply recv_internal_error; assumption].
      apply andb_true_iff in Hok. destruct Hok as [Hsv Hwt].
      destruct (pick_throw m n v g Hin Hft Hsv Hwt) as [Hfit Hpick].
      destruct (recv_result m seq _ Hin Hnow Hseq Hfit) as (wfs & _ & _ & Hrecv).
      rewrite Hrecv. exact Hpick.
    - apply recv_internal_error; assumption.
  Qed.

  (* reply: success travels under id 0, a declared exception under its IDL id, nothing else *)
  Theorem reply_shape m seq oc :
    In m tbl -> fn_oneway (snd m) = false -> in_srange 4 seq -> outcome_ok E (snd m) oc = true ->
    match oc with
    | Ret v =>
        exists rfs, reply_of E m seq oc = Some (msg_begin (fn_name (snd m)) M_REPLY seq ++ enc (WStruct rfs)) /\
                    map hdr rfs = match fn_ret (snd m) with
                                  | Some t => if is_nil v then [] else [(spec_ttype t, 0)]
                                  | None => [] end
    | Void => reply_of E m seq oc = Some (msg_begin (fn_name (snd m)) M_REPLY seq ++ enc (WStruct []))
    | Throw n v =>
        match find_throw n (fn_throws (snd m)) with
        | Some g => exists rfs, reply_of E m seq oc = Some (msg_begin (fn_name (snd m)) M_REPLY seq ++ enc (WStruct rfs)) /\
                                map hdr rfs = [(T_STRUCT, f_id g)]
        | None => reply_of E m seq oc =
                    Some (exc_reply (fn_name (snd m)) seq (msg_internal (fn_name (snd m)) msg_opaque) INTERNAL_ERROR)
        end
    | OtherError text =>
        reply_of E m seq oc = Some (exc_reply (fn_name (snd m)) seq (msg_internal (fn_name (snd m)) text) INTERNAL_ERROR)
    end.
  Proof.
    intros Hin Hone Hseq Hok.
    pose proof (result_ok m Hin) as Hrok. pose proof (result_nodup m Hin) as Hnd.
    destruct oc as [v| |n v|text]; unfold reply_of; cbn [outcome_ok] in Hok.
    - destruct (fn_ret (snd m)) as [t|] eqn:Hret; [|discriminate].
      destruct (pick_ret m t v Hin Hret Hok) as [Hfit _].
      destruct (reply_struct_shape m seq _ Hin Hone Hseq Hfit) as (rfs & Hrw & Hh).
      exists rfs. split; [exact Hrw|]. rewrite Hh, result_hdrs_eq.
      change 0 with (f_id (success_field t)) at 1.
      rewrite (hdrs_present _ (success_field t) _ Hnd (success_in_fields _ _ Hret) Hrok).
      rewrite (res_present (success_field t) _ eq_refl), (success_slot_nil E t v Hok).
      destruct (is_nil v); reflexivity.
    - destruct (reply_struct_shape m seq None Hin Hone Hseq I) as (rfs & Hrw & Hh).
      rewrite result_hdrs_eq, hdrs_absent in Hh by (intros x Hx; split; [apply Hrok; exact Hx | exact I]).
      destruct rfs; [|discriminate]. exact Hrw.
    - destruct (find_throw n (fn_throws (snd m))) as [g|] eqn:Hft; [|reflexivity].
      apply andb_true_iff in Hok. destruct Hok as [Hsv Hwt].
      destruct (pick_throw m n v g Hin Hft Hsv Hwt) as [Hfit _].
      destruct (reply_struct_shape m seq _ Hin Hone Hseq Hfit) as (rfs & Hrw & Hh).
      exists rfs. split; [exact Hrw|]. rewrite Hh, result_hdrs_eq.
      destruct (find_throw_spec _ _ _ Hft) as [Hg Hty].
      rewrite (hdrs_present _ g v Hnd (throws_in_result _ _ Hg) Hrok).
      rewrite (res_present g v (Hrok g (throws_in_result _ _ Hg))), (struct_val_not_nil v Hsv), Hty. reflexivity.
    - reflexivity.
  Qed.

  (* one call of a declared method: request produced, handler invoked once with the normalised
     arguments, reply (if any) understood by the client as the image of the handler's outcome *)
  Theorem call_carried (h : handler) m st args :
    find_method tbl (fn_name (snd m)) = Some m ->
    wt_args E m args = true ->
    (fn_oneway (snd m) = false -> outcome_ok E (snd m) (h m (norm_args E (snd m) args)) = true) ->
    exists req,
      client_send E m st args = Ok (next_seq st, req) /\
      snd (process E tbl h req) = [(m, norm_args E (snd m) args)] /\
      client_recv E m (next_seq st) (fst (process E tbl h req)) =
        (if fn_oneway (snd m) then COneway else image E (snd m) (h m (norm_args E (snd m) args))) /\
      (fn_oneway (snd m) = true -> fst (process E tbl h req) = None).
  Proof.
    intros Hfind Hwt Hok. destruct (find_method_In _ _ _ Hfind) as [Hin _].
    destruct (request_processed h m st args Hfind Hwt) as (wfs & Hsend & Hp).
    eexists. split; [exact Hsend|]. rewrite Hp. cbn [fst snd]. split; [reflexivity|]. split.
    - destruct (fn_oneway (snd m)) eqn:Hone.
      + unfold client_recv. rewrite Hone. reflexivity.
      + apply (recv_reply_of m _ _ Hin Hone (next_seq_range st)). apply Hok. reflexivity.
    - intro Hone. rewrite Hone. reflexivity.
  Qed.

  Theorem call_roundtrip (h : handler) m st args :
    find_method tbl (fn_name (snd m)) = Some m -> fn_oneway (snd m) = false ->
    wt_args E m args = true ->
    outcome_ok E (snd m) (h m (norm_args E (snd m) args)) = true ->
    exists req,
      client_send E m st args = Ok (next_seq st, req) /\
      client_recv E m (next_seq st) (fst (process E tbl h req)) = image E (snd m) (h m (norm_args E (snd m) args)).
  Proof.
    intros Hfind Hone Hwt Hok.
    destruct (call_carried h m st args Hfind Hwt (fun _ => Hok)) as (req & Hs & _ & Hr & _).
    exists req. split; [exact Hs|]. rewrite Hone in Hr. exact Hr.
  Qed.

  Theorem handler_sees_args (h : handler) m st args :
    find_method tbl (fn_name (snd m)) = Some m ->
    wt_args E m args = true ->
    exists wfs,
      client_send E m st args =
        Ok (next_seq st, msg_begin (fn_name (snd m)) M_CALL (next_seq st) ++ enc (WStruct wfs)) /\
      snd (process E tbl h (msg_begin (fn_name (snd m)) M_CALL (next_seq st) ++ enc (WStruct wfs))) =
        [(m, norm_args E (snd m) args)].
  Proof.
    intros Hfind Hwt. destruct (request_processed h m st args Hfind Hwt) as (wfs & Hsend & Hp).
    exists wfs. split; [exact Hsend | rewrite Hp; reflexivity].
  Qed.

  (* a method the processor does not know: UNKNOWN_METHOD application exception, handler untouched;
     ptbl is the table of any processor, the client is the one of [svc] *)
  Theorem unknown_method_is_app_exception (h : handler) (ptbl : list method) m st args :
    In m tbl -> fn_oneway (snd m) = false -> wt_args E m args = true ->
    find_method ptbl (fn_name (snd m)) = None ->
    len_ok (msg_unknown (fn_name (snd m))) = true ->
    exists req,
      client_send E m st args = Ok (next_seq st, req) /\
      process E ptbl h req =
        (Some (exc_reply (fn_name (snd m)) (next_seq st) (msg_unknown (fn_name (snd m))) UNKNOWN_METHOD), []) /\
      client_recv E m (next_seq st) (fst (process E ptbl h req)) = CAppExc UNKNOWN_METHOD.
  Proof.
    intros Hin Hone Hwt Hnone Hlen.
    destruct (request_shape m st args Hin Hwt) as (wfs & Hsend & _ & Hread).
    eexists. split; [exact Hsend|].
    rewrite (unknown_method_reply E ptbl h _ _ _ _ _ Hread Hnone). split; [reflexivity|]. cbn [fst].
    apply (recv_exception m _ _ _ Hin Hone (next_seq_range st) Hlen).
    apply in_srange_4. unfold UNKNOWN_METHOD. lia.
  Qed.

  Section Sequences.
  Variable hs : nat -> handler.

  Theorem sequence_of_calls cs : forall k st,
    calls_ok E tbl hs k cs -> map view (run_calls E tbl hs k st cs) = expected E hs k st cs.
  Proof.
    induction cs as [|c cs IH]; intros k st Hok; [reflexivity|].
    destruct Hok as [(Hf & Hwt & Hoc) Hrest]. cbn [run_calls expected].
    destruct (call_carried (hs k) (c_m c) st (c_args c) Hf Hwt Hoc) as (req & Hs & Hlog & Hrecv & _).
    rewrite Hs. cbn [map view o_seq o_got o_log]. rewrite Hlog, Hrecv. f_equal. apply IH. exact Hrest.
  Qed.

  Lemma expected_seqs cs : forall k st,
    map (fun x => fst (fst x)) (expected E hs k st cs) = seqs st (length cs).
  Proof.
    induction cs as [|c cs IH]; intros k st; [reflexivity|]. cbn [expected map fst length seqs]. f_equal. apply IH.
  Qed.

  Corollary sequence_ids cs k st :
    calls_ok E tbl hs k cs -> map o_seq (run_calls E tbl hs k st cs) = seqs st (length cs).
  Proof.
    intro Hok. rewrite <- (expected_seqs cs k st), <- (sequence_of_calls cs k st Hok), map_map. reflexivity.
  Qed.
  End Sequences.
End Calls.

Lemma find_method_app a b name :
  find_method (a ++ b) name = match find_method a name with Some m => Some m | None => find_method b name end.
Proof.
  induction a as [|x a IH]; [reflexivity|]. cbn [app find_method].
  destruct (beqb name (fn_name (snd x))); [reflexivity | exact IH].
Qed.

(* methods of the base service (same file or included file: services are addressed by qualified
   name) are dispatched by the processor of the extending service unless it declares the name itself *)
Theorem inherited_dispatch ss k n s b tb name m :
  find_service ss n = Some s -> sv_extends s = Some b -> method_table k ss b = Some tb ->
  find_method tb name = Some m -> find_method (own_methods s) name = None ->
  exists t, method_table (S k) ss n = Some t /\ find_method t name = Some m.
Proof.
  intros Hs Hb Htb Hm Hown. exists (own_methods s ++ tb). split.
  - cbn [method_table]. rewrite Hs, Hb, Htb. reflexivity.
  - rewrite find_method_app, Hown. exact Hm.
Qed.

Inductive derives (ss : list service) : bytes -> bytes -> Prop :=
| derives_refl n : derives ss n n
| derives_step n s b c : find_service ss n = Some s -> sv_extends s = Some b -> derives ss b c -> derives ss n c.

(* through any number of extends steps: the table of every ancestor is part of the table *)
Theorem inherited_table ss n c : derives ss n c -> forall fuel t,
  method_table fuel ss n = Some t ->
  exists k tc, method_table k ss c = Some tc /\ incl tc t.
Proof.
  induction 1 as [n|n s b c Hs Hb Hd IH]; intros fuel t Ht.
  - exists fuel, t. split; [exact Ht | apply incl_refl].
  - destruct fuel as [|k]; [discriminate|]. cbn [method_table] in Ht. rewrite Hs, Hb in Ht.
    destruct (method_table k ss b) as [tb|] eqn:Htb; [|discriminate]. injection Ht as <-.
    destruct (IH k tb Htb) as (k' & tc & Hc & Hincl). exists k', tc. split; [exact Hc|].
    apply incl_appr. exact Hincl.
Qed.

(* a function stays exactly when it carries no streaming.mode annotation, whatever the annotation says *)

Lemma keeps_iff f : keeps f = true <-> fs_stream f = None.
Proof.
  unfold keeps, parse_streaming. destruct (fs_stream f) as [[|v [|w r]]|]; split; intro H; try discriminate; try reflexivity.
  destruct (mode_ok v); [destruct (length (fn_args (fs_fn f)) =? 1)%nat|]; discriminate.
Qed.

Theorem remove_streaming_spec l g :
  In g (remove_streaming l) <-> exists f, In f l /\ fs_fn f = g /\ fs_stream f = None.
Proof.
  unfold remove_streaming. rewrite in_map_iff. split.
  - intros (f & Hg & Hin). apply filter_In in Hin. destruct Hin as [Hin Hk].
    exists f. split; [assumption|]. split; [assumption | apply keeps_iff; assumption].
  - intros (f & Hin & Hg & Hn). exists f. split; [assumption|]. apply filter_In. split; [assumption|].
    apply keeps_iff. assumption.
Qed.

Theorem remove_streaming_app a b : remove_streaming (a ++ b) = remove_streaming a ++ remove_streaming b.
Proof. unfold remove_streaming. rewrite filter_app, map_app. reflexivity. Qed.

Lemma find_method_own_nodup o l f :
  NoDup (map fn_name l) -> In f l -> find_method (map (fun x => (o, x)) l) (fn_name f) = Some (o, f).
Proof.
  induction l as [|a l IH]; intros Hnd Hin; [destruct Hin|].
  cbn [map] in Hnd. inversion Hnd as [|? ? Hna Hnd']; subst. cbn [map find_method snd].
  destruct Hin as [->|Hin]; [rewrite beqb_refl; reflexivity|].
  destruct (beqb (fn_name f) (fn_name a)) eqn:E.
  - exfalso. apply beqb_true in E. apply Hna. rewrite <- E. apply in_map. assumption.
  - apply IH; assumption.
Qed.

(* a function without the annotation is still dispatched under its IDL name by the processor of
   the service the generator sees, however many streaming functions surround it *)
Theorem kept_function_dispatched s f :
  In f (ss_funs s) -> fs_stream f = None ->
  NoDup (map fn_name (sv_funs (effective s))) ->
  find_method (own_methods (effective s)) (fn_name (fs_fn f)) = Some (ss_name s, fs_fn f).
Proof.
  intros Hin Hn Hnd. unfold own_methods. cbn [sv_name sv_funs effective] in *.
  apply find_method_own_nodup; [exact Hnd|].
  destruct (ss_main s); [|apply in_map; assumption].
  apply remove_streaming_spec. exists f. auto.
Qed.

Lemma find_method_none tbl name : (forall m, In m tbl -> fn_name (snd m) <> name) -> find_method tbl name = None.
Proof.
  induction tbl as [|a tbl IH]; intro H; [reflexivity|]. cbn [find_method].
  destruct (beqb name (fn_name (snd a))) eqn:E.
  - apply beqb_true in E. exfalso. apply (H a (or_introl eq_refl)). congruence.
  - apply IH. intros m Hm. apply H. right. assumption.
Qed.

(* a removed function is unknown to the processor (unless another, kept function has its name) *)
Theorem streaming_function_unknown s name :
  ss_main s = true ->
  (forall f, In f (ss_funs s) -> fn_name (fs_fn f) = name -> fs_stream f <> None) ->
  find_method (own_methods (effective s)) name = None.
Proof.
  intros Hmain H. apply find_method_none. intros m Hm Hname.
  unfold own_methods in Hm. apply in_map_iff in Hm. destruct Hm as (g & <- & Hg).
  cbn [effective sv_funs] in Hg. rewrite Hmain in Hg.
  apply remove_streaming_spec in Hg. destruct Hg as (f & Hin & Hfg & Hnone).
  apply (H f Hin); [rewrite Hfg; exact Hname | exact Hnone].
Qed.
