(* Wire/FastBitsetFacts.v — the tests bitset.go emits fire exactly when a required field was not read, and
   name the first such field in order of addition, for EVERY number n of required fields. *)
From Coq Require Import List ZArith Bool Lia Arith.
From Verif Require Import Wire.FastBitset.
Import ListNotations.
Open Scope Z_scope.

Lemma land_pow2_eqb x b : 0 <= b -> (Z.land x (2 ^ b) =? 0) = negb (Z.testbit x b).
Proof.
  intro Hb. destruct (Z.testbit x b) eqn:E; cbn [negb].
  - apply Z.eqb_neq. intro H. assert (T : Z.testbit (Z.land x (2 ^ b)) b = true).
    { rewrite Z.land_spec, E, Z.pow2_bits_true by lia. reflexivity. }
    rewrite H, Z.bits_0 in T. discriminate.
  - apply Z.eqb_eq. apply Z.bits_inj'. intros k Hk. rewrite Z.land_spec, Z.bits_0, Z.pow2_bits_eqb by lia.
    destruct (Z.eqb_spec b k) as [->|_]; [rewrite E; reflexivity | apply andb_false_r].
Qed.

Lemma testbit_bitsvalue m b : 0 <= b -> Z.testbit (bitsvalue m) b = (b <? Z.of_nat m).
Proof.
  intro Hb. induction m as [|m IH].
  - cbn [bitsvalue]. rewrite Z.bits_0. symmetry. apply Z.ltb_ge. lia.
  - cbn [bitsvalue]. rewrite Z.lor_spec, IH, Z.pow2_bits_eqb by lia.
    destruct (Z.ltb_spec b (Z.of_nat m)), (Z.eqb_spec (Z.of_nat m) b), (Z.ltb_spec b (Z.of_nat (S m))); try reflexivity; lia.
Qed.

Definition hits (n : nat) (w : nat) (b : Z) (j : nat) : bool :=
  (word_of n j =? w)%nat && (Z.of_nat (j mod varbits) =? b).

Lemma fold_testbit n seen : forall st0 w b, 0 <= b ->
  Z.testbit (fold_left (fun st i => set_word st (fst (gen_setbit n i)) (snd (gen_setbit n i))) seen st0 w) b =
  Z.testbit (st0 w) b || existsb (hits n w b) seen.
Proof.
  induction seen as [|j seen IH]; intros st0 w b Hb; cbn [fold_left existsb].
  - rewrite orb_false_r. reflexivity.
  - rewrite IH by assumption. unfold set_word, gen_setbit, hits at 2, bitvalue. cbn [fst snd].
    rewrite (Nat.eqb_sym (word_of n j) w).
    destruct (w =? word_of n j)%nat; cbn [andb].
    + rewrite Z.lor_spec, Z.pow2_bits_eqb by lia. rewrite orb_assoc. reflexivity.
    + reflexivity.
Qed.

Lemma state_testbit n seen w b : 0 <= b -> Z.testbit (state n seen w) b = existsb (hits n w b) seen.
Proof. intro Hb. unfold state. rewrite fold_testbit by assumption. rewrite Z.bits_0. reflexivity. Qed.

Lemma word_bit_inj n i j : (i < n)%nat -> (j < n)%nat ->
  hits n (word_of n i) (Z.of_nat (i mod varbits)) j = (i =? j)%nat.
Proof.
  intros Hi Hj. unfold hits, word_of, multi, varbits.
  destruct (Nat.eqb_spec i j) as [->|Hne].
  - rewrite Nat.eqb_refl, Z.eqb_refl. reflexivity.
  - apply andb_false_iff. destruct (8 <? n)%nat eqn:Em.
    + destruct (Nat.eqb_spec (j / 8) (i / 8)) as [Ed|]; [|left; reflexivity]. right.
      apply Z.eqb_neq. intro Em8. apply Hne.
      rewrite (Nat.div_mod i 8), (Nat.div_mod j 8) by lia. lia.
    + apply Nat.ltb_ge in Em. right. apply Z.eqb_neq. rewrite !Nat.mod_small by lia. lia.
Qed.

Lemma test_fires n seen i : (i < n)%nat -> Forall (fun j => (j < n)%nat) seen ->
  (Z.land (state n seen (word_of n i)) (bitvalue i) =? 0) = negb (existsb (Nat.eqb i) seen).
Proof.
  intros Hi Hs. unfold bitvalue. rewrite land_pow2_eqb by lia. rewrite state_testbit by lia. f_equal.
  induction Hs as [|j seen Hj _ IH]; [reflexivity|]. cbn [existsb]. rewrite IH, word_bit_inj by assumption. reflexivity.
Qed.

Lemma run_tests_range n seen lo hi : (hi <= n)%nat -> Forall (fun j => (j < n)%nat) seen ->
  run_tests (state n seen) (tests_range n lo hi) =
  find (fun i => negb (existsb (Nat.eqb i) seen)) (seq lo (hi - lo)).
Proof.
  intros Hhi Hs. unfold tests_range. remember (hi - lo)%nat as len eqn:Hl. revert lo Hl.
  induction len as [|len IH]; intros lo Hl; [reflexivity|].
  cbn [seq map run_tests find]. rewrite test_fires by (assumption || lia).
  destruct (negb (existsb (Nat.eqb lo) seen)); [reflexivity|]. apply IH. lia.
Qed.

Definition tests_of (b : block) : list test := match b with Guarded _ _ ts | Plain ts => ts end.

(* a guard `isset[w] != bitsvalue m` around tests of bits below m of the same word *)
Definition well_guarded (n : nat) (b : block) : Prop :=
  match b with
  | Plain _ => True
  | Guarded w c ts => exists lo hi m, ts = tests_range n lo hi /\ c = bitsvalue m /\
                        forall i, (lo <= i < hi)%nat -> word_of n i = w /\ (i mod varbits < m)%nat
  end.

Lemma guard_sound n st b : well_guarded n b -> run_block st b = run_tests st (tests_of b).
Proof.
  destruct b as [w c ts|ts]; [|reflexivity]. intros (lo & hi & m & -> & -> & H). cbn [run_block tests_of].
  destruct (Z.eqb_spec (st w) (bitsvalue m)) as [E|_]; [|reflexivity]. symmetry.
  unfold tests_range. remember (hi - lo)%nat as len eqn:Hl. revert lo Hl H.
  induction len as [|len IH]; intros lo Hl H; [reflexivity|].
  cbn [seq map run_tests]. destruct (H lo ltac:(lia)) as [Hw Hb]. rewrite Hw, E. unfold bitvalue.
  rewrite land_pow2_eqb, testbit_bitsvalue by lia.
  destruct (Z.ltb_spec (Z.of_nat (lo mod varbits)) (Z.of_nat m)); [|lia]. cbn [negb].
  apply IH; [lia|]. intros i Hi. apply H. lia.
Qed.

Lemma run_flat n st p : Forall (well_guarded n) p -> run st p = run_tests st (flat_map tests_of p).
Proof.
  induction 1 as [|b p Hb _ IH]; [reflexivity|]. cbn [run flat_map]. rewrite (guard_sound n st b Hb), IH.
  induction (tests_of b) as [|[w mask v] ts IHt]; [reflexivity|]. cbn [app run_tests].
  destruct (Z.land (st w) mask =? 0); [reflexivity | exact IHt].
Qed.

Lemma tests_range_app n lo mid hi : (lo <= mid <= hi)%nat ->
  tests_range n lo mid ++ tests_range n mid hi = tests_range n lo hi.
Proof.
  intro H. unfold tests_range. rewrite <- map_app. f_equal.
  replace (hi - lo)%nat with ((mid - lo) + (hi - mid))%nat by lia. rewrite seq_app. do 2 f_equal. lia.
Qed.

Lemma word_of_block n i k : (varbits < n)%nat -> (i mod varbits = 0)%nat -> (i <= k < i + varbits)%nat ->
  word_of n k = (i / varbits)%nat /\ (k mod varbits = k - i)%nat.
Proof.
  unfold word_of, multi, varbits. intros Hn Hi Hk. destruct (Nat.ltb_spec 8 n); [|lia].
  assert (E : (i = 8 * (i / 8))%nat) by (pose proof (Nat.div_mod i 8); lia).
  split; symmetry; [apply (Nat.div_unique k 8 (i / 8) (k - i)) | apply (Nat.mod_unique k 8 (i / 8) (k - i))]; lia.
Qed.

Lemma full_words_spec n : (varbits < n)%nat -> forall fuel i,
  (i mod varbits = 0)%nat -> (i < n)%nat -> (n - i <= varbits * fuel)%nat ->
  let (bs, j) := full_words fuel i n in
  (j mod varbits = 0)%nat /\ (i <= j < n)%nat /\ (n <= j + varbits)%nat /\
  flat_map tests_of bs = tests_range n i j /\ Forall (well_guarded n) bs.
Proof.
  intro Hn. induction fuel as [|fuel IH]; intros i Hi Hlt Hf; [lia|].
  cbn [full_words]. destruct (Nat.ltb_spec (i + varbits) n) as [Hc|Hc].
  - specialize (IH (i + varbits)%nat). destruct (full_words fuel (i + varbits) n) as [bs j].
    destruct IH as (H1 & H2 & H3 & H4 & H5);
      [unfold varbits in *; rewrite Nat.add_mod, Hi by lia; reflexivity | lia | unfold varbits in *; lia|].
    split; [exact H1|]. split; [lia|]. split; [exact H3|]. split.
    + cbn [flat_map tests_of]. rewrite H4. apply tests_range_app. lia.
    + constructor; [|exact H5]. exists i, (i + varbits)%nat, varbits. split; [reflexivity|]. split; [reflexivity|].
      intros k Hk. destruct (word_of_block n i k Hn Hi Hk) as [Hw Hm]. split; [exact Hw | lia].
  - split; [exact Hi|]. split; [lia|]. split; [lia|]. split; [|constructor].
    cbn [flat_map]. unfold tests_range. rewrite Nat.sub_diag. reflexivity.
Qed.

(* the last block: guarded or not, it runs the tests lo .. hi *)
Lemma maybe_guarded n (c : bool) w m lo hi :
  (c = true -> forall i, (lo <= i < hi)%nat -> word_of n i = w /\ (i mod varbits < m)%nat) ->
  well_guarded n (if c then Guarded w (bitsvalue m) (tests_range n lo hi) else Plain (tests_range n lo hi)) /\
  tests_of (if c then Guarded w (bitsvalue m) (tests_range n lo hi) else Plain (tests_range n lo hi)) = tests_range n lo hi.
Proof. intro H. destruct c; [|split; [exact I | reflexivity]]. split; [|reflexivity]. exists lo, hi, m. auto. Qed.

Theorem gen_if_not_set_spec n seen : Forall (fun j => (j < n)%nat) seen ->
  run (state n seen) (gen_if_not_set n) = first_unset n seen.
Proof.
  intro Hs. unfold gen_if_not_set, first_unset.
  destruct (Nat.eqb_spec n 0) as [->|Hn0]; [reflexivity|].
  destruct (multi n) eqn:Em; cbn [negb]; unfold multi in Em.
  - apply Nat.ltb_lt in Em.
    pose proof (full_words_spec n Em n 0 ltac:(reflexivity) ltac:(lia) ltac:(unfold varbits; lia)) as H.
    destruct (full_words n 0 n) as [bs j]. destruct H as (H1 & H2 & H3 & H4 & H5).
    destruct (Nat.ltb_spec j n) as [_|]; [|lia].
    destruct (maybe_guarded n (varbits / 2 <? n mod varbits)%nat (j / varbits) (n mod varbits) j n) as [Hg Ht].
    { intros Hc k Hk. apply Nat.ltb_lt in Hc.
      (* more than half a word is left, so n is not j + 8, and n mod 8 = n - j *)
      assert (En : (n mod varbits = n - j)%nat).
      { destruct (Nat.eq_dec n (j + varbits)) as [E8|]; [|apply (word_of_block n j n Em H1); lia].
        rewrite E8, Nat.add_mod, H1, Nat.mod_same in Hc by (unfold varbits; lia). cbn in Hc. lia. }
      destruct (word_of_block n j k Em H1 ltac:(lia)) as [Hw Hm]. split; [exact Hw | lia]. }
    rewrite (run_flat n) by (apply Forall_app; split; [exact H5 | constructor; [exact Hg | constructor]]).
    rewrite flat_map_app, H4. cbn [flat_map]. rewrite Ht, app_nil_r, tests_range_app by lia.
    rewrite run_tests_range by (assumption || lia). rewrite Nat.sub_0_r. reflexivity.
  - apply Nat.ltb_ge in Em.
    destruct (maybe_guarded n (varbits / 2 <? n)%nat 0 n 0 n) as [Hg Ht].
    { intros _ k Hk. unfold word_of, multi. destruct (Nat.ltb_spec varbits n); [lia|]. split; [reflexivity|].
      rewrite Nat.mod_small; lia. }
    rewrite (run_flat n) by (constructor; [exact Hg | constructor]). cbn [flat_map]. rewrite Ht, app_nil_r.
    rewrite run_tests_range by (assumption || lia). rewrite Nat.sub_0_r. reflexivity.
Qed.

(* the generated test reports a field iff some required field was not read; it then names the first one *)
Corollary gen_if_not_set_fires_iff n seen : Forall (fun j => (j < n)%nat) seen ->
  (exists v, run (state n seen) (gen_if_not_set n) = Some v) <-> (exists i, (i < n)%nat /\ ~ In i seen).
Proof.
  intro Hs. rewrite gen_if_not_set_spec by assumption. unfold first_unset. split.
  - intros [v Hv]. apply find_some in Hv. destruct Hv as [Hin Hv]. apply in_seq in Hin. exists v. split; [lia|].
    intro Hi. apply negb_true_iff in Hv. assert (existsb (Nat.eqb v) seen = true); [|congruence].
    apply existsb_exists. exists v. split; [exact Hi | apply Nat.eqb_refl].
  - intros (i & Hi & Hni).
    destruct (find (fun i0 => negb (existsb (Nat.eqb i0) seen)) (seq 0 n)) as [v|] eqn:E; [eauto|].
    exfalso. pose proof (find_none _ _ E i ltac:(apply in_seq; lia)) as Hf. cbn beta in Hf.
    apply negb_false_iff in Hf. apply existsb_exists in Hf.
    destruct Hf as (x & Hx & Hex). apply Nat.eqb_eq in Hex. subst x. contradiction.
Qed.
