(* Wire/UnknownWriteFacts.v — when the old keep-aware code's Write accepts what it read (Wire/UnknownDomain.v).

     keep_write_total_w   v written by new code, read by old keep-aware code into x: if x is writable
                          (every union has exactly one declared member set, no set has two equal
                          elements) then the old code's Write succeeds
     keep_roundtrip_total the round trip new -> old(keep) -> new under the decidable hypothesis
                          keep_accepts o n so sn v, with no assumption about Write's outcome
     chain_total          chains of any length under decidable hypotheses only                    *)
From Coq Require Import List ZArith Bool.
From Coq.Strings Require Import Byte.
From Verif Require Import Base.Bytes Base.BE Wire.TType Wire.WVal Wire.Codec Wire.CodecFacts Wire.Schema Wire.Value
  Wire.Std Wire.StdFacts Wire.Unknown Wire.UnknownCodecFacts Wire.UnknownEvoFacts Wire.UnknownReadFacts
  Wire.UnknownFacts Wire.UnknownDomain.
Import ListNotations.
Open Scope Z_scope.

Section Write.
  Variables o n : env.
  Hypothesis Hext : extendsb o n = true.
  Hypothesis Hwfo : wf_env o = true.
  Hypothesis Hwfn : wf_env n = true.
  Hypothesis Hopt : opt_defaults_ok o n = true.

  Definition write_refusal (e : kerr) : Prop := e = KStd ESetDup \/ exists c, e = KStd (EUnionCount c).

  (* the only errors the old code's Write can end in: the set check and the union count *)
  Theorem keep_rewrite_errors_w : forall v t key w x e,
    wt_val n key t v = true -> keepable n t v = true -> closed_ty o t = true ->
    to_w n t v = Ok w -> from_wk o t w = KOk x -> to_wk o t x = KErr e -> write_refusal e.
  Proof.
    intros v t key w x e Hwt Hkp Hc Hw Hx He.
    destruct (keep_rewrite o n Hext Hwfo Hwfn Hopt v t key w x Hwt Hkp Hc Hw Hx) as [_ H].
    unfold rewritten in H. rewrite He in H. apply H.
  Qed.

  (* v written by new code, read by old keep-aware code into x: if x is writable, the old code's Write succeeds *)
  Theorem keep_write_total_w : forall v t key w x,
    wt_val n key t v = true -> keepable n t v = true -> closed_ty o t = true ->
    to_w n t v = Ok w -> from_wk o t w = KOk x -> writable o t x = true ->
    exists w', to_wk o t x = KOk w'.
  Proof.
    intros v t key w x Hwt Hkp Hc Hw Hx Hwr.
    destruct (keep_rewrite o n Hext Hwfo Hwfn Hopt v t key w x Hwt Hkp Hc Hw Hx) as [_ H].
    unfold rewritten in H. destruct (to_wk o t x) as [w'|e]; [eauto|]. destruct H as [_ H]. congruence.
  Qed.
End Write.

Theorem write_ok_writable e : forall x t w', to_wk e t x = KOk w' -> writable e t x = true.
Proof.
  induction x using value_ind3; intros t w' Hw; try reflexivity.
  - (* list / set *)
    destruct t; try reflexivity; cbn [to_wk writable] in *.
    2: destruct (set_has_dup l); [discriminate|]; cbn [negb andb].
    all: apply kbind_ok in Hw; destruct Hw as (ys & Hm & _); apply forallb_forall; intros y Hy.
    all: rewrite Forall_forall in H; destruct (kmapM_In _ _ _ y Hm Hy) as (wy & Hwy); apply (H y Hy _ _ Hwy).
  - (* map *)
    destruct t; try reflexivity; cbn [to_wk writable] in *.
    apply kbind_ok in Hw. destruct Hw as (ys & Hm & _). apply forallb_forall. intros kv Hkv.
    rewrite Forall_forall in H. destruct (kmapM_In _ _ _ kv Hm Hkv) as (wkv & Hwkv).
    apply kbind_ok in Hwkv. destruct Hwkv as (wk & Hwk & Hwkv). apply kbind_ok in Hwkv. destruct Hwkv as (wv & Hwv & _).
    destruct (H kv Hkv) as [Hk Hv]. rewrite (Hk _ _ Hwk), (Hv _ _ Hwv). reflexivity.
  - (* struct *)
    destruct t; try reflexivity. rewrite to_wk_struct in Hw. cbn [writable].
    destruct (find_struct e name) as [s|]; [|reflexivity].
    destruct fs as [|[uid u] slots]; [discriminate|]. destruct u; try discriminate.
    destruct (negb (uid =? unk_id)); [discriminate|]. cbn zeta in Hw.
    destruct (is_union s && negb (count_set (s_fields s) slots =? 1)%nat) eqn:Eu; [discriminate|].
    apply kbind_ok in Hw. destruct Hw as (ofs & Hm & _). cbn [tl].
    apply andb_true_iff. split.
    + destruct (is_union s); [|reflexivity]. cbn [andb] in Eu. apply negb_false_iff in Eu. exact Eu.
    + cbn [forallb fst snd]. apply andb_true_iff. split.
      * destruct (find_field uid (s_fields s)); [|reflexivity]. cbn [writable]. apply orb_true_r.
      * apply forallb_forall. intros p Hp. rewrite Forall_forall in H.
        destruct (kmapM_In _ _ _ p Hm Hp) as (ow & How). unfold kwfield_fn in How.
        destruct (find_field (fst p) (s_fields s)) as [f|]; [|reflexivity].
        destruct (present f (snd p)); [|reflexivity]. cbn [negb orb].
        pose proof (H p (or_intror Hp)) as Hp2. cbn [snd] in Hp2.
        destruct (base_ptr f).
        -- destruct (snd p) as [| | | | | | | | |y] eqn:Es; try discriminate.
           apply kbind_ok in How. destruct How as (wy & Hwy & _). cbn [writable].
           destruct Hp2 as [_ Hy]. apply (Hy _ _ Hwy).
        -- apply kbind_ok in How. destruct How as (wy & Hwy & _). destruct Hp2 as [Hy _]. apply (Hy _ _ Hwy).
  - cbn [to_wk lift to_w] in Hw. discriminate.
Qed.

(* for what the old code holds after reading what the new code wrote, Write
   succeeds exactly when the object is writable *)
Theorem keep_write_iff o n :
  extendsb o n = true -> wf_env o = true -> wf_env n = true -> opt_defaults_ok o n = true ->
  forall v t key w x,
    wt_val n key t v = true -> keepable n t v = true -> closed_ty o t = true ->
    to_w n t v = Ok w -> from_wk o t w = KOk x ->
    ((exists w', to_wk o t x = KOk w') <-> writable o t x = true).
Proof.
  intros Hext Hwfo Hwfn Hopt v t key w x Hwt Hkp Hc Hw Hx. split.
  - intros (w' & Hw'). apply (write_ok_writable o _ _ _ Hw').
  - apply (keep_write_total_w o n Hext Hwfo Hwfn Hopt v t key w x Hwt Hkp Hc Hw Hx).
Qed.

Theorem keep_roundtrip_total o n so sn v :
  extendsb o n = true -> wf_env o = true -> wf_env n = true -> opt_defaults_ok o n = true ->
  find_struct o (s_name sn) = Some so -> find_struct n (s_name sn) = Some sn ->
  wt n sn v = true -> keepable n (TRef (s_name sn)) v = true ->
  keep_accepts o n so sn v = true ->
  exists w x w', to_wire n sn v = Ok w /\ read_new_keep o so w = KOk x /\ to_wire_keep o so x = KOk w' /\
                 read_new n sn w' = Ok (norm_struct n sn v).
Proof.
  intros Hext Hwfo Hwfn Hopt Hso Hsn Hwt Hkp Hacc. unfold keep_accepts in Hacc.
  destruct (to_wire n sn v) as [w|] eqn:Hw; [|discriminate].
  destruct (read_new_keep o so w) as [x|] eqn:Hx; [|discriminate].
  destruct (find_struct_In _ _ _ Hso) as [_ Hname]. rewrite Hname in Hacc.
  destruct (write_read n sn v Hwfn Hsn Hwt) as (wfs & Hw2 & _). rewrite Hw in Hw2. injection Hw2 as ->.
  pose proof Hx as Hx0. rewrite read_new_keep_from_wk in Hx0 by (rewrite Hname; exact Hso). rewrite Hname in Hx0.
  assert (Hc : closed_ty o (TRef (s_name sn)) = true) by (cbn [closed_ty]; rewrite Hso; reflexivity).
  destruct (keep_write_total_w o n Hext Hwfo Hwfn Hopt v (TRef (s_name sn)) false (WStruct wfs) x
              (wt_wt_val _ _ _ Hwt) Hkp Hc Hw Hx0 Hacc) as (w' & Hw').
  assert (Hw'' : to_wire_keep o so x = KOk w') by (unfold to_wire_keep; rewrite Hname; exact Hw').
  exists (WStruct wfs), x, w'. repeat split; try assumption.
  apply (keep_roundtrip o n so sn v (WStruct wfs) x w' Hext Hwfo Hwfn Hopt Hso Hsn Hwt Hkp Hw Hx Hw'').
Qed.

Fixpoint chain_dom_total (o n : env) (so sn : sschema) (k : nat) (v : value) : Prop :=
  match k with
  | O => True
  | S k' => wt n sn v = true /\ keepable n (TRef (s_name sn)) v = true /\ keep_accepts o n so sn v = true /\
            chain_dom_total o n so sn k' (norm_struct n sn v)
  end.

Theorem chain_total o n so sn :
  extendsb o n = true -> wf_env o = true -> wf_env n = true -> opt_defaults_ok o n = true ->
  find_struct o (s_name sn) = Some so -> find_struct n (s_name sn) = Some sn ->
  forall k v, chain_dom_total o n so sn k v -> chain o n so sn k v = KOk (iter_norm n sn k v).
Proof.
  intros Hext Hwfo Hwfn Hopt Hso Hsn. induction k as [|k IH]; intros v Hd; cbn [chain iter_norm]; [reflexivity|].
  destruct Hd as (Hwt & Hkp & Hacc & Hd).
  destruct (keep_roundtrip_total o n so sn v Hext Hwfo Hwfn Hopt Hso Hsn Hwt Hkp Hacc) as (w & x & w' & Hw & Hx & Hw' & Hr).
  unfold round_trip, hop_old. rewrite Hw. cbn [lift kbind]. rewrite Hx. cbn [kbind]. rewrite Hw'. cbn [kbind].
  rewrite Hr. cbn [lift kbind]. apply IH. exact Hd.
Qed.

(* the witness of the known finding is outside the domain; the example of UnknownFacts is inside *)
Lemma keep_accepts_examples :
  keep_accepts ex_old ex_new ex_s ex_s ex_v = false /\
  chain_dom_total ex2_old ex2_new ex2_so ex2_sn 3 ex2_v.
Proof.
  split; [vm_compute; reflexivity|].
  assert (Ha : keep_accepts ex2_old ex2_new ex2_so ex2_sn ex2_v = true) by (vm_compute; reflexivity).
  cbn [chain_dom_total]. rewrite !ex2_norm. pose proof ex2_wt. pose proof ex2_keepable. auto 10.
Qed.

(* opt_defaults_ok accepts schemas that opt_init_unset refuses: an optional field with a container
   default (`1: optional list<i32> l = [1, 2]`), left nil by the sender, is written by the old code as
   its default and read back by the new code as the default it would have used anyway *)
Definition ex3_fl : field := mkfield 1 [x6c] Optional (TList TI32) (Some (LList [LInt 1; LInt 2])) false.
Definition ex3_so : sschema := mkstruct [x53] KStruct [ex3_fl].
Definition ex3_sn : sschema := mkstruct [x53] KStruct [ex3_fl; mkfield 2 [x6e] Optional TString None false].
Definition ex3_old : env := mkenv [ex3_so] [].
Definition ex3_new : env := mkenv [ex3_sn] [].
Definition ex3_v : value := VStruct [(1, VNil); (2, VSome (VStr [x78]))].

Lemma widened_domain_example :
  opt_init_unset ex3_old = false /\ opt_defaults_ok ex3_old ex3_new = true /\
  extendsb ex3_old ex3_new = true /\ wf_env ex3_old = true /\ wf_env ex3_new = true /\
  chain_dom_total ex3_old ex3_new ex3_so ex3_sn 2 ex3_v /\
  chain ex3_old ex3_new ex3_so ex3_sn 2 ex3_v = KOk (iter_norm ex3_new ex3_sn 2 ex3_v).
Proof.
  do 5 (split; [vm_compute; reflexivity|]). split; [|vm_compute; reflexivity].
  cbn [chain_dom_total]. repeat apply conj; try exact I; vm_compute; reflexivity.
Qed.
