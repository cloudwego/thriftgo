(* Wire/StdMoreFacts.v — further facts about the standard codec (property C02):

     strip                   a wire value without the fields a reader of the schema must skip, at EVERY struct level
     read_ignores_nested     from_w e t (strip e t w) = from_w e t w           (and the from_wire form)
     read_same_modulo_skippable   inputs with equal strip read the same
     getters_show, isset_*   what getters and IsSet report about a slot Read produced
     dec_struct_complete     dec_struct has enough fuel for every input
     read_frame, read_last_wins   Read into an existing object                                       *)
From Coq Require Import List ZArith Bool Lia.
From Coq.Strings Require Import Byte.
From Verif Require Import Base.Bytes Base.BE Wire.TType Wire.WVal Wire.Codec Wire.CodecFacts
  Wire.Schema Wire.Value Wire.GenTables Wire.Std Wire.StdFacts.
Import ListNotations.
Open Scope Z_scope.

(* the lambda of the struct case of [strip] below, with the recursive call as the argument [sub];
   [strip_struct] ties the two by computation *)
Definition strip_field (e : env) (s : sschema) (sub : ty -> wval -> wval) (wf : wfield) : option wfield :=
  match find_field (snd (fst wf)) (s_fields s) with
  | Some f => if ttype_eqb (fst (fst wf)) (ttype_of e (f_ty f)) then Some (fst wf, sub (f_ty f) (snd wf)) else None
  | None => None end.

Fixpoint strip (e : env) (t : ty) (w : wval) {struct w} : wval :=
  match w with
  | WStruct wfs =>
      match t with
      | TRef n => match find_struct e n with
                  | Some s => WStruct (cat_somes (map (fun wf =>
                        match find_field (snd (fst wf)) (s_fields s) with
                        | Some f => if ttype_eqb (fst (fst wf)) (ttype_of e (f_ty f))
                                    then Some (fst wf, strip e (f_ty f) (snd wf)) else None
                        | None => None end) wfs))
                  | None => w end
      | _ => w end
  | WList et l => match t with TList a => WList et (map (strip e a) l) | _ => w end
  | WSet et l => match t with TSet a => WSet et (map (strip e a) l) | _ => w end
  | WMap kt vt kvs => match t with
                      | TMap a b => WMap kt vt (map (fun kv => (strip e a (fst kv), strip e b (snd kv))) kvs)
                      | _ => w end
  | _ => w
  end.

Definition strip_fields (e : env) (s : sschema) (wfs : list wfield) : list wfield :=
  cat_somes (map (strip_field e s (strip e)) wfs).

Lemma strip_struct e n wfs :
  strip e (TRef n) (WStruct wfs) =
  match find_struct e n with Some s => WStruct (strip_fields e s wfs) | None => WStruct wfs end.
Proof. reflexivity. Qed.

Lemma mapM_map_ext {A B} (f : A -> result B) (g : A -> A) l :
  Forall (fun x => f (g x) = f x) l -> mapM f (map g l) = mapM f l.
Proof. induction 1 as [|x l Hx Hl IH]; cbn; [reflexivity|]. rewrite Hx, IH. reflexivity. Qed.

Lemma foldM_strip e s wfs :
  Forall (fun wf => forall t, from_w e t (strip e t (snd wf)) = from_w e t (snd wf)) wfs ->
  forall st, foldM (read_step e s) (strip_fields e s wfs) st = foldM (read_step e s) wfs st.
Proof.
  induction 1 as [|wf wfs Hwf Hall IH]; intro st; [reflexivity|].
  unfold strip_fields in *. cbn [map cat_somes foldM]. unfold strip_field at 1.
  destruct (find_field (snd (fst wf)) (s_fields s)) as [f|] eqn:Hf.
  - destruct (ttype_eqb (fst (fst wf)) (ttype_of e (f_ty f))) eqn:Ht.
    + cbn [cat_somes foldM]. unfold read_step at 1 3. cbn [fst snd]. rewrite Hf, Ht, Hwf.
      destruct (from_w e (f_ty f) (snd wf)); cbn [bind]; [apply IH | reflexivity].
    + cbn [cat_somes]. unfold read_step at 2. rewrite Hf, Ht. apply IH.
  - cbn [cat_somes]. unfold read_step at 2. rewrite Hf. apply IH.
Qed.

Theorem read_ignores_nested e : forall w t, from_w e t (strip e t w) = from_w e t w.
Proof.
  induction w using wval_ind2; intro t; try reflexivity.
  3-4: destruct t; try reflexivity; cbn [strip from_w]; rewrite map_length, mapM_map_ext; [reflexivity|];
       eapply Forall_impl; [|exact H]; intros x Hx; apply Hx.
  - destruct t; try reflexivity. rewrite strip_struct, !from_w_struct.
    destruct (find_struct e name) as [s|] eqn:Hs; [|rewrite from_w_struct, Hs; reflexivity].
    rewrite from_w_struct, Hs. rewrite foldM_strip; [reflexivity|].
    eapply Forall_impl; [|exact H]. intros wf Hwf t0. apply Hwf.
  - destruct t; try reflexivity. cbn [strip from_w]. rewrite map_length.
    rewrite (mapM_map_ext _ (fun kv => (strip e t1 (fst kv), strip e t2 (snd kv)))); [reflexivity|].
    eapply Forall_impl; [|exact H]. intros kv [Hk Hv]. cbn [fst snd]. rewrite Hk, Hv. reflexivity.
Qed.

Theorem read_ignores_nested_top e s init wfs :
  from_wire e s init (WStruct (strip_fields e s wfs)) = from_wire e s init (WStruct wfs).
Proof.
  unfold from_wire. destruct init; try reflexivity. rewrite foldM_strip; [reflexivity|].
  apply Forall_forall. intros wf _ t. apply read_ignores_nested.
Qed.

Corollary read_same_modulo_skippable e t w1 w2 :
  strip e t w1 = strip e t w2 -> from_w e t w1 = from_w e t w2.
Proof. intro H. rewrite <- (read_ignores_nested e w1), <- (read_ignores_nested e w2), H. reflexivity. Qed.

Lemma strip_fields_hdrs e s wfs :
  map (fun wf => fst wf) (strip_fields e s wfs) =
  map (fun wf => fst wf) (filter (fun wf => negb (skippable e s wf)) wfs).
Proof.
  unfold strip_fields. induction wfs as [|wf wfs IH]; [reflexivity|].
  cbn [map filter cat_somes]. unfold strip_field at 1, skippable at 1.
  destruct (find_field (snd (fst wf)) (s_fields s)) as [f|].
  - destruct (ttype_eqb (fst (fst wf)) (ttype_of e (f_ty f))); cbn [negb cat_somes map]; [f_equal|]; exact IH.
  - cbn [negb cat_somes]. exact IH.
Qed.

(* an optional field that was not written reads back as unset: IsSet of the start object's slot is false *)
Lemma isset_init_slot_nodefault f :
  f_default f = None -> is_base (f_ty f) = false \/ is_optional f = true ->
  supports_isset f = true -> isset f (init_slot f) = false.
Proof.
  intros Hd Hk Hs. unfold isset, init_slot, zero_slot. rewrite Hd.
  destruct (base_ptr f) eqn:Hb; [reflexivity|].
  unfold supports_isset in Hs. unfold base_ptr, has_default in Hb. rewrite Hd in Hb. cbn [negb andb] in Hb.
  destruct (f_ty f); cbn in *; try reflexivity;
    destruct (is_optional f); cbn in *; try discriminate; destruct Hk; discriminate.
Qed.

Theorem dec_consumed : forall f t bs v r, dec f t bs = Some (v, r) -> (depth v + length r <= length bs)%nat.
Proof.
  intros f t bs v r H. destruct (dec_spec f t bs v r H) as (_ & u & -> & L & _). rewrite app_length. lia.
Qed.

Theorem dec_fuel_depth : forall f t bs v r, dec f t bs = Some (v, r) ->
  forall f', (depth v <= f')%nat -> dec f' t bs = Some (v, r).
Proof.
  intros f t bs v r H f' Hf'. destruct (dec_spec f t bs v r H) as (_ & u & -> & _ & Hu). apply Hu, Hf'.
Qed.

Theorem dec_struct_complete f bs v r : dec f T_STRUCT bs = Some (v, r) -> dec_struct bs = Some (v, r).
Proof.
  intro H. unfold dec_struct. apply (dec_fuel_depth _ _ _ _ _ H).
  pose proof (dec_consumed _ _ _ _ _ H). lia.
Qed.

Lemma wf_struct_app l1 l2 : wf (WStruct (l1 ++ l2)) <-> wf (WStruct l1) /\ wf (WStruct l2).
Proof. rewrite !wf_struct_iff, Forall_app. tauto. Qed.

Lemma wf_struct_cons u l : wf (WStruct (u :: l)) <-> wf (WStruct [u]) /\ wf (WStruct l).
Proof. apply (wf_struct_app [u] l). Qed.

(* the bytes of a struct with one more, skippable, field anywhere — followed by anything — are read
   exactly like the bytes without it *)
Theorem read_bytes_ignores_inserted e s init l1 u l2 rest :
  wf (WStruct (l1 ++ u :: l2)) -> skippable e s u = true ->
  read_bytes e s init (flat_map enc_field l1 ++ enc_field u ++ enc (WStruct l2) ++ rest) =
  read_bytes e s init (flat_map enc_field l1 ++ enc (WStruct l2) ++ rest).
Proof.
  intros Hwf Hsk.
  assert (Hwf' : wf (WStruct (l1 ++ l2))).
  { apply wf_struct_app in Hwf. destruct Hwf as [H1 H2]. apply wf_struct_cons in H2.
    apply wf_struct_app. tauto. }
  assert (E1 : flat_map enc_field l1 ++ enc_field u ++ enc (WStruct l2) ++ rest = enc (WStruct (l1 ++ u :: l2)) ++ rest).
  { rewrite enc_struct_app. change (u :: l2) with ([u] ++ l2). rewrite (enc_struct_app [u] l2).
    cbn [flat_map]. rewrite app_nil_r, <- !app_assoc. reflexivity. }
  assert (E2 : flat_map enc_field l1 ++ enc (WStruct l2) ++ rest = enc (WStruct (l1 ++ l2)) ++ rest).
  { rewrite enc_struct_app, <- !app_assoc. reflexivity. }
  rewrite E1, E2. unfold read_bytes. rewrite !dec_struct_enc by assumption.
  apply read_ignores_inserted. assumption.
Qed.

(* no proper prefix of what Write produced is accepted *)
Theorem read_bytes_truncated e s init w n :
  wf w -> wtype w = T_STRUCT -> (n < length (enc w))%nat ->
  read_bytes e s init (firstn n (enc w)) = Err EDecode.
Proof.
  intros Hwf Ht Hn. unfold read_bytes, dec_struct. rewrite <- Ht.
  rewrite dec_prefix_fails by assumption. reflexivity.
Qed.

Corollary written_bytes_truncated e s v bs init n :
  wf_env e = true -> wt e s v = true -> write_bytes e s v = Ok bs -> (n < length bs)%nat ->
  read_bytes e s init (firstn n bs) = Err EDecode.
Proof.
  intros Henv Hwt Hw Hn. unfold write_bytes in Hw.
  destruct (to_wire e s v) as [w|] eqn:E; [|discriminate]. injection Hw as <-.
  destruct (to_w_wf e Henv v _ _ _ (wt_wt_val _ _ _ Hwt) E) as [Hwf Hty].
  apply read_bytes_truncated; try assumption. rewrite Hty. apply (ttype_of_spec e (TRef (s_name s))).
Qed.

Theorem read_bytes_any_fuel e s init f bs w r :
  dec f T_STRUCT bs = Some (w, r) -> read_bytes e s init bs = from_wire e s init w.
Proof. intro H. unfold read_bytes. rewrite (dec_struct_complete _ _ _ _ H). reflexivity. Qed.

Fixpoint slot_of (id : Z) (fs : list (Z * value)) : option value :=
  match fs with [] => None | (i, v) :: r => if i =? id then Some v else slot_of id r end.

Lemma slot_of_set_field_other id id' v fs : id <> id' -> slot_of id (set_field id' v fs) = slot_of id fs.
Proof.
  intro Hne. induction fs as [|[i x] fs IH]; [reflexivity|]. cbn [set_field map fst].
  destruct (Z.eqb_spec i id').
  - cbn [slot_of fst]. subst i. destruct (Z.eqb_spec id' id); [congruence|]. exact IH.
  - cbn [slot_of]. destruct (i =? id); [reflexivity | exact IH].
Qed.

Lemma set_field_ids id v fs : map fst (set_field id v fs) = map fst fs.
Proof.
  induction fs as [|[i x] fs IH]; [reflexivity|]. cbn [set_field map fst].
  destruct (i =? id); cbn [fst]; f_equal; exact IH.
Qed.

Lemma read_step_frame e s st wf st' :
  read_step e s st wf = Ok st' ->
  map fst (fst st') = map fst (fst st) /\
  forall id, id <> snd (fst wf) -> slot_of id (fst st') = slot_of id (fst st).
Proof.
  unfold read_step. destruct (find_field (snd (fst wf)) (s_fields s)) as [f|] eqn:Hf.
  - destruct (find_field_In _ _ _ Hf) as [_ Hid].
    destruct (ttype_eqb (fst (fst wf)) (ttype_of e (f_ty f))).
    + destruct (from_w e (f_ty f) (snd wf)) as [v|]; [|discriminate]. cbn [bind]. intros [= <-]. cbn [fst].
      split; [apply set_field_ids|]. intros id Hne. apply slot_of_set_field_other. congruence.
    + intros [= <-]. auto.
  - intros [= <-]. auto.
Qed.

Lemma foldM_read_frame e s wfs : forall st st', foldM (read_step e s) wfs st = Ok st' ->
  map fst (fst st') = map fst (fst st) /\
  forall id, ~ In id (map (fun wf => snd (fst wf)) wfs) -> slot_of id (fst st') = slot_of id (fst st).
Proof.
  induction wfs as [|wf wfs IH]; intros st st' Hfold; cbn [foldM] in Hfold.
  - injection Hfold as <-. auto.
  - destruct (read_step e s st wf) as [st1|] eqn:E; [|discriminate].
    destruct (read_step_frame _ _ _ _ _ E) as [Hids Hslots]. destruct (IH _ _ Hfold) as [Hids' Hslots'].
    split; [congruence|]. intros id Hnot. cbn [map In] in Hnot.
    rewrite Hslots' by tauto. apply Hslots. intro Heq. apply Hnot. left. symmetry. exact Heq.
Qed.

(* Read touches only the slots whose ids occur on the wire; every other slot of the object it reads
   into keeps its value, and no slot is added, dropped or moved *)
Theorem read_frame e s fs0 wfs fs' :
  from_wire e s (VStruct fs0) (WStruct wfs) = Ok (VStruct fs') ->
  map fst fs' = map fst fs0 /\
  forall id, ~ In id (map (fun wf => snd (fst wf)) wfs) -> slot_of id fs' = slot_of id fs0.
Proof.
  intro H. apply from_wire_ok in H. destruct H as (st & Hfold & _ & [= ->]). apply (foldM_read_frame _ _ _ _ _ Hfold).
Qed.

Lemma foldM_app {A S} (step : S -> A -> result S) l1 l2 st :
  foldM step (l1 ++ l2) st = bind (foldM step l1 st) (foldM step l2).
Proof.
  revert st; induction l1 as [|x l1 IH]; intro st; [reflexivity|]. cbn [app foldM].
  destruct (step st x); [apply IH | reflexivity].
Qed.

Lemma slot_of_set_field_same id v fs : In id (map fst fs) -> slot_of id (set_field id v fs) = Some v.
Proof.
  induction fs as [|[i x] fs IH]; [intros []|]. cbn [map fst In set_field]. intro H.
  destruct (Z.eqb_spec i id) as [->|Hne].
  - cbn [slot_of fst]. rewrite Z.eqb_refl. reflexivity.
  - cbn [slot_of]. destruct (Z.eqb_spec i id); [contradiction|]. apply IH. destruct H; [contradiction | assumption].
Qed.

(* when the same field occurs again at the end of the input, the object ends up holding the later
   occurrence, whatever the earlier ones were: the whole slot is replaced *)
Theorem read_last_wins e s fs0 wfs f x v fs' :
  find_field (f_id f) (s_fields s) = Some f ->
  from_w e (f_ty f) x = Ok v ->
  from_wire e s (VStruct fs0) (WStruct (wfs ++ [(ttype_of e (f_ty f), f_id f, x)])) = Ok (VStruct fs') ->
  In (f_id f) (map fst fs0) ->
  slot_of (f_id f) fs' = Some (wrap_slot f v).
Proof.
  intros Hf Hx H Hin. apply from_wire_ok in H. destruct H as (st & Hfold & _ & [= ->]).
  rewrite foldM_app in Hfold. apply bind_ok in Hfold. destruct Hfold as (st1 & H1 & H2).
  cbn [foldM] in H2. rewrite (read_step_field e s f x v st1 Hf Hx) in H2. injection H2 as <-. cbn [fst].
  apply slot_of_set_field_same.
  destruct (foldM_read_frame _ _ _ _ _ H1) as [Hids _]. cbn [fst] in Hids.
  rewrite Hids. exact Hin.
Qed.

(* a field Write emitted and Read stored: IsSet is true (when the field has IsSet at all) and the
   getter returns the stored payload; a field Write omitted: IsSet false, getter returns the default *)
Theorem getters_show f v :
  (supports_isset f = true -> isset f v = true -> getter f v = deref f v) /\
  (supports_isset f = true -> isset f v = false -> getter f v = default_var f) /\
  (supports_isset f = false -> getter f v = v) /\
  (base_ptr f = true -> getter f (wrap_slot f v) = v).
Proof.
  split; [intros H1 H2; unfold getter; rewrite H1, H2; reflexivity|].
  split; [intros H1 H2; unfold getter; rewrite H1, H2; reflexivity|].
  split; [intros H; unfold getter; rewrite H; reflexivity|].
  intro Hb. unfold getter, wrap_slot, deref, supports_isset, isset. rewrite Hb.
  unfold base_ptr in Hb. rewrite !andb_true_iff in Hb. destruct Hb as [[[Ho Hd] _] _].
  rewrite Ho, orb_true_r. apply negb_true_iff in Hd. unfold has_default in Hd.
  destruct (f_default f); [discriminate|]. reflexivity.
Qed.
