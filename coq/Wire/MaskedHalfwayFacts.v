(* Wire/MaskedHalfwayFacts.v — facts about Write on objects that carry sub masks
   (Wire/MaskedHalfway.v). *)
From Coq Require Import List ZArith Bool.
From Verif Require Import Base.Bytes Base.BE Wire.TType Wire.WVal Wire.Codec Wire.CodecFacts
  Wire.Schema Wire.Value Wire.Std Wire.StdFacts Wire.Masked Wire.MaskedFacts Wire.MaskedHalfway.
Import ListNotations.
Open Scope Z_scope.

Lemma stale_sub_nil k : stale_sub None k = None.
Proof. reflexivity. Qed.

(* what the first Write left at a position makes no difference to the second: nothing, or the very
   mask that arrives now *)
Definition inert (s1 s2 : option mask) : Prop := s1 = None \/ s1 = s2.

Lemma inert_own s1 s2 : inert s1 s2 -> own_or s1 s2 = s2.
Proof. intros [-> | ->]; [reflexivity | destruct s2; reflexivity]. Qed.

Lemma inert_sub s1 s2 k : inert s1 s2 ->
  inert (stale_sub s1 k) (if snd (mquery s2 k) then fst (mquery s2 k) else None).
Proof. intros [-> | ->]; [left | right]; reflexivity. Qed.

Lemma mapM_sel2_inert {A B} (key : nat -> A -> qkey) s1 s2 (f : option mask -> option mask -> A -> result B)
      (g : option mask -> A -> result B) l : inert s1 s2 ->
  Forall (fun x => forall a b, inert a b -> f a b x = g b x) l ->
  forall i, mapM_sel2 key s1 s2 f i l = mapM_sel (option mask) mquery (fun i x => Ok (key i x)) s2 g i l.
Proof.
  intro Hi. induction 1 as [|x l Hx Hl IH]; intro i; [reflexivity|].
  cbn [mapM_sel2 mapM_sel]. pose proof (inert_sub s1 s2 (key i x) Hi) as Hs.
  destruct (snd (mquery s2 (key i x))); [rewrite (Hx _ _ Hs), IH | rewrite IH]; reflexivity.
Qed.

(* then the object is written as a fresh one: the model of Wire/Masked.v *)
Theorem to_wm_again_inert cfg e : forall v s1 s2 t, inert s1 s2 ->
  to_wm_again cfg e s1 s2 t v = to_wm_mask cfg e s2 t v.
Proof.
  intro v. induction v using value_ind3; intros s1 s2 t Hi; try reflexivity.
  - destruct t; try reflexivity; unfold to_wm_mask; cbn [to_wm_again to_wm].
    2: destruct (set_has_dup l); [reflexivity|].
    all: rewrite (mapM_sel2_inert idx_key s1 s2 _ (fun s x => to_wm_mask cfg e s t x)); [reflexivity | exact Hi |];
      eapply Forall_impl; [|exact H]; intros x Hx a b Hab; exact (Hx a b t Hab).
  - destruct t; try reflexivity; unfold to_wm_mask; cbn [to_wm_again to_wm].
    rewrite (mapM_sel2_inert (fun _ kv => map_qkey t1 (fst kv)) s1 s2 _
               (fun s kv => bind (to_w e t1 (fst kv)) (fun k => bind (to_wm_mask cfg e s t2 (snd kv)) (fun x => Ok (k, x)))));
      [reflexivity | exact Hi |].
    eapply Forall_impl; [|exact H]. intros kv [_ Hx] a b Hab. cbn beta. rewrite (Hx a b t2 Hab). reflexivity.
  - destruct t; try reflexivity. unfold to_wm_mask. cbn [to_wm_again to_wm].
    destruct (find_struct e name) as [s|]; [|reflexivity]. cbn zeta.
    destruct (is_union s && negb (count_set (s_fields s) fs =? 1)%nat); [reflexivity|].
    rewrite (inert_own _ _ Hi). f_equal. apply mapM_ext. intros p Hin.
    rewrite Forall_forall in H. specialize (H p Hin). cbn beta in H.
    destruct (find_field (fst p) (s_fields s)) as [f|]; [|reflexivity].
    destruct (present f (snd p)); [|reflexivity].
    pose proof (inert_sub s1 s2 (QF (f_id f)) Hi) as Hs.
    destruct (snd (mquery s2 (QF (f_id f))) || (is_required f && negb (zero_required cfg))); [|reflexivity].
    destruct (base_ptr f).
    + destruct (snd p) as [| | | | | | | | |x] eqn:Es; try reflexivity. rewrite (proj2 H _ _ _ Hs). reflexivity.
    + rewrite (proj1 H _ _ _ Hs). reflexivity.
Qed.

Theorem to_wm_again_fresh cfg e s2 t v : to_wm_again cfg e None s2 t v = to_wm_mask cfg e s2 t v.
Proof. apply to_wm_again_inert. left. reflexivity. Qed.

(* without field_mask_halfway the sub objects get what the second Write sets *)
Theorem second_write_default cfg m1 m2 e s v : halfway cfg = false ->
  second_write cfg m1 m2 e s v = to_wire_masked cfg m2 e s v.
Proof. intro H. unfold second_write. rewrite H. reflexivity. Qed.

(* a first Write under the nil mask leaves nothing behind *)
Theorem second_write_after_nil cfg m2 e s fs : find_struct e (s_name s) = Some s ->
  second_write cfg None m2 e s (VStruct fs) = to_wire_masked cfg m2 e s (VStruct fs).
Proof.
  intro Hs. unfold second_write. destruct (halfway cfg); [|reflexivity].
  unfold to_wire_masked, to_wm_mask. rewrite to_wm_struct, Hs. cbn zeta.
  destruct (is_union s && negb (count_set (s_fields s) fs =? 1)%nat); [reflexivity|].
  f_equal. apply mapM_ext. intros p _. unfold wfield_m.
  destruct (find_field (fst p) (s_fields s)) as [f|]; [|reflexivity].
  destruct (present f (snd p)); [|reflexivity]. cbn zeta.
  destruct (snd (mquery m2 (QF (f_id f))) || (is_required f && negb (zero_required cfg))); [|reflexivity].
  rewrite stale_sub_nil. destruct (base_ptr f).
  - destruct (snd p); try reflexivity. rewrite to_wm_again_fresh. reflexivity.
  - rewrite to_wm_again_fresh. reflexivity.
Qed.
