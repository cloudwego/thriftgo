(* Wire/StdPresFacts.v — presentation invariance of the standard codec: the result of Write does not
   depend on the order in which the schema lists the fields (reorder_fields), and visiting the slots
   of an object in another order permutes the emitted fields. *)
From Coq Require Import List ZArith Bool Permutation.
From Verif Require Import Wire.TType Wire.WVal Wire.Schema Wire.Value Wire.Std Wire.StdFacts.
Import ListNotations.
Open Scope Z_scope.

(* two environments that differ only in the order of the fields of their struct-likes
   (what reorder_fields does), stated through what the codec looks at *)
Definition env_equiv (e e' : env) : Prop :=
  forall n, match find_struct e n, find_struct e' n with
            | Some s, Some s' => is_union s = is_union s' /\
                                 forall id, find_field id (s_fields s) = find_field id (s_fields s')
            | None, None => True
            | _, _ => False end.

Lemma find_field_perm l l' : NoDup (map f_id l) -> Permutation l l' ->
  forall id, find_field id l = find_field id l'.
Proof.
  intros Hnd Hp. induction Hp; intro id.
  - reflexivity.
  - cbn. destruct (id =? f_id x); [reflexivity|]. apply IHHp. inversion Hnd; assumption.
  - cbn. destruct (Z.eqb_spec id (f_id y)), (Z.eqb_spec id (f_id x)); try reflexivity.
    exfalso. cbn in Hnd. inversion Hnd as [|? ? Hn _]; subst. apply Hn. left. congruence.
  - rewrite IHHp1 by assumption. apply IHHp2.
    eapply Permutation_NoDup; [apply Permutation_map; exact Hp1 | assumption].
Qed.

Lemma mapM_ext_Forall {A B} (f g : A -> result B) l :
  Forall (fun x => f x = g x) l -> mapM f l = mapM g l.
Proof. induction 1 as [|x l Hx Hl IH]; cbn; [reflexivity|]. rewrite Hx, IH. reflexivity. Qed.

Lemma count_set_ext fields fields' fs :
  (forall id, find_field id fields = find_field id fields') -> count_set fields fs = count_set fields' fs.
Proof.
  intro H. unfold count_set. f_equal. apply filter_ext. intro p. rewrite H. reflexivity.
Qed.

(* closes a goal whose two sides are the same term; where they differ in the environment, [reflexivity]
   would set out to convert [to_w e ..] with [to_w e' ..] *)
Local Ltac same := match goal with |- ?a = ?a => reflexivity | _ => idtac end.

Theorem to_w_env_equiv e e' : env_equiv e e' -> forall v t, to_w e t v = to_w e' t v.
Proof.
  intros Heq.
  assert (Htt : forall t, ttype_of e t = ttype_of e' t) by (intro t; rewrite !ttype_of_spec; reflexivity).
  induction v using value_ind3; intro t.
  1-5, 10: destruct t; reflexivity.
  - destruct t; cbn [to_w]; same; rewrite Htt;
      rewrite (mapM_ext_Forall (to_w e t) (to_w e' t) l) by (eapply Forall_impl; [|exact H]; intros x Hx; apply Hx);
      reflexivity.
  - destruct t; cbn [to_w]; same. rewrite !Htt.
    match goal with |- bind (mapM ?F kvs) _ = bind (mapM ?G kvs) _ => rewrite (mapM_ext_Forall F G) end; [reflexivity|].
    eapply Forall_impl; [|exact H]. intros kv [Hk Hx]. cbn beta. rewrite Hk, Hx. reflexivity.
  - destruct t; try (cbn [to_w]; same; fail). rewrite !to_w_struct. specialize (Heq name).
    destruct (find_struct e name) as [s|], (find_struct e' name) as [s'|]; try contradiction; [|reflexivity].
    destruct Heq as [Hu Hff]. cbn zeta.
    rewrite (count_set_ext _ _ fs Hff), Hu, (mapM_ext_Forall (wfield_fn e s) (wfield_fn e' s')); [reflexivity|].
    eapply Forall_impl; [|exact H]. intros p [Hp Hsome]. unfold wfield_fn. rewrite Hff.
    destruct (find_field (fst p) (s_fields s')) as [f|]; [|reflexivity].
    destruct (present f (snd p)); [|reflexivity]. rewrite Htt.
    destruct (base_ptr f); [destruct (snd p); same; rewrite Hsome | rewrite Hp]; reflexivity.
  - destruct t; cbn [to_w]; rewrite ?Htt; same. specialize (Heq name).
    destruct (find_struct e name) as [s|], (find_struct e' name) as [s'|]; try contradiction; [|reflexivity].
    destruct Heq as [-> _]. reflexivity.
Qed.

Lemma mapM_perm {A B} (f : A -> result B) l l' ys :
  Permutation l l' -> mapM f l = Ok ys -> exists ys', mapM f l' = Ok ys' /\ Permutation ys ys'.
Proof.
  intro Hp. revert ys. induction Hp; intros ys H.
  - exists ys. split; [assumption | apply Permutation_refl].
  - cbn in *. destruct (f x) as [y|]; [|discriminate].
    destruct (mapM f l) as [ys0|] eqn:E; [|discriminate]. injection H as <-.
    destruct (IHHp _ eq_refl) as (ys' & -> & Hpp). exists (y :: ys'). split; [reflexivity | constructor; assumption].
  - cbn in *. destruct (f y) as [y1|]; [|discriminate]. destruct (f x) as [x1|]; [|discriminate].
    destruct (mapM f l) as [ys0|]; [|discriminate]. injection H as <-.
    exists (x1 :: y1 :: ys0). split; [reflexivity | apply perm_swap].
  - destruct (IHHp1 _ H) as (ys1 & H1 & P1). destruct (IHHp2 _ H1) as (ys2 & H2 & P2).
    exists ys2. split; [assumption | eapply Permutation_trans; eassumption].
Qed.

Lemma cat_somes_perm {A} (l l' : list (option A)) : Permutation l l' -> Permutation (cat_somes l) (cat_somes l').
Proof.
  induction 1.
  - apply Permutation_refl.
  - destruct x; cbn; [constructor|]; assumption.
  - destruct x, y; cbn; try apply Permutation_refl. apply perm_swap.
  - eapply Permutation_trans; eassumption.
Qed.

Lemma filter_perm {A} (p : A -> bool) l l' : Permutation l l' -> Permutation (filter p l) (filter p l').
Proof.
  induction 1 as [|x l l' _ IH|x y l|l l' l'' _ IH1 _ IH2]; cbn [filter].
  - constructor.
  - destruct (p x); [constructor|]; exact IH.
  - destruct (p x), (p y); try apply Permutation_refl. apply perm_swap.
  - eapply Permutation_trans; eassumption.
Qed.

Lemma count_set_perm fields fs fs' : Permutation fs fs' -> count_set fields fs = count_set fields fs'.
Proof. intro H. unfold count_set. apply Permutation_length, filter_perm, H. Qed.

(* the same object with its slots listed in another order (reorder_fields changes the Go field order and
   therefore the order in which Write visits them): the emitted fields are a permutation *)
Theorem to_wire_reorder e s fs fs' wfs :
  find_struct e (s_name s) = Some s -> Permutation fs fs' ->
  to_wire e s (VStruct fs) = Ok (WStruct wfs) ->
  exists wfs', to_wire e s (VStruct fs') = Ok (WStruct wfs') /\ Permutation wfs wfs'.
Proof.
  intros Hs Hp Hw. apply (to_wire_ok e s fs _ Hs) in Hw. destruct Hw as (Hu & ofs & Hm & [= ->]).
  destruct (mapM_perm _ _ _ _ Hp Hm) as (ofs' & Hm' & Hpp).
  exists (cat_somes ofs'). split; [|apply cat_somes_perm; assumption].
  apply (to_wire_ok e s fs' _ Hs). rewrite <- (count_set_perm _ _ _ Hp). eauto.
Qed.
