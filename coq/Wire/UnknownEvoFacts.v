(* Wire/UnknownEvoFacts.v — schema evolution without keep_unknown_fields (Wire/Unknown.v: adapt,
   extendsb) on top of the standard codec.

     reads_agree         reader b follows reader a on the wire values a guard lets through, given what the two
                         schemas of each struct have in common; the next two are its instances
     reads_agree_old     whatever the NEW schema reads from a wire value, the OLD schema reads the same
                         wire value without error as the restriction (adapt o) of that value
     reads_agree_new     a wire value made of fields the OLD schema knows is read by the NEW schema as
                         the old reading with the added fields at their NewX() content (adapt n)
     old_reads_new       from_wire o (to_wire n v) = Ok (adapt o (norm n v))
     new_reads_old       from_wire n (to_wire o v) = Ok (adapt n (norm o v))                          *)
From Coq Require Import List ZArith Bool.
From Coq.Strings Require Import Byte.
From Verif Require Import Base.Bytes Base.BE Wire.TType Wire.WVal Wire.Codec Wire.Schema Wire.Value
  Wire.Std Wire.CodecFacts Wire.StdFacts Wire.Unknown.
Import ListNotations.
Open Scope Z_scope.

Lemma ty_eqb_eq a : forall b, ty_eqb a b = true -> a = b.
Proof.
  induction a; intros b H; destruct b; cbn [ty_eqb] in H; try discriminate; try reflexivity.
  - apply beqb_true in H. subst. reflexivity.
  - apply beqb_true in H. subst. reflexivity.
  - f_equal. apply IHa. exact H.
  - f_equal. apply IHa. exact H.
  - apply andb_true_iff in H. destruct H as [H1 H2]. f_equal; [apply IHa1 | apply IHa2]; assumption.
Qed.

Lemma lit_eqb_eq : forall a b, lit_eqb a b = true -> a = b.
Proof.
  fix ind 1. intros a b H. destruct a, b; simpl in H; try discriminate.
  - apply eqb_prop in H. subst. reflexivity.
  - apply Z.eqb_eq in H. subst. reflexivity.
  - apply Z.eqb_eq in H. subst. reflexivity.
  - apply beqb_true in H. subst. reflexivity.
  - apply beqb_true in H. subst. reflexivity.
  - f_equal. revert l0 H. induction l as [|x l IHl]; intros [|y l0] H; try discriminate; [reflexivity|].
    apply andb_true_iff in H. destruct H as [H1 H2]. f_equal; [apply ind; exact H1 | apply IHl; exact H2].
  - f_equal. revert kvs0 H. induction kvs as [|[x y] kvs IHl]; intros [|[x' y'] kvs0] H; try discriminate; [reflexivity|].
    apply andb_true_iff in H. destruct H as [H1 H2]. apply andb_true_iff in H1. destruct H1 as [Hx Hy].
    f_equal; [f_equal; apply ind; assumption | apply IHl; exact H2].
Qed.

Lemma req_eqb_eq a b : req_eqb a b = true -> a = b.
Proof. destruct a, b; cbn; congruence. Qed.

Lemma field_eqb_eq a b : field_eqb a b = true -> a = b.
Proof.
  unfold field_eqb. rewrite !andb_true_iff. intros [[[[[Hid Hn] Hr] Ht] Hd] Htd].
  destruct a as [i1 n1 r1 t1 d1 td1], b as [i2 n2 r2 t2 d2 td2]. cbn [f_id f_name f_req f_ty f_default f_typedef] in *.
  apply Z.eqb_eq in Hid. apply beqb_true in Hn. apply req_eqb_eq in Hr. apply ty_eqb_eq in Ht.
  apply eqb_prop in Htd. subst.
  destruct d1 as [x|], d2 as [y|]; try discriminate; [|reflexivity].
  apply lit_eqb_eq in Hd. subst. reflexivity.
Qed.

Lemma find_struct_In e n s : find_struct e n = Some s -> In s (structs e) /\ s_name s = n.
Proof.
  unfold find_struct. induction (structs e) as [|s' l IH]; cbn; [discriminate|].
  destruct (beqb n (s_name s')) eqn:E.
  - intros [= <-]. apply beqb_true in E. auto.
  - intro H. destruct (IH H). auto.
Qed.

Section Ext.
  Variables o n : env.
  Hypothesis Hext : extendsb o n = true.

  Lemma ext_struct nm so : find_struct o nm = Some so ->
    exists sn, find_struct n nm = Some sn /\ struct_extends so sn = true.
  Proof.
    intro Hs. destruct (find_struct_In _ _ _ Hs) as [Hin Hnm].
    unfold extendsb in Hext. rewrite !andb_true_iff in Hext. destruct Hext as [[H _] _].
    rewrite forallb_forall in H. specialize (H so Hin). rewrite Hnm in H.
    destruct (find_struct n nm) as [sn|]; [|discriminate]. exists sn. auto.
  Qed.

  Lemma ext_closed : closed_env o = true.
  Proof. unfold extendsb in Hext. rewrite !andb_true_iff in Hext. apply Hext. Qed.

  Lemma closed_field nm so f : find_struct o nm = Some so -> In f (s_fields so) -> closed_ty o (f_ty f) = true.
  Proof.
    intros Hs Hf. destruct (find_struct_In _ _ _ Hs) as [Hin _].
    pose proof ext_closed as Hc. unfold closed_env in Hc. rewrite forallb_forall in Hc.
    specialize (Hc so Hin). rewrite forallb_forall in Hc. apply Hc. assumption.
  Qed.
End Ext.

Lemma ext_field_old so sn id fo :
  struct_extends so sn = true -> find_field id (s_fields so) = Some fo -> find_field id (s_fields sn) = Some fo.
Proof.
  intros He Hf. destruct (find_field_In _ _ _ Hf) as [Hin Hid].
  unfold struct_extends in He. rewrite !andb_true_iff in He. destruct He as [[_ H] _].
  rewrite forallb_forall in H. specialize (H fo Hin). rewrite Hid in H.
  destruct (find_field id (s_fields sn)) as [fn|]; [|discriminate].
  apply field_eqb_eq in H. subst. reflexivity.
Qed.

Lemma ext_field_new so sn fn :
  struct_extends so sn = true -> In fn (s_fields sn) -> find_field (f_id fn) (s_fields so) = None ->
  is_required fn = false.
Proof.
  intros He Hin Hno. unfold struct_extends in He. rewrite !andb_true_iff in He. destruct He as [_ H].
  rewrite forallb_forall in H. specialize (H fn Hin). rewrite Hno in H. apply negb_true_iff in H. exact H.
Qed.

Lemma ext_kind so sn : struct_extends so sn = true -> s_kind so = s_kind sn.
Proof.
  unfold struct_extends. rewrite !andb_true_iff. intros [[[_ H] _] _].
  destruct (s_kind so), (s_kind sn); cbn in H; congruence.
Qed.

Lemma find_field_None id l : find_field id l = None <-> ~ In id (map f_id l).
Proof.
  induction l as [|g l IH]; cbn; [tauto|].
  destruct (Z.eqb_spec id (f_id g)) as [E|E].
  - split; [discriminate|]. intro H. exfalso. apply H. auto.
  - rewrite IH. split; [intros H [H1|H1]; [congruence|contradiction] | tauto].
Qed.

(* Go's == on map keys looks only at this projection *)
Definition keyrep (v : value) : value :=
  match v with
  | VBool _ | VInt _ | VDbl _ | VStr _ | VBin _ | VNil => v
  | _ => VList []
  end.

Lemma go_key_eq_keyrep a b : go_key_eq a b = go_key_eq (keyrep a) (keyrep b).
Proof. destruct a, b; reflexivity. Qed.

Lemma keyrep_adapt e t v : keyrep (adapt e t v) = keyrep v.
Proof.
  destruct v; try reflexivity.
  - destruct t; reflexivity.
  - destruct t; reflexivity.
  - destruct t; try reflexivity. cbn [adapt]. destruct (find_struct e name); reflexivity.
Qed.

Lemma go_key_eq_adapt e t a b : go_key_eq (adapt e t a) (adapt e t b) = go_key_eq a b.
Proof. rewrite go_key_eq_keyrep, !keyrep_adapt, <- go_key_eq_keyrep. reflexivity. Qed.

(* map_build commutes with entry-wise maps that preserve key equality *)
Section MapBuildMap.
  Variables gk gv : value -> value.
  Hypothesis Hk : forall a b, go_key_eq (gk a) (gk b) = go_key_eq a b.
  Let g (kv : value * value) := (gk (fst kv), gv (snd kv)).

  Lemma map_insert_map k v m : map_insert (gk k) (gv v) (map g m) = map g (map_insert k v m).
  Proof.
    induction m as [|[k' v'] m IH]; [reflexivity|]. cbn [map map_insert g fst snd].
    rewrite Hk. destruct (go_key_eq k k'); [reflexivity|]. cbn [map]. rewrite IH. reflexivity.
  Qed.

  Lemma map_build_map xs : map_build (map g xs) = map g (map_build xs).
  Proof.
    unfold map_build. change (@nil (value * value)) with (map g []) at 1. generalize (@nil (value * value)).
    induction xs as [|[k v] xs IH]; intro m; [reflexivity|]. cbn [map fold_left fst snd g].
    rewrite map_insert_map. apply IH.
  Qed.
End MapBuildMap.

Lemma adapt_lit : forall l e t, adapt e t (value_of_lit l) = value_of_lit l.
Proof.
  fix ind 1. intros l e t. destruct l; try reflexivity.
  - (* list *)
    cbn [value_of_lit]. destruct t; try reflexivity; cbn [adapt]; f_equal;
      induction l as [|x l IHl]; [reflexivity | cbn [map]; rewrite ind, IHl; reflexivity
                                  | reflexivity | cbn [map]; rewrite ind, IHl; reflexivity].
  - (* map *)
    cbn [value_of_lit]. destruct t; try reflexivity. cbn [adapt]. f_equal.
    induction kvs as [|[x y] kvs IHl]; [reflexivity|]. cbn [map fst snd]. rewrite !ind, IHl. reflexivity.
Qed.

Lemma adapt_zero_val e t t' : adapt e t (zero_val t') = zero_val t'.
Proof. destruct t'; reflexivity. Qed.

Lemma adapt_init_slot e t f : adapt e t (init_slot f) = init_slot f.
Proof.
  unfold init_slot. destruct (f_default f); [apply adapt_lit|].
  unfold zero_slot. destruct (base_ptr f); [reflexivity | apply adapt_zero_val].
Qed.

Lemma adapt_wrap_slot e f v : adapt e (f_ty f) (wrap_slot f v) = wrap_slot f (adapt e (f_ty f) v).
Proof. unfold wrap_slot. destruct (base_ptr f); reflexivity. Qed.

Lemma adapt_slot_fst e s p : fst (adapt_slot e s p) = fst p.
Proof. unfold adapt_slot. destruct (find_field (fst p) (s_fields s)); reflexivity. Qed.

Lemma map_fst_adapt_slot e s fs : map fst (map (adapt_slot e s) fs) = map fst fs.
Proof. rewrite map_map. apply map_ext. intro p. apply adapt_slot_fst. Qed.

Lemma map_fst_set_field id v fs : map fst (set_field id v fs) = map fst fs.
Proof.
  unfold set_field. rewrite map_map. apply map_ext. intro p. destruct (fst p =? id); reflexivity.
Qed.

Lemma assoc_slot_None id fs : assoc_slot id fs = None <-> ~ In id (map fst fs).
Proof.
  induction fs as [|[i x] fs IH]; cbn; [tauto|].
  destruct (Z.eqb_spec i id) as [E|E].
  - split; [discriminate|]. intro H. exfalso. apply H. auto.
  - rewrite IH. split; [intros H [H1|H1]; [congruence|contradiction] | tauto].
Qed.

Lemma assoc_set_field_same id v fs : In id (map fst fs) -> assoc_slot id (set_field id v fs) = Some v.
Proof.
  induction fs as [|[i x] fs IH]; cbn; [contradiction|]. intros [H|H].
  - subst. rewrite Z.eqb_refl. cbn. rewrite Z.eqb_refl. reflexivity.
  - destruct (Z.eqb_spec i id) as [E|E]; cbn.
    + rewrite E, Z.eqb_refl. reflexivity.
    + destruct (Z.eqb_spec i id); [contradiction|]. apply IH. exact H.
Qed.

Lemma assoc_set_field_other id id' v fs : id' <> id -> assoc_slot id' (set_field id v fs) = assoc_slot id' fs.
Proof.
  intro Hne. induction fs as [|[i x] fs IH]; cbn; [reflexivity|].
  destruct (Z.eqb_spec i id) as [E|E]; cbn.
  - subst. destruct (Z.eqb_spec id id'); [congruence|]. exact IH.
  - destruct (i =? id'); [reflexivity|]. exact IH.
Qed.

Lemma assoc_map_adapt_slot e s id fs :
  assoc_slot id (map (adapt_slot e s) fs) =
  match assoc_slot id fs with Some x => Some (snd (adapt_slot e s (id, x))) | None => None end.
Proof.
  induction fs as [|[i x] fs IH]; [reflexivity|]. cbn [map assoc_slot].
  destruct (adapt_slot e s (i, x)) as [i' x'] eqn:E.
  assert (Hi : i' = i) by (pose proof (adapt_slot_fst e s (i, x)) as H; rewrite E in H; exact H).
  subst i'. destruct (Z.eqb_spec i id) as [->|Hne]; [rewrite E; reflexivity|]. exact IH.
Qed.

Lemma arrange_set_field s id v fs :
  In id (map fst fs) -> arrange s (set_field id v fs) = set_field id v (arrange s fs).
Proof.
  intro Hin. unfold arrange, set_field at 2. rewrite map_map. apply map_ext. intro f. cbn [fst].
  destruct (Z.eqb_spec (f_id f) id) as [E|E].
  - rewrite E, assoc_set_field_same by assumption. reflexivity.
  - rewrite assoc_set_field_other by assumption. reflexivity.
Qed.

Lemma arrange_set_field_absent s id v fs :
  find_field id (s_fields s) = None -> arrange s (set_field id v fs) = arrange s fs.
Proof.
  intro Hno. apply find_field_None in Hno. unfold arrange. apply map_ext_in. intros f Hf.
  rewrite assoc_set_field_other; [reflexivity|]. intro E. apply Hno. rewrite <- E. apply in_map. assumption.
Qed.

Lemma map_adapt_slot_set_field e s id v fs :
  map (adapt_slot e s) (set_field id v fs) = set_field id (snd (adapt_slot e s (id, v))) (map (adapt_slot e s) fs).
Proof.
  unfold set_field. rewrite !map_map. apply map_ext. intros [i x]. cbn [fst].
  rewrite adapt_slot_fst. cbn [fst].
  destruct (Z.eqb_spec i id) as [->|Hne]; [|reflexivity].
  destruct (adapt_slot e s (id, v)) as [i' x'] eqn:E.
  pose proof (adapt_slot_fst e s (id, v)) as H. rewrite E in H. cbn in H. subst. reflexivity.
Qed.

Lemma mapM_transfer {A B C} (f : A -> result B) (g : A -> result C) (h : B -> C) l : forall xs,
  mapM f l = Ok xs -> Forall (fun x => forall y, f x = Ok y -> g x = Ok (h y)) l -> mapM g l = Ok (map h xs).
Proof.
  induction l as [|a l IH]; intros xs Hm HF; cbn [mapM] in *.
  - injection Hm as <-. reflexivity.
  - destruct (f a) as [y|] eqn:E; [|discriminate]. destruct (mapM f l) as [ys|] eqn:E2; [|discriminate].
    injection Hm as <-. inversion HF as [|? ? Ha Hl]; subst.
    rewrite (Ha _ E), (IH _ eq_refl Hl). reflexivity.
Qed.

Lemma first_missing_none_inv fields seen :
  first_missing fields seen = None -> forall f, In f fields -> is_required f = true -> In (f_id f) seen.
Proof.
  unfold first_missing. intros H f Hin Hr.
  destruct (filter (fun f0 => is_required f0 && negb (existsb (Z.eqb (f_id f0)) seen)) fields) as [|g l] eqn:E; [|discriminate].
  destruct (existsb (Z.eqb (f_id f)) seen) eqn:Ex.
  - apply existsb_exists in Ex. destruct Ex as (y & Hy & Heq). apply Z.eqb_eq in Heq. subst. exact Hy.
  - exfalso. assert (Hf : In f (filter (fun f0 => is_required f0 && negb (existsb (Z.eqb (f_id f0)) seen)) fields)).
    { apply filter_In. split; [assumption|]. rewrite Hr, Ex. reflexivity. }
    rewrite E in Hf. contradiction.
Qed.

Lemma assoc_new_fields id s :
  assoc_slot id (new_fields s) = match find_field id (s_fields s) with Some f => Some (init_slot f) | None => None end.
Proof.
  unfold new_fields. induction (s_fields s) as [|g l IH]; [reflexivity|]. cbn [map assoc_slot find_field].
  rewrite (Z.eqb_sym (f_id g) id). destruct (id =? f_id g); [reflexivity|]. exact IH.
Qed.

Lemma map_fst_new_fields s : map fst (new_fields s) = map f_id (s_fields s).
Proof. unfold new_fields. rewrite map_map. reflexivity. Qed.

Section FoldTransfer.
  Variables ea eb : env.
  Variables sa sb : sschema.

  Definition adapt_slots (slots : list (Z * value)) : list (Z * value) := arrange sb (map (adapt_slot eb sb) slots).

  Definition seen_kept (seen_a seen_b : list Z) : Prop :=
    forall id, In id seen_a -> find_field id (s_fields sb) <> None -> In id seen_b.

  (* the conditions on one wire field: b knows the field only as a knows it, and the payload reads alike *)
  Definition field_agrees (wf : wfield) : Prop :=
    (forall fb, find_field (snd (fst wf)) (s_fields sb) = Some fb -> find_field (snd (fst wf)) (s_fields sa) = Some fb) /\
    (forall fb v, find_field (snd (fst wf)) (s_fields sb) = Some fb ->
                  from_w ea (f_ty fb) (snd wf) = Ok v -> from_w eb (f_ty fb) (snd wf) = Ok (adapt eb (f_ty fb) v)).

  Lemma adapt_slots_set_known id fb y slots :
    find_field id (s_fields sb) = Some fb -> In id (map fst slots) ->
    adapt_slots (set_field id y slots) = set_field id (adapt eb (f_ty fb) y) (adapt_slots slots).
  Proof.
    intros Hb Hin. unfold adapt_slots. rewrite map_adapt_slot_set_field, arrange_set_field.
    - unfold adapt_slot at 1. cbn [fst snd]. rewrite Hb. reflexivity.
    - rewrite map_fst_adapt_slot. assumption.
  Qed.

  Lemma adapt_slots_set_absent id y slots :
    find_field id (s_fields sb) = None -> adapt_slots (set_field id y slots) = adapt_slots slots.
  Proof.
    intro Hb. unfold adapt_slots. rewrite map_adapt_slot_set_field. apply arrange_set_field_absent. assumption.
  Qed.

  Lemma step_transfer wf st_a st_a' seen_b :
    field_agrees wf ->
    map fst (fst st_a) = map f_id (s_fields sa) ->
    seen_kept (snd st_a) seen_b ->
    read_step ea sa st_a wf = Ok st_a' ->
    exists seen_b', read_step eb sb (adapt_slots (fst st_a), seen_b) wf = Ok (adapt_slots (fst st_a'), seen_b') /\
                    map fst (fst st_a') = map f_id (s_fields sa) /\
                    seen_kept (snd st_a') seen_b'.
  Proof.
    intros [H1 H2] Hids Hinv Hstep. destruct wf as [[t id] x]. destruct st_a as [slots seen_a].
    cbn [fst snd] in *. unfold read_step in *. cbn [fst snd] in *.
    destruct (find_field id (s_fields sa)) as [fa|] eqn:Ea.
    - destruct (find_field_In _ _ _ Ea) as [Hina Hida]. subst id.
      destruct (ttype_eqb t (ttype_of ea (f_ty fa))) eqn:Et.
      + apply bind_ok in Hstep. destruct Hstep as (v & Hv & Hst). injection Hst as <-. cbn [fst snd].
        assert (Hidin : In (f_id fa) (map fst slots)).
        { rewrite Hids. apply in_map. assumption. }
        destruct (find_field (f_id fa) (s_fields sb)) as [fb|] eqn:Eb.
        * pose proof (H1 fb eq_refl) as E. injection E as ->.
          rewrite !ttype_of_spec in *. rewrite Et. rewrite (H2 fb v eq_refl Hv). cbn [bind].
          eexists. split; [|split].
          -- rewrite (adapt_slots_set_known (f_id fb) fb) by assumption. rewrite adapt_wrap_slot. reflexivity.
          -- rewrite map_fst_set_field. assumption.
          -- intros i Hi Hne. destruct (is_required fb).
             ++ destruct Hi as [<-|Hi]; [left; reflexivity | right; apply Hinv; assumption].
             ++ apply Hinv; assumption.
        * exists seen_b. split; [|split].
          -- rewrite adapt_slots_set_absent by assumption. reflexivity.
          -- rewrite map_fst_set_field. assumption.
          -- intros i Hi Hne. destruct (is_required fa).
             ++ destruct Hi as [<-|Hi]; [congruence | apply Hinv; assumption].
             ++ apply Hinv; assumption.
      + injection Hstep as <-. cbn [fst snd]. exists seen_b.
        destruct (find_field (f_id fa) (s_fields sb)) as [fb|] eqn:Eb.
        * pose proof (H1 fb eq_refl) as E. injection E as ->.
          rewrite !ttype_of_spec in *. rewrite Et. auto.
        * auto.
    - injection Hstep as <-. cbn [fst snd]. exists seen_b.
      destruct (find_field id (s_fields sb)) as [fb|] eqn:Eb.
      + pose proof (H1 fb eq_refl) as E. discriminate E.
      + auto.
  Qed.

  Lemma fold_transfer wfs : forall st_a st_a' seen_b,
    Forall field_agrees wfs ->
    map fst (fst st_a) = map f_id (s_fields sa) ->
    seen_kept (snd st_a) seen_b ->
    foldM (read_step ea sa) wfs st_a = Ok st_a' ->
    exists seen_b', foldM (read_step eb sb) wfs (adapt_slots (fst st_a), seen_b) = Ok (adapt_slots (fst st_a'), seen_b') /\
                    seen_kept (snd st_a') seen_b'.
  Proof.
    induction wfs as [|wf wfs IH]; intros st_a st_a' seen_b Hok Hids Hinv Hf; cbn [foldM] in *.
    - injection Hf as <-. exists seen_b. auto.
    - inversion Hok as [|? ? Hwf Hrest]; subst.
      destruct (read_step ea sa st_a wf) as [st1|] eqn:E1; [|discriminate].
      destruct (step_transfer wf st_a st1 seen_b Hwf Hids Hinv E1) as (sb1 & Hb1 & Hids1 & Hinv1).
      rewrite Hb1. apply (IH st1 st_a' sb1 Hrest Hids1 Hinv1 Hf).
  Qed.
End FoldTransfer.

Lemma adapt_struct_unfold e n s slots :
  find_struct e n = Some s -> adapt e (TRef n) (VStruct slots) = VStruct (adapt_slots e s slots).
Proof. intro H. cbn [adapt]. rewrite H. reflexivity. Qed.

Lemma adapt_slots_new_fields e sa sb :
  NoDup (map f_id (s_fields sb)) ->
  (forall fb fa, In fb (s_fields sb) -> find_field (f_id fb) (s_fields sa) = Some fa -> fa = fb) ->
  adapt_slots e sb (new_fields sa) = new_fields sb.
Proof.
  intros Hnd Hsame. unfold adapt_slots, arrange, new_fields at 2. apply map_ext_in. intros fb Hin. f_equal.
  rewrite assoc_map_adapt_slot, assoc_new_fields.
  destruct (find_field (f_id fb) (s_fields sa)) as [fa|] eqn:Ea; [|reflexivity].
  rewrite (Hsame fb fa Hin Ea). unfold adapt_slot. cbn [fst snd]. rewrite (find_field_nodup _ _ Hnd Hin).
  rewrite adapt_init_slot. reflexivity.
Qed.

(* Reader b follows reader a on the wire values that G lets through: whatever a reads, b reads as its
   adaptation.  G passes to sub-values.  At a struct, with sa and sb the two schemas of the name: a field of
   sb whose id sa has is the same field in sa; sa has every required field of sb; a wire field that sb
   knows, sa knows. *)
Section Agree.
  Variables ea eb : env.
  Variable G : ty -> wval -> Prop.
  Hypothesis G_list : forall a et l, G (TList a) (WList et l) -> Forall (G a) l.
  Hypothesis G_set : forall a et l, G (TSet a) (WSet et l) -> Forall (G a) l.
  Hypothesis G_map : forall a b kt vt kvs,
    G (TMap a b) (WMap kt vt kvs) -> Forall (fun kv => G a (fst kv) /\ G b (snd kv)) kvs.
  Hypothesis G_struct : forall nm fs sa, G (TRef nm) (WStruct fs) -> find_struct ea nm = Some sa ->
    exists sb, find_struct eb nm = Some sb /\ NoDup (map f_id (s_fields sb)) /\
      (forall fb fa, In fb (s_fields sb) -> find_field (f_id fb) (s_fields sa) = Some fa -> fa = fb) /\
      (forall fb, In fb (s_fields sb) -> is_required fb = true -> find_field (f_id fb) (s_fields sa) <> None) /\
      Forall (fun wf => forall fb, find_field (snd (fst wf)) (s_fields sb) = Some fb ->
                find_field (snd (fst wf)) (s_fields sa) <> None /\ G (f_ty fb) (snd wf)) fs.

  Theorem reads_agree : forall w t v',
    G t w -> from_w ea t w = Ok v' -> from_w eb t w = Ok (adapt eb t v').
  Proof.
    intro w. induction w using wval_ind2; intros t v' Hg Hr.
    1-7: destruct t; try discriminate; injection Hr as <-; reflexivity.
    - (* struct *)
      destruct t as [| | | | | | | | |nm| | |]; try discriminate.
      rewrite from_w_struct in Hr. destruct (find_struct ea nm) as [sa|] eqn:Esa; [|discriminate].
      destruct (G_struct nm fs sa Hg Esa) as (sb & Esb & Hnd & Hsame & Hreq & Hwire).
      rewrite from_w_struct, Esb.
      apply bind_ok in Hr. destruct Hr as (st_a & Hfold & Hfin).
      unfold finish_read in Hfin. destruct (first_missing (s_fields sa) (snd st_a)) eqn:Em; [discriminate|].
      injection Hfin as <-.
      assert (Hfind : forall fb, In fb (s_fields sb) -> find_field (f_id fb) (s_fields sa) <> None ->
                                 find_field (f_id fb) (s_fields sa) = Some fb).
      { intros fb Hin Hne. destruct (find_field (f_id fb) (s_fields sa)) as [fa|] eqn:Ea; [|congruence].
        rewrite (Hsame fb fa Hin Ea). reflexivity. }
      assert (Hok : Forall (field_agrees ea eb sa sb) fs).
      { rewrite Forall_forall in *. intros wf Hin. split.
        - intros fb Hb. destruct (Hwire wf Hin fb Hb) as [Hne _]. destruct (find_field_In _ _ _ Hb) as [Hinb Hid].
          rewrite <- Hid in Hne |- *. apply Hfind; assumption.
        - intros fb v Hb Hv. apply (H wf Hin); [|assumption]. apply (Hwire wf Hin fb Hb). }
      destruct (fold_transfer ea eb sa sb fs (new_fields sa, []) st_a [] Hok (map_fst_new_fields sa)
                  (fun id Hin => match Hin with end) Hfold) as (seen_b & Hb & Hinv).
      cbn [fst] in Hb. rewrite (adapt_slots_new_fields eb sa sb Hnd Hsame) in Hb. rewrite Hb. cbn [bind].
      unfold finish_read. cbn [fst snd]. rewrite first_missing_none.
      + rewrite (adapt_struct_unfold eb nm sb _ Esb). reflexivity.
      + intros fb Hin Hrq. apply Hinv.
        * apply (first_missing_none_inv _ _ Em fb); [|assumption].
          apply (find_field_In (f_id fb)). apply Hfind; [|apply Hreq]; assumption.
        * rewrite (find_field_nodup _ _ Hnd Hin). discriminate.
    - (* map *)
      destruct t as [| | | | | | | | | | | |a b]; try discriminate. cbn [from_w] in *.
      rewrite !ttype_of_spec in *.
      destruct ((ttype_eqb kt (spec_ttype a) && ttype_eqb vt (spec_ttype b)) || (length kvs =? 0)%nat); [|discriminate].
      apply bind_ok in Hr. destruct Hr as (xs & Hm & Hv). injection Hv as <-.
      rewrite (mapM_transfer _ (fun kv => bind (from_w eb a (fst kv)) (fun k => bind (from_w eb b (snd kv)) (fun x => Ok (k, x))))
                 (fun kv => (adapt eb a (fst kv), adapt eb b (snd kv))) kvs xs Hm).
      + cbn [bind adapt]. rewrite (map_build_map (adapt eb a) (adapt eb b) (go_key_eq_adapt eb a)). reflexivity.
      + pose proof (G_map _ _ _ _ _ Hg) as Hgm. rewrite Forall_forall in *. intros kv Hin [k x] Hkx.
        destruct (H kv Hin) as [IHk IHx]. destruct (Hgm kv Hin) as [Hgk Hgx].
        apply bind_ok in Hkx. destruct Hkx as (k' & Hk & Hkx). apply bind_ok in Hkx. destruct Hkx as (x' & Hx & E).
        injection E as <- <-. rewrite (IHk _ _ Hgk Hk), (IHx _ _ Hgx Hx). reflexivity.
    - (* set *)
      destruct t as [| | | | | | | | | | |a|]; try discriminate. cbn [from_w] in *.
      rewrite !ttype_of_spec in *.
      destruct (ttype_eqb et (spec_ttype a) || (length l =? 0)%nat); [|discriminate].
      apply bind_ok in Hr. destruct Hr as (xs & Hm & Hv). injection Hv as <-.
      rewrite (mapM_transfer _ (from_w eb a) (adapt eb a) l xs Hm); [reflexivity|].
      pose proof (G_set _ _ _ Hg) as Hgs. rewrite Forall_forall in *. intros x Hin y Hy. apply (H x Hin); auto.
    - (* list *)
      destruct t as [| | | | | | | | | |a| |]; try discriminate. cbn [from_w] in *.
      rewrite !ttype_of_spec in *.
      destruct (ttype_eqb et (spec_ttype a) || (length l =? 0)%nat); [|discriminate].
      apply bind_ok in Hr. destruct Hr as (xs & Hm & Hv). injection Hv as <-.
      rewrite (mapM_transfer _ (from_w eb a) (adapt eb a) l xs Hm); [reflexivity|].
      pose proof (G_list _ _ _ Hg) as Hgl. rewrite Forall_forall in *. intros x Hin y Hy. apply (H x Hin); auto.
  Qed.
End Agree.

Section Evolution.
  Variables o n : env.
  Hypothesis Hext : extendsb o n = true.
  Hypothesis Hwfo : wf_env o = true.
  Hypothesis Hwfn : wf_env n = true.

  (* whatever the new schema reads, the old schema reads the restriction of it, without error *)
  Theorem reads_agree_old : forall w t v',
    closed_ty o t = true -> from_w n t w = Ok v' -> from_w o t w = Ok (adapt o t v').
  Proof.
    intros w t v'. apply (reads_agree n o (fun t _ => closed_ty o t = true)); clear w t v'.
    - intros a et l Hc. apply Forall_forall. intros x _. exact Hc.
    - intros a et l Hc. apply Forall_forall. intros x _. exact Hc.
    - intros a b kt vt kvs Hc. cbn [closed_ty] in Hc. apply andb_true_iff in Hc.
      apply Forall_forall. intros kv _. exact Hc.
    - intros nm fs sn Hc Esn. cbn [closed_ty] in Hc. destruct (find_struct o nm) as [so|] eqn:Eso; [|discriminate].
      destruct (ext_struct o n Hext nm so Eso) as (sn' & Esn' & He). rewrite Esn in Esn'. injection Esn' as <-.
      pose proof (wf_struct_nodup _ (wf_env_struct _ _ _ Hwfo Eso)) as Hnd.
      assert (Hold : forall fo, In fo (s_fields so) -> find_field (f_id fo) (s_fields sn) = Some fo).
      { intros fo Hin. apply (ext_field_old so sn _ fo He). apply find_field_nodup; assumption. }
      exists so. split; [reflexivity|]. split; [exact Hnd|]. split; [|split].
      + intros fo fa Hin Ea. rewrite (Hold fo Hin) in Ea. injection Ea as <-. reflexivity.
      + intros fo Hin _. rewrite (Hold fo Hin). discriminate.
      + apply Forall_forall. intros wf _ fo Hb. destruct (find_field_In _ _ _ Hb) as [Hin _]. split.
        * rewrite (ext_field_old so sn _ fo He Hb). discriminate.
        * apply (closed_field o n Hext nm so fo Eso Hin).
  Qed.

  (* a wire value made of fields the old schema knows: the new schema reads the old reading plus defaults *)
  Theorem reads_agree_new : forall w t v',
    closed_ty o t = true -> conforms o t w = true -> from_w o t w = Ok v' -> from_w n t w = Ok (adapt n t v').
  Proof.
    intros w t v' Hc Hcf Hr.
    refine (reads_agree o n (fun t w => closed_ty o t = true /\ conforms o t w = true) _ _ _ _ w t v' (conj Hc Hcf) Hr);
      clear w t v' Hc Hcf Hr.
    1-2: intros a et l [Hc Hcf]; cbn [conforms] in Hcf; apply andb_true_iff in Hcf; destruct Hcf as [_ Hcf];
      apply forallb_Forall in Hcf; revert Hcf; apply Forall_impl; intros x Hx; split; assumption.
    - intros a b kt vt kvs [Hc Hcf]. cbn [closed_ty] in Hc. apply andb_true_iff in Hc. destruct Hc as [Hca Hcb].
      cbn [conforms] in Hcf. apply andb_true_iff in Hcf. destruct Hcf as [_ Hcf].
      apply forallb_Forall in Hcf. revert Hcf. apply Forall_impl. intros kv Hkv.
      apply andb_true_iff in Hkv. destruct Hkv. auto.
    - intros nm fs so [Hc Hcf] Eso. destruct (ext_struct o n Hext nm so Eso) as (sn & Esn & He).
      cbn [conforms] in Hcf. rewrite Eso in Hcf. rewrite forallb_forall in Hcf.
      pose proof (wf_struct_nodup _ (wf_env_struct _ _ _ Hwfn Esn)) as Hnd.
      exists sn. split; [exact Esn|]. split; [exact Hnd|]. split; [|split].
      + intros fn fa Hin Ea. pose proof (ext_field_old so sn _ fa He Ea) as E.
        rewrite (find_field_nodup _ _ Hnd Hin) in E. injection E as <-. reflexivity.
      + intros fn Hin Hrq Eo. rewrite (ext_field_new so sn fn He Hin Eo) in Hrq. discriminate.
      + apply Forall_forall. intros wf Hin fn Hb. specialize (Hcf wf Hin).
        destruct (find_field (snd (fst wf)) (s_fields so)) as [fo|] eqn:Eo; [|discriminate].
        apply andb_true_iff in Hcf. destruct Hcf as [_ Hcfx].
        rewrite (ext_field_old so sn _ fo He Eo) in Hb. injection Hb as <-.
        split; [discriminate|]. split; [|exact Hcfx].
        destruct (find_field_In _ _ _ Eo) as [Hino _]. apply (closed_field o n Hext nm so fo Eso Hino).
  Qed.

  Theorem old_reads_new so sn v :
    find_struct o (s_name sn) = Some so -> find_struct n (s_name sn) = Some sn -> wt n sn v = true ->
    exists wfs, to_wire n sn v = Ok (WStruct wfs) /\
                read_new o so (WStruct wfs) = Ok (adapt_struct o so (norm_struct n sn v)).
  Proof.
    intros Hso Hsn Hwt. destruct (write_read n sn v Hwfn Hsn Hwt) as (wfs & Hw & Hr).
    exists wfs. split; [assumption|].
    destruct (find_struct_In _ _ _ Hso) as [_ Hname].
    rewrite read_new_from_w in Hr by assumption.
    rewrite read_new_from_w by (rewrite Hname; assumption). unfold adapt_struct. rewrite Hname.
    apply reads_agree_old; [|assumption]. cbn [closed_ty]. rewrite Hso. reflexivity.
  Qed.

  Theorem new_reads_old so sn v :
    find_struct o (s_name so) = Some so -> find_struct n (s_name so) = Some sn -> wt o so v = true ->
    exists wfs, to_wire o so v = Ok (WStruct wfs) /\
                read_new n sn (WStruct wfs) = Ok (adapt_struct n sn (norm_struct o so v)).
  Proof.
    intros Hso Hsn Hwt. destruct (write_read o so v Hwfo Hso Hwt) as (wfs & Hw & Hr).
    exists wfs. split; [assumption|].
    destruct (find_struct_In _ _ _ Hsn) as [_ Hname].
    rewrite read_new_from_w in Hr by assumption.
    rewrite read_new_from_w by (rewrite Hname; assumption). unfold adapt_struct. rewrite Hname.
    apply reads_agree_new; [| |assumption].
    - cbn [closed_ty]. rewrite Hso. reflexivity.
    - apply (to_w_conforms o _ _ _ Hw).
  Qed.
End Evolution.
