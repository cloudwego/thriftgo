(* Wire/CodecFacts.v — facts about the binary codec of Wire/Codec.v: dec reads back what enc wrote
   (dec_enc), and everything about fuel, locality and consumed input follows from one statement about
   a successful decode (dec_spec). Induction principles for wire values: wval_ind2 (structure) and
   wf_depth_ind (well-formed, depth-bounded). *)
From Coq Require Import List ZArith NArith Lia Bool.
From Coq.Strings Require Import Byte.
From Verif Require Import Base.Bytes Base.BE Wire.TType Wire.WVal Wire.Codec.
Import ListNotations.
Open Scope Z_scope.

Section WvalInd.
  Variable P : wval -> Prop.
  Hypothesis HBool : forall b, P (WBool b).
  Hypothesis HByte : forall z, P (WByte z).
  Hypothesis HDouble : forall z, P (WDouble z).
  Hypothesis HI16 : forall z, P (WI16 z).
  Hypothesis HI32 : forall z, P (WI32 z).
  Hypothesis HI64 : forall z, P (WI64 z).
  Hypothesis HStr : forall s, P (WStr s).
  Hypothesis HStruct : forall fs, Forall (fun f => P (snd f)) fs -> P (WStruct fs).
  Hypothesis HMap : forall kt vt kvs, Forall (fun kv => P (fst kv) /\ P (snd kv)) kvs -> P (WMap kt vt kvs).
  Hypothesis HSet : forall et l, Forall P l -> P (WSet et l).
  Hypothesis HList : forall et l, Forall P l -> P (WList et l).

  Fixpoint wval_ind2 (w : wval) : P w :=
    match w with
    | WBool b => HBool b | WByte z => HByte z | WDouble z => HDouble z | WI16 z => HI16 z
    | WI32 z => HI32 z | WI64 z => HI64 z | WStr s => HStr s
    | WStruct fs => HStruct fs ((fix go (l : list (ttype*Z*wval)) : Forall (fun f => P (snd f)) l :=
                       match l with [] => Forall_nil _ | f :: r => Forall_cons f (wval_ind2 (snd f)) (go r) end) fs)
    | WMap kt vt kvs => HMap kt vt kvs ((fix go (l : list (wval*wval)) : Forall (fun kv => P (fst kv) /\ P (snd kv)) l :=
                       match l with [] => Forall_nil _
                       | kv :: r => Forall_cons kv (conj (wval_ind2 (fst kv)) (wval_ind2 (snd kv))) (go r) end) kvs)
    | WSet et l => HSet et l ((fix go (l : list wval) : Forall P l :=
                       match l with [] => Forall_nil _ | x :: r => Forall_cons x (wval_ind2 x) (go r) end) l)
    | WList et l => HList et l ((fix go (l : list wval) : Forall P l :=
                       match l with [] => Forall_nil _ | x :: r => Forall_cons x (wval_ind2 x) (go r) end) l)
    end.
End WvalInd.

(* Codec.v and WVal.v write the inner recursions of [enc], [depth] and [wsize], and the set and list cases of
   [dec], inline. They get names here, each tied to the model by the unfolding equations that follow it, which
   hold by computation; the proofs below and in the files on Std.v and Fast.v use the names. *)
Definition enc_fields_go :=
  (fix go (l : list (ttype * Z * wval)) : bytes :=
     match l with
     | [] => [x00]
     | (t, id, x) :: r => put_be 1 (code t) ++ put_be 2 id ++ enc x ++ go r
     end).
Definition enc_map_go :=
  (fix go (l : list (wval * wval)) : bytes :=
     match l with [] => [] | (k, x) :: r => enc k ++ enc x ++ go r end).
Definition enc_list_go :=
  (fix go (l : list wval) : bytes := match l with [] => [] | x :: r => enc x ++ go r end).

Lemma enc_struct_unfold fs : enc (WStruct fs) = enc_fields_go fs.
Proof. reflexivity. Qed.
Lemma enc_map_unfold kt vt kvs : enc (WMap kt vt kvs) =
  put_be 1 (code kt) ++ put_be 1 (code vt) ++ put_be 4 (Z.of_nat (length kvs)) ++ enc_map_go kvs.
Proof. reflexivity. Qed.
Lemma enc_list_unfold et l : enc (WList et l) =
  put_be 1 (code et) ++ put_be 4 (Z.of_nat (length l)) ++ enc_list_go l.
Proof. reflexivity. Qed.
Lemma enc_set_unfold et l : enc (WSet et l) =
  put_be 1 (code et) ++ put_be 4 (Z.of_nat (length l)) ++ enc_list_go l.
Proof. reflexivity. Qed.

Lemma enc_fields_go_cons t id x r :
  enc_fields_go ((t, id, x) :: r) = put_be 1 (code t) ++ put_be 2 id ++ enc x ++ enc_fields_go r.
Proof. reflexivity. Qed.

Definition depth_list_go :=
  (fix go (l : list wval) : nat := match l with [] => O | x :: r => Nat.max (depth x) (go r) end).
Definition depth_map_go :=
  (fix go (l : list (wval*wval)) : nat :=
     match l with [] => O | (k,x) :: r => Nat.max (Nat.max (depth k) (depth x)) (go r) end).
Definition depth_struct_go :=
  (fix go (l : list (ttype*Z*wval)) : nat :=
     match l with [] => O | (_,_,x) :: r => Nat.max (depth x) (go r) end).

Lemma depth_list_unfold et l : depth (WList et l) = S (depth_list_go l). Proof. reflexivity. Qed.
Lemma depth_set_unfold et l : depth (WSet et l) = S (depth_list_go l). Proof. reflexivity. Qed.
Lemma depth_map_unfold kt vt l : depth (WMap kt vt l) = S (depth_map_go l). Proof. reflexivity. Qed.
Lemma depth_struct_unfold l : depth (WStruct l) = S (depth_struct_go l). Proof. reflexivity. Qed.

Definition wsize_fields_go :=
  (fix go (l : list (ttype*Z*wval)) : nat := match l with [] => 1 | (_,_,x) :: r => 3 + wsize x + go r end)%nat.
Definition wsize_map_go :=
  (fix go (l : list (wval*wval)) : nat := match l with [] => 0 | (k,x) :: r => wsize k + wsize x + go r end)%nat.
Definition wsize_list_go :=
  (fix go (l : list wval) : nat := match l with [] => 0 | x :: r => wsize x + go r end)%nat.

Lemma wsize_struct_unfold fs : wsize (WStruct fs) = wsize_fields_go fs. Proof. reflexivity. Qed.
Lemma wsize_map_unfold kt vt l : wsize (WMap kt vt l) = (6 + wsize_map_go l)%nat. Proof. reflexivity. Qed.
Lemma wsize_set_unfold et l : wsize (WSet et l) = (5 + wsize_list_go l)%nat. Proof. reflexivity. Qed.
Lemma wsize_list_unfold et l : wsize (WList et l) = (5 + wsize_list_go l)%nat. Proof. reflexivity. Qed.

Definition dec_seq (c : ttype -> list wval -> wval) (d : ttype -> bytes -> option (wval * bytes)) (bs : bytes)
  : option (wval * bytes) :=
  match get_be 1 bs with
  | Some (cd, r) => match of_code cd with
    | Some et => match get_count r with
       | Some (n, r1) => match rep (d et) n r1 with
            | Some (xs, r2) => Some (c et xs, r2) | None => None end
       | None => None end
    | None => None end
  | None => None end.

Lemma dec_set_unfold f bs : dec (S f) T_SET bs = dec_seq WSet (dec f) bs. Proof. reflexivity. Qed.
Lemma dec_list_unfold f bs : dec (S f) T_LIST bs = dec_seq WList (dec f) bs. Proof. reflexivity. Qed.

Lemma wfb_wf : forall v, wfb v = true -> wf v.
Proof.
  fix IH 1. intros [b|z|z|z|z|z|s|fs|kt vt kvs|et l|et l]; cbn [wfb wf]; intro H; try (apply in_srangeb_spec; exact H).
  (* sets and lists alike *)
  5-6: apply andb_true_iff in H as [Hn H]; split; [apply in_srangeb_spec; exact Hn|]; clear Hn.
  5-6: induction l as [|x r IHr]; [exact I|].
  5-6: apply andb_true_iff in H as [H Hr]; apply andb_true_iff in H as [Ht Hx].
  5-6: split; [|exact (IHr Hr)]; split; [apply ttype_eqb_eq; exact Ht|apply IH; exact Hx].
  - exact I.
  - apply andb_true_iff in H as [H1 H2]. unfold in_range. change (256 ^ Z.of_nat 8) with 18446744073709551616. lia.
  - induction fs as [|[[t id] x] r IHr]; [exact I|].
    apply andb_true_iff in H as [H Hr]. apply andb_true_iff in H as [H Hx]. apply andb_true_iff in H as [Ht Hid].
    split; [|exact (IHr Hr)]. split; [apply ttype_eqb_eq; exact Ht|]. split; [apply in_srangeb_spec; exact Hid|apply IH; exact Hx].
  - apply andb_true_iff in H as [Hn H]. split; [apply in_srangeb_spec; exact Hn|]. clear Hn.
    induction kvs as [|[k x] r IHr]; [exact I|].
    apply andb_true_iff in H as [H Hr]. apply andb_true_iff in H as [H Hx]. apply andb_true_iff in H as [H Hk].
    apply andb_true_iff in H as [Hkt Hvt].
    split; [|exact (IHr Hr)]. repeat split; [apply ttype_eqb_eq; exact Hkt|apply ttype_eqb_eq; exact Hvt|apply IH; exact Hk|apply IH; exact Hx].
Qed.

Lemma enc_fields_go_app l1 l2 :
  enc_fields_go (l1 ++ l2) = flat_map enc_field l1 ++ enc_fields_go l2.
Proof.
  induction l1 as [|[[t i] x] l1 IH]; [reflexivity|].
  cbn [app flat_map enc_field]. rewrite enc_fields_go_cons, IH. rewrite <- !app_assoc. reflexivity.
Qed.

Lemma enc_struct_app l1 l2 :
  enc (WStruct (l1 ++ l2)) = flat_map enc_field l1 ++ enc (WStruct l2).
Proof. apply enc_fields_go_app. Qed.

Lemma wf_list_Forall et l :
  (fix all (l : list wval) : Prop :=
         match l with [] => True | x :: r => (wtype x = et /\ wf x) /\ all r end) l
  <-> Forall (fun x => wtype x = et /\ wf x) l.
Proof.
  induction l as [|x l IH].
  - split; [constructor | trivial].
  - rewrite Forall_cons_iff, <- IH. cbn [fst snd]. tauto.
Qed.

Lemma wf_map_Forall kt vt l :
  (fix all (l : list (wval*wval)) : Prop :=
         match l with [] => True
         | (k,x) :: r => (wtype k = kt /\ wtype x = vt /\ wf k /\ wf x) /\ all r end) l
  <-> Forall (fun p => wtype (fst p) = kt /\ wtype (snd p) = vt /\ wf (fst p) /\ wf (snd p)) l.
Proof.
  induction l as [|[k x] l IH].
  - split; [constructor | trivial].
  - rewrite Forall_cons_iff, <- IH. cbn [fst snd]. tauto.
Qed.

Lemma wf_struct_Forall l :
  (fix all (l : list (ttype*Z*wval)) : Prop :=
         match l with [] => True
         | (t,id,x) :: r => (wtype x = t /\ in_srange 2 id /\ wf x) /\ all r end) l
  <-> Forall (fun f => wtype (snd f) = fst (fst f) /\ in_srange 2 (snd (fst f)) /\ wf (snd f)) l.
Proof.
  induction l as [|[[t id] x] l IH].
  - split; [constructor | trivial].
  - rewrite Forall_cons_iff, <- IH. cbn [fst snd]. tauto.
Qed.

Lemma wf_struct_iff fs :
  wf (WStruct fs) <-> Forall (fun f => wtype (snd f) = fst (fst f) /\ in_srange 2 (snd (fst f)) /\ wf (snd f)) fs.
Proof. apply wf_struct_Forall. Qed.
Lemma wf_list_iff et l :
  wf (WList et l) <-> in_srange 4 (Z.of_nat (length l)) /\ Forall (fun x => wtype x = et /\ wf x) l.
Proof. cbn [wf]. rewrite wf_list_Forall. tauto. Qed.
Lemma wf_set_iff et l :
  wf (WSet et l) <-> in_srange 4 (Z.of_nat (length l)) /\ Forall (fun x => wtype x = et /\ wf x) l.
Proof. cbn [wf]. rewrite wf_list_Forall. tauto. Qed.
Lemma wf_map_iff kt vt l :
  wf (WMap kt vt l) <-> in_srange 4 (Z.of_nat (length l)) /\
    Forall (fun p => wtype (fst p) = kt /\ wtype (snd p) = vt /\ wf (fst p) /\ wf (snd p)) l.
Proof. cbn [wf]. rewrite wf_map_Forall. tauto. Qed.

Lemma rep_enc {A} (p : bytes -> option (A*bytes)) (e : A -> bytes) (l : list A) r :
  Forall (fun x => forall r, p (e x ++ r) = Some (x, r)) l ->
  rep p (length l) (fold_right (fun x acc => e x ++ acc) [] l ++ r) = Some (l, r).
Proof.
  induction l as [|x l IH]; intro H; cbn; [reflexivity|].
  inversion H as [|? ? Hx Hl]; subst.
  rewrite <- app_assoc, Hx, IH by assumption. reflexivity.
Qed.

Lemma enc_list_fold l : enc_list_go l = fold_right (fun x acc => enc x ++ acc) [] l.
Proof. induction l; cbn; congruence. Qed.

Lemma enc_map_fold l :
  enc_map_go l = fold_right (fun p acc => (enc (fst p) ++ enc (snd p)) ++ acc) [] l.
Proof. induction l as [|[k x] l IH]; cbn; [reflexivity|]. rewrite IH, app_assoc. reflexivity. Qed.

Lemma enc_list_go_flat l : enc_list_go l = flat_map enc l.
Proof. induction l as [|x l IH]; [reflexivity|]. cbn [flat_map]. rewrite <- IH. reflexivity. Qed.
Lemma enc_map_go_flat l : enc_map_go l = flat_map (fun kv => enc (fst kv) ++ enc (snd kv)) l.
Proof. induction l as [|[k x] l IH]; [reflexivity|]. cbn [flat_map fst snd]. rewrite <- IH, <- app_assoc. reflexivity. Qed.

Lemma depth_list_le l x : In x l -> (depth x <= depth_list_go l)%nat.
Proof. induction l as [|y l IH]; cbn; [tauto|]. intros [->|H]; [lia|]. specialize (IH H). lia. Qed.

Lemma depth_map_le l p :
  In p l -> (Nat.max (depth (fst p)) (depth (snd p)) <= depth_map_go l)%nat.
Proof. induction l as [|[k y] l IH]; cbn; [tauto|]. intros [<-|H]; cbn; [lia|]. specialize (IH H). lia. Qed.

Lemma depth_struct_le l f : In f l -> (depth (snd f) <= depth_struct_go l)%nat.
Proof. induction l as [|[[t i] y] l IH]; cbn; [tauto|]. intros [<-|H]; cbn; [lia|]. specialize (IH H). lia. Qed.

Lemma depth_pos v : (1 <= depth v)%nat.
Proof. destruct v; cbn; lia. Qed.

Lemma depth_list_go_max l : depth_list_go l = list_max (map depth l).
Proof. induction l as [|x l IH]; [reflexivity|]. cbn [depth_list_go]. fold depth_list_go. rewrite IH. reflexivity. Qed.

Lemma depth_map_go_max l :
  depth_map_go l = list_max (map (fun p => Nat.max (depth (fst p)) (depth (snd p))) l).
Proof. induction l as [|[k x] l IH]; [reflexivity|]. cbn [depth_map_go]. fold depth_map_go. rewrite IH. reflexivity. Qed.

Lemma depth_struct_go_max l : depth_struct_go l = list_max (map (fun f => depth (snd f)) l).
Proof. induction l as [|[[t i] x] l IH]; [reflexivity|]. cbn [depth_struct_go]. fold depth_struct_go. rewrite IH. reflexivity. Qed.

Lemma code_in_range1 t : 0 <= code t < 256 ^ Z.of_nat 1.
Proof. pose proof (code_range t). change (256 ^ Z.of_nat 1) with 256. lia. Qed.

Lemma get_count_put (n : nat) r :
  in_srange 4 (Z.of_nat n) -> get_count (put_be 4 (Z.of_nat n) ++ r) = Some (n, r).
Proof.
  intro H. unfold get_count. rewrite get_s_put by (try assumption; lia).
  destruct (Z.ltb_spec (Z.of_nat n) 0); [lia|]. rewrite Nat2Z.id. reflexivity.
Qed.

Lemma get_count_split bs n r : get_count bs = Some (n, r) ->
  exists u, bs = u ++ r /\ length u = 4%nat /\ forall r', get_count (u ++ r') = Some (n, r').
Proof.
  unfold get_count. destruct (get_s 4 bs) as [[z r0]|] eqn:E; [|discriminate].
  destruct (z <? 0) eqn:Ez; [discriminate|]. intros [= <- <-].
  destruct (get_s_split _ _ _ _ E) as (u & -> & L & Hu). exists u. split; [reflexivity|]. split; [exact L|].
  intro r'. rewrite Hu, Ez. reflexivity.
Qed.

Lemma fields_enc d (l : list (ttype*Z*wval)) : forall n r,
  (length l < n)%nat ->
  Forall (fun f => wtype (snd f) = fst (fst f) /\ in_srange 2 (snd (fst f)) /\
                   forall r, d (fst (fst f)) (enc (snd f) ++ r) = Some (snd f, r)) l ->
  fields d n (enc_fields_go l ++ r) = Some (l, r).
Proof.
  induction l as [|[[t id] x] l IH]; intros n r Hn H; (destruct n; [cbn in Hn; lia|]).
  - cbn. reflexivity.
  - inversion H as [|? ? [Ht [Hid Hx]] Hl]; subst. cbn [fst snd] in Ht, Hid, Hx.
    rewrite enc_fields_go_cons. cbn [fields]. rewrite <- !app_assoc.
    rewrite get_put by apply code_in_range1.
    pose proof (code_range t) as Hc.
    destruct (Z.eqb_spec (code t) 0) as [E|_]; [lia|].
    rewrite of_code_code, get_s_put by (try assumption; lia). rewrite Hx.
    rewrite IH; [reflexivity| cbn in Hn; lia | assumption].
Qed.

(* the premise has the shape of the set and list cases of wf_depth_ind below; only the types and the round
   trip of the elements are used *)
Lemma dec_seq_enc c n et l r : in_srange 4 (Z.of_nat (length l)) ->
  Forall (fun x => wtype x = et /\ wf x /\ (depth x <= n)%nat /\
                   forall r, dec n (wtype x) (enc x ++ r) = Some (x, r)) l ->
  dec_seq c (dec n) ((put_be 1 (code et) ++ put_be 4 (Z.of_nat (length l)) ++ enc_list_go l) ++ r) = Some (c et l, r).
Proof.
  intros Hlen Hall. unfold dec_seq. rewrite <- !app_assoc, get_put by apply code_in_range1.
  rewrite of_code_code, get_count_put by assumption. rewrite enc_list_fold, rep_enc; [reflexivity|].
  revert Hall. apply Forall_impl. intros x (<- & _ & _ & Hx). exact Hx.
Qed.

Lemma enc_fields_len (fs : list (ttype*Z*wval)) : (length fs < length (enc_fields_go fs))%nat.
Proof.
  induction fs as [|[[t i] x] fs IHf]; [cbn; lia|].
  rewrite enc_fields_go_cons. cbn [length]. rewrite !app_length, !put_be_length. lia.
Qed.

(* Every wire-value induction below and in the files on the fast codec has this shape: the value is well
   formed and at most [d] deep, so its children are well formed, typed as their header says, and at most
   [d - 1] deep. *)
Section WfDepthInd.
  Variable P : nat -> wval -> Prop.
  Hypothesis HBool : forall d b, P (S d) (WBool b).
  Hypothesis HByte : forall d z, in_srange 1 z -> P (S d) (WByte z).
  Hypothesis HDouble : forall d z, in_range 8 z -> P (S d) (WDouble z).
  Hypothesis HI16 : forall d z, in_srange 2 z -> P (S d) (WI16 z).
  Hypothesis HI32 : forall d z, in_srange 4 z -> P (S d) (WI32 z).
  Hypothesis HI64 : forall d z, in_srange 8 z -> P (S d) (WI64 z).
  Hypothesis HStr : forall d s, in_srange 4 (Z.of_nat (length s)) -> P (S d) (WStr s).
  Hypothesis HStruct : forall d fs,
    Forall (fun f => wtype (snd f) = fst (fst f) /\ in_srange 2 (snd (fst f)) /\
                     wf (snd f) /\ (depth (snd f) <= d)%nat /\ P d (snd f)) fs ->
    P (S d) (WStruct fs).
  Hypothesis HMap : forall d kt vt kvs, in_srange 4 (Z.of_nat (length kvs)) ->
    Forall (fun p => (wtype (fst p) = kt /\ wf (fst p) /\ (depth (fst p) <= d)%nat /\ P d (fst p)) /\
                     (wtype (snd p) = vt /\ wf (snd p) /\ (depth (snd p) <= d)%nat /\ P d (snd p))) kvs ->
    P (S d) (WMap kt vt kvs).
  Hypothesis HSet : forall d et l, in_srange 4 (Z.of_nat (length l)) ->
    Forall (fun x => wtype x = et /\ wf x /\ (depth x <= d)%nat /\ P d x) l -> P (S d) (WSet et l).
  Hypothesis HList : forall d et l, in_srange 4 (Z.of_nat (length l)) ->
    Forall (fun x => wtype x = et /\ wf x /\ (depth x <= d)%nat /\ P d x) l -> P (S d) (WList et l).

  Lemma seq_children et l d : Forall (fun x => forall d, wf x -> (depth x <= d)%nat -> P d x) l ->
    Forall (fun x => wtype x = et /\ wf x) l -> (depth_list_go l <= d)%nat ->
    Forall (fun x => wtype x = et /\ wf x /\ (depth x <= d)%nat /\ P d x) l.
  Proof.
    intros H Hwf Hd. rewrite depth_list_go_max in Hd. apply list_max_le, Forall_map in Hd.
    rewrite Forall_forall in *. intros x Hx. destruct (Hwf x Hx) as [Ht Hw]. specialize (Hd x Hx). cbn beta in Hd.
    split; [exact Ht|]. split; [exact Hw|]. split; [exact Hd|]. apply (H x Hx); assumption.
  Qed.

  Lemma wf_depth_ind : forall w d, wf w -> (depth w <= d)%nat -> P d w.
  Proof.
    induction w using wval_ind2; intros [|d] Hwf Hd;
      try (pose proof (depth_pos w) as Hp; cbn [depth] in *; lia); try (cbn [depth] in Hd; lia).
    - apply HBool.
    - apply HByte, Hwf.
    - apply HDouble, Hwf.
    - apply HI16, Hwf.
    - apply HI32, Hwf.
    - apply HI64, Hwf.
    - apply HStr, Hwf.
    - apply wf_struct_iff in Hwf. rewrite depth_struct_unfold, depth_struct_go_max in Hd.
      apply le_S_n, list_max_le, Forall_map in Hd. apply HStruct.
      rewrite Forall_forall in *. intros f Hf. destruct (Hwf f Hf) as (Ht & Hid & Hw). specialize (Hd f Hf). cbn beta in Hd.
      split; [exact Ht|]. split; [exact Hid|]. split; [exact Hw|]. split; [exact Hd|]. apply (H f Hf); assumption.
    - apply wf_map_iff in Hwf. destruct Hwf as [Hlen Hwf]. rewrite depth_map_unfold, depth_map_go_max in Hd.
      apply le_S_n, list_max_le, Forall_map in Hd. apply HMap; [exact Hlen|].
      rewrite Forall_forall in *. intros p Hp. destruct (Hwf p Hp) as (Hk & Hv & Hwk & Hwv). destruct (H p Hp) as [IHk IHv].
      specialize (Hd p Hp). cbn beta in Hd. split.
      + split; [exact Hk|]. split; [exact Hwk|]. split; [lia|]. apply IHk; [exact Hwk | lia].
      + split; [exact Hv|]. split; [exact Hwv|]. split; [lia|]. apply IHv; [exact Hwv | lia].
    - apply wf_set_iff in Hwf. rewrite depth_set_unfold in Hd.
      apply HSet; [apply Hwf|]. apply seq_children; [exact H | apply Hwf | apply le_S_n, Hd].
    - apply wf_list_iff in Hwf. rewrite depth_list_unfold in Hd.
      apply HList; [apply Hwf|]. apply seq_children; [exact H | apply Hwf | apply le_S_n, Hd].
  Qed.
End WfDepthInd.

Theorem dec_enc : forall n v r, (depth v <= n)%nat -> wf v ->
  dec n (wtype v) (enc v ++ r) = Some (v, r).
Proof.
  intros n v r Hd Hwf. revert r. revert v n Hwf Hd.
  apply (wf_depth_ind (fun n v => forall r, dec n (wtype v) (enc v ++ r) = Some (v, r))); intros d.
  - intros b r. cbn. destruct b; reflexivity.
  - intros z Hz r. cbn [wtype enc dec]. rewrite get_s_put by (try assumption; lia). reflexivity.
  - intros z Hz r. cbn [wtype enc dec]. rewrite get_put by assumption. reflexivity.
  - intros z Hz r. cbn [wtype enc dec]. rewrite get_s_put by (try assumption; lia). reflexivity.
  - intros z Hz r. cbn [wtype enc dec]. rewrite get_s_put by (try assumption; lia). reflexivity.
  - intros z Hz r. cbn [wtype enc dec]. rewrite get_s_put by (try assumption; lia). reflexivity.
  - intros s Hs r. cbn [wtype enc dec]. rewrite <- app_assoc, get_count_put by assumption.
    rewrite app_length. destruct (Nat.ltb_spec (length s + length r) (length s)); [lia|].
    rewrite firstn_app, Nat.sub_diag, firstn_all, skipn_app, Nat.sub_diag, skipn_all.
    cbn. rewrite app_nil_r. reflexivity.
  - intros fs Hfs r. rewrite enc_struct_unfold. cbn [wtype dec].
    rewrite fields_enc; [reflexivity | rewrite app_length; pose proof (enc_fields_len fs); lia |].
    revert Hfs. apply Forall_impl. intros [[t i] x] (Ht & Hid & _ & _ & Hx). cbn [fst snd] in *. subst t. auto.
  - intros kt vt kvs Hlen Hkvs r. rewrite enc_map_unfold. cbn [wtype dec].
    rewrite <- !app_assoc. rewrite get_put by apply code_in_range1.
    rewrite of_code_code. rewrite get_put by apply code_in_range1.
    rewrite of_code_code, get_count_put by assumption.
    rewrite enc_map_fold.
    rewrite (rep_enc (pairp (dec d kt) (dec d vt)) (fun p => enc (fst p) ++ enc (snd p))); [reflexivity|].
    revert Hkvs. apply Forall_impl. intros [k x] [(<- & _ & _ & Hk) (<- & _ & _ & Hx)] r0. cbn [fst snd] in *.
    unfold pairp. rewrite <- app_assoc, Hk, Hx. reflexivity.
  - intros et l Hlen Hl r. exact (dec_seq_enc WSet d et l r Hlen Hl).
  - intros et l Hlen Hl r. exact (dec_seq_enc WList d et l r Hlen Hl).
Qed.

Corollary skip_enc n v r : (depth v <= n)%nat -> wf v -> skip n (wtype v) (enc v ++ r) = Some r.
Proof. intros Hd Hw. unfold skip. rewrite dec_enc by assumption. reflexivity. Qed.

Lemma enc_list_go_length l :
  Forall (fun x => length (enc x) = wsize x) l -> length (enc_list_go l) = wsize_list_go l.
Proof.
  induction 1 as [|x l Hx _ IH]; [reflexivity|].
  cbn [enc_list_go wsize_list_go]. fold enc_list_go wsize_list_go. rewrite app_length, Hx, IH. reflexivity.
Qed.

Lemma enc_length v : length (enc v) = wsize v.
Proof.
  induction v using wval_ind2; try (cbn; rewrite ?app_length, ?put_be_length; reflexivity).
  - rewrite enc_struct_unfold, wsize_struct_unfold.
    induction H as [|[[t i] x] fs Hx _ IH]; [reflexivity|]. cbn [snd] in Hx.
    rewrite enc_fields_go_cons, !app_length, !put_be_length, Hx, IH. reflexivity.
  - rewrite enc_map_unfold, wsize_map_unfold, !app_length, !put_be_length.
    enough (length (enc_map_go kvs) = wsize_map_go kvs) by lia.
    induction H as [|[k x] kvs [Hk Hx] _ IH]; [reflexivity|]. cbn [fst snd] in Hk, Hx.
    cbn [enc_map_go wsize_map_go]. fold enc_map_go wsize_map_go. rewrite !app_length, Hk, Hx, IH. lia.
  - rewrite enc_set_unfold, wsize_set_unfold, !app_length, !put_be_length, enc_list_go_length by assumption. reflexivity.
  - rewrite enc_list_unfold, wsize_list_unfold, !app_length, !put_be_length, enc_list_go_length by assumption. reflexivity.
Qed.

Lemma depth_list_go_le_size l :
  Forall (fun x => (depth x <= wsize x)%nat) l -> (depth_list_go l <= wsize_list_go l)%nat.
Proof.
  induction 1 as [|x l Hx _ IH]; [apply Nat.le_0_l|].
  cbn [depth_list_go wsize_list_go]. fold depth_list_go wsize_list_go. lia.
Qed.

Lemma depth_le_size v : (depth v <= wsize v)%nat.
Proof.
  induction v using wval_ind2; try (cbn; lia).
  - rewrite depth_struct_unfold, wsize_struct_unfold.
    induction H as [|[[t i] x] fs Hx _ IH]; [cbn; lia|]. cbn [snd] in Hx.
    cbn [depth_struct_go wsize_fields_go]. fold depth_struct_go wsize_fields_go. lia.
  - rewrite depth_map_unfold, wsize_map_unfold.
    enough (depth_map_go kvs <= wsize_map_go kvs)%nat by lia.
    induction H as [|[k x] kvs [Hk Hx] _ IH]; [apply Nat.le_0_l|]. cbn [fst snd] in Hk, Hx.
    cbn [depth_map_go wsize_map_go]. fold depth_map_go wsize_map_go. lia.
  - rewrite depth_set_unfold, wsize_set_unfold. pose proof (depth_list_go_le_size l H). lia.
  - rewrite depth_list_unfold, wsize_list_unfold. pose proof (depth_list_go_le_size l H). lia.
Qed.

Corollary dec_struct_enc fs r : wf (WStruct fs) -> dec_struct (enc (WStruct fs) ++ r) = Some (WStruct fs, r).
Proof.
  intro H. unfold dec_struct. apply (dec_enc _ (WStruct fs)); [|assumption].
  rewrite app_length, enc_length. pose proof (depth_le_size (WStruct fs)). lia.
Qed.

(* What a successful parse says about fuel and input, in one statement: the result is no deeper than the
   bound [b]; the parser consumed a prefix [u] of its input, at least as long as the result is deep; and any
   member of the family [q] whose index reaches that depth repeats the result on [u] followed by anything.
   For [dec] the family is [dec] itself, indexed by fuel. *)
Definition resumes {A} (dp : A -> nat) (b : nat) (p : bytes -> option (A * bytes))
    (q : nat -> bytes -> option (A * bytes)) : Prop :=
  forall bs x r, p bs = Some (x, r) ->
    (dp x <= b)%nat /\
    exists u, bs = u ++ r /\ (dp x <= length u)%nat /\
      forall m r', (dp x <= m)%nat -> q m (u ++ r') = Some (x, r').

Lemma rep_resumes {A} dp b (p : bytes -> option (A * bytes)) q : resumes dp b p q ->
  forall n, resumes (fun xs => list_max (map dp xs)) b (rep p n) (fun m => rep (q m) n).
Proof.
  intros Hp. induction n as [|n IH]; intros bs xs r H; cbn [rep] in H.
  - injection H as <- <-. split; [apply Nat.le_0_l|]. exists []. split; [reflexivity|]. split; [apply Nat.le_0_l|]. reflexivity.
  - destruct (p bs) as [[a r1]|] eqn:E; [|discriminate].
    destruct (rep p n r1) as [[ys r2]|] eqn:E2; [|discriminate]. injection H as <- <-.
    destruct (Hp _ _ _ E) as (B1 & u1 & -> & L1 & H1). destruct (IH _ _ _ E2) as (B2 & u2 & -> & L2 & H2).
    change (list_max (map dp (a :: ys))) with (Nat.max (dp a) (list_max (map dp ys))).
    split; [lia|]. exists (u1 ++ u2). split; [apply app_assoc|]. rewrite app_length. split; [lia|].
    intros m r' Hm. cbn [rep]. rewrite <- app_assoc, H1, H2 by lia. reflexivity.
Qed.

Lemma pairp_resumes {A B} da db b (p : bytes -> option (A * bytes)) q (p' : bytes -> option (B * bytes)) q' :
  resumes da b p q -> resumes db b p' q' ->
  resumes (fun ab => Nat.max (da (fst ab)) (db (snd ab))) b (pairp p p') (fun m => pairp (q m) (q' m)).
Proof.
  intros Hp Hq bs x r H. unfold pairp in H.
  destruct (p bs) as [[a r1]|] eqn:E; [|discriminate].
  destruct (p' r1) as [[c r2]|] eqn:E2; [|discriminate]. injection H as <- <-.
  destruct (Hp _ _ _ E) as (B1 & u1 & -> & L1 & H1). destruct (Hq _ _ _ E2) as (B2 & u2 & -> & L2 & H2).
  cbn [fst snd]. split; [lia|]. exists (u1 ++ u2). split; [apply app_assoc|]. rewrite app_length. split; [lia|].
  intros m r' Hm. unfold pairp. rewrite <- app_assoc, H1, H2 by lia. reflexivity.
Qed.

(* the field loop has a fuel of its own, which only has to exceed the bytes consumed; the 0 byte that ends
   it makes the consumed prefix strictly longer than the fields are deep *)
Lemma fields_resumes b d (q : nat -> ttype -> bytes -> option (wval * bytes)) :
  (forall t, resumes depth b (d t) (fun m => q m t)) ->
  forall n bs fs r, fields d n bs = Some (fs, r) ->
    (depth_struct_go fs <= b)%nat /\
    exists u, bs = u ++ r /\ (depth_struct_go fs < length u)%nat /\
      forall m k r', (depth_struct_go fs <= m)%nat -> (length u < k)%nat ->
        fields (q m) k (u ++ r') = Some (fs, r').
Proof.
  intros Hd. induction n as [|n IH]; intros bs fs r H; [discriminate|]. cbn [fields] in H.
  destruct (get_be 1 bs) as [[c r0]|] eqn:E0; [|discriminate].
  destruct (get_be_split _ _ _ _ E0) as (u0 & -> & L0 & H0).
  destruct (Z.eqb_spec c 0) as [Hc|Hc].
  - injection H as <- <-. split; [apply Nat.le_0_l|]. exists u0. split; [reflexivity|]. split; [cbn; lia|].
    intros m [|k] r' _ Hk; [lia|]. cbn [fields]. rewrite H0. subst c. reflexivity.
  - destruct (of_code c) as [ft|] eqn:Eft; [|discriminate].
    destruct (get_s 2 r0) as [[id r1]|] eqn:E1; [|discriminate].
    destruct (get_s_split _ _ _ _ E1) as (u1 & -> & L1 & H1).
    destruct (d ft r1) as [[y r2]|] eqn:E2; [|discriminate].
    destruct (Hd _ _ _ _ E2) as (B2 & u2 & -> & L2 & H2).
    destruct (fields d n r2) as [[fs' r3]|] eqn:E3; [|discriminate]. injection H as <- <-.
    destruct (IH _ _ _ E3) as (B3 & u3 & -> & L3 & H3).
    cbn [depth_struct_go]. fold depth_struct_go.
    split; [lia|]. exists (u0 ++ u1 ++ u2 ++ u3). split; [rewrite <- !app_assoc; reflexivity|].
    rewrite !app_length. split; [lia|].
    intros m [|k] r' Hm Hk; [lia|]. cbn [fields].
    rewrite <- !app_assoc, H0. destruct (Z.eqb_spec c 0); [contradiction|].
    rewrite Eft, H1, H2, H3 by lia. reflexivity.
Qed.

Lemma dec_seq_resumes c b d (q : nat -> ttype -> bytes -> option (wval * bytes)) :
  (forall et l, depth (c et l) = S (depth_list_go l)) ->
  (forall t, resumes depth b (d t) (fun m => q m t)) ->
  forall bs x r, dec_seq c d bs = Some (x, r) ->
    (depth x <= S b)%nat /\
    exists u, bs = u ++ r /\ (depth x <= length u)%nat /\
      forall m r', (depth x <= S m)%nat -> dec_seq c (q m) (u ++ r') = Some (x, r').
Proof.
  intros Hc Hd bs x r H. unfold dec_seq in H.
  destruct (get_be 1 bs) as [[cd r0]|] eqn:E0; [|discriminate].
  destruct (of_code cd) as [et|] eqn:Ek; [|discriminate].
  destruct (get_count r0) as [[n r1]|] eqn:E1; [|discriminate].
  destruct (rep (d et) n r1) as [[xs r2]|] eqn:E2; [|discriminate]. injection H as <- <-.
  destruct (get_be_split _ _ _ _ E0) as (u0 & -> & L0 & H0).
  destruct (get_count_split _ _ _ E1) as (u1 & -> & L1 & H1).
  destruct (rep_resumes _ _ _ _ (Hd et) _ _ _ _ E2) as (B2 & u2 & -> & L2 & H2).
  rewrite Hc, depth_list_go_max. split; [lia|].
  exists (u0 ++ u1 ++ u2). split; [rewrite <- !app_assoc; reflexivity|]. rewrite !app_length. split; [lia|].
  intros m r' Hm. unfold dec_seq. rewrite <- !app_assoc, H0, Ek, H1, H2 by lia. reflexivity.
Qed.

(* a number of fixed width [n >= 1] under a constructor of depth 1 *)
Lemma leaf_resumes (g : bytes -> option (Z * bytes)) (c : Z -> wval) n b bs x r :
  (1 <= n)%nat ->
  (forall bs z r, g bs = Some (z, r) ->
     exists u, bs = u ++ r /\ length u = n /\ forall r', g (u ++ r') = Some (z, r')) ->
  (forall z, depth (c z) = 1%nat) ->
  match g bs with Some (z, r) => Some (c z, r) | None => None end = Some (x, r) ->
  (depth x <= S b)%nat /\ exists u, bs = u ++ r /\ (depth x <= length u)%nat /\
    forall (m : nat) r', (depth x <= S m)%nat ->
      match g (u ++ r') with Some (z, r) => Some (c z, r) | None => None end = Some (x, r').
Proof.
  intros Hn Hg Hc H. destruct (g bs) as [[z r0]|] eqn:E; [|discriminate]. injection H as <- <-.
  destruct (Hg _ _ _ E) as (u & -> & L & Hu). rewrite Hc. split; [lia|]. exists u. split; [reflexivity|].
  split; [lia|]. intros m r' _. rewrite Hu. reflexivity.
Qed.

Theorem dec_spec : forall f t, resumes depth f (dec f t) (fun m => dec m t).
Proof.
  induction f as [|f IH]; intros t bs x r H; [discriminate|].
  (* every case speaks of a positive fuel; fuel 0 is excluded once, by depth_pos *)
  enough (G : (depth x <= S f)%nat /\ exists u, bs = u ++ r /\ (depth x <= length u)%nat /\
               forall m r', (depth x <= S m)%nat -> dec (S m) t (u ++ r') = Some (x, r')).
  { destruct G as (B & u & -> & L & Hu). split; [exact B|]. exists u. split; [reflexivity|]. split; [exact L|].
    intros [|m] r' Hm; [pose proof (depth_pos x); lia | apply Hu; exact Hm]. }
  destruct t.
  - cbn [dec] in H. destruct bs as [|c bs]; [discriminate|]. injection H as <- <-.
    split; [cbn; lia|]. exists [c]. split; [reflexivity|]. split; [cbn; lia|]. reflexivity.
  - exact (leaf_resumes (get_s 1) WByte 1 f bs x r (le_n 1) (get_s_split 1) (fun _ => eq_refl) H).
  - exact (leaf_resumes (get_be 8) WDouble 8 f bs x r ltac:(lia) (get_be_split 8) (fun _ => eq_refl) H).
  - exact (leaf_resumes (get_s 2) WI16 2 f bs x r ltac:(lia) (get_s_split 2) (fun _ => eq_refl) H).
  - exact (leaf_resumes (get_s 4) WI32 4 f bs x r ltac:(lia) (get_s_split 4) (fun _ => eq_refl) H).
  - exact (leaf_resumes (get_s 8) WI64 8 f bs x r ltac:(lia) (get_s_split 8) (fun _ => eq_refl) H).
  - (* string: the prefix is the length word and the bytes it announces *)
    cbn [dec] in H. destruct (get_count bs) as [[n r0]|] eqn:E; [|discriminate].
    destruct (Nat.ltb_spec (length r0) n) as [Hlt|Hge]; [discriminate|]. injection H as <- <-.
    destruct (get_count_split _ _ _ E) as (u & -> & L & Hu).
    pose proof (firstn_length_le r0 Hge) as Hl. set (s := firstn n r0) in *.
    split; [cbn; lia|]. exists (u ++ s). split; [unfold s; rewrite <- app_assoc, firstn_skipn; reflexivity|].
    split; [cbn; rewrite app_length; lia|]. intros m r' _. cbn [dec]. rewrite <- app_assoc, Hu, <- Hl.
    rewrite app_length. destruct (Nat.ltb_spec (length s + length r') (length s)); [lia|].
    rewrite firstn_app, skipn_app, Nat.sub_diag, firstn_all, skipn_all. cbn [firstn skipn]. rewrite app_nil_r. reflexivity.
  - (* struct *)
    cbn [dec] in H. destruct (fields (dec f) (S (length bs)) bs) as [[fs r0]|] eqn:E; [|discriminate]. injection H as <- <-.
    destruct (fields_resumes f (dec f) dec IH _ _ _ _ E) as (B & u & -> & L & Hu). rewrite depth_struct_unfold.
    split; [lia|]. exists u. split; [reflexivity|]. split; [lia|]. intros m r' Hm. cbn [dec].
    rewrite Hu by (rewrite ?app_length; lia). reflexivity.
  - (* map *)
    cbn [dec] in H. destruct (get_be 1 bs) as [[c r0]|] eqn:E0; [|discriminate].
    destruct (of_code c) as [kt|] eqn:Ek; [|discriminate].
    destruct (get_be 1 r0) as [[c2 r1]|] eqn:E1; [|discriminate].
    destruct (of_code c2) as [vt|] eqn:Ev; [|discriminate].
    destruct (get_count r1) as [[n r2]|] eqn:E2; [|discriminate].
    destruct (rep (pairp (dec f kt) (dec f vt)) n r2) as [[xs r3]|] eqn:E3; [|discriminate]. injection H as <- <-.
    destruct (get_be_split _ _ _ _ E0) as (u0 & -> & L0 & H0).
    destruct (get_be_split _ _ _ _ E1) as (u1 & -> & L1 & H1).
    destruct (get_count_split _ _ _ E2) as (u2 & -> & L2 & H2).
    destruct (rep_resumes _ _ _ _ (pairp_resumes _ _ _ _ _ _ _ (IH kt) (IH vt)) _ _ _ _ E3) as (B3 & u3 & -> & L3 & H3).
    rewrite depth_map_unfold, depth_map_go_max. split; [lia|].
    exists (u0 ++ u1 ++ u2 ++ u3). split; [rewrite <- !app_assoc; reflexivity|]. rewrite !app_length. split; [lia|].
    intros m r' Hm. cbn [dec]. rewrite <- !app_assoc, H0, Ek, H1, Ev, H2, H3 by lia. reflexivity.
  - rewrite dec_set_unfold in H. exact (dec_seq_resumes WSet f (dec f) dec depth_set_unfold IH bs x r H).
  - rewrite dec_list_unfold in H. exact (dec_seq_resumes WList f (dec f) dec depth_list_unfold IH bs x r H).
Qed.

Definition local {A} (p : bytes -> option (A * bytes)) : Prop :=
  forall bs x r, p bs = Some (x, r) ->
    exists used, bs = used ++ r /\ forall r', p (used ++ r') = Some (x, r').

Theorem dec_local : forall f t, local (dec f t).
Proof.
  intros f t bs x r H. destruct (dec_spec f t bs x r H) as (B & u & -> & _ & Hu).
  exists u. split; [reflexivity|]. intro r'. apply Hu, B.
Qed.

Corollary dec_suffix f t bs v r : dec f t bs = Some (v, r) -> exists used, bs = used ++ r.
Proof. intro H. destruct (dec_local f t bs v r H) as (u & Hu & _). exists u. exact Hu. Qed.

Theorem dec_prefix_fails f v n : wf v -> (n < length (enc v))%nat ->
  dec f (wtype v) (firstn n (enc v)) = None.
Proof.
  intros Hwf Hn. destruct (dec f (wtype v) (firstn n (enc v))) as [[v' r']|] eqn:E; [|reflexivity]. exfalso.
  (* with enough fuel the same parse resumes on the whole encoding, where dec_enc says nothing is left over *)
  destruct (dec_spec _ _ _ _ _ E) as (_ & u & Hu & _ & Hloc).
  specialize (Hloc (Nat.max (depth v') (depth v)) (r' ++ skipn n (enc v)) ltac:(lia)).
  rewrite app_assoc, <- Hu, firstn_skipn in Hloc.
  pose proof (dec_enc (Nat.max (depth v') (depth v)) v [] ltac:(lia) Hwf) as Hde. rewrite app_nil_r, Hloc in Hde.
  injection Hde as _ Hnil. apply app_eq_nil in Hnil. destruct Hnil as [_ Hs].
  pose proof (skipn_length n (enc v)) as Hsl. rewrite Hs in Hsl. cbn in Hsl. lia.
Qed.
