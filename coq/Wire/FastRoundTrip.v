(* Wire/FastRoundTrip.v — FastAppend then FastRead: the whole fast codec, end to end. *)
From Coq Require Import List ZArith.
From Verif Require Import Base.Bytes Wire.WVal Wire.Codec Wire.CodecFacts
  Wire.Schema Wire.Value Wire.Std Wire.StdFacts Wire.Fast Wire.FastFacts Wire.FastReadFacts Wire.FastStdFacts.
Import ListNotations.
Open Scope Z_scope.

(* for every schema, struct-like and well-typed value whose wire form nests at most 64 deep (the depth limit of
   gopkg's Skip; the reader never skips here, the premise comes from fast_read_eq_std_read): FastRead, started
   from NewX(), of the bytes FastAppend wrote — followed by anything — yields the value (its normal form, the
   same object the standard Write/Read round trip yields) and has consumed exactly BLength() bytes *)
Theorem fast_round_trip e s v w :
  wf_env e = true -> find_struct e (s_name s) = Some s -> wt e s v = true ->
  to_wire e s v = Ok w -> (depth (sortw w) <= default_recursion_depth)%nat ->
  forall rest, fast_read e s (new_struct e s) (fast_append e s v ++ rest) = FOk (norm_struct e s v, blength e s v).
Proof.
  intros Henv Hs Hwt Hw Hd rest.
  destruct (write_read e s v Henv Hs Hwt) as (wfs & Hw' & _). rewrite Hw in Hw'. injection Hw' as ->.
  destruct (fast_append_std_read e s v Henv Hs Hwt) as (w' & _ & _ & _ & Hrb).
  pose proof (to_w_wf e Henv v _ _ _ (wt_wt_val _ _ _ Hwt) Hw) as [Hwf _].
  pose proof (wf_sortw _ Hwf) as Hwfs.
  rewrite blength_exact. specialize (Hrb rest).
  rewrite (fast_append_is_std e s v _ Hw) in *. rewrite sortw_struct in *.
  rewrite (fast_read_eq_std_read e s (new_struct e s) _ rest (norm_struct e s v) Henv
             (wf_env_struct e (s_name s) s Henv Hs) Hwfs Hd Hrb).
  reflexivity.
Qed.

Corollary fast_round_trip_depth e s v w :
  wf_env e = true -> find_struct e (s_name s) = Some s -> wt e s v = true ->
  to_wire e s v = Ok w -> (depth w <= default_recursion_depth)%nat ->
  forall rest, fast_read e s (new_struct e s) (fast_append e s v ++ rest) = FOk (norm_struct e s v, blength e s v).
Proof. intros. apply (fast_round_trip e s v w); try assumption. rewrite depth_sortw. assumption. Qed.
