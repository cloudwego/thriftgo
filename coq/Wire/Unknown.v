(* Wire/Unknown.v — schema evolution and the keep_unknown_fields extension (property C09).

   Mirrors
     generator/golang/extension/unknown/unknown.go   Fields.Append / read   -> append_field / append_val
                                                     Fields.Write / write   -> write_unknown / uwrite
     generator/golang/extension/unknown/binary.go    the Binary reader / writer the two functions use
     generator/golang/templates/struct.go            the default branch of the Read switch
                                                     (HandleUnknownFields), _unknownFields.Write after the
                                                     known fields, CarryingUnknownFields
   on top of the standard codec of Wire/Std.v.

   Representation.  An object of code generated with keep_unknown_fields is a [VStruct] whose FIRST
   slot is the pseudo-slot (unk_id, VBin buf): buf = the Go field _unknownFields (unknown.Fields, a
   byte buffer holding the binary-protocol encoding of every unrecognised field, in arrival order).
   unk_id = 32768 lies outside the 16-bit range of Thrift field ids, so it never clashes.  The
   remaining slots are the declared fields, exactly as in Wire/Value.v.

     append_val d w        unknown.read: re-encode a wire value into the buffer, nesting limit d
     append_field d f      Fields.Append: field header + append_val (limit = maxNestingDepth = 64)
     uwrite fuel t bs      unknown.write: parse one value of wire type t out of the buffer
     write_unknown fuel b  Fields.Write: parse the whole buffer into the fields it emits
     from_wk e t w         FieldRead / X.Read of code generated WITH keep_unknown_fields
     to_wk e t v           FieldWrite / X.Write of code generated WITH keep_unknown_fields
     from_wire_keep, read_new_keep, to_wire_keep   top level
     carrying x            CarryingUnknownFields()
     strip x               forget the pseudo-slots (the object the plain code would hold)
     adapt e t v           view a value of another version of the schema under schema e: slots of e in
                           declaration order, slots e does not have dropped, slots the value does not
                           have filled with what NewX() puts there (restrict / with_defaults)
     extendsb o n          decidable "n is o after compatible edits"
     opt_init_unset, keepable   the domain of the keep theorems (see UnknownFacts)
   No proofs in this file. *)
From Coq Require Import List ZArith Bool Lia.
From Coq.Strings Require Import Byte.
From Verif Require Import Base.Bytes Base.BE Wire.TType Wire.WVal Wire.Codec Wire.Schema Wire.Value Wire.GenTables Wire.Std.
Import ListNotations.
Open Scope Z_scope.

Definition limit : nat := 64.          (* unknown.maxNestingDepth *)
Definition unk_id : Z := 32768.        (* pseudo-slot of _unknownFields *)

(* ---- errors of the keep-aware code: those of the standard codec, the nesting limit of
        unknown.read (ErrExceedDepthLimit) and a kept buffer that does not parse (cannot happen for
        buffers Append produced; kept so that to_wk is total) ---- *)
Inductive kerr := KStd (e : err) | KDepth | KBuf.
Inductive kres (A : Type) := KOk (a : A) | KErr (e : kerr).
Arguments KOk {A} a.
Arguments KErr {A} e.

Definition kbind {A B} (r : kres A) (f : A -> kres B) : kres B :=
  match r with KOk a => f a | KErr e => KErr e end.
Definition lift {A} (r : result A) : kres A :=
  match r with Ok a => KOk a | Err e => KErr (KStd e) end.

Section KMapM.
  Context {A B : Type} (f : A -> kres B).
  Fixpoint kmapM (l : list A) : kres (list B) :=
    match l with
    | [] => KOk []
    | x :: r => match f x with
                | KErr e => KErr e
                | KOk y => match kmapM r with KErr e => KErr e | KOk ys => KOk (y :: ys) end
                end
    end.
End KMapM.

Section KFoldM.
  Context {A S : Type} (step : S -> A -> kres S).
  Fixpoint kfoldM (l : list A) (s : S) : kres S :=
    match l with
    | [] => KOk s
    | x :: r => match step s x with KErr e => KErr e | KOk s' => kfoldM r s' end
    end.
End KFoldM.

(* ------------------------------------------------------------------------------------------
   unknown.read: copy one value from the protocol into the buffer.  The protocol side is the wire
   value the trusted TBinaryProtocol model (Codec.dec) reads; the buffer side is binary.go's
   writer.  None = ErrExceedDepthLimit: read is entered with maxDepth, fails when maxDepth <= 0
   and recurses with maxDepth-1 into set / list elements, map keys and values, struct fields. *)
Fixpoint append_val (d : nat) (w : wval) {struct w} : option bytes :=
  match d with
  | O => None
  | S d' =>
    match w with
    | WBool b => Some [if b then x01 else x00]
    | WByte z => Some (put_be 1 z)
    | WDouble z => Some (put_be 8 z)
    | WI16 z => Some (put_be 2 z)
    | WI32 z => Some (put_be 4 z)
    | WI64 z => Some (put_be 8 z)
    | WStr s => Some (put_be 4 (Z.of_nat (length s)) ++ s)
    | WStruct fs =>
        (fix go (l : list (ttype * Z * wval)) : option bytes :=
           match l with
           | [] => Some [x00]
           | (t, id, x) :: r =>
               match append_val d' x with
               | None => None
               | Some b => match go r with
                           | None => None
                           | Some br => Some (put_be 1 (code t) ++ put_be 2 id ++ b ++ br) end
               end
           end) fs
    | WMap kt vt kvs =>
        match (fix go (l : list (wval * wval)) : option bytes :=
                 match l with
                 | [] => Some []
                 | (k, x) :: r =>
                     match append_val d' k with
                     | None => None
                     | Some bk => match append_val d' x with
                                  | None => None
                                  | Some bx => match go r with
                                               | None => None
                                               | Some br => Some (bk ++ bx ++ br) end end
                     end
                 end) kvs with
        | None => None
        | Some b => Some (put_be 1 (code kt) ++ put_be 1 (code vt) ++ put_be 4 (Z.of_nat (length kvs)) ++ b)
        end
    | WSet et l | WList et l =>
        match (fix go (l : list wval) : option bytes :=
                 match l with
                 | [] => Some []
                 | x :: r => match append_val d' x with
                             | None => None
                             | Some b => match go r with None => None | Some br => Some (b ++ br) end end
                 end) l with
        | None => None
        | Some b => Some (put_be 1 (code et) ++ put_be 4 (Z.of_nat (length l)) ++ b)
        end
    end
  end.

(* Fields.Append: Binary.WriteFieldBegin (type byte, i16 id; the name is not stored) then read *)
Definition append_field (d : nat) (f : wfield) : option bytes :=
  match append_val d (snd f) with
  | Some b => Some (put_be 1 (code (fst (fst f))) ++ put_be 2 (snd (fst f)) ++ b)
  | None => None
  end.

(* ------------------------------------------------------------------------------------------
   unknown.write: parse one value out of the buffer with binary.go's reader and hand it to the
   output protocol.  Same shape as Codec.dec except for binary.go's own string bound: ReadString
   rejects size < 0 and size > len(buf) (buf still including the 4 length bytes) and then slices
   buf[4:4+size], which panics when 4+size > len(buf); both are None here. *)
Fixpoint uwrite (fuel : nat) (t : ttype) (bs : bytes) {struct fuel} : option (wval * bytes) :=
  match fuel with
  | O => None
  | S f =>
    match t with
    | T_BOOL => match bs with b :: r => Some (WBool (Byte.eqb b x01), r) | [] => None end
    | T_BYTE => match get_s 1 bs with Some (z, r) => Some (WByte z, r) | None => None end
    | T_DOUBLE => match get_be 8 bs with Some (z, r) => Some (WDouble z, r) | None => None end
    | T_I16 => match get_s 2 bs with Some (z, r) => Some (WI16 z, r) | None => None end
    | T_I32 => match get_s 4 bs with Some (z, r) => Some (WI32 z, r) | None => None end
    | T_I64 => match get_s 8 bs with Some (z, r) => Some (WI64 z, r) | None => None end
    | T_STRING =>
        match get_s 4 bs with
        | Some (n, r) =>
            if (n <? 0) || (Z.of_nat (length bs) <? n) then None
            else if (length r <? Z.to_nat n)%nat then None
            else Some (WStr (firstn (Z.to_nat n) r), skipn (Z.to_nat n) r)
        | None => None end
    | T_LIST =>
        match get_be 1 bs with
        | Some (c, r) => match of_code c with
          | Some et => match get_count r with
             | Some (n, r1) => match rep (uwrite f et) n r1 with
                  | Some (xs, r2) => Some (WList et xs, r2) | None => None end
             | None => None end
          | None => None end
        | None => None end
    | T_SET =>
        match get_be 1 bs with
        | Some (c, r) => match of_code c with
          | Some et => match get_count r with
             | Some (n, r1) => match rep (uwrite f et) n r1 with
                  | Some (xs, r2) => Some (WSet et xs, r2) | None => None end
             | None => None end
          | None => None end
        | None => None end
    | T_MAP =>
        match get_be 1 bs with
        | Some (c, r) => match of_code c with
          | Some kt => match get_be 1 r with
            | Some (c2, r0) => match of_code c2 with
              | Some vt => match get_count r0 with
                 | Some (n, r1) => match rep (pairp (uwrite f kt) (uwrite f vt)) n r1 with
                      | Some (xs, r2) => Some (WMap kt vt xs, r2) | None => None end
                 | None => None end
              | None => None end
            | None => None end
          | None => None end
        | None => None end
    | T_STRUCT =>
        match fields (uwrite f) (S (length bs)) bs with
        | Some (fs, r) => Some (WStruct fs, r) | None => None end
    end
  end.

(* Fields.Write: for offset < len(buf) { ReadFieldBegin; WriteFieldBegin; write; ... }.
   A type byte 0 (STOP) or any other unknown code ends in ErrUnknownType. *)
Fixpoint write_unknown (fuel : nat) (bs : bytes) {struct fuel} : option (list wfield) :=
  match bs with
  | [] => Some []
  | _ :: _ =>
    match fuel with
    | O => None
    | S f =>
      match get_be 1 bs with
      | Some (c, r) => match of_code c with
         | Some ft => match get_s 2 r with
            | Some (id, r1) => match uwrite (S (length r1)) ft r1 with
               | Some (x, r2) => match write_unknown f r2 with
                                 | Some fs => Some ((ft, id, x) :: fs) | None => None end
               | None => None end
            | None => None end
         | None => None end
      | None => None end
    end
  end.

Definition unknown_fields (buf : bytes) : option (list wfield) := write_unknown (length buf) buf.

(* ------------------------------------------------------------------------------------------
   objects of keep-aware code *)

Definition keep_slots (buf : bytes) (slots : list (Z * value)) : value := VStruct ((unk_id, VBin buf) :: slots).
Definition new_struct_keep (s : sschema) : value := keep_slots [] (new_fields s).
Definition zero_struct_keep (s : sschema) : value := keep_slots [] (zero_fields s).

(* CarryingUnknownFields(): len(p._unknownFields) > 0 *)
Definition carrying (x : value) : bool :=
  match x with
  | VStruct ((_, VBin (_ :: _)) :: _) => true
  | _ => false
  end.

(* the kept buffer of an object *)
Definition unknown_of (x : value) : bytes :=
  match x with
  | VStruct ((_, VBin b) :: _) => b
  | _ => []
  end.

(* reader state: kept buffer, current slots, ids of required fields seen *)
Definition kstate := (bytes * list (Z * value) * list Z)%type.

(* ---- Read (templates/struct.go StructLikeRead with Features.KeepUnknownFields) ---- *)
Fixpoint from_wk (e : env) (t : ty) (w : wval) {struct w} : kres value :=
  match w with
  | WList et l =>
      match t with
      | TList a => if ttype_eqb et (ttype_of e a) || (length l =? 0)%nat
                   then kbind (kmapM (from_wk e a) l) (fun xs => KOk (VList xs)) else KErr (KStd EHeader)
      | _ => KErr (KStd EHeader) end
  | WSet et l =>
      match t with
      | TSet a => if ttype_eqb et (ttype_of e a) || (length l =? 0)%nat
                  then kbind (kmapM (from_wk e a) l) (fun xs => KOk (VList xs)) else KErr (KStd EHeader)
      | _ => KErr (KStd EHeader) end
  | WMap kt vt kvs =>
      match t with
      | TMap a b =>
          if (ttype_eqb kt (ttype_of e a) && ttype_eqb vt (ttype_of e b)) || (length kvs =? 0)%nat then
            kbind (kmapM (fun kv => kbind (from_wk e a (fst kv)) (fun k =>
                                    kbind (from_wk e b (snd kv)) (fun x => KOk (k, x)))) kvs)
                  (fun xs => KOk (VMap (map_build xs)))
          else KErr (KStd EHeader)
      | _ => KErr (KStd EHeader) end
  | WStruct wfs =>
      match t with
      | TRef n =>
        match find_struct e n with
        | Some s =>
            kbind (kfoldM (fun (st : kstate) (wf : ttype * Z * wval) =>
                             match find_field (snd (fst wf)) (s_fields s) with
                             | Some f =>
                                 if ttype_eqb (fst (fst wf)) (ttype_of e (f_ty f)) then
                                   kbind (from_wk e (f_ty f) (snd wf)) (fun v =>
                                     KOk (fst (fst st), set_field (f_id f) (wrap_slot f v) (snd (fst st)),
                                          if is_required f then f_id f :: snd st else snd st))
                                 else KOk st                      (* iprot.Skip(fieldTypeId) *)
                             | None =>                            (* default: _unknownFields.Append *)
                                 match append_field limit wf with
                                 | Some b => KOk (fst (fst st) ++ b, snd (fst st), snd st)
                                 | None => KErr KDepth end
                             end) wfs ([], new_fields s, []))
                  (fun st => match first_missing (s_fields s) (snd st) with
                             | Some id => KErr (KStd (ERequiredMissing id))
                             | None => KOk (keep_slots (fst (fst st)) (snd (fst st))) end)
        | None => KErr (KStd EUnknownStruct) end
      | _ => KErr (KStd EHeader) end
  | _ => lift (from_w e t w)
  end.

(* named versions of the struct loop (the fixpoint above unfolds to these, see UnknownReadFacts: from_wk_struct, to_wk_struct) *)
Definition kread_step (e : env) (s : sschema) (st : kstate) (wf : wfield) : kres kstate :=
  match find_field (snd (fst wf)) (s_fields s) with
  | Some f =>
      if ttype_eqb (fst (fst wf)) (ttype_of e (f_ty f)) then
        kbind (from_wk e (f_ty f) (snd wf)) (fun v =>
          KOk (fst (fst st), set_field (f_id f) (wrap_slot f v) (snd (fst st)),
               if is_required f then f_id f :: snd st else snd st))
      else KOk st
  | None =>
      match append_field limit wf with
      | Some b => KOk (fst (fst st) ++ b, snd (fst st), snd st)
      | None => KErr KDepth end
  end.

Definition kfinish_read (s : sschema) (st : kstate) : kres value :=
  match first_missing (s_fields s) (snd st) with
  | Some id => KErr (KStd (ERequiredMissing id))
  | None => KOk (keep_slots (fst (fst st)) (snd (fst st))) end.

(* X.Read into an existing object: nothing is reset, the buffer keeps growing *)
Definition from_wire_keep (e : env) (s : sschema) (init : value) (w : wval) : kres value :=
  match init, w with
  | VStruct ((uid, VBin buf) :: slots), WStruct wfs =>
      if uid =? unk_id then kbind (kfoldM (kread_step e s) wfs (buf, slots, [])) (kfinish_read s)
      else KErr (KStd EBadValue)
  | _, WStruct _ => KErr (KStd EBadValue)
  | _, _ => KErr (KStd EHeader)
  end.

Definition read_new_keep (e : env) (s : sschema) (w : wval) : kres value :=
  from_wire_keep e s (new_struct_keep s) w.

(* ---- Write (StructLikeWrite with Features.KeepUnknownFields): union count check (the buffer is
        not counted), known fields in declaration order, then _unknownFields.Write ---- *)
Fixpoint to_wk (e : env) (t : ty) (v : value) {struct v} : kres wval :=
  match v with
  | VList l =>
      match t with
      | TList et => kbind (kmapM (to_wk e et) l) (fun xs => KOk (WList (ttype_of e et) xs))
      | TSet et => if set_has_dup l then KErr (KStd ESetDup)
                   else kbind (kmapM (to_wk e et) l) (fun xs => KOk (WSet (ttype_of e et) xs))
      | _ => KErr (KStd EBadValue) end
  | VMap kvs =>
      match t with
      | TMap kt vt =>
          kbind (kmapM (fun kv => kbind (to_wk e kt (fst kv)) (fun k =>
                                  kbind (to_wk e vt (snd kv)) (fun x => KOk (k, x)))) kvs)
                (fun xs => KOk (WMap (ttype_of e kt) (ttype_of e vt) xs))
      | _ => KErr (KStd EBadValue) end
  | VStruct fs =>
      match t with
      | TRef n =>
        match find_struct e n with
        | Some s =>
          match fs with
          | (uid, VBin buf) :: slots =>
              if negb (uid =? unk_id) then KErr (KStd EBadValue) else
              let c := count_set (s_fields s) slots in
              if is_union s && negb (c =? 1)%nat then KErr (KStd (EUnionCount c)) else
              kbind (kmapM (fun p =>
                              match find_field (fst p) (s_fields s) with
                              | None => KErr (KStd EBadValue)
                              | Some f =>
                                  if present f (snd p) then
                                    if base_ptr f then
                                      match snd p with
                                      | VSome x => kbind (to_wk e (f_ty f) x)
                                                         (fun x => KOk (Some (ttype_of e (f_ty f), f_id f, x)))
                                      | _ => KErr (KStd EBadValue) end
                                    else kbind (to_wk e (f_ty f) (snd p))
                                               (fun x => KOk (Some (ttype_of e (f_ty f), f_id f, x)))
                                  else KOk None
                              end) slots)
                    (fun ofs => match unknown_fields buf with
                                | Some us => KOk (WStruct (cat_somes ofs ++ us))
                                | None => KErr KBuf end)
          | _ => KErr (KStd EBadValue)
          end
        | None => KErr (KStd EUnknownStruct) end
      | _ => KErr (KStd EBadValue) end
  | _ => lift (to_w e t v)
  end.

Definition kwfield_fn (e : env) (s : sschema) (p : Z * value) : kres (option wfield) :=
  match find_field (fst p) (s_fields s) with
  | None => KErr (KStd EBadValue)
  | Some f =>
      if present f (snd p) then
        if base_ptr f then
          match snd p with
          | VSome x => kbind (to_wk e (f_ty f) x) (fun x => KOk (Some (ttype_of e (f_ty f), f_id f, x)))
          | _ => KErr (KStd EBadValue) end
        else kbind (to_wk e (f_ty f) (snd p)) (fun x => KOk (Some (ttype_of e (f_ty f), f_id f, x)))
      else KOk None
  end.

Definition to_wire_keep (e : env) (s : sschema) (v : value) : kres wval := to_wk e (TRef (s_name s)) v.

(* through bytes *)
Definition write_bytes_keep (e : env) (s : sschema) (v : value) : kres bytes :=
  kbind (to_wire_keep e s v) (fun w => KOk (enc w)).
Definition read_bytes_keep (e : env) (s : sschema) (init : value) (bs : bytes) : kres value :=
  match dec_struct bs with
  | Some (w, _) => from_wire_keep e s init w
  | None => KErr (KStd EDecode)
  end.

(* ---- forgetting the pseudo-slots ---- *)
Fixpoint strip (v : value) : value :=
  match v with
  | VList l => VList (map strip l)
  | VMap kvs => VMap (map (fun kv => (strip (fst kv), strip (snd kv))) kvs)
  | VStruct fs => VStruct (filter (fun p => negb (fst p =? unk_id)) (map (fun p => (fst p, strip (snd p))) fs))
  | VSome x => VSome (strip x)
  | _ => v
  end.

(* ------------------------------------------------------------------------------------------
   one value seen under another version of the schema *)

Fixpoint assoc_slot (id : Z) (fs : list (Z * value)) : option value :=
  match fs with [] => None | (i, x) :: r => if i =? id then Some x else assoc_slot id r end.

(* the slots of s in declaration order: taken from fs where present, NewX()'s content otherwise *)
Definition arrange (s : sschema) (fs : list (Z * value)) : list (Z * value) :=
  map (fun f => (f_id f, match assoc_slot (f_id f) fs with Some x => x | None => init_slot f end)) (s_fields s).

Fixpoint adapt (e : env) (t : ty) (v : value) {struct v} : value :=
  match v with
  | VList l => match t with TList a | TSet a => VList (map (adapt e a) l) | _ => v end
  | VMap kvs => match t with
                | TMap a b => VMap (map (fun kv => (adapt e a (fst kv), adapt e b (snd kv))) kvs)
                | _ => v end
  | VStruct fs =>
      match t with
      | TRef n =>
        match find_struct e n with
        | Some s => VStruct (arrange s (map (fun p => match find_field (fst p) (s_fields s) with
                                                     | Some f => (fst p, adapt e (f_ty f) (snd p))
                                                     | None => p end) fs))
        | None => v end
      | _ => v end
  | VSome x => VSome (adapt e t x)
  | _ => v
  end.

Definition adapt_slot (e : env) (s : sschema) (p : Z * value) : Z * value :=
  match find_field (fst p) (s_fields s) with
  | Some f => (fst p, adapt e (f_ty f) (snd p))
  | None => p end.

Definition adapt_struct (e : env) (s : sschema) (v : value) : value := adapt e (TRef (s_name s)) v.

(* ------------------------------------------------------------------------------------------
   compatible schema edits, as a decidable relation *)

Fixpoint ty_eqb (a b : ty) : bool :=
  match a, b with
  | TBool, TBool | TByte, TByte | TI16, TI16 | TI32, TI32 | TI64, TI64 | TDouble, TDouble
  | TString, TString | TBinary, TBinary => true
  | TEnum x, TEnum y | TRef x, TRef y => beqb x y
  | TList x, TList y | TSet x, TSet y => ty_eqb x y
  | TMap k v, TMap k' v' => ty_eqb k k' && ty_eqb v v'
  | _, _ => false
  end.

Fixpoint lit_eqb (a b : lit) {struct a} : bool :=
  match a, b with
  | LBool x, LBool y => Bool.eqb x y
  | LInt x, LInt y | LDbl x, LDbl y => x =? y
  | LStr x, LStr y | LBin x, LBin y => beqb x y
  | LList la, LList lb =>
      (fix go (la lb : list lit) : bool :=
         match la, lb with
         | [], [] => true
         | x :: ra, y :: rb => lit_eqb x y && go ra rb
         | _, _ => false end) la lb
  | LMap la, LMap lb =>
      (fix go (la lb : list (lit * lit)) : bool :=
         match la, lb with
         | [], [] => true
         | (x, y) :: ra, (x', y') :: rb => lit_eqb x x' && lit_eqb y y' && go ra rb
         | _, _ => false end) la lb
  | _, _ => false
  end.

Definition skind_eqb (a b : skind) : bool :=
  match a, b with KStruct, KStruct | KUnion, KUnion | KException, KException => true | _, _ => false end.

Definition field_eqb (a b : field) : bool :=
  (f_id a =? f_id b) && beqb (f_name a) (f_name b) && req_eqb (f_req a) (f_req b) && ty_eqb (f_ty a) (f_ty b) &&
  match f_default a, f_default b with
  | Some x, Some y => lit_eqb x y
  | None, None => true
  | _, _ => false end &&
  Bool.eqb (f_typedef a) (f_typedef b).

(* sn has every field of so unchanged; what it adds is not required *)
Definition struct_extends (so sn : sschema) : bool :=
  beqb (s_name so) (s_name sn) && skind_eqb (s_kind so) (s_kind sn) &&
  forallb (fun fo => match find_field (f_id fo) (s_fields sn) with
                     | Some fn => field_eqb fo fn | None => false end) (s_fields so) &&
  forallb (fun fn => match find_field (f_id fn) (s_fields so) with
                     | Some _ => true | None => negb (is_required fn) end) (s_fields sn).

Definition enum_extends (eo en : eschema) : bool :=
  forallb (fun m => existsb (fun m' => beqb (fst m) (fst m') && (snd m =? snd m')) (e_values en)) (e_values eo).

(* every struct-like name a type mentions is defined in e *)
Fixpoint closed_ty (e : env) (t : ty) : bool :=
  match t with
  | TRef n => match find_struct e n with Some _ => true | None => false end
  | TList a | TSet a => closed_ty e a
  | TMap a b => closed_ty e a && closed_ty e b
  | _ => true
  end.
Definition closed_env (e : env) : bool :=
  forallb (fun s => forallb (fun f => closed_ty e (f_ty f)) (s_fields s)) (structs e).

(* n = o after a sequence of compatible edits: every struct-like of o is in n with its fields
   unchanged plus non-required fields under fresh ids (at any nesting depth: the relation is per
   definition, nested types are found by name); enums keep their members and may gain some; n may
   define new struct-likes and enums; the lookups are consistent (the definition found under a name
   is the one carrying it) *)
Definition extendsb (o n : env) : bool :=
  forallb (fun so => match find_struct n (s_name so) with
                     | Some sn => struct_extends so sn | None => false end) (structs o) &&
  forallb (fun eo => match find_enum n (e_name eo) with
                     | Some en => enum_extends eo en | None => false end) (enums o) &&
  closed_env o.

(* ------------------------------------------------------------------------------------------
   the domain of the keep theorems *)

(* schema side: an optional field that NewX() leaves "set" would be written by the old code although
   the new code never sent it (only optional fields with a container default, or a NaN default) *)
Definition opt_init_unset (e : env) : bool :=
  forallb (fun s => forallb (fun f => negb (is_optional f) || negb (isset f (init_slot f))) (s_fields s)) (structs e).

(* value side: no nil struct pointer where Thrift writes one anyway (a nil struct in a non-optional
   position is written as an empty struct and comes back as NewX(): the value is not a fixpoint of
   write/read even without schema evolution), and no two map keys that fall together when written
   (enum keys beyond int32) *)
Fixpoint keepable (e : env) (t : ty) (v : value) {struct v} : bool :=
  match v with
  | VNil => match t with TRef _ => false | _ => true end
  | VList l => match t with TList a | TSet a => forallb (keepable e a) l | _ => true end
  | VMap kvs =>
      match t with
      | TMap a b => forallb (fun kv => keepable e a (fst kv) && keepable e b (snd kv)) kvs &&
                    negb (has_dup go_key_eq (map (fun kv => norm e a (fst kv)) kvs))
      | _ => true end
  | VStruct fs =>
      match t with
      | TRef n =>
        match find_struct e n with
        | Some s => forallb (fun p => match find_field (fst p) (s_fields s) with
                                      | Some f => if is_optional f && is_nil (snd p) then true
                                                  else keepable e (f_ty f) (snd p)
                                      | None => true end) fs
        | None => true end
      | _ => true end
  | VSome x => keepable e t x
  | _ => true
  end.

(* ------------------------------------------------------------------------------------------
   chains: bytes written by new code pass through old code generated with keep_unknown_fields
   (read + re-write) and back to new code (read + re-write), any number of times *)

Definition hop_old (o : env) (so : sschema) (w : wval) : kres wval :=
  kbind (read_new_keep o so w) (to_wire_keep o so).

Definition round_trip (o n : env) (so sn : sschema) (v : value) : kres value :=
  kbind (lift (to_wire n sn v)) (fun w =>
  kbind (hop_old o so w) (fun w' => lift (read_new n sn w'))).

Fixpoint chain (o n : env) (so sn : sschema) (k : nat) (v : value) : kres value :=
  match k with
  | O => KOk v
  | S k' => kbind (round_trip o n so sn v) (chain o n so sn k')
  end.

Fixpoint iter_norm (n : env) (sn : sschema) (k : nat) (v : value) : value :=
  match k with O => v | S k' => iter_norm n sn k' (norm_struct n sn v) end.
