(* Wire/MaskedFacts.v — facts about the generated codec under a field mask (Wire/Masked.v).

   The codec is modelled over an abstract selector (states, step, live, top); everything up to
   restrict_agree is proved for every selector, and the field-mask library (option mask, mquery)
   and the residual path sets (ps_step) are two instances.
     hdr_count_eq_written    the pre-count loop (hdr_count, the loop of C13-1-list-set-header-count-loop.patch)
                             gives the number of elements the filtering loop writes, for every
                             selector and every list
     to_wm_counts            every header count of what Write emits under a mask is truthful
     enc_r_cook              ... so the bytes are the standard encoding of a generic wire value
     to_wm_allpass / from_wm_allpass   a selector that passes everything (the nil mask) gives the
                             standard codec
     to_wm_spec              Write under a mask, read by a plain peer = restrict (wmode cfg)
     from_wm_spec            plain Write, Read under a mask                = restrict RqDrop
     restrict_agree          restrict depends on the selector only through the answers along
                             passing prefixes (gwalk): bridge to path sets
     ps_walk_spec            residual path sets answer as Mask.Spec.spec_pass
     to_wm_wf                what Write emits under a mask fits the wire format *)
From Coq Require Import List ZArith Bool Lia Arith.
From Coq.Strings Require Import Byte.
From Verif Require Import Base.Bytes Base.BE Wire.TType Wire.WVal Wire.Codec Wire.CodecFacts
  Wire.Schema Wire.Value Wire.Std Wire.StdFacts Wire.Masked.
From Verif Require Mask.Path Mask.Desc Mask.Trie Mask.Spec.
Import ListNotations.
Open Scope Z_scope.

Section RwInd.
  Variable P : rw -> Prop.
  Hypothesis HV : forall w, P (RV w).
  Hypothesis HStruct : forall fs, Forall (fun f => P (snd f)) fs -> P (RStruct fs).
  Hypothesis HMap : forall kt vt c kvs, Forall (fun kv => P (snd kv)) kvs -> P (RMap kt vt c kvs).
  Hypothesis HSet : forall et c l, Forall P l -> P (RSet et c l).
  Hypothesis HList : forall et c l, Forall P l -> P (RList et c l).

  Fixpoint rw_ind2 (r : rw) : P r :=
    match r with
    | RV w => HV w
    | RStruct fs => HStruct fs ((fix go (l : list (ttype * Z * rw)) : Forall (fun f => P (snd f)) l :=
                                  match l with [] => Forall_nil _ | f :: r => Forall_cons f (rw_ind2 (snd f)) (go r) end) fs)
    | RMap kt vt c kvs => HMap kt vt c kvs ((fix go (l : list (wval * rw)) : Forall (fun kv => P (snd kv)) l :=
                                  match l with [] => Forall_nil _ | kv :: r => Forall_cons kv (rw_ind2 (snd kv)) (go r) end) kvs)
    | RSet et c l => HSet et c l ((fix go (l : list rw) : Forall P l :=
                                  match l with [] => Forall_nil _ | x :: r => Forall_cons x (rw_ind2 x) (go r) end) l)
    | RList et c l => HList et c l ((fix go (l : list rw) : Forall P l :=
                                  match l with [] => Forall_nil _ | x :: r => Forall_cons x (rw_ind2 x) (go r) end) l)
    end.
End RwInd.

Lemma enc_struct_fix fs :
  enc (WStruct fs) =
  (fix go (l : list (ttype * Z * wval)) : bytes :=
     match l with [] => [x00] | (t, id, x) :: r => put_be 1 (code t) ++ put_be 2 id ++ enc x ++ go r end) fs.
Proof. reflexivity. Qed.

Theorem enc_r_cook : forall r, counts_ok r = true -> enc_r r = enc (cook r).
Proof.
  induction r using rw_ind2; intro Hc; [reflexivity | | | |]; cbn [counts_ok] in Hc.
  3,4: apply andb_true_iff in Hc; destruct Hc as [Hn Hc]; apply Nat.eqb_eq in Hn; subst c;
      cbn [enc_r cook enc]; rewrite map_length; do 2 f_equal;
      induction l as [|x l IHl]; [reflexivity|];
      inversion H as [|? ? Hx Hrest]; subst; cbn [forallb] in Hc; apply andb_true_iff in Hc; destruct Hc as [Hc1 Hc2];
      cbn [map]; rewrite (Hx Hc1); f_equal; apply IHl; assumption.
  - cbn [enc_r cook enc].
    induction fs as [|[[t i] x] fs IHfs]; [reflexivity|].
    inversion H as [|? ? Hx Hrest]; subst. cbn [forallb snd] in Hc, Hx. apply andb_true_iff in Hc. destruct Hc as [Hc1 Hc2].
    cbn [map fst snd]. rewrite (Hx Hc1). do 3 f_equal. apply IHfs; assumption.
  - apply andb_true_iff in Hc. destruct Hc as [Hn Hc]. apply Nat.eqb_eq in Hn. subst c.
    cbn [enc_r cook enc]. rewrite map_length. do 3 f_equal.
    induction kvs as [|[k x] kvs IHk]; [reflexivity|].
    inversion H as [|? ? Hx Hrest]; subst. cbn [forallb snd] in Hc, Hx. apply andb_true_iff in Hc. destruct Hc as [Hc1 Hc2].
    cbn [map fst snd]. rewrite (Hx Hc1). do 2 f_equal. apply IHk; assumption.
Qed.

Lemma mapM_map {A B C} (f : B -> result C) (g : A -> B) l : mapM f (map g l) = mapM (fun x => f (g x)) l.
Proof. induction l as [|x l IH]; [reflexivity|]. cbn. rewrite IH. reflexivity. Qed.

Lemma mapM_ext {A B} (f g : A -> result B) l : (forall x, In x l -> f x = g x) -> mapM f l = mapM g l.
Proof.
  induction l as [|x l IH]; intro H; [reflexivity|]. cbn. rewrite (H x) by (left; reflexivity).
  rewrite IH by (intros; apply H; right; assumption). reflexivity.
Qed.

(* the value the codec works on in a slot: under an optional pointer, what it points to *)
Definition payload_of (f : field) (v : value) : option value :=
  if base_ptr f then match v with VSome x => Some x | _ => None end else Some v.

Lemma payload_ind (P : value -> Prop) f v x :
  P v /\ match v with VSome y => P y | _ => True end -> payload_of f v = Some x -> P x.
Proof.
  unfold payload_of. intros [H1 H2]. destruct (base_ptr f); [destruct v; try discriminate|]; intros [= <-]; assumption.
Qed.

Lemma absent_not_required f v : present f v = false -> is_required f = false.
Proof.
  unfold present. intro H. apply orb_false_iff in H. destruct H as [H _]. apply negb_false_iff in H.
  unfold is_optional, is_required in *. destruct (f_req f); try discriminate; reflexivity.
Qed.

(* a present slot that passed slot_ok has a payload, and it is well typed, except for the one nil
   the writer accepts there: an optional binary field with a default *)
Lemma present_payload e s f p :
  find_field (fst p) (s_fields s) = Some f -> slot_ok e s p = true -> present f (snd p) = true ->
  exists x, payload_of f (snd p) = Some x /\
            (wt_val e false (f_ty f) x = true \/ (f_ty f = TBinary /\ x = VNil)).
Proof.
  intros Hf Hok Hp. unfold slot_ok in Hok. rewrite Hf in Hok. unfold payload_of.
  destruct (base_ptr f) eqn:Hb.
  - destruct (snd p) as [| | | | | | | | |x] eqn:Es; try discriminate.
    + exfalso. unfold present, isset, base_ptr in *.
      rewrite !andb_true_iff in Hb. destruct Hb as [[[Ho Hd] _] _].
      rewrite Ho in Hp. cbn in Hp. apply negb_true_iff in Hd. unfold has_default in Hd.
      destruct (f_default f); [discriminate|]. cbn in Hp. discriminate.
    + exists x. split; [reflexivity | left; exact Hok].
  - exists (snd p). split; [reflexivity|].
    destruct (is_optional f && is_nil (snd p)) eqn:Eon; [right | left; exact Hok].
    apply andb_true_iff in Eon. destruct Eon as [Ho Hn]. destruct (snd p); try discriminate.
    unfold present, isset in Hp. rewrite Ho in Hp. cbn [negb orb] in Hp.
    destruct (f_default f) as [l|]; [|discriminate].
    destruct (is_base (f_ty f)) eqn:Eb; [|discriminate].
    cbn [negb orb] in Hok. destruct (f_ty f); try discriminate. split; reflexivity.
Qed.

Lemma wfield_fn_eq e s p :
  wfield_fn e s p =
  match find_field (fst p) (s_fields s) with
  | None => Err EBadValue
  | Some f =>
      if present f (snd p) then
        match payload_of f (snd p) with
        | Some x => bind (to_w e (f_ty f) x) (fun w => Ok (Some (ttype_of e (f_ty f), f_id f, w)))
        | None => Err EBadValue end
      else Ok None
  end.
Proof.
  unfold wfield_fn, payload_of. destruct (find_field (fst p) (s_fields s)) as [f|]; [|reflexivity].
  destruct (present f (snd p)); [|reflexivity]. destruct (base_ptr f); [destruct (snd p)|]; reflexivity.
Qed.

Lemma norm_fn_eq e s p :
  norm_fn e s p =
  match find_field (fst p) (s_fields s) with
  | Some f =>
      (fst p, if present f (snd p) then
                match payload_of f (snd p) with
                | Some x => wrap_slot f (norm e (f_ty f) x)
                | None => snd p end
              else init_slot f)
  | None => p end.
Proof.
  unfold norm_fn, payload_of, wrap_slot. destruct (find_field (fst p) (s_fields s)) as [f|]; [|reflexivity].
  destruct (present f (snd p)); [|reflexivity]. destruct (base_ptr f); [destruct (snd p)|]; reflexivity.
Qed.

(* the selector of Masked.v: its state, one step under a key, Exist(), the state at the top of a
   value, All() *)
Section Selector.
  Variable St : Type.
  Variable step : St -> qkey -> St * bool.
  Variable live : St -> bool.
  Variable top : St.
  Variable all_q : St -> bool.

  Local Notation mapM_sel := (Masked.mapM_sel St step).
  Local Notation sel_map := (Masked.sel_map St step).
  Local Notation hdr_loop := (Masked.hdr_loop St step).
  Local Notation hdr_count := (Masked.hdr_count St step live).
  Local Notation to_wm := (Masked.to_wm St step live top all_q).
  Local Notation from_wm := (Masked.from_wm St step).
  Local Notation restrict := (Masked.restrict St step top).

Section SelFacts.
  (* Exist() = false: every query passes (nil mask, mask without type) *)
  Hypothesis live_pass : forall st k, live st = false -> snd (step st k) = true.

  Section Count.
    Context {A : Type}.
    Variable key : nat -> A -> qkey.
    Variable st : St.

    (* the number of elements the filtering loop handles *)
    Fixpoint count_sel (i : nat) (l : list A) : nat :=
      match l with
      | [] => O
      | x :: r => ((if snd (step st (key i x)) then 1 else 0) + count_sel (S i) r)%nat
      end.

    Lemma count_sel_le : forall l i, (count_sel i l <= length l)%nat.
    Proof. induction l as [|x l IH]; intro i; cbn; [lia|]. specialize (IH (S i)). destruct (snd (step st (key i x))); lia. Qed.

    Lemma hdr_loop_count : forall l i c, (length l <= c)%nat ->
      hdr_loop key st i l c = (c - (length l - count_sel i l))%nat.
    Proof.
      induction l as [|x l IH]; intros i c Hc; cbn [Masked.hdr_loop count_sel length]; [lia|].
      cbn [length] in Hc. pose proof (count_sel_le l (S i)) as Hle.
      destruct (snd (step st (key i x))).
      - rewrite IH by lia. lia.
      - rewrite IH by lia. lia.
    Qed.

    Lemma count_sel_all : forall l i, (forall k, snd (step st k) = true) -> count_sel i l = length l.
    Proof. induction l as [|x l IH]; intros i H; cbn; [reflexivity|]. rewrite H, IH by assumption. reflexivity. Qed.

    (* the pre-count loop gives the number of written elements: for every selector state, every list *)
    Theorem hdr_count_eq_written : forall l, hdr_count key st l = count_sel 0 l.
    Proof.
      intro l. unfold Masked.hdr_count. destruct (live st) eqn:Hl.
      - rewrite hdr_loop_count by lia. pose proof (count_sel_le l 0). lia.
      - symmetry. apply count_sel_all. intro k. apply live_pass. exact Hl.
    Qed.

    Lemma sel_map_length {B} (g : St -> A -> B) : forall l i, length (sel_map key st g i l) = count_sel i l.
    Proof.
      induction l as [|x l IH]; intro i; cbn [Masked.sel_map count_sel]; [reflexivity|].
      destruct (snd (step st (key i x))); cbn [length]; rewrite IH; reflexivity.
    Qed.

    Lemma mapM_sel_length {B} (f : St -> A -> result B) : forall l i ys,
      mapM_sel (fun i x => Ok (key i x)) st f i l = Ok ys -> length ys = count_sel i l.
    Proof.
      induction l as [|x l IH]; intros i ys H; cbn [Masked.mapM_sel count_sel] in *.
      - injection H as <-. reflexivity.
      - destruct (snd (step st (key i x))).
        + destruct (f (fst (step st (key i x))) x) as [y|]; [|discriminate].
          destruct (mapM_sel (fun i x => Ok (key i x)) st f (S i) l) as [ys'|] eqn:E; [|discriminate].
          injection H as <-. cbn [length]. rewrite (IH _ _ E). reflexivity.
        + rewrite (IH _ _ H). reflexivity.
    Qed.

    Lemma mapM_sel_Forall {B} (f : St -> A -> result B) (P : B -> Prop) : forall l i ys,
      Forall (fun x => forall s y, f s x = Ok y -> P y) l ->
      mapM_sel (fun i x => Ok (key i x)) st f i l = Ok ys -> Forall P ys.
    Proof.
      induction l as [|x l IH]; intros i ys HF H; cbn [Masked.mapM_sel] in H.
      - injection H as <-. constructor.
      - inversion HF as [|? ? Hx Hl]; subst.
        destruct (snd (step st (key i x))).
        + destruct (f (fst (step st (key i x))) x) as [y|] eqn:Ef; [|discriminate].
          destruct (mapM_sel (fun i x => Ok (key i x)) st f (S i) l) as [ys'|] eqn:E; [|discriminate].
          injection H as <-. constructor; [eapply Hx; eauto | eapply IH; eauto].
        + eapply IH; eauto.
    Qed.

    (* the filtering loop succeeds and reads back as the selection of the results *)
    Lemma mapM_sel_ok {B C} (f : St -> A -> result B) (g : B -> result C) (h : St -> A -> C) : forall l i,
      Forall (fun x => forall s, exists y, f s x = Ok y /\ g y = Ok (h s x)) l ->
      exists ys, mapM_sel (fun i x => Ok (key i x)) st f i l = Ok ys /\
                 mapM g ys = Ok (sel_map key st h i l).
    Proof.
      induction l as [|x l IH]; intros i HF.
      - exists []. split; reflexivity.
      - inversion HF as [|? ? Hx Hl]; subst. destruct (IH (S i) Hl) as (ys & Hm & Hg).
        cbn [Masked.mapM_sel Masked.sel_map]. destruct (snd (step st (key i x))).
        + destruct (Hx (fst (step st (key i x)))) as (y & Hf & Hgy).
          exists (y :: ys). rewrite Hf, Hm. split; [reflexivity|]. cbn [mapM]. rewrite Hgy, Hg. reflexivity.
        + exists ys. split; assumption.
    Qed.

    Lemma count_sel_const k : (forall i x, key i x = k) ->
      forall l i, count_sel i l = if snd (step st k) then length l else O.
    Proof.
      intros Hk. induction l as [|x l IH]; intro i; cbn [count_sel length].
      - destruct (snd (step st k)); reflexivity.
      - rewrite Hk, IH. destruct (snd (step st k)); reflexivity.
    Qed.
  End Count.

  (* what Write under a mask emits for one slot: the function Masked.to_wm maps over the slots of a struct *)
  Definition wfield_m (cfg : mcfg) (e : env) (st : St) (s : sschema) (p : Z * value) : result (option (ttype * Z * rw)) :=
    match find_field (fst p) (s_fields s) with
    | None => Err EBadValue
    | Some f =>
        if present f (snd p) then
          let sub := fst (step st (QF (f_id f))) in
          let ex := snd (step st (QF (f_id f))) in
          if ex || (is_required f && negb (zero_required cfg)) then
            let s' := if ex then sub else top in
            if base_ptr f then
              match snd p with
              | VSome x => bind (to_wm cfg e s' (f_ty f) x) (fun x => Ok (Some (ttype_of e (f_ty f), f_id f, x)))
              | _ => Err EBadValue end
            else bind (to_wm cfg e s' (f_ty f) (snd p)) (fun x => Ok (Some (ttype_of e (f_ty f), f_id f, x)))
          else if is_required f then Ok (Some (ttype_of e (f_ty f), f_id f, RV (zero_w e (f_ty f))))
          else Ok None
        else Ok None
    end.

  Lemma to_wm_struct cfg e st n fs :
    to_wm cfg e st (TRef n) (VStruct fs) =
    match find_struct e n with
    | Some s =>
        let c := count_set (s_fields s) fs in
        if is_union s && negb (c =? 1)%nat then Err (EUnionCount c) else
        bind (mapM (wfield_m cfg e st s) fs) (fun ofs => Ok (RStruct (cat_somes ofs)))
    | None => Err EUnknownStruct end.
  Proof. reflexivity. Qed.

  Lemma wfield_m_eq cfg e st s p :
    wfield_m cfg e st s p =
    match find_field (fst p) (s_fields s) with
    | None => Err EBadValue
    | Some f =>
        if present f (snd p) then
          let ex := snd (step st (QF (f_id f))) in
          if ex || (is_required f && negb (zero_required cfg)) then
            match payload_of f (snd p) with
            | Some x => bind (to_wm cfg e (if ex then fst (step st (QF (f_id f))) else top) (f_ty f) x)
                             (fun r => Ok (Some (ttype_of e (f_ty f), f_id f, r)))
            | None => Err EBadValue end
          else if is_required f then Ok (Some (ttype_of e (f_ty f), f_id f, RV (zero_w e (f_ty f))))
          else Ok None
        else Ok None
    end.
  Proof.
    unfold wfield_m, payload_of. destruct (find_field (fst p) (s_fields s)) as [f|]; [|reflexivity].
    destruct (present f (snd p)); [|reflexivity]. cbn zeta.
    destruct (snd (step st (QF (f_id f))) || (is_required f && negb (zero_required cfg))); [|reflexivity].
    destruct (base_ptr f); [destruct (snd p)|]; reflexivity.
  Qed.

  Lemma forallb_cat_somes_rw (q : ttype * Z * rw -> bool) (l : list (option (ttype * Z * rw))) :
    forallb (fun o => match o with Some x => q x | None => true end) l = true -> forallb q (cat_somes l) = true.
  Proof.
    induction l as [|[x|] l IH]; cbn; [reflexivity | | exact IH].
    intro H. apply andb_true_iff in H. destruct H as [H1 H2]. rewrite H1, IH by assumption. reflexivity.
  Qed.

  (* every header count of what Write emits under a mask is the number of elements that follow *)
  Theorem to_wm_counts cfg e : pinned cfg = false ->
    forall v st t r, to_wm cfg e st t v = Ok r -> counts_ok r = true.
  Proof.
    intros Hpin v. induction v using value_ind3; intros st t r Hr;
      try (cbn [Masked.to_wm] in Hr; destruct (to_w e t _); [injection Hr as <-; reflexivity | discriminate]).
    - destruct t; try discriminate; cbn [Masked.to_wm] in Hr.
      2: destruct (set_has_dup l); [discriminate|].
      all: destruct (mapM_sel (fun i x => Ok (idx_key i x)) st (fun s x => to_wm cfg e s t x) 0 l) as [xs|] eqn:Hm; [|discriminate];
        injection Hr as <-; cbn [counts_ok]; unfold list_hdr; rewrite Hpin;
        rewrite hdr_count_eq_written, <- (mapM_sel_length _ _ _ _ _ _ Hm), Nat.eqb_refl;
        apply forallb_Forall; eapply mapM_sel_Forall; [|exact Hm];
        eapply Forall_impl; [|exact H]; intros x Hx s y Hy; exact (Hx _ _ _ Hy).
    - destruct t; try discriminate; cbn [Masked.to_wm] in Hr.
      match type of Hr with bind (Masked.mapM_sel _ _ ?K _ ?F _ _) _ = _ => set (kf := K) in *; set (ff := F) in * end.
      destruct (mapM_sel kf st ff 0 kvs) as [xs|] eqn:Hm; [|discriminate].
      injection Hr as <-. cbn [counts_ok].
      assert (Hlen : length xs = count_sel (fun _ kv => map_qkey t1 (fst kv)) st 0 kvs)
        by (eapply mapM_sel_length; exact Hm).
      apply andb_true_iff. split.
      + apply Nat.eqb_eq. rewrite Hlen. unfold map_hdr. destruct (kkind_of t1) eqn:Ek.
        1,2: apply hdr_count_eq_written.
        symmetry. rewrite (count_sel_const _ st (QI 0)); [reflexivity|].
        intros i x. unfold map_qkey. rewrite Ek. reflexivity.
      + apply forallb_Forall. eapply mapM_sel_Forall; [|exact Hm].
        eapply Forall_impl; [|exact H]. intros kv [_ Hx] s y Hy. unfold ff in Hy.
        destruct (to_w e t1 (fst kv)); [|discriminate]. cbn [bind] in Hy.
        destruct (to_wm cfg e s t2 (snd kv)) as [x|] eqn:Ex; [|discriminate]. injection Hy as <-.
        exact (Hx _ _ _ Ex).
    - destruct t; try discriminate. rewrite to_wm_struct in Hr.
      destruct (find_struct e name) as [s|]; [|discriminate]. cbn zeta in Hr.
      destruct (is_union s && negb (count_set (s_fields s) fs =? 1)%nat); [discriminate|].
      destruct (mapM (wfield_m cfg e st s) fs) as [ofs|] eqn:Hm; [|discriminate]. injection Hr as <-.
      cbn [counts_ok]. apply forallb_cat_somes_rw. apply forallb_Forall. apply mapM_Forall2 in Hm.
      clear -Hm H. induction Hm as [|p ow fs' ofs' Hp Hm IH]; [constructor|].
      inversion H as [|? ? Hx Hl]; subst. constructor; [|apply IH; assumption].
      rewrite wfield_m_eq in Hp. destruct (find_field (fst p) (s_fields s)) as [f|]; [|discriminate].
      destruct (present f (snd p)); [|injection Hp as <-; reflexivity].
      cbn zeta in Hp.
      destruct (snd (step st (QF (f_id f))) || (is_required f && negb (zero_required cfg))).
      + destruct (payload_of f (snd p)) as [x|] eqn:Ex; [|discriminate].
        match type of Hp with bind ?X _ = _ => destruct X as [y|] eqn:Ey; [|discriminate] end.
        injection Hp as <-. exact (payload_ind _ _ _ _ Hx Ex _ _ _ Ey).
      + destruct (is_required f); injection Hp as <-; reflexivity.
  Qed.
End SelFacts.

Lemma mapM_bind_map {A B C} (f : A -> result B) (g : B -> C) l :
  mapM (fun x => bind (f x) (fun y => Ok (g y))) l = bind (mapM f l) (fun ys => Ok (map g ys)).
Proof.
  induction l as [|x l IH]; [reflexivity|]. cbn [mapM]. rewrite IH.
  destruct (f x); [|reflexivity]. cbn [bind]. destruct (mapM f l); reflexivity.
Qed.

Definition cook_field (f : ttype * Z * rw) : wfield := (fst f, cook (snd f)).

Lemma cat_somes_map {A B} (g : A -> B) (l : list (option A)) :
  cat_somes (map (option_map g) l) = map g (cat_somes l).
Proof. induction l as [|[x|] l IH]; cbn; [reflexivity | rewrite IH; reflexivity | exact IH]. Qed.

Lemma from_w_zero e t :
  match t with
  | TRef n => exists s, find_struct e n = Some s /\ existsb is_required (s_fields s) = false
  | _ => True end ->
  from_w e t (zero_w e t) = Ok (zero_read e t).
Proof.
  destruct t; intro H; try reflexivity.
  - destruct H as (s & Hs & Hr). cbn [zero_w zero_read]. rewrite from_w_struct, Hs. cbn [foldM bind].
    unfold finish_read. cbn [fst snd]. rewrite (no_required_first_missing _ _ Hr). reflexivity.
  - cbn [zero_w zero_read from_w length Nat.eqb]. rewrite orb_true_r. reflexivity.
  - cbn [zero_w zero_read from_w length Nat.eqb]. rewrite orb_true_r. reflexivity.
  - cbn [zero_w zero_read from_w length Nat.eqb]. rewrite orb_true_r. reflexivity.
Qed.

Lemma find_struct_in_In l n s : find_struct_in l n = Some s -> In s l.
Proof.
  induction l as [|x l IH]; cbn; [discriminate|]. destruct (beqb n (s_name x)); [intros [= <-]; left; reflexivity|].
  intro H. right. apply IH. exact H.
Qed.

Lemma zero_okb_sound e : zero_okb e = true ->
  forall n s f, find_struct e n = Some s -> In f (s_fields s) -> is_required f = true ->
  from_w e (f_ty f) (zero_w e (f_ty f)) = Ok (zero_read e (f_ty f)).
Proof.
  intros H n s f Hs Hin Hr. apply from_w_zero.
  unfold zero_okb in H. rewrite forallb_forall in H. specialize (H s (find_struct_in_In _ _ _ Hs)).
  rewrite forallb_forall in H. specialize (H f Hin). rewrite Hr in H. cbn [negb orb] in H.
  destruct (f_ty f); try exact I.
  destruct (find_struct e name) as [s'|]; [|discriminate]. exists s'. split; [reflexivity|].
  apply negb_true_iff in H. exact H.
Qed.

Section SpecFacts.
  Variable e : env.
  Hypothesis Henv : wf_env e = true.

  Definition restrict_fn (rq : reqmode) (st : St) (s : sschema) (p : Z * value) : Z * value :=
    match find_field (fst p) (s_fields s) with
    | Some f =>
        if present f (snd p) then
          let sub := fst (step st (QF (f_id f))) in
          let ex := snd (step st (QF (f_id f))) in
          if ex || (is_required f && match rq with RqKeep => true | _ => false end) then
            let s' := if ex then sub else top in
            (fst p, if base_ptr f
                    then match snd p with VSome x => VSome (restrict rq e s' (f_ty f) x) | o => o end
                    else restrict rq e s' (f_ty f) (snd p))
          else if is_required f && match rq with RqZero => true | _ => false end then
            (fst p, wrap_slot f (zero_read e (f_ty f)))
          else (fst p, init_slot f)
        else (fst p, init_slot f)
    | None => p end.

  Lemma restrict_struct rq st n fs :
    restrict rq e st (TRef n) (VStruct fs) =
    match find_struct e n with
    | Some s => VStruct (map (restrict_fn rq st s) fs)
    | None => VStruct fs end.
  Proof. reflexivity. Qed.

  Lemma restrict_fn_eq rq st s p :
    restrict_fn rq st s p =
    match find_field (fst p) (s_fields s) with
    | Some f =>
        let ex := snd (step st (QF (f_id f))) in
        (fst p,
         if present f (snd p) then
           if ex || (is_required f && match rq with RqKeep => true | _ => false end) then
             match payload_of f (snd p) with
             | Some x => wrap_slot f (restrict rq e (if ex then fst (step st (QF (f_id f))) else top) (f_ty f) x)
             | None => snd p end
           else if is_required f && match rq with RqZero => true | _ => false end
                then wrap_slot f (zero_read e (f_ty f)) else init_slot f
         else init_slot f)
    | None => p end.
  Proof.
    unfold restrict_fn, payload_of, wrap_slot. destruct (find_field (fst p) (s_fields s)) as [f|]; [|reflexivity].
    destruct (present f (snd p)); [|reflexivity]. cbn zeta.
    destruct (snd (step st (QF (f_id f))) || (is_required f && match rq with RqKeep => true | _ => false end)).
    - destruct (base_ptr f); [destruct (snd p)|]; reflexivity.
    - destruct (is_required f && match rq with RqZero => true | _ => false end); reflexivity.
  Qed.

  Lemma from_wm_struct st n wfs :
    from_wm e st (TRef n) (WStruct wfs) =
    match find_struct e n with
    | Some s => bind (foldM (read_step_m St step e s st) wfs (new_fields s, [])) (finish_read s)
    | None => Err EUnknownStruct end.
  Proof. reflexivity. Qed.

  (* values without elements of their own: the mask plays no role *)
  Definition flat (v : value) : bool :=
    match v with VList _ | VMap _ | VStruct _ => false | _ => true end.

  Lemma restrict_flat rq st t v : flat v = true -> restrict rq e st t v = norm e t v.
  Proof. destruct v; try discriminate; reflexivity. Qed.

  Lemma to_wm_flat cfg st t v : flat v = true -> to_wm cfg e st t v = bind (to_w e t v) (fun w => Ok (RV w)).
  Proof. destruct v; try discriminate; reflexivity. Qed.

  Lemma from_wm_flat st t v w : flat v = true -> to_w e t v = Ok w -> from_wm e st t w = from_w e t w.
  Proof.
    destruct v; try discriminate; intros _ H; destruct t; try discriminate; cbn [to_w] in H;
      try (injection H as <-; reflexivity).
    - destruct (find_struct e name) as [s|]; [|discriminate]. destruct (is_union s); [discriminate|].
      injection H as <-. reflexivity.
  Qed.

  Section Write.
    Variable cfg : mcfg.
    Hypothesis Hzero : zero_required cfg = true ->
      forall n s f, find_struct e n = Some s -> In f (s_fields s) -> is_required f = true ->
      from_w e (f_ty f) (zero_w e (f_ty f)) = Ok (zero_read e (f_ty f)).

    Definition write_restricts (v : value) : Prop := forall t key st, wt_val e key t v = true ->
      exists r, to_wm cfg e st t v = Ok r /\ from_w e t (cook r) = Ok (restrict (wmode cfg) e st t v).

    Lemma write_restricts_flat v : flat v = true -> write_restricts v.
    Proof.
      intros Hf t key st Hwt. destruct (to_from e Henv v t key Hwt) as (w & Hw & Hr).
      exists (RV w). rewrite to_wm_flat, Hw by assumption. split; [reflexivity|].
      rewrite restrict_flat by assumption. exact Hr.
    Qed.

    Definition emit_w (st : St) (s : sschema) (p : Z * value) : result (option wfield) :=
      bind (wfield_m cfg e st s p) (fun o => Ok (option_map cook_field o)).

    Lemma good_w st n s f p :
      find_struct e n = Some s ->
      find_field (fst p) (s_fields s) = Some f ->
      slot_ok e s p = true ->
      (forall x, payload_of f (snd p) = Some x -> write_restricts x) ->
      slot_good (emit_w st s) (read_step e s) (restrict_fn (wmode cfg) st s) f p (init_slot f).
    Proof.
      intros Hs Hf Hok HQ. unfold slot_good, emit_w. rewrite wfield_m_eq, restrict_fn_eq, Hf.
      destruct (find_field_In _ _ _ Hf) as [Hin Hidf].
      assert (Hfind : find_field (f_id f) (s_fields s) = Some f) by (rewrite Hidf; exact Hf).
      destruct (present f (snd p)) eqn:Hp.
      2:{ exists (init_slot f). split; [reflexivity|]. exists None. split; [reflexivity|].
          split; [exact (absent_not_required _ _ Hp) | reflexivity]. }
      destruct (present_payload _ _ _ _ Hf Hok Hp) as (x & Ex & Hx). rewrite Ex. cbn zeta.
      set (ex := snd (step st (QF (f_id f)))). set (s' := if ex then fst (step st (QF (f_id f))) else top).
      replace (match wmode cfg with RqKeep => true | _ => false end) with (negb (zero_required cfg))
        by (unfold wmode; destruct (zero_required cfg); reflexivity).
      destruct (ex || (is_required f && negb (zero_required cfg))) eqn:Hsel.
      - assert (Hwt : exists r, to_wm cfg e s' (f_ty f) x = Ok r /\
                                from_w e (f_ty f) (cook r) = Ok (restrict (wmode cfg) e s' (f_ty f) x)).
        { destruct Hx as [Hwx | [Et ->]]; [exact (HQ x Ex _ _ s' Hwx)|].
          rewrite Et. exists (RV (WStr [])). split; reflexivity. }
        destruct Hwt as (r & Hw & Hr). eexists. split; [reflexivity|].
        exists (Some (ttype_of e (f_ty f), f_id f, cook r)). rewrite Hw. split; [reflexivity|]. left. intros fs seen.
        rewrite (read_step_field e s f (cook r) _ (fs, seen) Hfind Hr). reflexivity.
      - apply orb_false_iff in Hsel. destruct Hsel as [Hex Hrz].
        destruct (is_required f) eqn:Hrq; cbn [andb] in *.
        + (* required, filtered, zero_required *)
          apply negb_false_iff in Hrz.
          replace (match wmode cfg with RqZero => true | _ => false end) with true by (unfold wmode; rewrite Hrz; reflexivity).
          eexists. split; [reflexivity|].
          exists (Some (ttype_of e (f_ty f), f_id f, zero_w e (f_ty f))). split; [reflexivity|]. left. intros fs seen.
          rewrite (read_step_field e s f (zero_w e (f_ty f)) _ (fs, seen) Hfind (Hzero Hrz n s f Hs Hin Hrq)).
          unfold seen_add. rewrite Hrq. reflexivity.
        + exists (init_slot f). split; [reflexivity|]. exists None. split; [reflexivity|]. split; reflexivity.
    Qed.

    Lemma cook_struct ofs :
      cook (RStruct (cat_somes ofs)) = WStruct (cat_somes (map (option_map cook_field) ofs)).
    Proof. cbn [cook]. rewrite cat_somes_map. reflexivity. Qed.

    Theorem to_wm_spec : forall v, write_restricts v.
    Proof.
      intro v. induction v using value_ind3; try (apply write_restricts_flat; reflexivity).
      - intros t key st Hwt. destruct t; try discriminate; cbn [wt_val] in Hwt.
        2: apply andb_true_iff in Hwt; destruct Hwt as [Hwt Hdup]; apply negb_true_iff in Hdup.
        all: apply andb_true_iff in Hwt; destruct Hwt as [_ Hall]; apply forallb_Forall in Hall.
        all: assert (HF : Forall (fun x => forall s, exists y, to_wm cfg e s t x = Ok y /\
                              from_w e t (cook y) = Ok (restrict (wmode cfg) e s t x)) l)
               by (eapply Forall_and_impl; [exact H | exact Hall |]; intros x Hx Hwx s; exact (Hx _ _ s Hwx)).
        all: destruct (mapM_sel_ok idx_key st _ (fun y => from_w e t (cook y)) _ l 0%nat HF) as (ys & Hm & Hg).
        all: eexists; cbn [Masked.to_wm].
        2: unfold set_has_dup; rewrite Hdup.
        all: rewrite Hm; split; [reflexivity|].
        all: cbn [cook from_w Masked.restrict]; rewrite ttype_eqb_refl; cbn [orb]; rewrite mapM_map, Hg; reflexivity.
      - intros t key st Hwt. destruct t; try discriminate; cbn [wt_val] in Hwt.
        apply andb_true_iff in Hwt. destruct Hwt as [Hwt _]. apply andb_true_iff in Hwt.
        destruct Hwt as [_ Hall]. apply forallb_Forall in Hall.
        set (f := fun (s : St) (kv : value * value) => bind (to_w e t1 (fst kv)) (fun k =>
                    bind (to_wm cfg e s t2 (snd kv)) (fun x => Ok (k, x)))).
        set (g := fun kv : wval * rw => bind (from_w e t1 (fst kv)) (fun k =>
                    bind (from_w e t2 (cook (snd kv))) (fun x => Ok (k, x)))).
        set (h := fun (s : St) (kv : value * value) => (norm e t1 (fst kv), restrict (wmode cfg) e s t2 (snd kv))).
        assert (HF : Forall (fun kv => forall s, exists y, f s kv = Ok y /\ g y = Ok (h s kv)) kvs).
        { eapply Forall_and_impl; [exact H | exact Hall |]. intros kv [_ Hx] Hw s.
          apply andb_true_iff in Hw. destruct Hw as [Hwk Hwx].
          destruct (to_from e Henv (fst kv) _ _ Hwk) as (wk & Hk1 & Hk2). destruct (Hx _ _ s Hwx) as (rx & Hx1 & Hx2).
          exists (wk, rx). unfold f, g, h. cbn [fst snd]. rewrite Hk1, Hx1, Hk2, Hx2. split; reflexivity. }
        destruct (mapM_sel_ok (fun _ kv => map_qkey t1 (fst kv)) st f g h kvs 0%nat HF) as (ys & Hm & Hg).
        exists (RMap (ttype_of e t1) (ttype_of e t2) (map_hdr St step live t1 st kvs) ys).
        cbn [Masked.to_wm]. fold f. rewrite Hm. cbn [bind]. split; [reflexivity|].
        cbn [cook from_w Masked.restrict]. rewrite !ttype_eqb_refl. cbn [andb orb].
        rewrite mapM_map. cbn [fst snd].
        (* wmode cfg is never RqDrop; it is abstracted to rq' first, since rewriting under the match in the
           key function is not possible while wmode cfg stands there unevaluated *)
        assert (Hwm : forall rq', rq' = wmode cfg ->
                  (fun (_ : nat) (kv : value * value) => map_qkey t1 match rq' with RqDrop => norm e t1 (fst kv) | _ => fst kv end)
                  = (fun _ kv => map_qkey t1 (fst kv))).
        { intros rq' ->. unfold wmode. destruct (zero_required cfg); reflexivity. }
        rewrite (Hwm _ eq_refl). fold h. unfold g in Hg. rewrite Hg. reflexivity.
      - intros t key st Hwt. destruct t; try discriminate. rewrite to_wm_struct, restrict_struct.
        destruct (find_struct e name) as [s|] eqn:Hs; [|rewrite wt_struct_eq, Hs in Hwt; discriminate].
        destruct (wt_struct_parts _ _ _ _ _ Hs Hwt) as (Hids & Hslots & Hu).
        pose proof (wf_struct_nodup _ (wf_env_struct _ _ _ Henv Hs)) as Hnd.
        assert (Hgood : Forall (fun p => forall f, find_field (fst p) (s_fields s) = Some f ->
                          slot_good (emit_w st s) (read_step e s) (restrict_fn (wmode cfg) st s) f p (init_slot f)) fs).
        { eapply Forall_and_impl; [exact H | exact Hslots |]. intros p Hp Hok f Hf.
          eapply good_w; eauto. intros x Ex. exact (payload_ind _ _ _ _ Hp Ex). }
        destruct (fold_slots_new s _ _ _ Hnd fs Hids Hgood) as (ofs & Hm & Hread).
        cbn zeta. rewrite Hu. unfold emit_w in Hm. rewrite mapM_bind_map in Hm.
        destruct (mapM (wfield_m cfg e st s) fs) as [ofs0|] eqn:Hm0; [|discriminate]. cbn [bind] in Hm. injection Hm as <-.
        cbn [bind]. eexists. split; [reflexivity|].
        rewrite cook_struct, from_w_struct, Hs. exact Hread.
    Qed.
  End Write.

  Lemma mapM_exists {A B} (f : A -> result B) (R : A -> B -> Prop) l :
    Forall (fun x => exists w, f x = Ok w /\ R x w) l -> exists ws, mapM f l = Ok ws /\ Forall2 R l ws.
  Proof.
    induction l as [|x l IH]; intro H.
    - exists []. split; [reflexivity | constructor].
    - inversion H as [|? ? (w & Hf & HR) Hl]; subst. destruct (IH Hl) as (ws & Hm & H2).
      exists (w :: ws). cbn. rewrite Hf, Hm. split; [reflexivity | constructor; assumption].
  Qed.

  Lemma mapM_sel_rel {A W C} (key : nat -> A -> qkey) (key' : nat -> W -> result qkey) st
        (f' : St -> W -> result C) (h : St -> A -> C) l ws :
    Forall2 (fun x w => (forall i, key' i w = Ok (key i x)) /\ forall s, f' s w = Ok (h s x)) l ws ->
    forall i, mapM_sel key' st f' i ws = Ok (sel_map key st h i l).
  Proof.
    induction 1 as [|x w l ws [Hk Hf] H2 IH]; intro i; [reflexivity|].
    cbn [Masked.mapM_sel Masked.sel_map]. rewrite Hk. destruct (snd (step st (key i x))).
    - rewrite Hf, IH. reflexivity.
    - apply IH.
  Qed.

  Definition read_restricts (v : value) : Prop := forall t key, wt_val e key t v = true ->
    exists w, to_w e t v = Ok w /\ forall st, from_wm e st t w = Ok (restrict RqDrop e st t v).

  Lemma read_restricts_flat v : flat v = true -> read_restricts v.
  Proof.
    intros Hf t key Hwt. destruct (to_from e Henv v t key Hwt) as (w & Hw & Hr).
    exists w. split; [exact Hw|]. intro st. rewrite (from_wm_flat st t v w Hf Hw), restrict_flat by assumption. exact Hr.
  Qed.

  Lemma read_step_m_field s st f w fs seen :
    find_field (f_id f) (s_fields s) = Some f ->
    read_step_m St step e s st (fs, seen) (ttype_of e (f_ty f), f_id f, w) =
    if snd (step st (QF (f_id f)))
    then bind (from_wm e (fst (step st (QF (f_id f)))) (f_ty f) w)
              (fun v => Ok (set_field (f_id f) (wrap_slot f v) fs, seen_add f seen))
    else Ok (fs, seen_add f seen).
  Proof. intro Hf. unfold read_step_m. cbn [fst snd]. rewrite Hf, ttype_eqb_refl. reflexivity. Qed.

  Lemma good_r st s f p :
    find_field (fst p) (s_fields s) = Some f ->
    slot_ok e s p = true ->
    (forall x, payload_of f (snd p) = Some x -> read_restricts x) ->
    slot_good (wfield_fn e s) (read_step_m St step e s st) (restrict_fn RqDrop st s) f p (init_slot f).
  Proof.
    intros Hf Hok HQ. unfold slot_good. rewrite wfield_fn_eq, restrict_fn_eq, Hf.
    destruct (find_field_In _ _ _ Hf) as [Hin Hidf].
    assert (Hfind : find_field (f_id f) (s_fields s) = Some f) by (rewrite Hidf; exact Hf).
    destruct (present f (snd p)) eqn:Hp.
    2:{ exists (init_slot f). split; [reflexivity|]. exists None. split; [reflexivity|].
        split; [exact (absent_not_required _ _ Hp) | reflexivity]. }
    destruct (present_payload _ _ _ _ Hf Hok Hp) as (x & Ex & Hx). rewrite Ex. cbn zeta.
    rewrite !andb_false_r, orb_false_r.
    assert (Hw : exists w, to_w e (f_ty f) x = Ok w /\
                   forall st', from_wm e st' (f_ty f) w = Ok (restrict RqDrop e st' (f_ty f) x)).
    { destruct Hx as [Hwx | [Et ->]]; [exact (HQ x Ex _ _ Hwx)|].
      rewrite Et. exists (WStr []). split; [reflexivity | intro; reflexivity]. }
    destruct Hw as (w & Hw & Hr). rewrite Hw. eexists. split; [reflexivity|]. eexists. split; [reflexivity|].
    destruct (snd (step st (QF (f_id f)))) eqn:Hex; [left | right; split; [reflexivity|]]; intros fs seen;
      rewrite read_step_m_field by assumption; rewrite Hex; [rewrite Hr|]; reflexivity.
  Qed.

  Theorem from_wm_spec : forall v, read_restricts v.
  Proof.
    intro v. induction v using value_ind3; try (apply read_restricts_flat; reflexivity).
    - intros t key Hwt. destruct t; try discriminate; cbn [wt_val] in Hwt.
      2: apply andb_true_iff in Hwt; destruct Hwt as [Hwt Hdup]; apply negb_true_iff in Hdup.
      all: apply andb_true_iff in Hwt; destruct Hwt as [_ Hall]; apply forallb_Forall in Hall.
      all: assert (HF : Forall (fun x => exists w, to_w e t x = Ok w /\
                          ((forall i : nat, Ok (idx_key i w) = Ok (idx_key i x)) /\
                           forall s, from_wm e s t w = Ok (restrict RqDrop e s t x))) l)
             by (eapply Forall_and_impl; [exact H | exact Hall |]; intros x Hx Hwx;
                 destruct (Hx _ _ Hwx) as (w & Hw & Hr); exists w; split; [exact Hw|]; split; [reflexivity | exact Hr]).
      all: destruct (mapM_exists _ _ _ HF) as (ws & Hm & H2).
      all: eexists; cbn [to_w].
      2: unfold set_has_dup; rewrite Hdup.
      all: rewrite Hm; split; [reflexivity|]; intro st.
      all: cbn [Masked.from_wm Masked.restrict]; rewrite ttype_eqb_refl; cbn [orb].
      all: rewrite (mapM_sel_rel idx_key (fun i x => Ok (idx_key i x)) st _ _ l ws H2); reflexivity.
    - intros t key Hwt. destruct t; try discriminate; cbn [wt_val] in Hwt.
      apply andb_true_iff in Hwt. destruct Hwt as [Hwt _]. apply andb_true_iff in Hwt.
      destruct Hwt as [_ Hall]. apply forallb_Forall in Hall.
      set (f := fun kv : value * value => bind (to_w e t1 (fst kv)) (fun k =>
                  bind (to_w e t2 (snd kv)) (fun x => Ok (k, x)))).
      set (key' := fun (_ : nat) (kv : wval * wval) => bind (from_w e t1 (fst kv)) (fun k => Ok (map_qkey t1 k))).
      set (f' := fun (s : St) (kv : wval * wval) => bind (from_w e t1 (fst kv)) (fun k =>
                  bind (from_wm e s t2 (snd kv)) (fun x => Ok (k, x)))).
      set (keyf := fun (_ : nat) (kv : value * value) => map_qkey t1 (norm e t1 (fst kv))).
      set (h := fun (s : St) (kv : value * value) => (norm e t1 (fst kv), restrict RqDrop e s t2 (snd kv))).
      assert (HF : Forall (fun kv => exists w, f kv = Ok w /\
                      ((forall i : nat, key' i w = Ok (keyf i kv)) /\ forall s, f' s w = Ok (h s kv))) kvs).
      { eapply Forall_and_impl; [exact H | exact Hall |]. intros kv [_ Hx] Hw.
        apply andb_true_iff in Hw. destruct Hw as [Hwk Hwx].
        destruct (to_from e Henv (fst kv) _ _ Hwk) as (wk & Hk1 & Hk2). destruct (Hx _ _ Hwx) as (wx & Hx1 & Hx2).
        exists (wk, wx). unfold f, key', f', keyf, h. cbn [fst snd]. rewrite Hk1, Hx1, Hk2. cbn [bind].
        split; [reflexivity|]. split; [reflexivity|]. intro s. rewrite Hx2. reflexivity. }
      destruct (mapM_exists _ _ _ HF) as (ws & Hm & H2).
      exists (WMap (ttype_of e t1) (ttype_of e t2) ws). cbn [to_w]. fold f. rewrite Hm. cbn [bind]. split; [reflexivity|]. intro st.
      cbn [Masked.from_wm Masked.restrict]. rewrite !ttype_eqb_refl. cbn [andb orb].
      fold key'. fold f'. rewrite (mapM_sel_rel keyf key' st f' h kvs ws H2). reflexivity.
    - intros t key Hwt. destruct t; try discriminate. rewrite to_w_struct.
      destruct (find_struct e name) as [s|] eqn:Hs; [|rewrite wt_struct_eq, Hs in Hwt; discriminate].
      destruct (wt_struct_parts _ _ _ _ _ Hs Hwt) as (Hids & Hslots & Hu).
      pose proof (wf_struct_nodup _ (wf_env_struct _ _ _ Henv Hs)) as Hnd.
      cbn zeta. rewrite Hu.
      assert (Hgood : forall st, Forall (fun p => forall f, find_field (fst p) (s_fields s) = Some f ->
                        slot_good (wfield_fn e s) (read_step_m St step e s st) (restrict_fn RqDrop st s) f p (init_slot f)) fs).
      { intro st. eapply Forall_and_impl; [exact H | exact Hslots |]. intros p Hp Hok f Hf.
        eapply good_r; eauto. intros x Ex. exact (payload_ind _ _ _ _ Hp Ex). }
      destruct (fold_slots_new s _ _ _ Hnd fs Hids (Hgood top)) as (ofs & Hm & _).
      rewrite Hm. cbn [bind]. eexists. split; [reflexivity|]. intro st.
      destruct (fold_slots_new s _ _ _ Hnd fs Hids (Hgood st)) as (ofs' & Hm' & Hread).
      rewrite Hm in Hm'. injection Hm' as <-.
      rewrite from_wm_struct, restrict_struct, Hs. exact Hread.
  Qed.
End SpecFacts.

Definition map_res {A B} (c : A -> B) (a : result A) : result B :=
  match a with Ok r => Ok (c r) | Err er => Err er end.

Lemma mapM_map_res {A B C} (c : B -> C) (f : A -> result B) (g : A -> result C) l :
  Forall (fun x => map_res c (f x) = g x) l -> map_res (map c) (mapM f l) = mapM g l.
Proof.
  induction 1 as [|x l Hx Hl IH]; [reflexivity|]. cbn [mapM]. rewrite <- Hx, <- IH.
  destruct (f x); [|reflexivity]. cbn [map_res]. destruct (mapM f l); reflexivity.
Qed.

Lemma foldM_ext {A S} (f g : S -> A -> result S) l :
  Forall (fun x => forall s, f s x = g s x) l -> forall s, foldM f l s = foldM g l s.
Proof.
  induction 1 as [|x l Hx Hl IH]; intro s; [reflexivity|]. cbn [foldM]. rewrite Hx. destruct (g s x); [apply IH | reflexivity].
Qed.

Section AllPass.
  Variable st : St.
  Hypothesis Hall : forall k, step st k = (st, true).

  Lemma mapM_sel_allpass {A B} (key : nat -> A -> result qkey) (f : St -> A -> result B) : forall l i,
    Forall (fun x => forall i, match key i x with Err er => f st x = Err er | Ok _ => True end) l ->
    mapM_sel key st f i l = mapM (f st) l.
  Proof.
    induction l as [|x l IH]; intros i HF; [reflexivity|]. inversion HF as [|? ? Hx Hl]; subst.
    cbn [Masked.mapM_sel mapM]. specialize (Hx i). destruct (key i x) as [k|er].
    - rewrite Hall. cbn [fst snd]. rewrite (IH (S i) Hl). reflexivity.
    - rewrite Hx. reflexivity.
  Qed.

  Lemma mapM_sel_allpass_pure {A B} (key : nat -> A -> qkey) (f : St -> A -> result B) l i :
    mapM_sel (fun i x => Ok (key i x)) st f i l = mapM (f st) l.
  Proof. apply mapM_sel_allpass. apply Forall_forall. intros x _ j. exact I. Qed.

  Lemma sel_map_allpass {A B} (key : nat -> A -> qkey) (g : St -> A -> B) l :
    forall i, sel_map key st g i l = map (g st) l.
  Proof.
    induction l as [|x l IH]; intro i; [reflexivity|]. cbn [sel_map map]. rewrite Hall. cbn [fst snd].
    rewrite IH. reflexivity.
  Qed.

  Lemma cook_field_somes ofs : map cook_field (cat_somes ofs) = cat_somes (map (option_map cook_field) ofs).
  Proof. symmetry. apply cat_somes_map. Qed.

  Theorem to_wm_allpass cfg e : forall v t, map_res cook (to_wm cfg e st t v) = to_w e t v.
  Proof.
    intro v. induction v using value_ind3; intro t;
      try (cbn [Masked.to_wm]; destruct (to_w e t _); reflexivity).
    - destruct t; try reflexivity; cbn [Masked.to_wm to_w].
      2: destruct (set_has_dup l); [reflexivity|].
      all: rewrite mapM_sel_allpass_pure, <- (mapM_map_res cook (fun x => to_wm cfg e st t x) (to_w e t) l)
             by (eapply Forall_impl; [|exact H]; intros x Hx; apply Hx);
           destruct (mapM (fun x => to_wm cfg e st t x) l); reflexivity.
    - destruct t; try reflexivity; cbn [Masked.to_wm to_w].
      rewrite mapM_sel_allpass_pure.
      match goal with |- map_res cook (bind (mapM ?F kvs) _) = bind (mapM ?G kvs) _ =>
        rewrite <- (mapM_map_res (fun kv : wval * rw => (fst kv, cook (snd kv))) F G kvs) end.
      + match goal with |- map_res cook (bind ?X _) = _ => destruct X end; reflexivity.
      + eapply Forall_impl; [|exact H]. intros kv [_ Hx]. cbn beta.
        destruct (to_w e t1 (fst kv)); [|reflexivity]. cbn [bind]. rewrite <- (Hx t2).
        destruct (to_wm cfg e st t2 (snd kv)); reflexivity.
    - destruct t; try reflexivity. rewrite to_wm_struct, to_w_struct.
      destruct (find_struct e name) as [s|]; [|reflexivity]. cbn zeta.
      destruct (is_union s && negb (count_set (s_fields s) fs =? 1)%nat); [reflexivity|].
      rewrite <- (mapM_map_res (option_map cook_field) (wfield_m cfg e st s) (wfield_fn e s) fs).
      + destruct (mapM (wfield_m cfg e st s) fs) as [ofs|]; [|reflexivity]. cbn [bind map_res cook].
        rewrite <- cat_somes_map. reflexivity.
      + eapply Forall_impl; [|exact H]. intros p Hp. rewrite wfield_m_eq, wfield_fn_eq.
        destruct (find_field (fst p) (s_fields s)) as [f|]; [|reflexivity].
        destruct (present f (snd p)); [|reflexivity]. cbn zeta. rewrite Hall. cbn [fst snd orb].
        destruct (payload_of f (snd p)) as [x|] eqn:Ex; [|reflexivity].
        rewrite <- (payload_ind _ _ _ _ Hp Ex (f_ty f)). destruct (to_wm cfg e st (f_ty f) x); reflexivity.
  Qed.

  Theorem from_wm_allpass e : forall w t, from_wm e st t w = from_w e t w.
  Proof.
    intro w. induction w using wval_ind2; intro t; try reflexivity.
    3,4: destruct t; try reflexivity; cbn [Masked.from_wm from_w];
        (destruct (ttype_eqb et (ttype_of e t) || (length l =? 0)%nat); [|reflexivity]);
        rewrite mapM_sel_allpass_pure; f_equal; apply mapM_ext;
        intros x Hin; rewrite Forall_forall in H; apply H; exact Hin.
    - destruct t; try reflexivity. rewrite from_wm_struct, from_w_struct.
      destruct (find_struct e name) as [s|]; [|reflexivity]. f_equal.
      apply foldM_ext. eapply Forall_impl; [|exact H]. intros wf Hwf rs.
      unfold read_step_m, read_step. destruct (find_field (snd (fst wf)) (s_fields s)) as [f|]; [|reflexivity].
      destruct (ttype_eqb (fst (fst wf)) (ttype_of e (f_ty f))); [|reflexivity].
      cbn zeta. rewrite Hall. cbn [fst snd]. rewrite Hwf. reflexivity.
    - destruct t; try reflexivity. cbn [Masked.from_wm from_w].
      destruct ((ttype_eqb kt (ttype_of e t1) && ttype_eqb vt (ttype_of e t2)) || (length kvs =? 0)%nat); [|reflexivity].
      rewrite mapM_sel_allpass.
      + f_equal. apply mapM_ext. intros kv Hin. rewrite Forall_forall in H. destruct (H kv Hin) as [_ Hx].
        rewrite Hx. reflexivity.
      + apply Forall_forall. intros kv _ i. destruct (from_w e t1 (fst kv)); [exact I | reflexivity].
  Qed.
End AllPass.

Lemma in_srange_0 n : in_srange (S n) 0.
Proof.
  unfold in_srange. assert (H : 2 <= 256 ^ Z.of_nat (S n)).
  { rewrite Nat2Z.inj_succ, Z.pow_succ_r by lia. pose proof (Z.pow_pos_nonneg 256 (Z.of_nat n)). lia. }
  pose proof (Z.div_le_mono 2 _ 2 ltac:(lia) H) as Hd. change (2 / 2) with 1 in Hd. lia.
Qed.

Lemma zero_w_wf e t : wf (zero_w e t) /\ wtype (zero_w e t) = ttype_of e t.
Proof.
  rewrite ttype_of_spec. destruct t; cbn [zero_w wf wtype spec_ttype length]; (split; [|reflexivity]);
    try exact I; try apply in_srange_0; try (split; [apply in_srange_0 | exact I]).
  unfold in_range. cbn. lia.
Qed.

Section WfFacts.
  Variable e : env.
  Hypothesis Henv : wf_env e = true.
  Variable cfg : mcfg.

  Definition write_well_formed (v : value) : Prop := forall st t key r, wt_val e key t v = true -> to_wm cfg e st t v = Ok r ->
    wf (cook r) /\ wtype (cook r) = ttype_of e t.

  Lemma write_well_formed_flat v : flat v = true -> write_well_formed v.
  Proof.
    intros Hf st t key r Hwt Hr. rewrite (to_wm_flat e cfg st t v Hf) in Hr.
    destruct (to_w e t v) as [w|] eqn:Hw; [|discriminate]. injection Hr as <-. cbn [cook].
    apply (to_w_wf e Henv v t key w Hwt Hw).
  Qed.

  Lemma len_sel_srange {A} (key : nat -> A -> qkey) st (l : list A) (n : nat) :
    len_ok l = true -> n = count_sel key st 0 l -> in_srange 4 (Z.of_nat n).
  Proof.
    intros Hl ->. pose proof (count_sel_le key st l 0). unfold len_ok in Hl. apply Z.ltb_lt in Hl.
    apply in_srange_4. lia.
  Qed.

  Theorem to_wm_wf : forall v, write_well_formed v.
  Proof.
    intro v. induction v using value_ind3; try (apply write_well_formed_flat; reflexivity).
    - intros st t key r Hwt Hr. destruct t; try discriminate; cbn [wt_val Masked.to_wm] in *.
      2: apply andb_true_iff in Hwt; destruct Hwt as [Hwt _]; destruct (set_has_dup l); [discriminate|].
      all: apply andb_true_iff in Hwt; destruct Hwt as [Hlen Hall]; apply forallb_Forall in Hall.
      all: destruct (mapM_sel (fun i x => Ok (idx_key i x)) st (fun s x => to_wm cfg e s t x) 0 l)
             as [xs|] eqn:Hm; [|discriminate]; injection Hr as <-; cbn [cook].
      1: rewrite (ttype_of_spec e (TList t)); split; [apply wf_list_iff | reflexivity].
      2: rewrite (ttype_of_spec e (TSet t)); split; [apply wf_set_iff | reflexivity].
      all: split; [rewrite map_length; eapply len_sel_srange; [exact Hlen|]; eapply mapM_sel_length; exact Hm|].
      all: apply Forall_map; eapply mapM_sel_Forall; [|exact Hm].
      all: eapply Forall_and_impl; [exact H | exact Hall |]; intros x Hx Hwx s y Hy.
      all: destruct (Hx _ _ _ _ Hwx Hy); split; assumption.
    - intros st t key r Hwt Hr. destruct t; try discriminate; cbn [wt_val Masked.to_wm] in *.
      apply andb_true_iff in Hwt. destruct Hwt as [Hwt _]. apply andb_true_iff in Hwt. destruct Hwt as [Hlen Hall].
      apply forallb_Forall in Hall.
      match type of Hr with bind (Masked.mapM_sel _ _ ?K _ ?F _ _) _ = _ => set (kf := K) in *; set (ff := F) in * end.
      destruct (mapM_sel kf st ff 0 kvs) as [xs|] eqn:Hm; [|discriminate].
      injection Hr as <-. cbn [cook]. rewrite (ttype_of_spec e (TMap t1 t2)). split; [|reflexivity].
      apply wf_map_iff. split.
      + rewrite map_length. eapply (len_sel_srange (fun _ kv => map_qkey t1 (fst kv))); [exact Hlen|]. eapply mapM_sel_length. exact Hm.
      + apply Forall_map. eapply mapM_sel_Forall; [|exact Hm].
        eapply Forall_and_impl; [exact H | exact Hall |]. intros kv [_ Hx] Hw s y Hy.
        apply andb_true_iff in Hw. destruct Hw as [Hwk Hwx]. unfold ff in Hy.
        destruct (to_w e t1 (fst kv)) as [wk|] eqn:E1; [|discriminate]. cbn [bind] in Hy.
        destruct (to_wm cfg e s t2 (snd kv)) as [rx|] eqn:E2; [|discriminate]. injection Hy as <-.
        destruct (to_w_wf e Henv _ _ _ _ Hwk E1). destruct (Hx _ _ _ _ Hwx E2). cbn [fst snd]. auto.
    - intros st t key r Hwt Hr. destruct t; try discriminate. rewrite to_wm_struct in Hr.
      destruct (find_struct e name) as [s|] eqn:Hs; [|discriminate]. cbn zeta in Hr.
      destruct (wt_struct_parts _ _ _ _ _ Hs Hwt) as (_ & Hslots & _).
      destruct (is_union s && negb (count_set (s_fields s) fs =? 1)%nat); [discriminate|].
      destruct (mapM (wfield_m cfg e st s) fs) as [ofs|] eqn:Hm; [|discriminate]. injection Hr as <-.
      rewrite (ttype_of_spec e (TRef name)). split; [|reflexivity].
      pose proof (wf_env_struct _ _ _ Henv Hs) as Hwfs.
      cbn [cook]. apply wf_struct_iff. apply Forall_map. apply Forall_cat_somes. apply mapM_Forall2 in Hm.
      apply (Forall2_out _ _ _ _ _ _ Hm H Hslots). intros p ow Hx H2 Hp. rewrite wfield_m_eq in Hp.
      destruct (find_field (fst p) (s_fields s)) as [f|] eqn:Hf; [|discriminate].
      destruct (find_field_In _ _ _ Hf) as [Hin _]. pose proof (wf_struct_ids s f Hwfs Hin) as Hid.
      destruct (present f (snd p)) eqn:Hpr; [|injection Hp as <-; exact I]. cbn zeta in Hp.
      destruct (snd (step st (QF (f_id f))) || (is_required f && negb (zero_required cfg))).
      + destruct (present_payload _ _ _ _ Hf H2 Hpr) as (x & Ex & Hwx). rewrite Ex in Hp.
        match type of Hp with bind ?X _ = _ => destruct X as [y|] eqn:E1; [|discriminate] end. injection Hp as <-.
        cbn [fst snd]. destruct Hwx as [Hwx | [Et ->]].
        * destruct (payload_ind _ _ _ _ Hx Ex _ _ _ _ Hwx E1) as [Hw1 Hw2]. auto.
        * rewrite Et in *. injection E1 as <-. rewrite ttype_of_spec.
          split; [reflexivity | split; [exact Hid | cbn; apply in_srange_4; lia]].
      + destruct (is_required f); injection Hp as <-; [|exact I]. cbn [fst snd cook].
        destruct (zero_w_wf e (f_ty f)) as [Hz1 Hz2]. auto.
  Qed.
End WfFacts.
End Selector.

Section Agree.
  Variable S1 S2 : Type.
  Variable step1 : S1 -> qkey -> S1 * bool.
  Variable step2 : S2 -> qkey -> S2 * bool.
  Variable top1 : S1.
  Variable top2 : S2.

  (* the two selectors give the same answer along every key sequence (conjunction of the steps) *)
  Definition agree (a : S1) (b : S2) : Prop := forall q, gwalk S1 step1 a q = gwalk S2 step2 b q.

  Hypothesis Htop : agree top1 top2.

  Lemma agree_flag a b k : agree a b -> snd (step1 a k) = snd (step2 b k).
  Proof. intro H. specialize (H [k]). cbn [gwalk] in H. rewrite !andb_true_r in H. exact H. Qed.

  Lemma agree_sub a b k : agree a b -> snd (step1 a k) = true -> agree (fst (step1 a k)) (fst (step2 b k)).
  Proof.
    intros H Hk q. pose proof (agree_flag a b k H) as Hf. specialize (H (k :: q)). cbn [gwalk] in H.
    rewrite <- Hf, Hk in H. exact H.
  Qed.

  Lemma sel_map_agree {A B} (key : nat -> A -> qkey) a b (g1 : S1 -> A -> B) (g2 : S2 -> A -> B) : agree a b ->
    forall l, Forall (fun x => forall a' b', agree a' b' -> g1 a' x = g2 b' x) l ->
    forall i, sel_map S1 step1 key a g1 i l = sel_map S2 step2 key b g2 i l.
  Proof.
    intros Hab l HF. induction HF as [|x l Hx Hl IH]; intro i; [reflexivity|].
    cbn [sel_map]. rewrite <- (agree_flag a b _ Hab). destruct (snd (step1 a (key i x))) eqn:Hk.
    - rewrite (Hx _ _ (agree_sub a b _ Hab Hk)), IH. reflexivity.
    - apply IH.
  Qed.

  Theorem restrict_agree rq e : forall v t a b, agree a b ->
    restrict S1 step1 top1 rq e a t v = restrict S2 step2 top2 rq e b t v.
  Proof.
    intro v. induction v using value_ind3; intros t sa sb Hab; try reflexivity.
    - destruct t; try reflexivity; cbn [restrict]; f_equal;
        (apply sel_map_agree; [exact Hab|]; eapply Forall_impl; [|exact H]; intros x Hx a' b' H'; apply Hx; exact H').
    - destruct t; try reflexivity. cbn [restrict]. do 2 f_equal.
      apply sel_map_agree; [exact Hab|]. eapply Forall_impl; [|exact H]. intros kv [_ Hx] a' b' H'.
      rewrite (Hx _ _ _ H'). reflexivity.
    - destruct t; try reflexivity. rewrite !restrict_struct.
      destruct (find_struct e name) as [s|]; [|reflexivity]. f_equal. apply map_ext_in. intros p Hin.
      rewrite Forall_forall in H. specialize (H p Hin). cbn beta in H. rewrite !restrict_fn_eq.
      destruct (find_field (fst p) (s_fields s)) as [f|]; [|reflexivity]. cbn zeta. f_equal.
      destruct (present f (snd p)); [|reflexivity].
      rewrite <- (agree_flag sa sb _ Hab).
      destruct (snd (step1 sa (QF (f_id f)))) eqn:Hk; cbn [orb].
      + destruct (payload_of f (snd p)) as [x|] eqn:Ex; [|reflexivity].
        rewrite (payload_ind _ _ _ _ H Ex _ _ _ (agree_sub sa sb _ Hab Hk)). reflexivity.
      + destruct (is_required f && match rq with RqKeep => true | _ => false end); [|reflexivity].
        destruct (payload_of f (snd p)) as [x|] eqn:Ex; [|reflexivity].
        rewrite (payload_ind _ _ _ _ H Ex _ _ _ Htop). reflexivity.
  Qed.
End Agree.

Section PsFacts.
  Import Mask.Spec.

  Lemma existsb_ext' {A} (f g : A -> bool) l : (forall x, f x = g x) -> existsb f l = existsb g l.
  Proof. intro H. induction l as [|x l IH]; [reflexivity|]. cbn. rewrite H, IH. reflexivity. Qed.

  Lemma existsb_deriv (F : spath -> bool) ps k :
    existsb F (deriv ps k) = existsb (fun p => match p with [] => F [] | s :: r => seg_matches s k && F r end) ps.
  Proof.
    unfold deriv. induction ps as [|p ps IH]; [reflexivity|]. cbn [flat_map]. rewrite existsb_app.
    change (existsb ?G (p :: ps)) with (G p || existsb G ps). f_equal; [|exact IH].
    destruct p as [|s r]; cbn [existsb]; [apply orb_false_r|]. destruct (seg_matches s k); cbn [existsb andb]; [apply orb_false_r | reflexivity].
  Qed.

  Lemma complete_cons ps k q : complete ps (k :: q) = complete (deriv ps k) q.
  Proof.
    unfold complete. rewrite existsb_deriv. apply existsb_ext'. intros [|s r]; reflexivity.
  Qed.

  Lemma deriv_nil k : deriv [] k = [].
  Proof. reflexivity. Qed.

  Lemma ps_walk_cons black ps k q :
    ps_walk black ps (k :: q) = ps_pass black ps k && ps_walk black (deriv ps k) q.
  Proof. reflexivity. Qed.

  Lemma ps_walk_black : forall q ps,
    ps_walk true ps q = match q with [] => true | _ => negb (complete ps q) end.
  Proof.
    induction q as [|k q IH]; intros ps; [reflexivity|].
    rewrite ps_walk_cons, IH. unfold ps_pass.
    destruct q as [|k' q'].
    - rewrite andb_true_r. f_equal. unfold complete. apply existsb_ext'.
      intros [|s [|s' r]]; cbn [covers]; try reflexivity.
      + rewrite andb_true_r. reflexivity.
      + rewrite andb_false_r. reflexivity.
    - rewrite (complete_cons ps k (k' :: q')).
      destruct (existsb (fun p => match p with [] => true | [s] => seg_matches s k | _ => false end) ps) eqn:E; [|reflexivity].
      cbn [negb andb]. symmetry. apply negb_false_iff. unfold complete.
      apply existsb_exists in E. destruct E as [p [Hin Hp]]. apply existsb_exists.
      destruct p as [|s [|s' r]]; [| |discriminate].
      + exists []. split; [|reflexivity]. unfold deriv. apply in_flat_map. exists []. split; [exact Hin | left; reflexivity].
      + exists []. split; [|reflexivity]. unfold deriv. apply in_flat_map. exists [s]. split; [exact Hin|]. rewrite Hp. left; reflexivity.
  Qed.

  Definition sel (q : list qkey) (p : spath) : bool := covers p q || touches p q.

  Lemma sel_nil p : sel [] p = true.
  Proof. unfold sel. destruct p; reflexivity. Qed.

  Lemma sel_cons k q p : sel (k :: q) p = match p with [] => true | s :: r => seg_matches s k && sel q r end.
  Proof. unfold sel. destruct p as [|s r]; [reflexivity|]. cbn [covers touches]. destruct (seg_matches s k); reflexivity. Qed.

  Lemma white_pass_eq ps q : (complete ps q || touched ps q) = existsb (sel q) ps.
  Proof.
    unfold complete, touched, sel. induction ps as [|p ps IH]; [reflexivity|]. cbn [existsb]. rewrite <- IH.
    destruct (covers p q), (touches p q), (existsb (fun p0 => covers p0 q) ps), (existsb (fun p0 => touches p0 q) ps); reflexivity.
  Qed.

  Lemma ps_walk_white_ne : forall q ps, ps <> [] -> ps_walk false ps q = existsb (sel q) ps.
  Proof.
    induction q as [|k q IH]; intros ps Hne.
    - destruct ps as [|p ps]; [congruence|]. cbn [existsb]. rewrite sel_nil. reflexivity.
    - rewrite ps_walk_cons. unfold ps_pass.
      destruct ps as [|p0 ps0] eqn:Eps; [congruence|]. rewrite <- Eps in *.
      destruct (existsb (head_matches k) ps) eqn:E.
      + cbn [andb]. assert (Hd : deriv ps k <> []).
        { apply existsb_exists in E. destruct E as [p [Hin Hp]]. intro Hd.
          assert (In (match p with [] => [] | _ :: r => r end) (deriv ps k)) as HI.
          { unfold deriv. apply in_flat_map. exists p. split; [exact Hin|]. destruct p as [|s r]; [left; reflexivity|].
            cbn [head_matches] in Hp. rewrite Hp. left; reflexivity. }
          rewrite Hd in HI. exact HI. }
        rewrite (IH _ Hd), existsb_deriv. apply existsb_ext'. intros [|s r]; [rewrite sel_cons; unfold sel; destruct q; reflexivity|].
        rewrite sel_cons. reflexivity.
      + cbn [andb]. symmetry. apply not_true_is_false. intro Hx. apply existsb_exists in Hx. destruct Hx as [p [Hin Hp]].
        assert (existsb (head_matches k) ps = true) as Hy.
        { apply existsb_exists. exists p. split; [exact Hin|]. rewrite sel_cons in Hp. destruct p as [|s r]; [reflexivity|].
          cbn [head_matches]. apply andb_true_iff in Hp. apply Hp. }
        congruence.
  Qed.

  Lemma ps_walk_top black q : ps_walk black [] q = true.
  Proof.
    induction q as [|k q IH]; [reflexivity|]. rewrite ps_walk_cons. unfold ps_pass. cbn [existsb negb].
    destruct black; cbn [andb]; exact IH.
  Qed.

  (* the residual path sets give, along every position, the answer of the path-set semantics of C14 *)
  Theorem ps_walk_spec black ps q : ps_walk black ps q = spec_pass black ps q.
  Proof.
    destruct q as [|k q]; [reflexivity|]. unfold spec_pass. destruct black.
    - rewrite ps_walk_black. reflexivity.
    - destruct ps as [|p ps]; [apply ps_walk_top|].
      rewrite white_pass_eq. apply ps_walk_white_ne. discriminate.
  Qed.
End PsFacts.

Lemma mquery_nil k : mquery None k = (None, true).
Proof. reflexivity. Qed.

Lemma mquery_live_pass m k : mlive m = false -> snd (mquery m k) = true.
Proof.
  unfold mlive, mquery, Mask.Trie.exist_q, Mask.Trie.query. destruct m as [x|]; [|reflexivity].
  intro H. rewrite H. reflexivity.
Qed.

Lemma gwalk_mask m q : gwalk (option mask) mquery m q = Mask.Trie.walk m q.
Proof.
  unfold Mask.Trie.walk, mquery. revert m. induction q as [|k q IH]; intro m; [reflexivity|].
  cbn [gwalk Mask.Trie.walk_to]. destruct (Mask.Trie.query m k) as [c ok].
  cbn [fst snd]. rewrite IH. destruct (Mask.Trie.walk_to c q). reflexivity.
Qed.

Lemma gwalk_nil_mask q : gwalk (option mask) mquery None q = true.
Proof. induction q as [|k q IH]; [reflexivity|]. cbn [gwalk]. rewrite mquery_nil. exact IH. Qed.

Theorem hdr_count_eq_written_mask {A} (key : nat -> A -> qkey) (m : option mask) (l : list A) :
  hdr_count (option mask) mquery mlive key m l = count_sel (option mask) mquery key m 0 l.
Proof. apply hdr_count_eq_written. exact mquery_live_pass. Qed.

Theorem masked_counts cfg m e s v r :
  pinned cfg = false -> to_wire_masked cfg m e s v = Ok r -> counts_ok r = true /\ enc_r r = enc (cook r).
Proof.
  intros Hp Hr. assert (Hc : counts_ok r = true).
  { eapply (to_wm_counts (option mask) mquery mlive None mall mquery_live_pass cfg e Hp); exact Hr. }
  split; [exact Hc | apply enc_r_cook; exact Hc].
Qed.

Lemma to_wm_struct_shape cfg m e n fs r : to_wm_mask cfg e m (TRef n) (VStruct fs) = Ok r -> exists rfs, r = RStruct rfs.
Proof.
  unfold to_wm_mask. rewrite to_wm_struct. destruct (find_struct e n) as [s|]; [|discriminate]. cbn zeta.
  destruct (is_union s && negb (count_set (s_fields s) fs =? 1)%nat); [discriminate|].
  destruct (mapM _ fs); [|discriminate]. cbn [bind]. intros [= <-]. eexists. reflexivity.
Qed.

Theorem masked_write_value cfg m e s v :
  wf_env e = true -> find_struct e (s_name s) = Some s -> wt e s v = true ->
  (zero_required cfg = true -> zero_okb e = true) ->
  exists r, to_wire_masked cfg m e s v = Ok r /\
            read_new e s (cook r) = Ok (restrict_mask (wmode cfg) e m (TRef (s_name s)) v).
Proof.
  intros Henv Hs Hwt Hz. destruct (wt_is_struct _ _ _ Hwt) as (fs & ->).
  assert (Hzero : zero_required cfg = true -> forall n s f, find_struct e n = Some s -> In f (s_fields s) -> is_required f = true ->
                  from_w e (f_ty f) (zero_w e (f_ty f)) = Ok (zero_read e (f_ty f))).
  { intro H. apply zero_okb_sound. apply Hz. exact H. }
  destruct (to_wm_spec (option mask) mquery mlive None mall e Henv cfg Hzero _ _ _ m (wt_wt_val _ _ _ Hwt)) as (r & Hw & Hr).
  exists r. split; [exact Hw|]. destruct (to_wm_struct_shape _ _ _ _ _ _ Hw) as (rfs & ->).
  cbn [cook] in *. rewrite read_new_from_w by exact Hs. exact Hr.
Qed.

Lemma from_wire_m_from_wm e s m wfs : find_struct e (s_name s) = Some s ->
  from_wire_m (option mask) mquery e s m (new_struct e s) (WStruct wfs) = from_wm_mask e m (TRef (s_name s)) (WStruct wfs).
Proof. intro Hs. unfold from_wm_mask. rewrite from_wm_struct, Hs. reflexivity. Qed.

Theorem masked_read_value cfg m e s v :
  wf_env e = true -> find_struct e (s_name s) = Some s -> wt e s v = true ->
  exists wfs, to_wire e s v = Ok (WStruct wfs) /\
              read_new_masked cfg m e s (WStruct wfs) = Ok (restrict_mask RqDrop e m (TRef (s_name s)) v).
Proof.
  intros Henv Hs Hwt. destruct (wt_is_struct _ _ _ Hwt) as (fs & ->).
  destruct (from_wm_spec (option mask) mquery None e Henv _ _ _ (wt_wt_val _ _ _ Hwt)) as (w & Hw & Hr).
  assert (exists wfs, w = WStruct wfs) as (wfs & ->).
  { rewrite to_w_struct, Hs in Hw. cbn zeta in Hw.
    destruct (is_union s && negb (count_set (s_fields s) fs =? 1)%nat); [discriminate|].
    destruct (mapM _ fs); [|discriminate]. cbn [bind] in Hw. injection Hw as <-. eexists. reflexivity. }
  exists wfs. split; [exact Hw|]. unfold read_new_masked, from_wire_masked.
  rewrite from_wire_m_from_wm by exact Hs. apply Hr.
Qed.

Theorem nil_mask_write cfg e s v : map_res cook (to_wire_masked cfg None e s v) = to_wire e s v.
Proof.
  unfold to_wire_masked, to_wire, to_wm_mask.
  apply (to_wm_allpass (option mask) mquery mlive None mall None mquery_nil cfg e v).
Qed.

Theorem nil_mask_write_bytes cfg e s v : pinned cfg = false ->
  write_bytes_masked cfg None e s v = write_bytes e s v.
Proof.
  intro Hp. unfold write_bytes_masked, write_bytes. rewrite <- (nil_mask_write cfg).
  destruct (to_wire_masked cfg None e s v) as [r|] eqn:Hr; [|reflexivity].
  cbn [bind map_res]. destruct (masked_counts _ _ _ _ _ _ Hp Hr) as [_ ->]. reflexivity.
Qed.

Theorem nil_mask_read cfg e s init w : from_wire_masked cfg None e s init w = from_wire e s init w.
Proof.
  unfold from_wire_masked, from_wire_m, from_wire. destruct init; try reflexivity. destruct w; try reflexivity.
  f_equal. apply foldM_ext. apply Forall_forall. intros wf _ rs.
  unfold read_step_m, read_step. destruct (find_field (snd (fst wf)) (s_fields s)) as [f|]; [|reflexivity].
  destruct (ttype_eqb (fst (fst wf)) (ttype_of e (f_ty f))); [|reflexivity].
  cbn zeta. rewrite mquery_nil. cbn [fst snd].
  rewrite (from_wm_allpass (option mask) mquery None mquery_nil e). reflexivity.
Qed.

Theorem nil_mask_read_bytes cfg e s init bs : read_bytes_masked cfg None e s init bs = read_bytes e s init bs.
Proof. unfold read_bytes_masked, read_bytes. destruct (dec_struct bs) as [[w r]|]; [apply nil_mask_read | reflexivity]. Qed.

(* the payload of a selected struct-typed / container-typed field is written under the sub mask
   that Field(id) returned *)
Theorem submask_field cfg e m s f x :
  find_field (f_id f) (s_fields s) = Some f -> present f x = true -> base_ptr f = false ->
  snd (mquery m (QF (f_id f))) = true ->
  wfield_m (option mask) mquery mlive None mall cfg e m s (f_id f, x) =
  bind (to_wm_mask cfg e (fst (mquery m (QF (f_id f)))) (f_ty f) x)
       (fun r => Ok (Some (ttype_of e (f_ty f), f_id f, r))).
Proof.
  intros Hf Hp Hb Hex. unfold wfield_m. cbn [fst snd]. rewrite Hf, Hp. cbn zeta. rewrite Hex, Hb. reflexivity.
Qed.

(* ... and in the specification: the slot of a selected field is the restriction of its value to the sub mask *)
Theorem submask_recursive rq e m n s fs :
  find_struct e n = Some s ->
  restrict_mask rq e m (TRef n) (VStruct fs) =
  VStruct (map (fun p =>
     match find_field (fst p) (s_fields s) with
     | Some f =>
         if present f (snd p) && snd (mquery m (QF (f_id f))) then
           (fst p, if base_ptr f
                   then match snd p with VSome x => VSome (restrict_mask rq e (fst (mquery m (QF (f_id f)))) (f_ty f) x) | o => o end
                   else restrict_mask rq e (fst (mquery m (QF (f_id f)))) (f_ty f) (snd p))
         else restrict_fn (option mask) mquery None e rq m s p
     | None => p end) fs).
Proof.
  intro Hs. unfold restrict_mask. rewrite restrict_struct, Hs. f_equal. apply map_ext. intro p.
  unfold restrict_fn at 1. destruct (find_field (fst p) (s_fields s)) as [f|] eqn:Hf; [|reflexivity].
  destruct (present f (snd p)) eqn:Hp; cbn [andb].
  - cbn zeta. destruct (snd (mquery m (QF (f_id f)))) eqn:Hex.
    + reflexivity.
    + unfold restrict_fn. rewrite Hf, Hp. cbn zeta. rewrite Hex. reflexivity.
  - unfold restrict_fn. rewrite Hf, Hp. reflexivity.
Qed.

(* list / set elements: element i is written under the sub mask Int(i) returned, iff it passes *)
Theorem submask_elements cfg e m et l :
  to_wm_mask cfg e m (TList et) (VList l) =
  bind (mapM_sel (option mask) mquery (fun i x => Ok (idx_key i x)) m (fun sub x => to_wm_mask cfg e sub et x) 0 l)
       (fun xs => Ok (RList (ttype_of e et) (list_hdr (option mask) mquery mlive mall cfg m l) xs)).
Proof. reflexivity. Qed.

(* a mask that answers along every position as the path set does restricts as the path set does *)
Theorem restrict_mask_pathset black ps m rq e t v :
  (forall q, Mask.Trie.walk m q = Mask.Spec.spec_pass black ps q) ->
  restrict_mask rq e m t v = restrict_ps black rq e ps t v.
Proof.
  intro H. unfold restrict_mask, restrict_ps.
  apply (restrict_agree (option mask) (list Mask.Spec.spath) mquery (ps_step black) None []).
  - intro q. rewrite gwalk_nil_mask. symmetry. apply ps_walk_top.
  - intro q. rewrite gwalk_mask, H. symmetry. apply ps_walk_spec.
Qed.

Theorem masked_write_pathset cfg black ps m e s v :
  wf_env e = true -> find_struct e (s_name s) = Some s -> wt e s v = true ->
  (zero_required cfg = true -> zero_okb e = true) ->
  (forall q, Mask.Trie.walk m q = Mask.Spec.spec_pass black ps q) ->
  exists r, to_wire_masked cfg m e s v = Ok r /\
            read_new e s (cook r) = Ok (restrict_ps black (wmode cfg) e ps (TRef (s_name s)) v).
Proof.
  intros Henv Hs Hwt Hz Hag. destruct (masked_write_value cfg m e s v Henv Hs Hwt Hz) as (r & Hw & Hr).
  exists r. split; [exact Hw|]. rewrite Hr. f_equal. apply restrict_mask_pathset. exact Hag.
Qed.

Theorem masked_read_pathset cfg black ps m e s v :
  wf_env e = true -> find_struct e (s_name s) = Some s -> wt e s v = true ->
  (forall q, Mask.Trie.walk m q = Mask.Spec.spec_pass black ps q) ->
  exists wfs, to_wire e s v = Ok (WStruct wfs) /\
              read_new_masked cfg m e s (WStruct wfs) = Ok (restrict_ps black RqDrop e ps (TRef (s_name s)) v).
Proof.
  intros Henv Hs Hwt Hag. destruct (masked_read_value cfg m e s v Henv Hs Hwt) as (wfs & Hw & Hr).
  exists wfs. split; [exact Hw|]. rewrite Hr. f_equal. apply restrict_mask_pathset. exact Hag.
Qed.

(* the nil mask and the empty path set select everything: restrict is the plain round trip *)
Theorem restrict_nil_mask rq e t v : restrict_mask rq e None t v = norm e t v.
Proof.
  unfold restrict_mask. revert t. induction v using value_ind3; intro t; try reflexivity.
  - destruct t; try reflexivity; cbn [restrict norm]; f_equal;
      rewrite (sel_map_allpass _ mquery None mquery_nil); apply map_ext_in;
      intros x Hx; rewrite Forall_forall in H; apply H; exact Hx.
  - destruct t; try reflexivity. cbn [restrict norm]. do 2 f_equal.
    rewrite (sel_map_allpass _ mquery None mquery_nil). apply map_ext_in. intros kv Hin.
    rewrite Forall_forall in H. destruct (H kv Hin) as [_ Hx]. rewrite Hx. reflexivity.
  - destruct t; try reflexivity. rewrite restrict_struct, norm_struct_eq.
    destruct (find_struct e name) as [s|]; [|reflexivity]. f_equal. apply map_ext_in. intros p Hin.
    rewrite Forall_forall in H. specialize (H p Hin). cbn beta in H. rewrite restrict_fn_eq, norm_fn_eq.
    destruct (find_field (fst p) (s_fields s)) as [f|]; [|reflexivity]. cbn zeta. f_equal.
    destruct (present f (snd p)); [|reflexivity]. rewrite mquery_nil. cbn [fst snd orb].
    destruct (payload_of f (snd p)) as [x|] eqn:Ex; [|reflexivity].
    rewrite (payload_ind _ _ _ _ H Ex). reflexivity.
Qed.

Theorem masked_write_bytes cfg m e s v :
  pinned cfg = false -> wf_env e = true -> find_struct e (s_name s) = Some s -> wt e s v = true ->
  (zero_required cfg = true -> zero_okb e = true) ->
  exists bs, write_bytes_masked cfg m e s v = Ok bs /\
    forall rest, read_bytes e s (new_struct e s) (bs ++ rest)
                 = Ok (restrict_mask (wmode cfg) e m (TRef (s_name s)) v).
Proof.
  intros Hp Henv Hs Hwt Hz. destruct (masked_write_value cfg m e s v Henv Hs Hwt Hz) as (r & Hw & Hr).
  destruct (masked_counts _ _ _ _ _ _ Hp Hw) as [Hc Henc].
  exists (enc_r r). unfold write_bytes_masked. rewrite Hw. cbn [bind]. split; [reflexivity|]. intro rest.
  destruct (wt_is_struct _ _ _ Hwt) as (fs & ->).
  destruct (to_wm_struct_shape _ _ _ _ _ _ Hw) as (rfs & ->).
  destruct (to_wm_wf (option mask) mquery mlive None mall e Henv cfg _ _ _ _ _ (wt_wt_val _ _ _ Hwt) Hw) as [Hwf _].
  unfold read_bytes. rewrite Henc. cbn [cook] in *. rewrite dec_struct_enc by exact Hwf. exact Hr.
Qed.
