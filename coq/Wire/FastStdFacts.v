(* Wire/FastStdFacts.v — the bytes FastAppend writes are read back by the reference codec and by the
   standard generated Read as the value (Wire/Fast.v, Wire/Std.v).

     from_w_sortw           the standard Read does not depend on the order of the fields of a struct (at any
                            level) as long as the ids of each struct are distinct and the read succeeds
     to_w_uniq              what the standard Write emits for a well-typed value has distinct ids per struct
     wf_sortw, depth_sortw  sorting keeps a wire value well formed and as deep as it was
     fast_append_std_read   dec_struct / read_bytes on fast_append e s v (followed by anything) = norm v     *)
From Coq Require Import List ZArith Bool Lia Permutation.
From Verif Require Import Base.Bytes Wire.TType Wire.WVal Wire.Codec Wire.CodecFacts
  Wire.Schema Wire.Value Wire.Std Wire.StdFacts Wire.Fast Wire.FastFacts.
Import ListNotations.
Open Scope Z_scope.

Lemma upd_key e s wf id v rq : upd e s wf = Ok (Some (id, v, rq)) -> id = wkey wf.
Proof.
  unfold upd, wkey. destruct (find_field (snd (fst wf)) (s_fields s)) as [f|] eqn:Hf; [|discriminate].
  destruct (ttype_eqb (fst (fst wf)) (ttype_of e (f_ty f))); [|discriminate].
  destruct (from_w e (f_ty f) (snd wf)); [|discriminate]. cbn [bind]. intros [= <- _ _].
  apply (find_field_In _ _ _ Hf).
Qed.

(* states up to the order in which required ids were seen *)
Definition steq (a b : rstate) : Prop := fst a = fst b /\ Permutation (snd a) (snd b).

Lemma steq_refl a : steq a a.
Proof. split; reflexivity. Qed.

Lemma steq_trans a b c : steq a b -> steq b c -> steq a c.
Proof. intros [H1 H2] [H3 H4]. split; [congruence | eapply perm_trans; eassumption]. Qed.

Lemma apply_upd_steq a b u : steq a b -> steq (apply_upd a u) (apply_upd b u).
Proof.
  intros [H1 H2]. destruct u as [[[id v] rq]|]; [|split; assumption]. cbn [apply_upd fst snd]. split.
  - rewrite H1. reflexivity.
  - destruct rq; [constructor|]; assumption.
Qed.

Lemma set_field_comm id1 v1 id2 v2 fs : id1 <> id2 ->
  set_field id1 v1 (set_field id2 v2 fs) = set_field id2 v2 (set_field id1 v1 fs).
Proof.
  intro Hne. unfold set_field. rewrite !map_map. apply map_ext. intros [i x]. cbn [fst snd].
  destruct (Z.eqb_spec i id2) as [->|H2]; cbn [fst snd].
  - destruct (Z.eqb_spec id2 id1) as [E|_]; [congruence|]. cbn [fst]. rewrite Z.eqb_refl. reflexivity.
  - destruct (Z.eqb_spec i id1) as [->|H1]; cbn [fst]; [|destruct (Z.eqb_spec i id2); [congruence | reflexivity]].
    destruct (Z.eqb_spec id1 id2); [congruence | reflexivity].
Qed.

Lemma apply_upd_comm st u1 u2 :
  (forall id1 v1 r1 id2 v2 r2, u1 = Some (id1, v1, r1) -> u2 = Some (id2, v2, r2) -> id1 <> id2) ->
  steq (apply_upd (apply_upd st u1) u2) (apply_upd (apply_upd st u2) u1).
Proof.
  intro Hne. destruct u1 as [[[id1 v1] r1]|], u2 as [[[id2 v2] r2]|]; try apply steq_refl.
  specialize (Hne _ _ _ _ _ _ eq_refl eq_refl). cbn [apply_upd fst snd]. split.
  - apply set_field_comm. congruence.
  - destruct r1, r2; try reflexivity. apply perm_swap.
Qed.

Lemma foldM_steq e s l : forall a b sa,
  steq a b -> foldM (read_step e s) l a = Ok sa -> exists sb, foldM (read_step e s) l b = Ok sb /\ steq sa sb.
Proof.
  induction l as [|x l IH]; intros a b sa Hab H; cbn [foldM] in *.
  - injection H as <-. exists b. split; [reflexivity | assumption].
  - rewrite read_step_upd in *. destruct (upd e s x) as [u|]; [|discriminate].
    apply (IH _ _ _ (apply_upd_steq a b u Hab) H).
Qed.

Lemma foldM_perm e s l l' : Permutation l l' -> NoDup (map wkey l) -> forall a b sa,
  steq a b -> foldM (read_step e s) l a = Ok sa -> exists sb, foldM (read_step e s) l' b = Ok sb /\ steq sa sb.
Proof.
  induction 1 as [|x l l' Hp IH|x y l|l l' l'' Hp1 IH1 Hp2 IH2]; intros Hnd a b sa Hab H.
  - cbn [foldM] in *. injection H as <-. exists b. split; [reflexivity | assumption].
  - cbn [foldM] in *. rewrite read_step_upd in *. destruct (upd e s x) as [u|]; [|discriminate].
    inversion Hnd; subst. apply (IH ltac:(assumption) _ _ _ (apply_upd_steq a b u Hab) H).
  - cbn [foldM] in *. rewrite !read_step_upd in *.
    destruct (upd e s y) as [uy|] eqn:Ey; [|discriminate]. rewrite read_step_upd in H.
    destruct (upd e s x) as [ux|] eqn:Ex; [|discriminate].
    rewrite read_step_upd, Ey.
    apply (foldM_steq e s l _ _ _) with (2 := H).
    apply (steq_trans _ (apply_upd (apply_upd a ux) uy)); [|apply apply_upd_steq, apply_upd_steq, Hab].
    apply apply_upd_comm. intros id1 v1 r1 id2 v2 r2 -> ->.
    rewrite (upd_key _ _ _ _ _ _ Ey), (upd_key _ _ _ _ _ _ Ex).
    inversion Hnd as [|? ? Hnot _]; subst. intro E. apply Hnot. cbn [map]. left. congruence.
  - destruct (IH1 Hnd a a sa (steq_refl a) H) as (sm & Hm & Hsm).
    assert (Hnd' : NoDup (map wkey l')) by (eapply Permutation_NoDup; [apply Permutation_map; exact Hp1 | exact Hnd]).
    destruct (IH2 Hnd' a b sm Hab Hm) as (sb & Hb & Hsb). exists sb. split; [exact Hb | exact (steq_trans _ _ _ Hsm Hsb)].
Qed.

Lemma existsb_perm (p : Z -> bool) l l' : Permutation l l' -> existsb p l = existsb p l'.
Proof.
  induction 1; cbn [existsb]; try congruence.
  - destruct (p y), (p x); reflexivity.
Qed.

Lemma finish_read_steq s a b : steq a b -> finish_read s a = finish_read s b.
Proof.
  intros [H1 H2]. unfold finish_read, first_missing. rewrite H1.
  rewrite (filter_ext _ (fun f => is_required f && negb (existsb (Z.eqb (f_id f)) (snd b)))); [reflexivity|].
  intro f. rewrite (existsb_perm _ _ _ H2). reflexivity.
Qed.

Fixpoint uniqb (w : wval) : bool :=
  match w with
  | WStruct fs => nodupZ (map wkey fs) && forallb (fun f => uniqb (snd f)) fs
  | WMap _ _ kvs => forallb (fun kv => uniqb (fst kv) && uniqb (snd kv)) kvs
  | WSet _ l | WList _ l => forallb uniqb l
  | _ => true
  end.

Lemma sort_wfields_perm l : Permutation l (sort_wfields l).
Proof.
  unfold sort_wfields.
  pose proof (Permutation_map snd (sort_by_id_perm (map (fun f : wfield => (wkey f, f)) l))) as H.
  rewrite map_map in H. cbn [snd] in H. rewrite map_id in H. exact H.
Qed.

Lemma mapM_map_ok {A B C} (f : A -> result C) (g : B -> result C) (h : A -> B) l ys :
  Forall (fun x => forall y, f x = Ok y -> g (h x) = Ok y) l -> mapM f l = Ok ys -> mapM g (map h l) = Ok ys.
Proof.
  revert ys. induction l as [|x l IH]; intros ys Hall H; [exact H|]. inversion Hall as [|? ? Hx Hrest]; subst.
  cbn [map mapM] in *. destruct (f x) as [y|] eqn:E; [|discriminate]. rewrite (Hx y eq_refl).
  destruct (mapM f l) as [ys'|] eqn:E2; [|discriminate]. rewrite (IH ys' Hrest eq_refl). exact H.
Qed.

Definition sort_ok (e : env) (w : wval) : Prop :=
  forall t v, uniqb w = true -> from_w e t w = Ok v -> from_w e t (sortw w) = Ok v.

Lemma mapM_sortw e t l xs : Forall (sort_ok e) l -> forallb uniqb l = true ->
  mapM (from_w e t) l = Ok xs -> mapM (from_w e t) (map sortw l) = Ok xs.
Proof.
  intros H Hu. apply mapM_map_ok.
  rewrite forallb_forall in Hu. rewrite Forall_forall in *. intros x Hx y Hy. apply (H _ Hx); auto.
Qed.

Theorem from_w_sortw e : forall w, sort_ok e w.
Proof.
  intro w. induction w using wval_ind2; intros t v Hu Hr; try exact Hr.
  - destruct t; try discriminate. rewrite sortw_struct. rewrite from_w_struct in *.
    destruct (find_struct e name) as [s|]; [|discriminate].
    destruct (foldM (read_step e s) fs (new_fields s, [])) as [st1|] eqn:Hfold; [|discriminate]. cbn [bind] in Hr.
    cbn [uniqb] in Hu. apply andb_true_iff in Hu. destruct Hu as [Hnd Hall]. apply nodupZ_NoDup in Hnd.
    (* first the payloads are sorted in place (induction hypothesis), then the fields are permuted (foldM_perm) *)
    assert (H1 : forall st st', foldM (read_step e s) fs st = Ok st' -> foldM (read_step e s) (map sortw_field fs) st = Ok st').
    { clear Hfold Hr Hnd. induction fs as [|[[tt id] x] fs IHfs]; intros st st' Hf; [exact Hf|].
      inversion H as [|? ? Hx Hrest]; subst. cbn [forallb snd] in Hall. apply andb_true_iff in Hall. destruct Hall as [Hux Hall].
      cbn [map foldM] in *. unfold sortw_field at 1. cbn [fst snd].
      assert (E : forall st0 st1, read_step e s st0 (tt, id, x) = Ok st1 -> read_step e s st0 (tt, id, sortw x) = Ok st1).
      { intros st0 st2. unfold read_step. cbn [fst snd]. destruct (find_field id (s_fields s)) as [f|]; [|trivial].
        destruct (ttype_eqb tt (ttype_of e (f_ty f))); [|trivial].
        destruct (from_w e (f_ty f) x) as [vx|] eqn:Ev; [|discriminate]. cbn [snd] in Hx. rewrite (Hx _ _ Hux Ev). trivial. }
      destruct (read_step e s st (tt, id, x)) as [st2|] eqn:Es; [|discriminate]. rewrite (E _ _ Es).
      apply (IHfs Hrest Hall _ _ Hf). }
    specialize (H1 _ _ Hfold).
    assert (Hk : map wkey (map sortw_field fs) = map wkey fs) by (rewrite map_map; apply map_ext; intros [[? ?] ?]; reflexivity).
    destruct (foldM_perm e s _ _ (sort_wfields_perm (map sortw_field fs)) ltac:(rewrite Hk; exact Hnd) _ _ _ (steq_refl _) H1)
      as (sb & Hb & Hsb).
    rewrite Hb. cbn [bind]. rewrite <- (finish_read_steq s _ _ Hsb). exact Hr.
  - destruct t; try discriminate. cbn [sortw from_w] in *. rewrite map_length.
    destruct ((ttype_eqb kt (ttype_of e t1) && ttype_eqb vt (ttype_of e t2)) || (length kvs =? 0)%nat); [|discriminate].
    set (g := fun kv : wval * wval => bind (from_w e t1 (fst kv)) (fun k => bind (from_w e t2 (snd kv)) (fun x => Ok (k, x)))) in *.
    destruct (mapM g kvs) as [xs|] eqn:Hm; [|discriminate].
    rewrite (mapM_map_ok g g (fun kv => (sortw (fst kv), sortw (snd kv))) kvs xs); [exact Hr | | exact Hm].
    cbn [uniqb] in Hu. rewrite forallb_forall in Hu. rewrite Forall_forall in *. intros [k x] Hkv y Hy.
    destruct (H _ Hkv) as [IHk IHx]. specialize (Hu _ Hkv). cbn [fst snd] in *. apply andb_true_iff in Hu. destruct Hu as [Huk Hux].
    unfold g in *. cbn [fst snd] in *.
    destruct (from_w e t1 k) as [vk|] eqn:E1; [|discriminate]. destruct (from_w e t2 x) as [vx|] eqn:E2; [|discriminate].
    rewrite (IHk _ _ Huk E1), (IHx _ _ Hux E2). exact Hy.
  - destruct t; try discriminate. cbn [sortw from_w uniqb] in *. rewrite map_length.
    destruct (ttype_eqb et (ttype_of e t) || (length l =? 0)%nat); [|discriminate].
    destruct (mapM (from_w e t) l) as [xs|] eqn:Hm; [|discriminate]. rewrite (mapM_sortw e t l xs H Hu Hm). exact Hr.
  - destruct t; try discriminate. cbn [sortw from_w uniqb] in *. rewrite map_length.
    destruct (ttype_eqb et (ttype_of e t) || (length l =? 0)%nat); [|discriminate].
    destruct (mapM (from_w e t) l) as [xs|] eqn:Hm; [|discriminate]. rewrite (mapM_sortw e t l xs H Hu Hm). exact Hr.
Qed.

Lemma wtype_sortw w : wtype (sortw w) = wtype w.
Proof. destruct w; reflexivity. Qed.

Lemma wf_elems_sortw et l : Forall (fun w => wf w -> wf (sortw w)) l ->
  Forall (fun x => wtype x = et /\ wf x) l -> Forall (fun x => wtype x = et /\ wf x) (map sortw l).
Proof.
  intros H Hall. apply Forall_map. apply (Forall_and_impl _ _ _ _ H Hall). intros x IH [Ht Hw].
  rewrite wtype_sortw. auto.
Qed.

Theorem wf_sortw : forall w, wf w -> wf (sortw w).
Proof.
  intro w. induction w using wval_ind2; intro Hwf; try exact Hwf.
  - rewrite sortw_struct. apply wf_struct_iff in Hwf. apply wf_struct_iff.
    eapply Permutation_Forall; [apply sort_wfields_perm|]. apply Forall_map.
    apply (Forall_and_impl _ _ _ _ H Hwf). intros f IH (H1 & H2 & H3). unfold sortw_field. cbn [fst snd].
    rewrite wtype_sortw. auto.
  - cbn [sortw]. apply wf_map_iff in Hwf. destruct Hwf as [Hl Hall]. apply wf_map_iff. rewrite map_length. split; [exact Hl|].
    apply Forall_map. apply (Forall_and_impl _ _ _ _ H Hall). intros kv [IHk IHx] (H1 & H2 & H3 & H4). cbn [fst snd].
    rewrite !wtype_sortw. auto.
  - cbn [sortw]. apply wf_set_iff in Hwf. destruct Hwf as [Hl Hall]. apply wf_set_iff. rewrite map_length.
    split; [exact Hl | exact (wf_elems_sortw et l H Hall)].
  - cbn [sortw]. apply wf_list_iff in Hwf. destruct Hwf as [Hl Hall]. apply wf_list_iff. rewrite map_length.
    split; [exact Hl | exact (wf_elems_sortw et l H Hall)].
Qed.

Lemma depth_struct_go_perm l l' : Permutation l l' -> depth_struct_go l = depth_struct_go l'.
Proof.
  induction 1 as [|[[t i] x] l l' _ IH|[[t i] x] [[t' i'] y] l|l l' l'' _ IH1 _ IH2]; cbn [depth_struct_go]; fold depth_struct_go; lia.
Qed.

Lemma depth_elems_sortw l : Forall (fun w => depth (sortw w) = depth w) l -> depth_list_go (map sortw l) = depth_list_go l.
Proof. intro H. rewrite !depth_list_go_max, map_map. f_equal. apply map_ext_Forall, H. Qed.

Theorem depth_sortw : forall w, depth (sortw w) = depth w.
Proof.
  intro w. induction w using wval_ind2; try reflexivity.
  - rewrite sortw_struct, !depth_struct_unfold, <- (depth_struct_go_perm _ _ (sort_wfields_perm _)).
    rewrite !depth_struct_go_max, map_map. do 2 f_equal. apply map_ext_Forall, H.
  - cbn [sortw]. rewrite !depth_map_unfold, !depth_map_go_max, map_map. do 2 f_equal. apply map_ext_Forall.
    revert H. apply Forall_impl. intros kv [Hk Hx]. cbn [fst snd]. rewrite Hk, Hx. reflexivity.
  - cbn [sortw]. rewrite !depth_set_unfold, (depth_elems_sortw l H). reflexivity.
  - cbn [sortw]. rewrite !depth_list_unfold, (depth_elems_sortw l H). reflexivity.
Qed.

Lemma to_w_nil_uniq e t w : to_w e t VNil = Ok w -> uniqb w = true.
Proof.
  destruct t; cbn [to_w]; try discriminate; try (intros [= <-]; reflexivity).
  destruct (find_struct e name) as [s|]; [|discriminate]. destruct (is_union s); [discriminate|]. intros [= <-]. reflexivity.
Qed.

Lemma keys_of_somes (R : Z * value -> option wfield -> Prop) fs ofs :
  (forall p wf, R p (Some wf) -> wkey wf = fst p) -> Forall2 R fs ofs ->
  incl (map wkey (cat_somes ofs)) (map fst fs) /\ (NoDup (map fst fs) -> NoDup (map wkey (cat_somes ofs))).
Proof.
  intro HR. induction 1 as [|p o fs ofs Hpo _ [IHi IHn]]; [split; [intros k [] | constructor]|].
  destruct o as [wf|]; cbn [cat_somes map].
  - rewrite (HR _ _ Hpo). split.
    + intros k [<-|Hk]; [left; reflexivity | right; apply IHi, Hk].
    + intro Hnd. inversion Hnd as [|? ? Hnot Hnd']; subst. constructor; [intro Hin; apply Hnot, IHi, Hin | apply IHn, Hnd'].
  - split; [intros k Hk; right; apply IHi, Hk | intro Hnd; inversion Hnd; subst; apply IHn; assumption].
Qed.

Definition uniq_ok (e : env) (t : ty) (v : value) (w : wval) : Prop :=
  forall key, wt_val e key t v = true -> uniqb w = true.

Section Uniq.
  Variable e : env.
  Hypothesis Henv : wf_env e = true.

  Lemma uniq_elems et l ws : Forall2 (fun x w => to_w e et x = Ok w /\ uniq_ok e et x w) l ws ->
    forallb (wt_val e false et) l = true -> forallb uniqb ws = true.
  Proof.
    induction 1 as [|x w l ws [_ Hx] _ IH]; [reflexivity|]. cbn [forallb]. rewrite !andb_true_iff.
    intros [Hwx Hall]. split; [apply (Hx _ Hwx) | apply IH, Hall].
  Qed.

  Theorem to_w_uniq v t key w : wt_val e key t v = true -> to_w e t v = Ok w -> uniqb w = true.
  Proof.
    intros Hwt Hw. revert key Hwt. revert v t w Hw. apply (to_w_ind e (uniq_ok e)).
    1-14: unfold uniq_ok; reflexivity.
    - intros et l ws H key Hwt. cbn [wt_val] in Hwt. apply andb_true_iff in Hwt. destruct Hwt as [_ Hall].
      exact (uniq_elems et l ws H Hall).
    - intros et l ws _ H key Hwt. cbn [wt_val] in Hwt. rewrite !andb_true_iff in Hwt. destruct Hwt as [[_ Hall] _].
      exact (uniq_elems et l ws H Hall).
    - intros kt vt kvs ws H key Hwt. cbn [wt_val] in Hwt. rewrite !andb_true_iff in Hwt. destruct Hwt as [[_ Hall] _].
      cbn [uniqb]. induction H as [|kv w kvs ws [[_ Hk] [_ Hx]] _ IH]; [reflexivity|].
      cbn [forallb] in *. rewrite !andb_true_iff in Hall. destruct Hall as [[Hwk Hwx] Hall].
      rewrite (Hk _ Hwk), (Hx _ Hwx), (IH Hall). reflexivity.
    - intros n s fs ofs Hs _ _ H key Hwt. destruct (wt_struct_parts _ _ _ _ _ Hs Hwt) as (Hids & Hslots & _).
      rewrite Forall_forall in Hslots. cbn [uniqb]. apply andb_true_iff. split.
      + apply nodupZ_NoDup. refine (proj2 (keys_of_somes _ fs ofs _ H) _).
        * intros p wf (f & Hf & _ & x & wx & _ & _ & -> & _). apply (find_field_In _ _ _ Hf).
        * rewrite Hids. apply wf_struct_nodup. apply (wf_env_struct e n); assumption.
      + apply forallb_Forall, Forall_cat_somes. apply (Forall2_right _ _ _ _ H). intros p ow Hin (f & Hf & Hshape).
        destruct ow as [wf|]; [|exact I]. destruct Hshape as (_ & x & wx & Hx & Hwx & -> & IH). cbn [snd].
        destruct (slot_ok_payload _ _ _ _ _ Hf (Hslots p Hin) Hx) as [Hok | ->];
          [exact (IH false Hok) | exact (to_w_nil_uniq _ _ _ Hwx)].
  Qed.
End Uniq.

(* for every schema, struct-like and well-typed value: FastAppend writes the encoding of a well-formed wire
   struct (the reference decoder gives it back, whatever follows), and the standard generated Read, started
   from NewX(), turns those bytes into the value (its normal form: what the standard Write/Read round trip
   shows, C02_write_read) *)
Theorem fast_append_std_read e s v :
  wf_env e = true -> find_struct e (s_name s) = Some s -> wt e s v = true ->
  exists w, wf w /\
    (forall rest, dec_struct (fast_append e s v ++ rest) = Some (w, rest)) /\
    read_new e s w = Ok (norm_struct e s v) /\
    (forall rest, read_bytes e s (new_struct e s) (fast_append e s v ++ rest) = Ok (norm_struct e s v)).
Proof.
  intros Henv Hs Hwt. destruct (write_read e s v Henv Hs Hwt) as (wfs & Hw & Hr).
  pose proof (to_w_wf e Henv v _ _ _ (wt_wt_val _ _ _ Hwt) Hw) as [Hwf _].
  pose proof (to_w_uniq e Henv v _ _ _ (wt_wt_val _ _ _ Hwt) Hw) as Hu.
  pose proof (wf_sortw _ Hwf) as Hwfs.
  rewrite (fast_append_is_std e s v _ Hw).
  assert (Hr' : read_new e s (sortw (WStruct wfs)) = Ok (norm_struct e s v)).
  { unfold read_new, from_wire, new_struct in *. rewrite sortw_struct.
    pose proof (from_w_sortw e (WStruct wfs) (TRef (s_name s)) (norm_struct e s v) Hu) as H.
    rewrite sortw_struct, !from_w_struct, Hs in H. apply H. exact Hr. }
  exists (sortw (WStruct wfs)). split; [exact Hwfs|]. rewrite sortw_struct in *.
  split; [intro rest; apply dec_struct_enc; exact Hwfs|]. split; [exact Hr'|].
  intro rest. unfold read_bytes. rewrite dec_struct_enc by exact Hwfs. exact Hr'.
Qed.
