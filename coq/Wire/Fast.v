(* Wire/Fast.v — the FASTGO codec (generator/fastgo: gen_blength.go, gen_fastwrite.go,
   gen_fastread.go, consts.go, utils.go, bitset.go), as three separate functions that follow
   the three code generators statement by statement:

     blength e s v        what the generated  p.BLength()       returns           (gen_blength.go)
     fast_append e s v    what the generated  p.FastAppend(nil) returns           (gen_fastwrite.go)
     fast_read e s init b what the generated  p.FastRead(b)     does on the object [init]:
                          FOk (object after the call, bytes consumed) or FErr class (gen_fastread.go)

   bl_val / fa_val work on a value of IDL type t (field payload, list element, map key / value);
   they are total: on a value that does not have the Go shape of t they use the zero projection
   (v_int, v_bytes ...), consistently in both, so that  blength = length (fast_append)  can be
   stated for every value.

   Tables: wire types of field headers and the fixed sizes come from Wire/GenTables.v, the
   constants written into container headers from Wire/FastTables.v; both files are regenerated
   from generator/fastgo/consts.go on every run.

   The reader works on bytes (not on decoded wire values): it mirrors
   github.com/cloudwego/gopkg v0.2.0 protocol/thrift BinaryProtocol.ReadXxx and Skip (trusted
   transcription, see fskip), including the one place where Skip returns a length beyond the end
   of its buffer; the generated code then slices b[off:] with off > len(b), which is a Go panic:
   error class FOverrun; and the place where Skip indexes a table with a negative type code:
   error class FIndex.  No proofs in this file. *)
From Coq Require Import List ZArith Bool Lia.
From Coq.Strings Require Import Byte.
From Verif Require Import Base.Bytes Base.BE Wire.TType Wire.WVal Wire.Schema Wire.Value Wire.Std
                          Wire.GenTables Wire.FastTables.
From Coq Require String.
Import ListNotations.
Open Scope Z_scope.

(* ------------------------------------------------------------------ tables *)

(* github.com/cloudwego/gopkg/protocol/thrift: the TType constants (trusted) *)
Module GopkgConsts.
Import Coq.Strings.String.
Local Open Scope string_scope.
Definition gopkg_const (s : bytes) : Z :=
  if beqb s (B "thrift.BOOL") then 2 else
  if beqb s (B "thrift.BYTE") then 3 else
  if beqb s (B "thrift.I08") then 3 else
  if beqb s (B "thrift.DOUBLE") then 4 else
  if beqb s (B "thrift.I16") then 6 else
  if beqb s (B "thrift.I32") then 8 else
  if beqb s (B "thrift.I64") then 10 else
  if beqb s (B "thrift.STRING") then 11 else
  if beqb s (B "thrift.STRUCT") then 12 else
  if beqb s (B "thrift.MAP") then 13 else
  if beqb s (B "thrift.SET") then 14 else
  if beqb s (B "thrift.LIST") then 15 else 0.
End GopkgConsts.
Definition gopkg_const := GopkgConsts.gopkg_const.

(* category2WireSize[t.Category] *)
Definition wire_size (e : env) (t : ty) : Z :=
  match cat_lookup (category_of e t) fast_category2WireSize with Some z => z | None => 0 end.
(* category2ThriftWireType[t.Category] *)
Definition wire_type (e : env) (t : ty) : Z :=
  match cat_lookup (category_of e t) fast_category2WireType with Some z => z | None => 0 end.
(* category2GopkgConsts[t.Category], as a number *)
Definition elem_const (e : env) (t : ty) : Z :=
  match cat_lookup (category_of e t) fast_category2GopkgConsts with Some s => gopkg_const s | None => 0 end.

(* ------------------------------------------------------------------ small helpers *)

Definition v_int (v : value) : Z := match v with VInt z => z | _ => 0 end.
Definition v_bool (v : value) : bool := match v with VBool b => b | _ => false end.
Definition v_dbl (v : value) : Z := match v with VDbl b => b | _ => 0 end.
Definition v_bytes (v : value) : bytes := match v with VStr s | VBin s => s | _ => [] end.

Fixpoint sumZ (l : list Z) : Z := match l with [] => 0 | x :: r => x + sumZ r end.
Definition lenZ {A} (l : list A) : Z := Z.of_nat (length l).

(* getSortedFields: fields by ascending id (ids are unique) *)
Section Sort.
  Context {A : Type}.
  Fixpoint insert_by_id (x : Z * A) (l : list (Z * A)) : list (Z * A) :=
    match l with
    | [] => [x]
    | y :: r => if fst x <=? fst y then x :: l else y :: insert_by_id x r
    end.
  Definition sort_by_id (l : list (Z * A)) : list (Z * A) := fold_right insert_by_id [] l.
End Sort.

(* f.GoTypeName().IsPointer() *)
Definition go_pointer (f : field) : bool := base_ptr f || is_structlike (f_ty f).
(* utils.go isContainerType: map, list, set and binary *)
Definition is_container_type (t : ty) : bool := is_container t || is_binary t.

(* ------------------------------------------------------------------ BLength (gen_blength.go) *)

(* genBLengthField: the field contributes (header and value) *)
Definition bl_emit (f : field) (slot : value) : bool :=
  if is_optional f then
    if is_binary (f_ty f) && has_default f then
      (* optional binary with a default: string(p.F) != string(default) *)
      negb (beqb (bin_bytes slot) (bin_bytes (default_var f)))
    else if go_pointer f || is_container_type (f_ty f) then negb (is_nil slot)      (* p.F != nil *)
    else match f_default f with
         | Some l => base_neq (f_ty f) slot (value_of_lit l)                       (* p.F != literal *)
         | None => true end
  else true.

Fixpoint bl_val (e : env) (t : ty) (v : value) {struct v} : Z :=
  let sz := wire_size e t in
  if 0 <? sz then sz else                                         (* off += sz *)
  match t with
  | TString | TBinary => 4 + lenZ (v_bytes v)                     (* off += 4 + len(x) *)
  | TMap kt vt =>
      6 + match v with
          | VMap kvs =>
              let ksz := wire_size e kt in
              let vsz := wire_size e vt in
              if (0 <? ksz) && (0 <? vsz) then lenZ kvs * (ksz + vsz)
              else if 0 <? ksz then lenZ kvs * ksz + sumZ (map (fun kv => bl_val e vt (snd kv)) kvs)
              else if 0 <? vsz then lenZ kvs * vsz + sumZ (map (fun kv => bl_val e kt (fst kv)) kvs)
              else sumZ (map (fun kv => bl_val e kt (fst kv) + bl_val e vt (snd kv)) kvs)
          | _ => 0 end                                            (* nil map: len 0, no iteration *)
  | TList et | TSet et =>
      5 + match v with
          | VList l =>
              let esz := wire_size e et in
              if 0 <? esz then lenZ l * esz else sumZ (map (bl_val e et) l)
          | _ => 0 end
  | TRef n =>
      match v with
      | VStruct fs =>
          match find_struct e n with
          | Some s =>
              sumZ (map snd (sort_by_id (map (fun p =>
                 (fst p,
                  match find_field (fst p) (s_fields s) with
                  | Some f =>
                      if bl_emit f (snd p) then
                        if base_ptr f then
                          match snd p with VSome x => 3 + bl_val e (f_ty f) x | _ => 0 end
                        else 3 + bl_val e (f_ty f) (snd p)
                      else 0
                  | None => 0 end)) fs))) + 1                      (* return off + 1 *)
          | None => 1 end
      | _ => 1 end                                                (* if p == nil { return 1 } *)
  | _ => 0                    (* a category without fixed size and without a case: no statement *)
  end.

Definition blength (e : env) (s : sschema) (v : value) : Z := bl_val e (TRef (s_name s)) v.

(* ------------------------------------------------------------------ FastAppend (gen_fastwrite.go) *)

(* genFastAppendField: the same three skip rules, written again in the second generator *)
Definition fa_emit (f : field) (slot : value) : bool :=
  if is_optional f then
    if is_binary (f_ty f) && has_default f then
      negb (beqb (bin_bytes slot) (bin_bytes (default_var f)))
    else if go_pointer f || is_container_type (f_ty f) then negb (is_nil slot)
    else match f_default f with
         | Some l => base_neq (f_ty f) slot (value_of_lit l)
         | None => true end
  else true.

Fixpoint fa_val (e : env) (t : ty) (v : value) {struct v} : bytes :=
  match t with
  | TBool => [if v_bool v then x01 else x00]
  | TByte => put_be 1 (v_int v)                                   (* byte(x) *)
  | TI16 => put_be 2 (v_int v)                                    (* AppendI16(b, int16(x)) *)
  | TI32 | TEnum _ => put_be 4 (v_int v)                          (* AppendI32(b, int32(x)) *)
  | TI64 => put_be 8 (v_int v)
  | TDouble => put_be 8 (v_dbl v)
  | TString | TBinary => put_be 4 (lenZ (v_bytes v)) ++ v_bytes v
  | TMap kt vt =>
      match v with
      | VMap kvs =>
          put_be 1 (elem_const e kt) ++ put_be 1 (elem_const e vt) ++ put_be 4 (lenZ kvs) ++
          flat_map (fun kv => fa_val e kt (fst kv) ++ fa_val e vt (snd kv)) kvs
      | _ => put_be 1 (elem_const e kt) ++ put_be 1 (elem_const e vt) ++ put_be 4 0
      end
  | TList et | TSet et =>
      match v with
      | VList l => put_be 1 (elem_const e et) ++ put_be 4 (lenZ l) ++ flat_map (fa_val e et) l
      | _ => put_be 1 (elem_const e et) ++ put_be 4 0
      end
  | TRef n =>
      match v with
      | VStruct fs =>
          match find_struct e n with
          | Some s =>
              flat_map snd (sort_by_id (map (fun p =>
                 (fst p,
                  match find_field (fst p) (s_fields s) with
                  | Some f =>
                      if fa_emit f (snd p) then
                        if base_ptr f then
                          match snd p with
                          | VSome x => put_be 1 (wire_type e (f_ty f)) ++ put_be 2 (f_id f) ++ fa_val e (f_ty f) x
                          | _ => [] end
                        else put_be 1 (wire_type e (f_ty f)) ++ put_be 2 (f_id f) ++ fa_val e (f_ty f) (snd p)
                      else []
                  | None => [] end)) fs)) ++ [x00]                 (* return append(b, 0) *)
          | None => [x00] end
      | _ => [x00] end                                            (* if p == nil { return append(b, 0) } *)
  end.

Definition fast_append (e : env) (s : sschema) (v : value) : bytes := fa_val e (TRef (s_name s)) v.

(* ------------------------------------------------------------------ FastRead (gen_fastread.go) *)

Inductive ferr :=
| FShort              (* a ReadXxx / Skip found fewer bytes than it needs *)
| FNegLen             (* negative string length or container size *)
| FBadType            (* Skip: unknown data type *)
| FDepth              (* Skip: depth limit exceeded *)
| FRequired (id : Z)  (* required field is not set *)
| FOverrun            (* Skip returned a length beyond the buffer: b[off:] panics in the generated code *)
| FIndex              (* Skip indexed typeToSize with a negative TType (type byte >= 0x80): Go panic *)
| FFuel               (* model out of fuel; never returned by fast_read (FastReadFacts.fast_read_total) *)
| FBadInit            (* the object to read into is not a struct value *)
| FNoStruct.          (* the schema names a struct the env does not have *)

Inductive fres (A : Type) := FOk (a : A) | FErr (e : ferr).
Arguments FOk {A} a.
Arguments FErr {A} e.

(* --- BinaryProtocol.ReadXxx (gopkg binary.go) --- *)
Definition rd_s (n : nat) (bs : bytes) : fres (Z * bytes) :=
  match get_s n bs with Some p => FOk p | None => FErr FShort end.
Definition rd_u (n : nat) (bs : bytes) : fres (Z * bytes) :=
  match get_be n bs with Some p => FOk p | None => FErr FShort end.
Definition rd_bool (bs : bytes) : fres (bool * bytes) :=
  match bs with b :: r => FOk (Byte.eqb b x01, r) | [] => FErr FShort end.
(* ReadString / ReadBinary *)
Definition rd_str (bs : bytes) : fres (bytes * bytes) :=
  match get_s 4 bs with
  | None => FErr FShort
  | Some (n, r) =>
      if n <? 0 then FErr FNegLen
      else if lenZ r <? n then FErr FShort
      else FOk (firstn (Z.to_nat n) r, skipn (Z.to_nat n) r)
  end.
(* ReadListBegin / ReadSetBegin: the element type is ignored by the generated code *)
Definition rd_list_begin (bs : bytes) : fres (Z * bytes) :=
  match bs with
  | [] => FErr FShort
  | _ :: r => match get_s 4 r with
              | None => FErr FShort
              | Some (n, r') => if n <? 0 then FErr FNegLen else FOk (n, r') end
  end.
Definition rd_map_begin (bs : bytes) : fres (Z * bytes) :=
  match bs with
  | _ :: _ :: r => match get_s 4 r with
                   | None => FErr FShort
                   | Some (n, r') => if n <? 0 then FErr FNegLen else FOk (n, r') end
  | _ => FErr FShort
  end.

(* --- BinaryProtocol.Skip (gopkg binary.go skipType), on the buffer [bs] = p .. e --- *)
Definition type_size (t : Z) : Z :=              (* typeToSize *)
  if (t =? 2) || (t =? 3) then 1 else if (t =? 4) || (t =? 10) then 8
  else if t =? 6 then 2 else if t =? 8 then 4 else 0.

(* gopkg: type TType = int8, and typeToSize[t] is indexed with it: a type byte >= 0x80 is a negative
   index, "index out of range", a Go panic *)
Definition neg_type (t : Z) : bool := 128 <=? t.

(* the buffer p .. e is followed as the suffix [rem] that starts at the current offset; an offset beyond
   the end (possible in one place, see skip_map_loop) is the empty suffix, and the reported byte count
   [acc] keeps growing *)
Definition byte0 (rem : bytes) : Z := match rem with b :: _ => Z_of_byte b | [] => 0 end.
Definition i32_0 (rem : bytes) : Z := match get_s 4 rem with Some (n, _) => n | None => 0 end.
Definition adv (n : Z) (rem : bytes) : bytes := skipn (Z.to_nat n) rem.

(* skipstr(p, e) *)
Definition skipstr (rem : bytes) : fres Z :=
  if 4 <=? lenZ rem then
    let n := i32_0 rem in
    if n <? 0 then FErr FNegLen
    else if 4 + n <=? lenZ rem then FOk (4 + n) else FErr FShort
  else FErr FShort.

(* one element of a container / one field value: the three-way choice repeated in skipType for
   keys, values, elements and fields; a fixed-size one is NOT checked against the end of the buffer *)
Definition skip_elem (sk : Z -> bytes -> fres Z) (rem : bytes) (t : Z) : fres Z :=
  if 0 <? type_size t then FOk (type_size t)
  else if t =? 11 then skipstr rem
  else sk t rem.

Section SkipLoops.
  Variable sk : Z -> bytes -> fres Z.       (* skipType(.., maxdepth-1) *)
  (* for j := 0; j < sz; j++ over list / set elements; [acc] = offset reached, [rem] = what is left *)
  Fixpoint skip_list_loop (fuel : nat) (vt : Z) (j : Z) (acc : Z) (rem : bytes) : fres Z :=
    if j <=? 0 then FOk acc else
    match fuel with
    | O => FErr FFuel
    | S f =>
        match rem with
        | [] => FErr FShort                                   (* uintptr(p)+uintptr(i) >= e *)
        | _ =>
            match skip_elem sk rem vt with
            | FErr x => FErr x
            | FOk vi => skip_list_loop f vt (j - 1) (acc + vi) (adv vi rem)
            end
        end
    end.
  Fixpoint skip_map_loop (fuel : nat) (kt vt : Z) (j : Z) (acc : Z) (rem : bytes) : fres Z :=
    if j <=? 0 then FOk acc else
    match fuel with
    | O => FErr FFuel
    | S f =>
        match rem with
        | [] => FErr FShort
        | _ =>
            match skip_elem sk rem kt with
            | FErr x => FErr x
            | FOk ki =>
                match adv ki rem with
                | [] => FErr FShort
                | rem1 =>
                    match skip_elem sk rem1 vt with
                    | FErr x => FErr x
                    | FOk vi =>            (* no check after a fixed-size value: the last one may overrun *)
                        skip_map_loop f kt vt (j - 1) (acc + ki + vi) (adv vi rem1)
                    end
                end
            end
        end
    end.
  Fixpoint skip_struct_loop (fuel : nat) (acc : Z) (rem : bytes) : fres Z :=
    match fuel with
    | O => FErr FFuel
    | S f =>
        match rem with
        | [] => FErr FShort
        | tb :: r0 =>
            let ft := Z_of_byte tb in
            if ft =? 0 then FOk (acc + 1) else
            match adv 2 r0 with
            | [] => FErr FShort                               (* i += 2; uintptr(p)+uintptr(i) >= e *)
            | r1 =>
                if neg_type ft then FErr FIndex else
                match skip_elem sk r1 ft with
                | FErr x => FErr x
                | FOk fi => skip_struct_loop f (acc + 3 + fi) (adv fi r1)
                end
            end
        end
    end.
End SkipLoops.

(* skipType(p, e, t, maxdepth): the number of bytes it reports (may exceed the buffer, see above) *)
Fixpoint fskip (maxdepth : nat) (t : Z) (bs : bytes) {struct maxdepth} : fres Z :=
  match maxdepth with
  | O => FErr FDepth
  | S d =>
      let len := lenZ bs in
      if neg_type t then FErr FIndex else
      if 0 <? type_size t then (if len <? type_size t then FErr FShort else FOk (type_size t))
      else if t =? 11 then skipstr bs
      else if t =? 13 then
        if len <? 6 then FErr FShort else
        let kt := byte0 bs in let vt := byte0 (adv 1 bs) in let sz := i32_0 (adv 2 bs) in
        if sz <? 0 then FErr FNegLen else
        if neg_type kt || neg_type vt then FErr FIndex else
        let ksz := type_size kt in let vsz := type_size vt in
        if (0 <? ksz) && (0 <? vsz) then
          (if len <? 6 + sz * (ksz + vsz) then FErr FShort else FOk (6 + sz * (ksz + vsz)))
        else skip_map_loop (fskip d) (S (length bs)) kt vt sz 6 (adv 6 bs)
      else if (t =? 15) || (t =? 14) then
        if len <? 5 then FErr FShort else
        let vt := byte0 bs in let sz := i32_0 (adv 1 bs) in
        if sz <? 0 then FErr FNegLen else
        if neg_type vt then FErr FIndex else
        let vsz := type_size vt in
        if 0 <? vsz then (if len <? 5 + sz * vsz then FErr FShort else FOk (5 + sz * vsz))
        else skip_list_loop (fskip d) (S (length bs)) vt sz 5 (adv 5 bs)
      else if t =? 12 then skip_struct_loop (fskip d) (S (length bs)) 0 bs
      else FErr FBadType
  end.

Definition default_recursion_depth : nat := 64.

(* x.Skip(b, t) *)
Definition fskip_top (t : Z) (bs : bytes) : fres Z :=
  match bs with [] => FErr FShort | _ => fskip default_recursion_depth t bs end.

(* --- loops of the generated reader: for i := 0; i < sz; i++ --- *)
Section Rep.
  Context {A : Type}.
  Variable p : bytes -> fres (A * bytes).
  Fixpoint frep (fuel : nat) (n : Z) (bs : bytes) : fres (list A * bytes) :=
    if n <=? 0 then FOk ([], bs) else
    match fuel with
    | O => FErr FFuel
    | S f =>
        match p bs with
        | FErr x => FErr x
        | FOk (a, r) =>
            match frep f (n - 1) r with
            | FErr x => FErr x
            | FOk (l, r') => FOk (a :: l, r')
            end
        end
    end.
End Rep.

Definition fpair {A B} (p : bytes -> fres (A * bytes)) (q : bytes -> fres (B * bytes)) (bs : bytes)
  : fres ((A * B) * bytes) :=
  match p bs with
  | FErr x => FErr x
  | FOk (a, r) => match q r with FErr x => FErr x | FOk (b, r') => FOk ((a, b), r') end
  end.

(* the switch of genFastRead: case uint32(f.ID)<<8 | wiretype(f) in field-id order *)
Definition find_case (e : env) (s : sschema) (fid ftyp : Z) : option field :=
  match filter (fun p => (fst p =? fid) && (wire_type e (f_ty (snd p)) =? ftyp))
               (sort_by_id (map (fun f => (f_id f, f)) (s_fields s))) with
  | p :: _ => Some (snd p)
  | [] => None
  end.

(* GenIfNotSet: the first required field, in field-id order, whose bit is not set *)
Definition fast_first_missing (s : sschema) (seen : list Z) : option Z :=
  match filter (fun p => is_required (snd p) && negb (existsb (Z.eqb (fst p)) seen))
               (sort_by_id (map (fun f => (f_id f, f)) (s_fields s))) with
  | p :: _ => Some (fst p)
  | [] => None
  end.

Section StructLoop.
  Variable rv : ty -> bytes -> fres (value * bytes).     (* genFastReadAny for a field of type t *)
  Variable e : env.
  Variable s : sschema.
  (* the for loop of the generated FastRead; state = slots and ids of required fields seen *)
  Fixpoint fr_loop (fuel : nat) (st : rstate) (bs : bytes) : fres (list (Z * value) * bytes) :=
    match fuel with
    | O => FErr FFuel
    | S lf =>
        match bs with
        | [] => FErr FShort                                   (* ReadFieldBegin: len(buf) < 1 *)
        | tb :: r0 =>
            let ftyp := Z_of_byte tb in
            if ftyp =? 0 then                                 (* STOP *)
              match fast_first_missing s (snd st) with
              | Some id => FErr (FRequired id)
              | None => FOk (fst st, r0)
              end
            else
              match get_s 2 r0 with
              | None => FErr FShort                           (* ReadFieldBegin: len(buf) < 3 *)
              | Some (fid, r1) =>
                  match find_case e s fid ftyp with
                  | Some f =>
                      match rv (f_ty f) r1 with
                      | FErr x => FErr x
                      | FOk (v, r2) =>
                          fr_loop lf (set_field (f_id f) (wrap_slot f v) (fst st),
                                      if is_required f then f_id f :: snd st else snd st) r2
                      end
                  | None =>                                   (* default: x.Skip(b[off:], ftyp) *)
                      match fskip_top ftyp r1 with
                      | FErr x => FErr x
                      | FOk n =>
                          if lenZ r1 <? n then FErr FOverrun
                          else fr_loop lf st (skipn (Z.to_nat n) r1)
                      end
                  end
              end
        end
    end.
End StructLoop.

(* genFastReadAny: a value of IDL type t at the head of bs *)
Fixpoint fr_val (fuel : nat) (e : env) (t : ty) (bs : bytes) {struct fuel} : fres (value * bytes) :=
  match fuel with
  | O => FErr FFuel
  | S f =>
      match t with
      | TBool => match rd_bool bs with FOk (b, r) => FOk (VBool b, r) | FErr x => FErr x end
      | TByte => match rd_s 1 bs with FOk (z, r) => FOk (VInt z, r) | FErr x => FErr x end
      | TI16 => match rd_s 2 bs with FOk (z, r) => FOk (VInt z, r) | FErr x => FErr x end
      | TI32 | TEnum _ => match rd_s 4 bs with FOk (z, r) => FOk (VInt z, r) | FErr x => FErr x end
      | TI64 => match rd_s 8 bs with FOk (z, r) => FOk (VInt z, r) | FErr x => FErr x end
      | TDouble => match rd_u 8 bs with FOk (z, r) => FOk (VDbl z, r) | FErr x => FErr x end
      | TString => match rd_str bs with FOk (x, r) => FOk (VStr x, r) | FErr x => FErr x end
      | TBinary => match rd_str bs with FOk (x, r) => FOk (VBin x, r) | FErr x => FErr x end
      | TList et | TSet et =>
          match rd_list_begin bs with
          | FErr x => FErr x
          | FOk (n, r) =>                                      (* make(T, sz); for i < sz *)
              match frep (fr_val f e et) (S (length r)) n r with
              | FErr x => FErr x
              | FOk (l, r') => FOk (VList l, r')
              end
          end
      | TMap kt vt =>
          match rd_map_begin bs with
          | FErr x => FErr x
          | FOk (n, r) =>                                      (* make(map, sz); m[k] = v *)
              match frep (fpair (fr_val f e kt) (fr_val f e vt)) (S (length r)) n r with
              | FErr x => FErr x
              | FOk (kvs, r') => FOk (VMap (map_build kvs), r')
              end
          end
      | TRef n =>
          match find_struct e n with
          | None => FErr FNoStruct
          | Some s =>                                          (* p.F = NewX(); p.F.FastRead(b[off:]) *)
              match fr_loop (fr_val f e) e s (S (length bs)) (new_fields s, []) bs with
              | FErr x => FErr x
              | FOk (fs, r) => FOk (VStruct fs, r)
              end
          end
      end
  end.

(* p.FastRead(b) on the object [init]; result: the object and the number of bytes consumed *)
Definition fast_read (e : env) (s : sschema) (init : value) (bs : bytes) : fres (value * Z) :=
  match init with
  | VStruct fs0 =>
      match fr_loop (fr_val (S (length bs)) e) e s (S (length bs)) (fs0, []) bs with
      | FErr x => FErr x
      | FOk (fs, r) => FOk (VStruct fs, lenZ bs - lenZ r)
      end
  | _ => FErr FBadInit
  end.

(* ------------------------------------------------------------------ specification helpers *)

(* a wire value with the fields of every struct in ascending id order: what FastAppend emits *)
Definition wkey (f : wfield) : Z := snd (fst f).
Definition sort_wfields (l : list wfield) : list wfield :=
  map snd (sort_by_id (map (fun f => (wkey f, f)) l)).

Fixpoint sortw (w : wval) : wval :=
  match w with
  | WStruct fs => WStruct (sort_wfields (map (fun f => (fst f, sortw (snd f))) fs))
  | WMap kt vt kvs => WMap kt vt (map (fun kv => (sortw (fst kv), sortw (snd kv))) kvs)
  | WSet et l => WSet et (map sortw l)
  | WList et l => WList et (map sortw l)
  | _ => w
  end.

(* error classes of the two readers, as the generated code reports them *)
Inductive rclass := ROk | RRequired | ROther.
Definition class_of_fast {A} (r : fres A) : rclass :=
  match r with FOk _ => ROk | FErr (FRequired _) => RRequired | FErr _ => ROther end.
Definition class_of_std {A} (r : result A) : rclass :=
  match r with Ok _ => ROk | Err (ERequiredMissing _) => RRequired | Err _ => ROther end.
