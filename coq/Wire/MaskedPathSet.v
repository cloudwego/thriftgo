(* Wire/MaskedPathSet.v — end-to-end statements of property C13 for masks built from path lists:
   C14's build_sound (Mask/C14Facts.v) discharges the premise "the mask answers as the path set
   does" of the _pathset theorems of Wire/MaskedFacts.v for every path list in C14's domain
   (grammatical, typed against the descriptor of the root struct, conflict free; black lists
   without a trailing star).  The descriptor is the one the library sees for the schema
   (Wire.Masked.senv_of / dty_of). *)
From Coq Require Import List ZArith Bool.
From Verif Require Import Base.Bytes Base.BE Wire.TType Wire.WVal Wire.Codec Wire.CodecFacts
  Wire.Schema Wire.Value Wire.Std Wire.StdFacts Wire.Masked Wire.MaskedFacts.
From Verif Require Mask.Path Mask.Desc Mask.Trie Mask.Spec Mask.C14Facts.
Import ListNotations.
Open Scope Z_scope.

(* the path lists of C14's domain, for the root struct s of schema e *)
Definition in_mask_domain (e : env) (s : sschema) (black : bool) (strs : list bytes)
           (ps : list (list Mask.Spec.pseg)) (gs : list Mask.Spec.gpath) : Prop :=
  map Mask.Path.tokenize strs = map Mask.Spec.tokens_of ps /\
  Mask.Spec.well_typed (senv_of e) (dty_of e (TRef (s_name s))) ps = true /\
  Mask.Spec.elab_all (senv_of e) (dty_of e (TRef (s_name s))) ps = Some gs /\
  Mask.Spec.in_domain black gs = true.

(* NewFieldMask succeeds on the domain and the mask answers as the path set does *)
Lemma mask_for_domain e s black strs ps gs :
  in_mask_domain e s black strs ps gs ->
  exists m, mask_for e s black strs = Mask.Trie.Ok m /\
            forall q, Mask.Trie.walk (Some m) q = Mask.Spec.spec_pass black (Mask.Spec.path_set gs) q.
Proof.
  intros (Htok & Hwt & He & Hdom).
  assert (Hnc : Mask.Spec.no_conflict gs = true).
  { unfold Mask.Spec.in_domain in Hdom. apply andb_true_iff in Hdom. tauto. }
  unfold mask_for.
  pose proof (Mask.C14Facts.build_total_on_D _ _ black strs ps gs Htok Hwt He Hnc) as Hb.
  eexists. split; [exact Hb|].
  apply (Mask.C14Facts.build_sound _ _ black strs ps gs _ Htok Hwt He Hdom Hb).
Qed.

Theorem restrict_built_pathset e s black strs ps gs rq t v :
  in_mask_domain e s black strs ps gs ->
  exists m, mask_for e s black strs = Mask.Trie.Ok m /\
            restrict_mask rq e (Some m) t v = restrict_ps black rq e (Mask.Spec.path_set gs) t v.
Proof.
  intro Hd. destruct (mask_for_domain _ _ _ _ _ _ Hd) as (m & Hm & Hag).
  exists m. split; [exact Hm|]. apply restrict_mask_pathset. exact Hag.
Qed.

(* Write under the mask built from an in-domain path list: the bytes decode (plain peer, fresh
   object, any trailing bytes) to the restriction of the value to the path SET *)
Theorem masked_write_end_to_end cfg e s black strs ps gs v :
  pinned cfg = false -> wf_env e = true -> find_struct e (s_name s) = Some s -> wt e s v = true ->
  (zero_required cfg = true -> zero_okb e = true) ->
  in_mask_domain e s black strs ps gs ->
  exists m bs, mask_for e s black strs = Mask.Trie.Ok m /\
    write_bytes_masked cfg (Some m) e s v = Ok bs /\
    forall rest, read_bytes e s (new_struct e s) (bs ++ rest)
                 = Ok (restrict_ps black (wmode cfg) e (Mask.Spec.path_set gs) (TRef (s_name s)) v).
Proof.
  intros Hp Henv Hs Hwt Hz Hd. destruct (mask_for_domain _ _ _ _ _ _ Hd) as (m & Hm & Hag).
  destruct (masked_write_bytes cfg (Some m) e s v Hp Henv Hs Hwt Hz) as (bs & Hw & Hr).
  exists m, bs. split; [exact Hm|]. split; [exact Hw|]. intro rest. rewrite Hr. f_equal.
  apply restrict_mask_pathset. exact Hag.
Qed.

(* plain Write, Read under the mask built from an in-domain path list *)
Theorem masked_read_end_to_end cfg e s black strs ps gs v :
  wf_env e = true -> find_struct e (s_name s) = Some s -> wt e s v = true ->
  in_mask_domain e s black strs ps gs ->
  exists m bs, mask_for e s black strs = Mask.Trie.Ok m /\
    write_bytes e s v = Ok bs /\
    forall rest, read_bytes_masked cfg (Some m) e s (new_struct e s) (bs ++ rest)
                 = Ok (restrict_ps black RqDrop e (Mask.Spec.path_set gs) (TRef (s_name s)) v).
Proof.
  intros Henv Hs Hwt Hd. destruct (mask_for_domain _ _ _ _ _ _ Hd) as (m & Hm & Hag).
  destruct (masked_read_pathset cfg black (Mask.Spec.path_set gs) (Some m) e s v Henv Hs Hwt Hag) as (wfs & Hw & Hr).
  exists m, (enc (WStruct wfs)). split; [exact Hm|]. unfold write_bytes. rewrite Hw. cbn [bind]. split; [reflexivity|].
  intro rest. unfold read_bytes_masked.
  destruct (wt_is_struct _ _ _ Hwt) as (fs & ->).
  destruct (to_w_wf e Henv (VStruct fs) _ _ _ (wt_wt_val _ _ _ Hwt) Hw) as [Hwf _].
  rewrite dec_struct_enc by exact Hwf. exact Hr.
Qed.
