(* Wire/MaskedReadFacts.v — Read under a mask on arbitrary wire input (Wire/MaskedRead.v):
     from_wm_filter    masked Read succeeded  ->  it is the plain Read of the filtered message under
                       the relaxed schema
     from_wm_total     plain Read of the whole message succeeds  ->  the masked Read succeeds
     masked_read_from  both together, for a struct read into any start object   *)
From Coq Require Import List ZArith Bool.
From Verif Require Import Base.Bytes Base.BE Wire.TType Wire.WVal Wire.Codec Wire.CodecFacts
  Wire.Schema Wire.Value Wire.Std Wire.StdFacts Wire.Masked Wire.MaskedFacts
  Wire.MaskedRead.
Import ListNotations.
Open Scope Z_scope.

Lemma find_struct_relax e n : find_struct (relax e) n = option_map relax_s (find_struct e n).
Proof.
  unfold find_struct, relax. cbn [structs]. induction (structs e) as [|s l IH]; [reflexivity|].
  cbn [map find_struct_in relax_s s_name]. destruct (beqb n (s_name s)); [reflexivity | exact IH].
Qed.

Lemma find_field_relax id fs : find_field id (map relax_f fs) = option_map relax_f (find_field id fs).
Proof.
  induction fs as [|f fs IH]; [reflexivity|]. cbn [map find_field relax_f f_id].
  destruct (id =? f_id f); [reflexivity | exact IH].
Qed.

Lemma ttype_of_relax e t : ttype_of (relax e) t = ttype_of e t.
Proof. rewrite !ttype_of_spec. reflexivity. Qed.

Lemma is_optional_relax f : is_optional (relax_f f) = is_optional f.
Proof. unfold is_optional, relax_f. cbn [f_req]. destruct (f_req f); reflexivity. Qed.

Lemma is_required_relax f : is_required (relax_f f) = false.
Proof. unfold is_required, relax_f. cbn [f_req]. destruct (f_req f); reflexivity. Qed.

Lemma base_ptr_relax f : base_ptr (relax_f f) = base_ptr f.
Proof. unfold base_ptr. rewrite is_optional_relax. reflexivity. Qed.

Lemma wrap_slot_relax f v : wrap_slot (relax_f f) v = wrap_slot f v.
Proof. unfold wrap_slot. rewrite base_ptr_relax. reflexivity. Qed.

Lemma init_slot_relax f : init_slot (relax_f f) = init_slot f.
Proof. unfold init_slot, zero_slot. rewrite base_ptr_relax. reflexivity. Qed.

Lemma new_fields_relax s : new_fields (relax_s s) = new_fields s.
Proof.
  unfold new_fields, relax_s. cbn [s_fields]. rewrite map_map. apply map_ext. intro f.
  rewrite init_slot_relax. reflexivity.
Qed.

Lemma finish_read_relax s fs seen : finish_read (relax_s s) (fs, seen) = Ok (VStruct fs).
Proof.
  unfold finish_read. cbn [fst snd]. rewrite first_missing_none; [reflexivity|].
  intros f Hin Hr. unfold relax_s in Hin. cbn [s_fields] in Hin. apply in_map_iff in Hin.
  destruct Hin as (f0 & <- & _). rewrite is_required_relax in Hr. discriminate.
Qed.

Lemma finish_read_ok s st v : finish_read s st = Ok v -> v = VStruct (fst st).
Proof. unfold finish_read. destruct (first_missing (s_fields s) (snd st)); [discriminate|]. intros [= <-]. reflexivity. Qed.

Section Gen.
  Variable St : Type.
  Variable step : St -> qkey -> St * bool.
  Variable topst : St.
  Hypothesis Htop : forall k, step topst k = (topst, true).
  Variable e : env.

  Local Notation mapM_sel := (Masked.mapM_sel St step).
  Local Notation sel_map := (Masked.sel_map St step).
  Local Notation from_wm := (Masked.from_wm St step).
  Local Notation filter_w := (MaskedRead.filter_w St step topst).

  Lemma mapM_sel_filter {A B C} (key' : nat -> A -> result qkey) (key : nat -> A -> qkey) st
        (f : St -> A -> result B) (g : C -> result B) (h : St -> A -> C) :
    (forall i x k, key' i x = Ok k -> key i x = k) ->
    forall l, Forall (fun x => forall s y, f s x = Ok y -> g (h s x) = Ok y) l ->
    forall i xs, mapM_sel key' st f i l = Ok xs -> mapM g (sel_map key st h i l) = Ok xs.
  Proof.
    intros Hk l HF. induction HF as [|x l Hx Hl IH]; intros i xs H; cbn [Masked.mapM_sel Masked.sel_map] in *.
    - exact H.
    - destruct (key' i x) as [k|] eqn:Ek; [|discriminate]. rewrite (Hk _ _ _ Ek).
      destruct (snd (step st k)).
      + destruct (f (fst (step st k)) x) as [y|] eqn:Ef; [|discriminate].
        destruct (mapM_sel key' st f (S i) l) as [ys|] eqn:Em; [|discriminate]. injection H as <-.
        cbn [mapM]. rewrite (Hx _ _ Ef), (IH _ _ Em). reflexivity.
      + apply IH. exact H.
  Qed.

  (* the reader's header test still passes on the filtered container *)
  Lemma sel_map_hdr_ok {A B} (key : nat -> A -> qkey) st (g : St -> A -> B) (b : bool) l :
    b || (length l =? 0)%nat = true -> b || (length (sel_map key st g 0 l) =? 0)%nat = true.
  Proof.
    intro H. apply orb_true_iff in H. destruct H as [-> | H]; [reflexivity|].
    apply Nat.eqb_eq in H. destruct l; [apply orb_true_r | discriminate].
  Qed.

  Definition read_is_filter (w : wval) : Prop := forall t st v,
    from_wm e st t w = Ok v -> from_w (relax e) t (filter_w e st t w) = Ok v.

  Definition fstep (st : St) (s : sschema) (wf : wfield) : option wfield :=
    match find_field (snd (fst wf)) (s_fields s) with
    | Some f =>
        if ttype_eqb (fst (fst wf)) (ttype_of e (f_ty f)) then
          if snd (step st (QF (f_id f)))
          then Some (fst wf, filter_w e (fst (step st (QF (f_id f)))) (f_ty f) (snd wf))
          else None
        else Some wf
    | None => Some wf end.

  Lemma filter_w_struct st n wfs :
    filter_w e st (TRef n) (WStruct wfs) =
    match find_struct e n with
    | Some s => WStruct (cat_somes (map (fstep st s) wfs))
    | None => WStruct wfs end.
  Proof. reflexivity. Qed.

  Lemma fold_filter st s wfs :
    Forall (fun wf => read_is_filter (snd wf)) wfs ->
    forall fs seen fs' seen', foldM (read_step_m St step e s st) wfs (fs, seen) = Ok (fs', seen') ->
    forall seen2, exists seen2',
      foldM (read_step (relax e) (relax_s s)) (cat_somes (map (fstep st s) wfs)) (fs, seen2) = Ok (fs', seen2').
  Proof.
    induction 1 as [|wf wfs Hwf Hl IH]; intros fs seen fs' seen' H seen2.
    - cbn in H. injection H as <- <-. exists seen2. reflexivity.
    - cbn [foldM] in H. destruct (read_step_m St step e s st (fs, seen) wf) as [[fs1 seen1]|] eqn:E; [|discriminate].
      unfold read_step_m in E. cbn [map cat_somes]. unfold fstep at 1.
      destruct (find_field (snd (fst wf)) (s_fields s)) as [f|] eqn:Hf.
      + destruct (ttype_eqb (fst (fst wf)) (ttype_of e (f_ty f))) eqn:Et.
        * cbn zeta in E. destruct (snd (step st (QF (f_id f)))) eqn:Hex.
          -- destruct (from_wm e (fst (step st (QF (f_id f)))) (f_ty f) (snd wf)) as [pv|] eqn:Ep; [|discriminate].
             cbn [bind fst snd] in E. injection E as <- <-.
             destruct (IH _ _ _ _ H seen2) as (seen2' & IH').
             exists seen2'. cbn [cat_somes foldM]. unfold read_step at 1. cbn [fst snd relax_s s_fields].
             rewrite find_field_relax, Hf. cbn [option_map relax_f f_ty f_id]. rewrite ttype_of_relax, Et.
             rewrite (Hwf _ _ _ Ep). cbn [bind]. rewrite is_required_relax.
             (* cbn above has unfolded relax_f f into its record; fold it back for wrap_slot_relax *)
             change (mkfield (f_id f) (f_name f) match f_req f with Required => Default | r => r end (f_ty f) (f_default f) (f_typedef f)) with (relax_f f).
             rewrite wrap_slot_relax. exact IH'.
          -- cbn [fst snd] in E. injection E as <- <-. cbn [cat_somes]. apply (IH _ _ _ _ H seen2).
        * injection E as <- <-. destruct (IH _ _ _ _ H seen2) as (seen2' & IH').
          exists seen2'. cbn [cat_somes foldM]. unfold read_step at 1. cbn [relax_s s_fields].
          rewrite find_field_relax, Hf. cbn [option_map relax_f f_ty]. rewrite ttype_of_relax, Et. exact IH'.
      + injection E as <- <-. destruct (IH _ _ _ _ H seen2) as (seen2' & IH').
        exists seen2'. cbn [cat_somes foldM]. unfold read_step at 1. cbn [relax_s s_fields].
        rewrite find_field_relax, Hf. cbn [option_map]. exact IH'.
  Qed.

  Theorem from_wm_filter : forall w, read_is_filter w.
  Proof.
    induction w using wval_ind2; intros t st v Hv;
      try (cbn [Masked.from_wm MaskedRead.filter_w] in *; destruct t; try discriminate; exact Hv).
    3,4: destruct t; try discriminate; cbn [Masked.from_wm MaskedRead.filter_w] in *;
      (destruct (ttype_eqb et (ttype_of e t) || (length l =? 0)%nat) eqn:Eh; [|discriminate]);
      (destruct (mapM_sel (fun i x => Ok (idx_key i x)) st (fun s x => from_wm e s t x) 0 l) as [xs|] eqn:Em; [|discriminate]);
      cbn [bind] in Hv; injection Hv as <-; cbn [from_w]; rewrite ttype_of_relax, (sel_map_hdr_ok _ _ _ _ _ Eh);
      rewrite (mapM_sel_filter (fun i x => Ok (idx_key i x)) idx_key st (fun s x => from_wm e s t x)
                 (from_w (relax e) t) (fun s x => filter_w e s t x)) with (xs := xs);
      [reflexivity | intros i x k [= <-]; reflexivity | | exact Em];
      eapply Forall_impl; [|exact H]; intros x Hx s y Hy; apply Hx; exact Hy.
    - destruct t; try discriminate. rewrite from_wm_struct in Hv. rewrite filter_w_struct.
      destruct (find_struct e name) as [s|] eqn:Hs; [|discriminate].
      destruct (foldM (read_step_m St step e s st) fs (new_fields s, [])) as [[fs' seen']|] eqn:Ef; [|discriminate].
      cbn [bind] in Hv. apply finish_read_ok in Hv. cbn [fst] in Hv. subst v.
      destruct (fold_filter st s fs H _ _ _ _ Ef []) as (seen2' & Hfold).
      rewrite from_w_struct, find_struct_relax, Hs. cbn [option_map]. rewrite new_fields_relax, Hfold. cbn [bind].
      apply finish_read_relax.
    - destruct t; try discriminate. cbn [Masked.from_wm MaskedRead.filter_w] in *.
      destruct ((ttype_eqb kt (ttype_of e t1) && ttype_eqb vt (ttype_of e t2)) || (length kvs =? 0)%nat) eqn:Eh; [|discriminate].
      match type of Hv with bind (Masked.mapM_sel _ _ ?K _ ?F _ _) _ = _ => set (key' := K) in *; set (f := F) in * end.
      destruct (mapM_sel key' st f 0 kvs) as [xs|] eqn:Em; [|discriminate]. cbn [bind] in Hv. injection Hv as <-.
      cbn [from_w]. rewrite !ttype_of_relax, (sel_map_hdr_ok _ _ _ _ _ Eh).
      match goal with |- bind (mapM ?G (Masked.sel_map _ _ ?KEY _ ?HH _ _)) _ = _ =>
        rewrite (mapM_sel_filter key' KEY st f G HH) with (xs := xs) end; [reflexivity | | | exact Em].
      + intros i kv k Hk. unfold key' in Hk. destruct (from_w e t1 (fst kv)) as [k0|]; [|discriminate].
        cbn [bind] in Hk. injection Hk as <-. reflexivity.
      + eapply Forall_impl; [|exact H]. intros kv [Hk Hx] s y Hy. unfold f in Hy.
        destruct (from_w e t1 (fst kv)) as [k0|] eqn:Ek; [|discriminate]. cbn [bind] in Hy.
        destruct (from_wm e s t2 (snd kv)) as [x0|] eqn:Ex; [|discriminate]. injection Hy as <-.
        cbn [fst snd]. rewrite (Hk t1 topst k0), (Hx _ _ _ Ex); [reflexivity|].
        rewrite (from_wm_allpass St step topst Htop e). exact Ek.
  Qed.
End Gen.

Section Total.
  Variable St : Type.
  Variable step : St -> qkey -> St * bool.
  Variable e : env.

  Local Notation mapM_sel := (Masked.mapM_sel St step).
  Local Notation from_wm := (Masked.from_wm St step).

  Lemma mapM_sel_total {A B} (key' : nat -> A -> result qkey) st (f : St -> A -> result B) l :
    Forall (fun x => (forall i, exists k, key' i x = Ok k) /\ forall s, exists y, f s x = Ok y) l ->
    forall i, exists ys, mapM_sel key' st f i l = Ok ys.
  Proof.
    induction 1 as [|x l [Hk Hf] Hl IH]; intro i; [exists []; reflexivity|].
    cbn [Masked.mapM_sel]. destruct (Hk i) as (k & ->). destruct (IH (S i)) as (ys & Hys).
    destruct (snd (step st k)).
    - destruct (Hf (fst (step st k))) as (y & ->). rewrite Hys. eexists. reflexivity.
    - exists ys. exact Hys.
  Qed.

  Lemma mapM_ok_Forall {A B} (f : A -> result B) l ys : mapM f l = Ok ys -> Forall (fun x => exists y, f x = Ok y) l.
  Proof.
    revert ys. induction l as [|x l IH]; intros ys H; [constructor|]. cbn in H.
    destruct (f x) as [y|] eqn:E; [|discriminate]. destruct (mapM f l) as [ys'|] eqn:E2; [|discriminate].
    constructor; [eauto | eapply IH; reflexivity].
  Qed.

  Definition read_succeeds (w : wval) : Prop := forall t v, from_w e t w = Ok v -> forall st, exists v', from_wm e st t w = Ok v'.

  Lemma fold_total st s wfs :
    Forall (fun wf => read_succeeds (snd wf)) wfs ->
    forall fs seen fs' seen', foldM (read_step e s) wfs (fs, seen) = Ok (fs', seen') ->
    forall fs2, exists fs2', foldM (read_step_m St step e s st) wfs (fs2, seen) = Ok (fs2', seen').
  Proof.
    induction 1 as [|wf wfs Hwf Hl IH]; intros fs seen fs' seen' H fs2.
    - cbn in H. injection H as <- <-. exists fs2. reflexivity.
    - cbn [foldM] in *. destruct (read_step e s (fs, seen) wf) as [[fs1 seen1]|] eqn:E; [|discriminate].
      unfold read_step in E. unfold read_step_m.
      destruct (find_field (snd (fst wf)) (s_fields s)) as [f|].
      + destruct (ttype_eqb (fst (fst wf)) (ttype_of e (f_ty f))).
        * destruct (from_w e (f_ty f) (snd wf)) as [pv|] eqn:Ep; [|discriminate]. cbn [bind fst snd] in E.
          injection E as <- <-. cbn zeta. cbn [fst snd]. destruct (snd (step st (QF (f_id f)))).
          -- destruct (Hwf _ _ Ep (fst (step st (QF (f_id f))))) as (pv' & ->). cbn [bind]. apply (IH _ _ _ _ H).
          -- apply (IH _ _ _ _ H).
        * injection E as <- <-. apply (IH _ _ _ _ H).
      + injection E as <- <-. apply (IH _ _ _ _ H).
  Qed.

  Theorem from_wm_total : forall w, read_succeeds w.
  Proof.
    induction w using wval_ind2; intros t v Hv st;
      try (cbn [Masked.from_wm]; eexists; exact Hv).
    3,4: destruct t; try discriminate; cbn [from_w Masked.from_wm] in *;
      (destruct (ttype_eqb et (ttype_of e t) || (length l =? 0)%nat); [|discriminate]);
      (destruct (mapM (from_w e t) l) as [xs|] eqn:Em; [|discriminate]); apply mapM_ok_Forall in Em;
      (destruct (mapM_sel_total (fun i x => Ok (idx_key i x)) st (fun s x => from_wm e s t x) l) with (i := 0%nat) as (ys & ->);
        [|eexists; reflexivity]);
      rewrite Forall_forall in *; intros x Hin; destruct (Em x Hin) as (y & Hy);
      (split; [intro i; eexists; reflexivity|]); intro s; apply (H x Hin _ _ Hy s).
    - destruct t; try discriminate. rewrite from_w_struct in Hv. rewrite from_wm_struct.
      destruct (find_struct e name) as [s|]; [|discriminate].
      destruct (foldM (read_step e s) fs (new_fields s, [])) as [[fs' seen']|] eqn:Ef; [|discriminate].
      cbn [bind] in Hv. destruct (fold_total st s fs H _ _ _ _ Ef (new_fields s)) as (fs2' & ->). cbn [bind].
      unfold finish_read in *. cbn [fst snd] in *. destruct (first_missing (s_fields s) seen'); [discriminate|]. eexists. reflexivity.
    - destruct t; try discriminate. cbn [from_w Masked.from_wm] in *.
      destruct ((ttype_eqb kt (ttype_of e t1) && ttype_eqb vt (ttype_of e t2)) || (length kvs =? 0)%nat); [|discriminate].
      match type of Hv with bind (mapM ?G kvs) _ = _ => destruct (mapM G kvs) as [xs|] eqn:Em; [|discriminate] end.
      apply mapM_ok_Forall in Em.
      match goal with |- exists v', bind (Masked.mapM_sel _ _ ?K st ?F 0%nat kvs) _ = _ =>
        destruct (mapM_sel_total K st F kvs) with (i := 0%nat) as (ys & ->) end; [|eexists; reflexivity].
      rewrite Forall_forall in *. intros kv Hin. destruct (Em kv Hin) as (y & Hy). destruct (H kv Hin) as [_ Hx].
      destruct (from_w e t1 (fst kv)) as [k|]; [|discriminate]. cbn [bind] in Hy.
      destruct (from_w e t2 (snd kv)) as [x|] eqn:Ex; [|discriminate].
      split; [intro i; eexists; reflexivity|]. intro s. cbn [bind]. destruct (Hx _ _ Ex s) as (x' & ->). eexists. reflexivity.
  Qed.
End Total.

(* Read under ANY mask into ANY start object, of ANY wire struct the plain code reads: it succeeds,
   and stores what the plain code (with no field required) reads from the message restricted
   to the mask *)
Lemma masked_read_from cfg m e s fs0 wfs v0 :
  find_struct e (s_name s) = Some s ->
  from_wire e s (VStruct fs0) (WStruct wfs) = Ok v0 ->
  exists v, from_wire_masked cfg m e s (VStruct fs0) (WStruct wfs) = Ok v /\
            from_wire (relax e) (relax_s s) (VStruct fs0)
                      (filter_w_mask e m (TRef (s_name s)) (WStruct wfs)) = Ok v.
Proof.
  intros Hs H0. unfold from_wire in H0.
  destruct (foldM (read_step e s) wfs (fs0, [])) as [[fs' seen']|] eqn:Ef; [|discriminate]. cbn [bind] in H0.
  assert (HT : Forall (fun wf => read_succeeds (option mask) mquery e (snd wf)) wfs)
    by (apply Forall_forall; intros wf _; apply from_wm_total).
  destruct (fold_total (option mask) mquery e m s wfs HT _ _ _ _ Ef fs0) as (fs2 & Hm).
  assert (Hfin : finish_read s (fs2, seen') = Ok (VStruct fs2)).
  { unfold finish_read in *. cbn [fst snd] in *. destruct (first_missing (s_fields s) seen'); [discriminate | reflexivity]. }
  exists (VStruct fs2). unfold from_wire_masked, from_wire_m. rewrite Hm. cbn [bind]. split; [exact Hfin|].
  assert (HF : Forall (fun wf => read_is_filter (option mask) mquery None e (snd wf)) wfs)
    by (apply Forall_forall; intros wf _; apply (from_wm_filter (option mask) mquery None mquery_nil)).
  destruct (fold_filter (option mask) mquery None e m s wfs HF _ _ _ _ Hm []) as (seen2 & Hf).
  unfold filter_w_mask. rewrite filter_w_struct, Hs. unfold from_wire. rewrite Hf. cbn [bind]. apply finish_read_relax.
Qed.

(* into a fresh object, at byte level *)
Theorem masked_read_any_bytes cfg m e s bs v0 :
  find_struct e (s_name s) = Some s ->
  read_bytes e s (new_struct e s) bs = Ok v0 ->
  exists v w rest, dec_struct bs = Some (w, rest) /\
    read_bytes_masked cfg m e s (new_struct e s) bs = Ok v /\
    read_new (relax e) (relax_s s) (filter_w_mask e m (TRef (s_name s)) w) = Ok v.
Proof.
  intros Hs H0. unfold read_bytes, read_bytes_masked in *.
  destruct (dec_struct bs) as [[w rest]|]; [|discriminate].
  assert (exists wfs, w = WStruct wfs) as (wfs & ->).
  { unfold from_wire, new_struct in H0. destruct w; try discriminate. eexists. reflexivity. }
  destruct (masked_read_from cfg m e s _ wfs v0 Hs H0) as (v & Hv & Hf).
  exists v, (WStruct wfs), rest. split; [reflexivity|]. split; [exact Hv|].
  unfold read_new, new_struct. rewrite new_fields_relax. exact Hf.
Qed.
