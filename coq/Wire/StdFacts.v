(* Wire/StdFacts.v — facts about the standard generated codec (Wire/Std.v): the wire types of the
   regenerated table, induction and inversion principles for values and for a successful Write, the
   round trip Write/Read (to_from, write_read, write_read_bytes), what Write emits (to_w_wf,
   to_w_conforms, wire_shape), what Read skips and what it insists on, unions. *)
From Coq Require Import List ZArith Bool Lia.
From Coq.Strings Require Import Byte.
From Verif Require Import Base.Bytes Base.BE Wire.TType Wire.WVal Wire.Codec Wire.CodecFacts
  Wire.Schema Wire.Value Wire.GenTables Wire.Std.
Import ListNotations.
Open Scope Z_scope.

(* Std.v writes what [to_w], [norm] and [wt_val] do to one slot of a struct inline, as lambdas under [mapM],
   [map] and [forallb]. They get names here; the four equations after them tie the names (and Std.v's
   [read_step], [finish_read], which repeat the lambdas of [from_w]) to the model by computation. *)
Definition wfield_fn (e : env) (s : sschema) (p : Z * value) : result (option wfield) :=
  match find_field (fst p) (s_fields s) with
  | None => Err EBadValue
  | Some f =>
      if present f (snd p) then
        if base_ptr f then
          match snd p with
          | VSome x => bind (to_w e (f_ty f) x) (fun x => Ok (Some (ttype_of e (f_ty f), f_id f, x)))
          | _ => Err EBadValue end
        else bind (to_w e (f_ty f) (snd p)) (fun x => Ok (Some (ttype_of e (f_ty f), f_id f, x)))
      else Ok None
  end.

Definition norm_fn (e : env) (s : sschema) (p : Z * value) : Z * value :=
  match find_field (fst p) (s_fields s) with
  | Some f =>
      if present f (snd p) then
        (fst p, if base_ptr f then match snd p with VSome x => VSome (norm e (f_ty f) x) | o => o end
                else norm e (f_ty f) (snd p))
      else (fst p, init_slot f)
  | None => p end.

Definition slot_ok (e : env) (s : sschema) (p : Z * value) : bool :=
  match find_field (fst p) (s_fields s) with
  | Some f =>
      if base_ptr f then
        match snd p with
        | VNil => true
        | VSome x => wt_val e false (f_ty f) x
        | _ => false end
      else if is_optional f && is_nil (snd p) then
        negb (is_base (f_ty f)) || is_binary (f_ty f)
      else wt_val e false (f_ty f) (snd p)
  | None => false end.

Lemma to_w_struct e n fs :
  to_w e (TRef n) (VStruct fs) =
  match find_struct e n with
  | Some s =>
      let c := count_set (s_fields s) fs in
      if is_union s && negb (c =? 1)%nat then Err (EUnionCount c) else
      bind (mapM (wfield_fn e s) fs) (fun ofs => Ok (WStruct (cat_somes ofs)))
  | None => Err EUnknownStruct end.
Proof. reflexivity. Qed.

Lemma from_w_struct e n wfs :
  from_w e (TRef n) (WStruct wfs) =
  match find_struct e n with
  | Some s => bind (foldM (read_step e s) wfs (new_fields s, [])) (finish_read s)
  | None => Err EUnknownStruct end.
Proof. reflexivity. Qed.

Lemma norm_struct_eq e n fs :
  norm e (TRef n) (VStruct fs) =
  match find_struct e n with
  | Some s => VStruct (map (norm_fn e s) fs)
  | None => VStruct fs end.
Proof. reflexivity. Qed.

Lemma wt_struct_eq e key n fs :
  wt_val e key (TRef n) (VStruct fs) =
  match find_struct e n with
  | Some s =>
      list_eqbZ (map fst fs) (map f_id (s_fields s)) && forallb (slot_ok e s) fs &&
      (if is_union s then (count_set (s_fields s) fs =? 1)%nat else true)
  | None => false end.
Proof. reflexivity. Qed.

(* the wire type Thrift prescribes for a category *)
Definition cat_ttype (c : category) : ttype :=
  match c with
  | Cat_Bool => T_BOOL | Cat_Byte => T_BYTE | Cat_I16 => T_I16 | Cat_I32 => T_I32 | Cat_I64 => T_I64
  | Cat_Double => T_DOUBLE | Cat_String | Cat_Binary => T_STRING | Cat_Enum => T_I32
  | Cat_Struct | Cat_Union | Cat_Exception => T_STRUCT
  | Cat_List => T_LIST | Cat_Set => T_SET | Cat_Map => T_MAP end.

Lemma cat_ttype_spec e t : cat_ttype (category_of e t) = spec_ttype t.
Proof.
  destruct t; try reflexivity. cbn [category_of spec_ttype].
  destruct (find_struct e name) as [s|]; [destruct (s_kind s)|]; reflexivity.
Qed.

(* fifteen rows of the regenerated table, by evaluation *)
Lemma ttype_of_cat_spec :
  forallb (fun c => ttype_eqb (ttype_of_cat c) (cat_ttype c)) all_categories = true.
Proof. vm_compute. reflexivity. Qed.

Theorem ttype_of_spec e t : ttype_of e t = spec_ttype t.
Proof.
  rewrite <- (cat_ttype_spec e t). unfold ttype_of. apply ttype_eqb_eq.
  apply (proj1 (forallb_forall _ _) ttype_of_cat_spec). destruct (category_of e t); cbn; tauto.
Qed.

Section ValueInd.
  Variable P : value -> Prop.
  Hypothesis HBool : forall b, P (VBool b).
  Hypothesis HInt : forall z, P (VInt z).
  Hypothesis HDbl : forall b, P (VDbl b).
  Hypothesis HStr : forall s, P (VStr s).
  Hypothesis HBin : forall s, P (VBin s).
  Hypothesis HList : forall l, Forall P l -> P (VList l).
  Hypothesis HMap : forall kvs, Forall (fun kv => P (fst kv) /\ P (snd kv)) kvs -> P (VMap kvs).
  Hypothesis HStruct : forall fs, Forall (fun p => P (snd p)) fs -> P (VStruct fs).
  Hypothesis HNil : P VNil.
  Hypothesis HSome : forall v, P v -> P (VSome v).

  Fixpoint value_ind2 (v : value) : P v :=
    match v with
    | VBool b => HBool b | VInt z => HInt z | VDbl b => HDbl b | VStr s => HStr s | VBin s => HBin s
    | VList l => HList l ((fix go (l : list value) : Forall P l :=
                             match l with [] => Forall_nil P | x :: r => Forall_cons x (value_ind2 x) (go r) end) l)
    | VMap kvs => HMap kvs ((fix go (l : list (value*value)) : Forall (fun kv => P (fst kv) /\ P (snd kv)) l :=
                             match l with
                             | [] => Forall_nil _
                             | kv :: r => Forall_cons kv (conj (value_ind2 (fst kv)) (value_ind2 (snd kv))) (go r) end) kvs)
    | VStruct fs => HStruct fs ((fix go (l : list (Z*value)) : Forall (fun p => P (snd p)) l :=
                             match l with [] => Forall_nil _ | p :: r => Forall_cons p (value_ind2 (snd p)) (go r) end) fs)
    | VNil => HNil
    | VSome x => HSome x (value_ind2 x)
    end.
End ValueInd.

(* A base_ptr slot holds [VSome x]; the writer descends to [x], which is not what the plain principle
   offers for a struct.  Here the struct case also carries the fact for the payload of such a slot. *)
Lemma value_ind3 (P : value -> Prop) :
  (forall b, P (VBool b)) -> (forall z, P (VInt z)) -> (forall b, P (VDbl b)) ->
  (forall s, P (VStr s)) -> (forall s, P (VBin s)) ->
  (forall l, Forall P l -> P (VList l)) ->
  (forall kvs, Forall (fun kv => P (fst kv) /\ P (snd kv)) kvs -> P (VMap kvs)) ->
  (forall fs, Forall (fun p => P (snd p) /\ match snd p with VSome x => P x | _ => True end) fs -> P (VStruct fs)) ->
  P VNil -> (forall v, P v -> P (VSome v)) -> forall v, P v.
Proof.
  intros HBool HInt HDbl HStr HBin HList HMap HStruct HNil HSome v.
  enough (H : P v /\ match v with VSome x => P x | _ => True end) by apply H.
  induction v using value_ind2.
  1-5, 9: split; [auto | exact I].
  - split; [|exact I]. apply HList. eapply Forall_impl; [|exact H]. intros x Hx. apply Hx.
  - split; [|exact I]. apply HMap. eapply Forall_impl; [|exact H]. intros kv [Hk Hx]. split; [apply Hk | apply Hx].
  - split; [|exact I]. apply HStruct. exact H.
  - split; [apply HSome|]; apply IHv.
Qed.

Lemma bind_ok {A B} (r : result A) (f : A -> result B) b :
  bind r f = Ok b <-> exists a, r = Ok a /\ f a = Ok b.
Proof.
  destruct r as [a|e]; cbn; split.
  - intro H. exists a. auto.
  - intros (a' & [= <-] & H). exact H.
  - discriminate.
  - intros (a' & H & _). discriminate.
Qed.

Lemma mapM_ok {A B C} (f : A -> result B) (g : B -> result C) (h : A -> C) (l : list A) :
  Forall (fun x => exists w, f x = Ok w /\ g w = Ok (h x)) l ->
  exists ws, mapM f l = Ok ws /\ mapM g ws = Ok (map h l).
Proof.
  induction l as [|x l IH]; intro H.
  - exists []. split; reflexivity.
  - inversion H as [|? ? (w & Hf & Hg) Hl]; subst. destruct (IH Hl) as (ws & Hm & Hm2).
    exists (w :: ws). cbn. rewrite Hf, Hm, Hg, Hm2. split; reflexivity.
Qed.

Lemma mapM_Forall2 {A B} (f : A -> result B) l ws :
  mapM f l = Ok ws -> Forall2 (fun x w => f x = Ok w) l ws.
Proof.
  revert ws; induction l as [|x l IH]; intros ws H; cbn in H.
  - injection H as <-. constructor.
  - destruct (f x) as [y|] eqn:E; [|discriminate].
    destruct (mapM f l) as [ys|] eqn:E2; [|discriminate]. injection H as <-.
    constructor; [assumption | apply IH; reflexivity].
Qed.

Lemma mapM_Forall2_with {A B} (f : A -> result B) (Q : A -> Prop) (R : A -> B -> Prop) l ws :
  mapM f l = Ok ws -> Forall Q l -> (forall x w, Q x -> f x = Ok w -> R x w) -> Forall2 R l ws.
Proof.
  intros Hm HQ H. apply mapM_Forall2 in Hm. induction Hm as [|x w l ws Hxw _ IH]; [constructor|].
  inversion HQ; subst. constructor; [apply H; assumption | apply IH; assumption].
Qed.

Lemma Forall2_right {A B} (R : A -> B -> Prop) (S : B -> Prop) l ws :
  Forall2 R l ws -> (forall x w, In x l -> R x w -> S w) -> Forall S ws.
Proof.
  induction 1 as [|x w l ws Hxw _ IH]; intro H; constructor.
  - apply (H x); [left; reflexivity | assumption].
  - apply IH. intros y u Hy. apply H. right. assumption.
Qed.

Lemma len_ok_srange {A} (l : list A) : len_ok l = true -> in_srange 4 (Z.of_nat (length l)).
Proof. unfold len_ok. rewrite Z.ltb_lt. intro H. apply in_srange_4. lia. Qed.

Lemma Forall_cat_somes {A} (P : A -> Prop) (l : list (option A)) :
  Forall (fun o => match o with Some x => P x | None => True end) l -> Forall P (cat_somes l).
Proof.
  induction l as [|[x|] l IH]; intro H; inversion H; subst; cbn; [constructor | constructor; auto | auto].
Qed.

Lemma Forall2_out {A B} (R0 : A -> B -> Prop) (P Q : A -> Prop) (R : B -> Prop) l ws :
  Forall2 R0 l ws -> Forall P l -> Forall Q l ->
  (forall x w, P x -> Q x -> R0 x w -> R w) -> Forall R ws.
Proof.
  intros H2 HP HQ H. induction H2 as [|x w l' ws' Hxw H2 IH]; [constructor|].
  inversion HP; inversion HQ; subst. constructor; [eapply H; eauto | apply IH; assumption].
Qed.

Lemma forallb_Forall {A} (p : A -> bool) l : forallb p l = true <-> Forall (fun x => p x = true) l.
Proof. rewrite forallb_forall, Forall_forall. tauto. Qed.

Lemma Forall_and_impl {A} (P Q R : A -> Prop) l :
  Forall P l -> Forall Q l -> (forall x, P x -> Q x -> R x) -> Forall R l.
Proof.
  intros HP HQ H. rewrite Forall_forall in *. intros x Hx. apply H; auto.
Qed.

Lemma list_eqbZ_eq a b : list_eqbZ a b = true <-> a = b.
Proof.
  revert b; induction a as [|x a IH]; intros [|y b]; cbn; split; try discriminate; try reflexivity.
  - rewrite andb_true_iff, Z.eqb_eq, IH. intros [-> ->]. reflexivity.
  - intros [= -> ->]. rewrite Z.eqb_refl. cbn. apply IH. reflexivity.
Qed.

Lemma wt_struct_parts e key n s fs :
  find_struct e n = Some s -> wt_val e key (TRef n) (VStruct fs) = true ->
  map fst fs = map f_id (s_fields s) /\ Forall (fun p => slot_ok e s p = true) fs /\
  is_union s && negb (count_set (s_fields s) fs =? 1)%nat = false.
Proof.
  intros Hs H. rewrite wt_struct_eq, Hs in H.
  apply andb_true_iff in H. destruct H as [H Hun]. apply andb_true_iff in H. destruct H as [Hids Hslots].
  split; [apply list_eqbZ_eq; exact Hids|]. split; [apply forallb_Forall; exact Hslots|].
  destruct (is_union s); [|reflexivity]. rewrite Hun. reflexivity.
Qed.

Lemma slot_ok_payload e s f p x :
  find_field (fst p) (s_fields s) = Some f -> slot_ok e s p = true ->
  (if base_ptr f then snd p = VSome x else snd p = x) ->
  wt_val e false (f_ty f) x = true \/ x = VNil.
Proof.
  intros Hf Hok Hx. unfold slot_ok in Hok. rewrite Hf in Hok. destruct (base_ptr f).
  - rewrite Hx in Hok. left. exact Hok.
  - subst x. destruct (is_optional f && is_nil (snd p)) eqn:Eon; [|left; exact Hok].
    apply andb_true_iff in Eon. destruct Eon as [_ Hn]. destruct (snd p); try discriminate. right. reflexivity.
Qed.

Lemma existsb_eqb_In x l : existsb (Z.eqb x) l = true <-> In x l.
Proof.
  rewrite existsb_exists. split.
  - intros (y & Hy & E). apply Z.eqb_eq in E. subst y. exact Hy.
  - intro H. exists x. split; [exact H | apply Z.eqb_refl].
Qed.

Lemma nodupZ_NoDup l : nodupZ l = true <-> NoDup l.
Proof.
  induction l as [|x l IH]; cbn [nodupZ].
  - split; [constructor | reflexivity].
  - rewrite andb_true_iff, negb_true_iff, IH, <- not_true_iff_false, existsb_eqb_In. split.
    + intros [Hx Hl]. constructor; assumption.
    + intro H. inversion H; subst. split; assumption.
Qed.

Lemma find_field_In id l f : find_field id l = Some f -> In f l /\ f_id f = id.
Proof.
  induction l as [|g l IH]; cbn; [discriminate|].
  destruct (Z.eqb_spec id (f_id g)).
  - intros [= <-]. auto.
  - intro H. destruct (IH H). auto.
Qed.

Lemma find_field_nodup l g : NoDup (map f_id l) -> In g l -> find_field (f_id g) l = Some g.
Proof.
  induction l as [|h l IH]; [contradiction|]. cbn [map find_field In]. intros Hnd [->|Hin].
  - rewrite Z.eqb_refl. reflexivity.
  - inversion Hnd as [|? ? Hh Hl]; subst. destruct (Z.eqb_spec (f_id g) (f_id h)) as [E|_]; [|apply IH; assumption].
    exfalso. apply Hh. rewrite <- E. apply in_map. assumption.
Qed.

Lemma find_field_app_skip id l1 l2 :
  ~ In id (map f_id l1) -> find_field id (l1 ++ l2) = find_field id l2.
Proof.
  induction l1 as [|g l1 IH]; cbn; [reflexivity|]. intro H.
  destruct (Z.eqb_spec id (f_id g)); [exfalso; apply H; auto|]. apply IH. tauto.
Qed.

Lemma find_field_head f l : find_field (f_id f) (f :: l) = Some f.
Proof. cbn. rewrite Z.eqb_refl. reflexivity. Qed.

Lemma set_field_notin id v fs : ~ In id (map fst fs) -> set_field id v fs = fs.
Proof.
  induction fs as [|[i x] fs IH]; cbn; [reflexivity|]. intro H.
  destruct (Z.eqb_spec i id); [exfalso; apply H; auto|]. f_equal. apply IH. tauto.
Qed.

Lemma set_field_app id v a b : set_field id v (a ++ b) = set_field id v a ++ set_field id v b.
Proof. unfold set_field. apply map_app. Qed.

Lemma set_field_mid id v a x b :
  ~ In id (map fst a) -> ~ In id (map fst b) -> set_field id v (a ++ (id, x) :: b) = a ++ (id, v) :: b.
Proof.
  intros Ha Hb. rewrite set_field_app, (set_field_notin _ _ a Ha). cbn [set_field map fst].
  rewrite Z.eqb_refl. fold (set_field id v b). rewrite (set_field_notin _ _ b Hb). reflexivity.
Qed.

Lemma first_missing_none fields seen :
  (forall f, In f fields -> is_required f = true -> In (f_id f) seen) -> first_missing fields seen = None.
Proof.
  intro H. unfold first_missing.
  destruct (filter _ fields) as [|f l] eqn:E; [reflexivity|]. exfalso.
  assert (Hf : In f (f :: l)) by (left; reflexivity). rewrite <- E in Hf. apply filter_In in Hf.
  destruct Hf as [Hin Hf]. apply andb_true_iff in Hf. destruct Hf as [Hr Hn]. apply negb_true_iff in Hn.
  apply not_true_iff_false in Hn. apply Hn, existsb_eqb_In, H; assumption.
Qed.

Lemma first_missing_some fields seen f :
  In f fields -> is_required f = true -> ~ In (f_id f) seen -> exists id, first_missing fields seen = Some id.
Proof.
  intros Hin Hreq Hno. unfold first_missing.
  assert (H : In f (filter (fun g => is_required g && negb (existsb (Z.eqb (f_id g)) seen)) fields)).
  { apply filter_In. split; [assumption|]. rewrite Hreq. cbn [andb]. apply negb_true_iff.
    apply not_true_iff_false. rewrite existsb_eqb_In. exact Hno. }
  destruct (filter _ fields) as [|g l]; [contradiction|]. eexists. reflexivity.
Qed.

Lemma wf_env_struct e n s : wf_env e = true -> find_struct e n = Some s -> wf_struct s = true.
Proof.
  unfold wf_env, find_struct. intro H. rewrite forallb_forall in H.
  induction (structs e) as [|s' l IH]; cbn; [discriminate|].
  destruct (beqb n (s_name s')).
  - intros [= <-]. apply H. left. reflexivity.
  - apply IH. intros x Hx. apply H. right. assumption.
Qed.

Lemma wf_struct_nodup s : wf_struct s = true -> NoDup (map f_id (s_fields s)).
Proof. unfold wf_struct. rewrite !andb_true_iff. intros [[H _] _]. apply nodupZ_NoDup. assumption. Qed.

Lemma wf_struct_ids s f : wf_struct s = true -> In f (s_fields s) -> in_srange 2 (f_id f).
Proof.
  unfold wf_struct. rewrite !andb_true_iff. intros [[_ H] _] Hin. rewrite forallb_forall in H.
  specialize (H f Hin). apply in_srange_2. lia.
Qed.

Lemma norm_fn_fst e s p : fst (norm_fn e s p) = fst p.
Proof.
  unfold norm_fn. destruct (find_field (fst p) (s_fields s)); [|reflexivity].
  destruct (present f (snd p)); reflexivity.
Qed.

Lemma wfield_fn_inv e s p ow :
  wfield_fn e s p = Ok ow ->
  exists f, find_field (fst p) (s_fields s) = Some f /\
    match ow with
    | None => present f (snd p) = false
    | Some wf => present f (snd p) = true /\ exists x wx,
        (if base_ptr f then snd p = VSome x else snd p = x) /\
        to_w e (f_ty f) x = Ok wx /\ wf = (ttype_of e (f_ty f), f_id f, wx)
    end.
Proof.
  unfold wfield_fn. destruct (find_field (fst p) (s_fields s)) as [f|]; [|discriminate].
  intro H. exists f. split; [reflexivity|].
  destruct (present f (snd p)); [|injection H as <-; reflexivity].
  assert (Hx : exists x, (if base_ptr f then snd p = VSome x else snd p = x) /\
                         bind (to_w e (f_ty f) x) (fun wx => Ok (Some (ttype_of e (f_ty f), f_id f, wx))) = Ok ow).
  { destruct (base_ptr f); [|exists (snd p); split; [reflexivity | exact H]].
    destruct (snd p) as [| | | | | | | | |x]; try discriminate. exists x. split; [reflexivity | exact H]. }
  destruct Hx as (x & Hx & Hb). apply bind_ok in Hb. destruct Hb as (wx & Hwx & [= <-]).
  split; [reflexivity|]. exists x, wx. auto.
Qed.

(* Inversion of a successful [to_w]: one case per shape the writer accepts.  Containers hand out the
   written elements paired with the elements, the struct case what [wfield_fn_inv] says of every slot. *)
Section ToWInd.
  Variable e : env.
  Variable P : ty -> value -> wval -> Prop.
  Hypothesis HBool : forall b, P TBool (VBool b) (WBool b).
  Hypothesis HByte : forall z, P TByte (VInt z) (WByte z).
  Hypothesis HI16 : forall z, P TI16 (VInt z) (WI16 z).
  Hypothesis HI32 : forall z, P TI32 (VInt z) (WI32 z).
  Hypothesis HI64 : forall z, P TI64 (VInt z) (WI64 z).
  Hypothesis HEnum : forall n z, P (TEnum n) (VInt z) (WI32 (wrap32 z)).
  Hypothesis HDbl : forall b, P TDouble (VDbl b) (WDouble b).
  Hypothesis HStr : forall s, P TString (VStr s) (WStr s).
  Hypothesis HBin : forall s, P TBinary (VBin s) (WStr s).
  Hypothesis HNilBin : P TBinary VNil (WStr []).
  Hypothesis HNilList : forall et, P (TList et) VNil (WList (ttype_of e et) []).
  Hypothesis HNilSet : forall et, P (TSet et) VNil (WSet (ttype_of e et) []).
  Hypothesis HNilMap : forall kt vt, P (TMap kt vt) VNil (WMap (ttype_of e kt) (ttype_of e vt) []).
  Hypothesis HNilRef : forall n s, find_struct e n = Some s -> is_union s = false -> P (TRef n) VNil (WStruct []).
  Hypothesis HList : forall et l ws,
    Forall2 (fun x w => to_w e et x = Ok w /\ P et x w) l ws -> P (TList et) (VList l) (WList (ttype_of e et) ws).
  Hypothesis HSet : forall et l ws, set_has_dup l = false ->
    Forall2 (fun x w => to_w e et x = Ok w /\ P et x w) l ws -> P (TSet et) (VList l) (WSet (ttype_of e et) ws).
  Hypothesis HMap : forall kt vt kvs ws,
    Forall2 (fun kv w => (to_w e kt (fst kv) = Ok (fst w) /\ P kt (fst kv) (fst w)) /\
                         (to_w e vt (snd kv) = Ok (snd w) /\ P vt (snd kv) (snd w))) kvs ws ->
    P (TMap kt vt) (VMap kvs) (WMap (ttype_of e kt) (ttype_of e vt) ws).
  Hypothesis HStruct : forall n s fs ofs,
    find_struct e n = Some s ->
    is_union s && negb (count_set (s_fields s) fs =? 1)%nat = false ->
    mapM (wfield_fn e s) fs = Ok ofs ->
    Forall2 (fun p ow => exists f, find_field (fst p) (s_fields s) = Some f /\
               match ow with
               | None => present f (snd p) = false
               | Some wf => present f (snd p) = true /\ exists x wx,
                   (if base_ptr f then snd p = VSome x else snd p = x) /\
                   to_w e (f_ty f) x = Ok wx /\ wf = (ttype_of e (f_ty f), f_id f, wx) /\ P (f_ty f) x wx
               end) fs ofs ->
    P (TRef n) (VStruct fs) (WStruct (cat_somes ofs)).

  Theorem to_w_ind : forall v t w, to_w e t v = Ok w -> P t v w.
  Proof.
    induction v using value_ind3; intros t w Hw.
    1-5: destruct t; try discriminate; injection Hw as <-; auto.
    - destruct t; try discriminate; cbn [to_w] in Hw.
      + apply bind_ok in Hw. destruct Hw as (ws & Hm & [= <-]). apply HList.
        apply (mapM_Forall2_with _ _ _ _ _ Hm H). auto.
      + destruct (set_has_dup l) eqn:Hd; [discriminate|].
        apply bind_ok in Hw. destruct Hw as (ws & Hm & [= <-]). apply HSet; [exact Hd|].
        apply (mapM_Forall2_with _ _ _ _ _ Hm H). auto.
    - destruct t; try discriminate; cbn [to_w] in Hw.
      apply bind_ok in Hw. destruct Hw as (ws & Hm & [= <-]). apply HMap.
      apply (mapM_Forall2_with _ _ _ _ _ Hm H). intros kv kw [Hk Hx] Hkv.
      apply bind_ok in Hkv. destruct Hkv as (wk & Hwk & Hkv).
      apply bind_ok in Hkv. destruct Hkv as (wx & Hwx & [= <-]). cbn [fst snd]. auto.
    - destruct t; try discriminate. rewrite to_w_struct in Hw.
      destruct (find_struct e name) as [s|] eqn:Hs; [|discriminate]. cbn zeta in Hw.
      destruct (is_union s && negb (count_set (s_fields s) fs =? 1)%nat) eqn:Hu; [discriminate|].
      apply bind_ok in Hw. destruct Hw as (ofs & Hm & [= <-]). apply (HStruct _ _ _ _ Hs Hu Hm).
      apply (mapM_Forall2_with _ _ _ _ _ Hm H). intros p ow [Hp Hsome] How.
      destruct (wfield_fn_inv _ _ _ _ How) as (f & Hf & Hshape). exists f. split; [exact Hf|].
      destruct ow as [wf|]; [|exact Hshape]. destruct Hshape as (Hpr & x & wx & Hx & Hwx & ->).
      split; [exact Hpr|]. exists x, wx. repeat split; try assumption.
      destruct (base_ptr f); [rewrite Hx in Hsome; apply Hsome | subst x; apply Hp]; exact Hwx.
    - destruct t; try discriminate; cbn [to_w] in Hw.
      + injection Hw as <-. apply HNilBin.
      + destruct (find_struct e name) as [s|] eqn:Hs; [|discriminate].
        destruct (is_union s) eqn:Hu; [discriminate|]. injection Hw as <-. apply (HNilRef _ _ Hs Hu).
      + injection Hw as <-. apply HNilList.
      + injection Hw as <-. apply HNilSet.
      + injection Hw as <-. apply HNilMap.
    - discriminate.
  Qed.
End ToWInd.

Definition seen_add (f : field) (seen : list Z) : list Z := if is_required f then f_id f :: seen else seen.

(* A writer [emit] over the slots of a struct value, then a reader [rstep] over what was emitted, started on
   any slots [ini] with the ids of the schema, arrives at [map nfn] of the value when the three agree slot by slot. *)
Section FoldSlots.
  Variable s : sschema.
  Variable emit : Z * value -> result (option wfield).
  Variable rstep : rstate -> wfield -> result rstate.
  Variable nfn : Z * value -> Z * value.

  (* slot [p] of field [f] where the reader starts with [x0]: nothing is emitted (then [f] is not required
     and [x0] is already the result), or a field that the reader stores, or one that it skips *)
  Definition slot_good (f : field) (p : Z * value) (x0 : value) : Prop :=
    exists x, nfn p = (fst p, x) /\ exists ow, emit p = Ok ow /\
      match ow with
      | Some wf =>
          (forall fs seen, rstep (fs, seen) wf = Ok (set_field (f_id f) x fs, seen_add f seen)) \/
          (x = x0 /\ forall fs seen, rstep (fs, seen) wf = Ok (fs, seen_add f seen))
      | None => is_required f = false /\ x = x0
      end.

  Lemma fold_slots : NoDup (map f_id (s_fields s)) ->
    forall todo ini ftodo done fdone seen,
      s_fields s = fdone ++ ftodo ->
      map fst done = map f_id fdone ->
      map fst todo = map f_id ftodo ->
      map fst ini = map f_id ftodo ->
      Forall (fun p => forall f x0, find_field (fst p) (s_fields s) = Some f -> In (f_id f, x0) ini ->
                                    slot_good f p x0) todo ->
      exists ofs seen',
        mapM emit todo = Ok ofs /\
        foldM rstep (cat_somes ofs) (done ++ ini, seen) = Ok (done ++ map nfn todo, seen') /\
        (forall id, In id seen -> In id seen') /\
        (forall f, In f ftodo -> is_required f = true -> In (f_id f) seen').
  Proof.
    intros Hnd. induction todo as [|p todo IH]; intros ini ftodo done fdone seen Hsplit Hdone Htodo Hini Hgood.
    - destruct ftodo; [|discriminate]. destruct ini; [|discriminate]. exists [], seen. cbn. repeat split; auto. intros f [].
    - destruct ftodo as [|f ftodo]; [discriminate|]. destruct ini as [|[k x0] ini]; [discriminate|].
      cbn [map fst] in Htodo, Hini. injection Htodo as Hid Htodo. injection Hini as -> Hini.
      inversion Hgood as [|? ? Hp Hrest]; subst.
      assert (Hnotin : ~ In (f_id f) (map f_id fdone) /\ ~ In (f_id f) (map f_id ftodo)).
      { rewrite Hsplit, map_app in Hnd. cbn [map] in Hnd. apply NoDup_remove_2 in Hnd.
        rewrite in_app_iff in Hnd. tauto. }
      assert (Hfind : find_field (f_id f) (s_fields s) = Some f).
      { rewrite Hsplit, find_field_app_skip by apply Hnotin. apply find_field_head. }
      rewrite Hid in Hp. destruct (Hp f x0 Hfind (or_introl eq_refl)) as (x & Hn & ow & How & Hshape).
      assert (Hsplit' : s_fields s = (fdone ++ [f]) ++ ftodo) by (rewrite <- app_assoc; exact Hsplit).
      assert (Hdone' : map fst (done ++ [nfn p]) = map f_id (fdone ++ [f])).
      { rewrite !map_app, Hdone, Hn, Hid. reflexivity. }
      assert (Hrest' : Forall (fun q => forall g y, find_field (fst q) (s_fields s) = Some g -> In (f_id g, y) ini ->
                                                    slot_good g q y) todo).
      { eapply Forall_impl; [|exact Hrest]. intros q Hq g y Hg Hy. apply Hq; [exact Hg | right; exact Hy]. }
      pose (seen1 := match ow with Some _ => seen_add f seen | None => seen end).
      destruct (IH ini ftodo _ _ seen1 Hsplit' Hdone' Htodo Hini Hrest') as (ofs & seen' & Hm & Hfold & Hmono & Hreq).
      rewrite <- !app_assoc in Hfold. cbn [app] in Hfold. rewrite Hn, Hid in Hfold.
      exists (ow :: ofs), seen'. split; [cbn [mapM]; rewrite How, Hm; reflexivity|]. cbn [map]. rewrite Hn, Hid.
      destruct ow as [wf|]; cbn [cat_somes foldM].
      + split.
        * destruct Hshape as [Hset | [-> Hskip]]; [|rewrite Hskip; exact Hfold].
          rewrite Hset, set_field_mid by (rewrite ?Hdone, ?Hini; apply Hnotin). exact Hfold.
        * unfold seen1, seen_add in *. split.
          -- intros id0 Hin. apply Hmono. destruct (is_required f); [right|]; assumption.
          -- intros g [<-|Hg] Hrq; [|apply Hreq; assumption]. apply Hmono. rewrite Hrq. left. reflexivity.
      + destruct Hshape as (Hnr & ->). split; [exact Hfold|]. split; [exact Hmono|].
        intros g [<-|Hg] Hrq; [|apply Hreq; assumption]. congruence.
  Qed.

  Corollary fold_slots_all : NoDup (map f_id (s_fields s)) ->
    forall fs ini, map fst fs = map f_id (s_fields s) -> map fst ini = map f_id (s_fields s) ->
      Forall (fun p => forall f x0, find_field (fst p) (s_fields s) = Some f -> In (f_id f, x0) ini ->
                                    slot_good f p x0) fs ->
      exists ofs, mapM emit fs = Ok ofs /\
        bind (foldM rstep (cat_somes ofs) (ini, [])) (finish_read s) = Ok (VStruct (map nfn fs)).
  Proof.
    intros Hnd fs ini Hids Hini Hgood.
    destruct (fold_slots Hnd fs ini (s_fields s) [] [] [] eq_refl eq_refl Hids Hini Hgood) as (ofs & seen' & Hm & Hfold & _ & Hreq).
    exists ofs. split; [exact Hm|]. cbn [app] in Hfold. rewrite Hfold. cbn [bind].
    unfold finish_read. cbn [fst snd]. rewrite first_missing_none; [reflexivity|].
    intros f Hin Hr. apply Hreq; assumption.
  Qed.

  (* into the fresh object: the start slot with the id of a field is that of the field, ids being distinct *)
  Corollary fold_slots_new : NoDup (map f_id (s_fields s)) ->
    forall fs, map fst fs = map f_id (s_fields s) ->
      Forall (fun p => forall f, find_field (fst p) (s_fields s) = Some f -> slot_good f p (init_slot f)) fs ->
      exists ofs, mapM emit fs = Ok ofs /\
        bind (foldM rstep (cat_somes ofs) (new_fields s, [])) (finish_read s) = Ok (VStruct (map nfn fs)).
  Proof.
    intros Hnd fs Hids Hgood. apply fold_slots_all; [exact Hnd | exact Hids | apply map_map |].
    eapply Forall_impl; [|exact Hgood]. intros p Hp f x0 Hf Hin.
    apply in_map_iff in Hin. destruct Hin as (g & [= Hg <-] & Hin). destruct (find_field_In _ _ _ Hf) as [_ Hid].
    pose proof (find_field_nodup _ g Hnd Hin) as Hfg. rewrite Hg, Hid, Hf in Hfg. injection Hfg as <-. exact (Hp f Hf).
  Qed.
End FoldSlots.

Section RoundTrip.
  Variable e : env.
  Hypothesis Henv : wf_env e = true.

  (* what one slot contributes: an emitted field that reads back as the normalised slot, or nothing *)
  Definition field_good (s : sschema) (f : field) (p : Z * value) : Prop :=
    exists ow, wfield_fn e s p = Ok ow /\
      match ow with
      | Some (t', id, x) =>
          t' = ttype_of e (f_ty f) /\ id = f_id f /\ (is_required f = true -> True) /\
          exists v', from_w e (f_ty f) x = Ok v' /\ norm_fn e s p = (fst p, wrap_slot f v')
      | None => is_optional f = true /\ norm_fn e s p = (fst p, init_slot f)
      end.

  Lemma field_good_intro s f p :
    find_field (fst p) (s_fields s) = Some f ->
    slot_ok e s p = true ->
    (forall t key, wt_val e key t (snd p) = true ->
       exists w, to_w e t (snd p) = Ok w /\ from_w e t w = Ok (norm e t (snd p))) ->
    (forall x, snd p = VSome x -> forall t key, wt_val e key t x = true ->
       exists w, to_w e t x = Ok w /\ from_w e t w = Ok (norm e t x)) ->
    field_good s f p.
  Proof.
    intros Hf Hok HQ HQs. unfold field_good, wfield_fn, norm_fn, slot_ok in *. rewrite Hf in *.
    destruct (present f (snd p)) eqn:Hp.
    - (* the payload, written and read back *)
      assert (Hx : exists x w, (if base_ptr f then snd p = VSome x else snd p = x) /\
                     to_w e (f_ty f) x = Ok w /\ from_w e (f_ty f) w = Ok (norm e (f_ty f) x)).
      { destruct (base_ptr f) eqn:Hb.
        - destruct (snd p) as [| | | | | | | | |x] eqn:Es; try discriminate.
          + (* VNil under base_ptr: not present *)
            exfalso. unfold present, isset, base_ptr in *.
            rewrite !andb_true_iff in Hb. destruct Hb as [[[Ho Hd] _] _].
            rewrite Ho in Hp. cbn in Hp. apply negb_true_iff in Hd. unfold has_default in Hd.
            destruct (f_default f); [discriminate|]. cbn in Hp. discriminate.
          + destruct (HQs x eq_refl _ _ Hok) as (w & Hw & Hr). exists x, w. auto.
        - destruct (is_optional f && is_nil (snd p)) eqn:Eon;
            [|destruct (HQ _ _ Hok) as (w & Hw & Hr); exists (snd p), w; auto].
          (* optional, nil, yet present: a binary field with a default *)
          apply andb_true_iff in Eon. destruct Eon as [Ho Hn]. destruct (snd p); try discriminate.
          unfold present, isset in Hp. rewrite Ho in Hp. cbn [negb orb] in Hp.
          destruct (f_default f) as [l|]; [|discriminate].
          destruct (is_base (f_ty f)) eqn:Eb; [|discriminate].
          cbn [negb orb] in Hok. destruct (f_ty f); try discriminate. exists VNil, (WStr []). auto. }
      destruct Hx as (x & w & Hx & Hw & Hr). exists (Some (ttype_of e (f_ty f), f_id f, w)).
      unfold wrap_slot.
      (* held behind a pointer or not: the same emitted field, its header, and the payload read back *)
      destruct (base_ptr f); rewrite Hx, Hw; cbn [bind].
      all: split; [reflexivity|]; split; [reflexivity|]; split; [reflexivity|]; split; [trivial|].
      all: exists (norm e (f_ty f) x); split; [exact Hr | reflexivity].
    - exists None. split; [reflexivity|]. split; [|reflexivity].
      unfold present in Hp. apply orb_false_iff in Hp. destruct Hp as [Hp _].
      apply negb_false_iff in Hp. exact Hp.
  Qed.

  Lemma read_step_field s f x v' st :
    find_field (f_id f) (s_fields s) = Some f ->
    from_w e (f_ty f) x = Ok v' ->
    read_step e s st (ttype_of e (f_ty f), f_id f, x) =
      Ok (set_field (f_id f) (wrap_slot f v') (fst st), if is_required f then f_id f :: snd st else snd st).
  Proof.
    intros Hf Hr. unfold read_step. cbn [fst snd]. rewrite Hf, ttype_eqb_refl, Hr. reflexivity.
  Qed.

  (* the start slot does not matter for a field that is not optional: it is always on the wire *)
  Lemma field_good_slot s f p x0 :
    find_field (fst p) (s_fields s) = Some f -> field_good s f p -> is_optional f = false \/ x0 = init_slot f ->
    slot_good (wfield_fn e s) (read_step e s) (norm_fn e s) f p x0.
  Proof.
    intros Hf (ow & How & Hshape) Hx0. destruct (find_field_In _ _ _ Hf) as [_ Hid]. rewrite <- Hid in Hf.
    destruct ow as [[[t' id] x]|].
    - destruct Hshape as (-> & -> & _ & v' & Hr & Hn). exists (wrap_slot f v'). split; [exact Hn|].
      eexists. split; [exact How|]. left. intros fs seen. exact (read_step_field s f x v' (fs, seen) Hf Hr).
    - destruct Hshape as (Hopt & Hn). destruct Hx0 as [Hno | ->]; [congruence|].
      exists (init_slot f). split; [exact Hn|]. exists None. split; [exact How|].
      split; [|reflexivity]. unfold is_optional, is_required in *. destruct (f_req f); try discriminate; reflexivity.
  Qed.

  Lemma read_fold s fs : NoDup (map f_id (s_fields s)) -> map fst fs = map f_id (s_fields s) ->
    Forall (fun p => forall f, find_field (fst p) (s_fields s) = Some f -> field_good s f p) fs ->
    exists ofs, mapM (wfield_fn e s) fs = Ok ofs /\
      bind (foldM (read_step e s) (cat_somes ofs) (new_fields s, [])) (finish_read s) = Ok (VStruct (map (norm_fn e s) fs)).
  Proof.
    intros Hnd Hids Hgood. apply fold_slots_new; [exact Hnd | exact Hids |].
    eapply Forall_impl; [|exact Hgood]. intros p Hp f Hf. apply field_good_slot; [exact Hf | exact (Hp f Hf) | right; reflexivity].
  Qed.

  Lemma no_required_first_missing fields seen :
    existsb is_required fields = false -> first_missing fields seen = None.
  Proof.
    intro H. apply first_missing_none. intros f Hin Hr.
    assert (existsb is_required fields = true) by (apply existsb_exists; exists f; auto). congruence.
  Qed.

  Lemma elems_to_from et l :
    Forall (fun x => forall t key, wt_val e key t x = true ->
              exists w, to_w e t x = Ok w /\ from_w e t w = Ok (norm e t x)) l ->
    forallb (wt_val e false et) l = true ->
    exists ws, mapM (to_w e et) l = Ok ws /\ mapM (from_w e et) ws = Ok (map (norm e et) l).
  Proof.
    intros H Hall. apply forallb_Forall in Hall. apply mapM_ok.
    eapply Forall_and_impl; [exact H | exact Hall |]. intros x Hx Hwx. exact (Hx _ _ Hwx).
  Qed.

  Theorem to_from : forall v t key, wt_val e key t v = true ->
    exists w, to_w e t v = Ok w /\ from_w e t w = Ok (norm e t v).
  Proof.
    induction v using value_ind3; intros t key Hwt.
    1-5: destruct t; try discriminate; eexists; split; reflexivity.
    - destruct t; try discriminate; cbn [wt_val] in Hwt; apply andb_true_iff in Hwt.
      + destruct (elems_to_from _ _ H (proj2 Hwt)) as (ws & Hm & Hm2).
        exists (WList (ttype_of e t) ws). cbn [to_w from_w]. rewrite Hm. cbn [bind]. split; [reflexivity|].
        rewrite ttype_eqb_refl. cbn [orb]. rewrite Hm2. reflexivity.
      + destruct Hwt as [Hwt Hdup]. apply andb_true_iff in Hwt. apply negb_true_iff in Hdup.
        destruct (elems_to_from _ _ H (proj2 Hwt)) as (ws & Hm & Hm2).
        exists (WSet (ttype_of e t) ws). cbn [to_w from_w]. unfold set_has_dup. rewrite Hdup, Hm. cbn [bind].
        split; [reflexivity|]. rewrite ttype_eqb_refl. cbn [orb]. rewrite Hm2. reflexivity.
    - destruct t; try discriminate; cbn [wt_val] in Hwt.
      apply andb_true_iff in Hwt. destruct Hwt as [Hwt _]. apply andb_true_iff in Hwt.
      destruct Hwt as [_ Hall]. apply forallb_Forall in Hall.
      set (f := fun kv : value * value => bind (to_w e t1 (fst kv)) (fun k =>
                  bind (to_w e t2 (snd kv)) (fun x => Ok (k, x)))).
      set (g := fun kv : wval * wval => bind (from_w e t1 (fst kv)) (fun k =>
                  bind (from_w e t2 (snd kv)) (fun x => Ok (k, x)))).
      set (h := fun kv : value * value => (norm e t1 (fst kv), norm e t2 (snd kv))).
      assert (HF : Forall (fun kv => exists w, f kv = Ok w /\ g w = Ok (h kv)) kvs).
      { eapply Forall_and_impl; [exact H | exact Hall |]. intros kv [Hk Hx] Hw.
        apply andb_true_iff in Hw. destruct Hw as [Hwk Hwx].
        destruct (Hk _ _ Hwk) as (wk & Hk1 & Hk2). destruct (Hx _ _ Hwx) as (wx & Hx1 & Hx2).
        exists (wk, wx). unfold f, g, h. cbn [fst snd]. rewrite Hk1, Hx1, Hk2, Hx2. split; reflexivity. }
      destruct (mapM_ok _ _ _ _ HF) as (ws & Hm & Hm2).
      exists (WMap (ttype_of e t1) (ttype_of e t2) ws). cbn [to_w from_w norm].
      fold f. fold g. fold h. rewrite Hm. cbn [bind]. split; [reflexivity|].
      rewrite !ttype_eqb_refl. cbn [andb orb]. rewrite Hm2. reflexivity.
    - destruct t; try discriminate. rewrite to_w_struct, norm_struct_eq.
      destruct (find_struct e name) as [s|] eqn:Hs; [|rewrite wt_struct_eq, Hs in Hwt; discriminate].
      destruct (wt_struct_parts _ _ _ _ _ Hs Hwt) as (Hids & Hslots & Hu).
      pose proof (wf_struct_nodup _ (wf_env_struct _ _ _ Henv Hs)) as Hnd.
      assert (Hgood : Forall (fun p => forall f, find_field (fst p) (s_fields s) = Some f -> field_good s f p) fs).
      { eapply Forall_and_impl; [exact H | exact Hslots |]. intros p [Hp Hsome] Hok f Hf.
        apply field_good_intro; try assumption. intros x Ex. rewrite Ex in Hsome. exact Hsome. }
      destruct (read_fold s fs Hnd Hids Hgood) as (ofs & Hm & Hread).
      cbn zeta. rewrite Hu, Hm. cbn [bind]. eexists. split; [reflexivity|].
      rewrite from_w_struct, Hs. exact Hread.
    - destruct t; try discriminate; cbn [wt_val] in Hwt.
      3-5: eexists; (split; [reflexivity|]); cbn [from_w length Nat.eqb]; rewrite orb_true_r; reflexivity.
      + exists (WStr []). split; reflexivity.
      + destruct (find_struct e name) as [s|] eqn:Hs; [|discriminate].
        apply andb_true_iff in Hwt. destruct Hwt as [Hnu Hnr]. apply negb_true_iff in Hnu, Hnr.
        exists (WStruct []). cbn [to_w norm]. rewrite Hs, Hnu. split; [reflexivity|].
        rewrite from_w_struct, Hs. cbn [foldM bind]. unfold finish_read. cbn [fst snd].
        rewrite no_required_first_missing by assumption. reflexivity.
    - discriminate.
  Qed.
End RoundTrip.

Lemma to_wire_ok e s fs w : find_struct e (s_name s) = Some s ->
  to_wire e s (VStruct fs) = Ok w <->
  is_union s && negb (count_set (s_fields s) fs =? 1)%nat = false /\
  exists ofs, mapM (wfield_fn e s) fs = Ok ofs /\ w = WStruct (cat_somes ofs).
Proof.
  intro Hs. unfold to_wire. rewrite to_w_struct, Hs. cbn zeta.
  destruct (is_union s && negb (count_set (s_fields s) fs =? 1)%nat).
  - split; [discriminate | intros [H _]; discriminate].
  - rewrite bind_ok. split.
    + intros (ofs & Hm & [= <-]). eauto.
    + intros [_ (ofs & Hm & ->)]. eauto.
Qed.

Lemma wt_is_struct e s v : wt e s v = true -> exists fs, v = VStruct fs.
Proof.
  unfold wt. destruct (find_struct e (s_name s)); [|discriminate].
  destruct v; try discriminate. intros _. eexists. reflexivity.
Qed.

Lemma wt_wt_val e s v : wt e s v = true -> wt_val e false (TRef (s_name s)) v = true.
Proof.
  unfold wt. destruct (find_struct e (s_name s)); [|discriminate].
  rewrite andb_true_iff. tauto.
Qed.

Lemma read_new_from_w e s wfs : find_struct e (s_name s) = Some s ->
  read_new e s (WStruct wfs) = from_w e (TRef (s_name s)) (WStruct wfs).
Proof. intro Hs. rewrite from_w_struct, Hs. reflexivity. Qed.

Theorem write_read e s v :
  wf_env e = true -> find_struct e (s_name s) = Some s -> wt e s v = true ->
  exists wfs, to_wire e s v = Ok (WStruct wfs) /\ read_new e s (WStruct wfs) = Ok (norm_struct e s v).
Proof.
  intros Henv Hs Hwt. destruct (wt_is_struct _ _ _ Hwt) as (fs & ->).
  destruct (to_from e Henv (VStruct fs) _ _ (wt_wt_val _ _ _ Hwt)) as (w & Hw & Hr).
  destruct (proj1 (to_wire_ok e s fs w Hs) Hw) as (_ & ofs & _ & ->).
  exists (cat_somes ofs). split; [exact Hw|]. rewrite read_new_from_w by exact Hs. exact Hr.
Qed.

(* headers Thrift prescribes for the fields of a value: declaration order, schema id, spec wire type,
   non-optional fields always, optional fields iff set *)
Definition emitted_hdrs (s : sschema) (fs : list (Z * value)) : list (ttype * Z) :=
  cat_somes (map (fun p => match find_field (fst p) (s_fields s) with
                           | Some f => if present f (snd p) then Some (spec_ttype (f_ty f), f_id f) else None
                           | None => None end) fs).

Definition hdr (wf : wfield) : ttype * Z := (fst (fst wf), snd (fst wf)).

(* every container header and every nested field carries the wire type of its IDL type *)
Fixpoint conforms (e : env) (t : ty) (w : wval) {struct w} : bool :=
  match w with
  | WBool _ => match t with TBool => true | _ => false end
  | WByte _ => match t with TByte => true | _ => false end
  | WDouble _ => match t with TDouble => true | _ => false end
  | WI16 _ => match t with TI16 => true | _ => false end
  | WI32 _ => match t with TI32 | TEnum _ => true | _ => false end
  | WI64 _ => match t with TI64 => true | _ => false end
  | WStr _ => match t with TString | TBinary => true | _ => false end
  | WList et l => match t with TList a => ttype_eqb et (spec_ttype a) && forallb (conforms e a) l | _ => false end
  | WSet et l => match t with TSet a => ttype_eqb et (spec_ttype a) && forallb (conforms e a) l | _ => false end
  | WMap kt vt kvs =>
      match t with
      | TMap a b => ttype_eqb kt (spec_ttype a) && ttype_eqb vt (spec_ttype b) &&
                    forallb (fun kv => conforms e a (fst kv) && conforms e b (snd kv)) kvs
      | _ => false end
  | WStruct wfs =>
      match t with
      | TRef n => match find_struct e n with
                  | Some s => forallb (fun wf => match find_field (snd (fst wf)) (s_fields s) with
                                                 | Some f => ttype_eqb (fst (fst wf)) (spec_ttype (f_ty f)) &&
                                                             conforms e (f_ty f) (snd wf)
                                                 | None => false end) wfs
                  | None => false end
      | _ => false end
  end.

Theorem to_w_conforms e : forall v t w, to_w e t v = Ok w -> conforms e t w = true.
Proof.
  apply (to_w_ind e (fun t _ w => conforms e t w = true)).
  1-10: intros; reflexivity.
  1-2: intro et; cbn [conforms forallb]; rewrite ttype_of_spec, ttype_eqb_refl; reflexivity.
  - intros kt vt. cbn [conforms forallb]. rewrite !ttype_of_spec, !ttype_eqb_refl. reflexivity.
  - intros n s Hs _. cbn [conforms]. rewrite Hs. reflexivity.
  - intros et l ws H. cbn [conforms]. rewrite ttype_of_spec, ttype_eqb_refl.
    apply forallb_Forall, (Forall2_right _ _ _ _ H). intros x w _ [_ Hx]. exact Hx.
  - intros et l ws _ H. cbn [conforms]. rewrite ttype_of_spec, ttype_eqb_refl.
    apply forallb_Forall, (Forall2_right _ _ _ _ H). intros x w _ [_ Hx]. exact Hx.
  - intros kt vt kvs ws H. cbn [conforms]. rewrite !ttype_of_spec, !ttype_eqb_refl.
    apply forallb_Forall, (Forall2_right _ _ _ _ H). intros kv w _ [[_ Hk] [_ Hx]]. rewrite Hk, Hx. reflexivity.
  - intros n s fs ofs Hs _ _ H. cbn [conforms]. rewrite Hs.
    apply forallb_Forall, Forall_cat_somes, (Forall2_right _ _ _ _ H). intros p ow _ (f & Hf & Hshape).
    destruct ow as [wf0|]; [|exact I]. destruct Hshape as (_ & x & wx & _ & _ & -> & Hx). cbn [fst snd].
    rewrite (proj2 (find_field_In _ _ _ Hf)), Hf, ttype_of_spec, ttype_eqb_refl. exact Hx.
Qed.

Lemma conforms_wtype e t w : conforms e t w = true -> wtype w = spec_ttype t.
Proof. destruct w, t; cbn; try discriminate; reflexivity. Qed.

Lemma to_w_wtype e t v w : to_w e t v = Ok w -> wtype w = ttype_of e t.
Proof. intro H. rewrite ttype_of_spec. apply (conforms_wtype e), (to_w_conforms e v), H. Qed.

Section WF.
  Variable e : env.
  Hypothesis Henv : wf_env e = true.

  (* no typing needed: also the nil slot of an optional field, which [wt_val] does not cover *)
  Lemma to_w_nil_wf t w : to_w e t VNil = Ok w -> wf w.
  Proof.
    destruct t; try discriminate; cbn [to_w].
    3-5: intros [= <-]; split; [apply in_srange_4; cbn; lia | exact I].
    - intros [= <-]. apply in_srange_4. cbn. lia.
    - destruct (find_struct e name) as [s|]; [|discriminate]. destruct (is_union s); [discriminate|].
      intros [= <-]. exact I.
  Qed.

  Lemma elems_wf et l ws :
    Forall2 (fun x w => to_w e et x = Ok w /\ forall key, wt_val e key et x = true -> wf w) l ws ->
    len_ok l = true -> forallb (wt_val e false et) l = true ->
    in_srange 4 (Z.of_nat (length ws)) /\ Forall (fun w => wtype w = ttype_of e et /\ wf w) ws.
  Proof.
    intros H Hlen Hall. rewrite forallb_forall in Hall. split.
    - rewrite <- (Forall2_length _ _ _ H). apply len_ok_srange. exact Hlen.
    - apply (Forall2_right _ _ _ _ H). intros x w Hin [Hxw Hx].
      split; [exact (to_w_wtype _ _ _ _ Hxw) | exact (Hx false (Hall x Hin))].
  Qed.

  Theorem to_w_wf : forall v t key w, wt_val e key t v = true -> to_w e t v = Ok w ->
    wf w /\ wtype w = ttype_of e t.
  Proof.
    intros v t key w Hwt Hw. split; [|exact (to_w_wtype _ _ _ _ Hw)]. revert key Hwt. revert v t w Hw.
    apply (to_w_ind e (fun t v w => forall key, wt_val e key t v = true -> wf w)).
    2-5: intros z key H; apply in_srangeb_spec; exact H.
    4-5: intros s key H; apply len_ok_srange; exact H.
    - intros b key _. exact I.
    - intros n z key _. apply wrap32_in_srange.
    - intros b key H. cbn [wt_val] in H. apply andb_true_iff in H. destruct H as [H1 H2].
      apply Z.leb_le in H1. apply Z.ltb_lt in H2. cbn [wf]. unfold in_range.
      replace (256 ^ Z.of_nat 8) with 18446744073709551616 by reflexivity. lia.
    - intros key _. apply (to_w_nil_wf TBinary). reflexivity.
    - intros et key _. apply (to_w_nil_wf (TList et)). reflexivity.
    - intros et key _. apply (to_w_nil_wf (TSet et)). reflexivity.
    - intros kt vt key _. apply (to_w_nil_wf (TMap kt vt)). reflexivity.
    - intros n s _ _ key _. exact I.
    - intros et l ws H key Hwt. cbn [wt_val] in Hwt. apply andb_true_iff in Hwt.
      apply wf_list_iff, (elems_wf _ _ _ H); apply Hwt.
    - intros et l ws _ H key Hwt. cbn [wt_val] in Hwt. apply andb_true_iff in Hwt. destruct Hwt as [Hwt _].
      apply andb_true_iff in Hwt. apply wf_set_iff, (elems_wf _ _ _ H); apply Hwt.
    - intros kt vt kvs ws H key Hwt. cbn [wt_val] in Hwt. apply andb_true_iff in Hwt. destruct Hwt as [Hwt _].
      apply andb_true_iff in Hwt. destruct Hwt as [Hlen Hall]. rewrite forallb_forall in Hall.
      apply wf_map_iff. split.
      + rewrite <- (Forall2_length _ _ _ H). apply len_ok_srange. exact Hlen.
      + apply (Forall2_right _ _ _ _ H). intros kv w Hin [[Hk Pk] [Hx Px]].
        specialize (Hall kv Hin). apply andb_true_iff in Hall.
        split; [exact (to_w_wtype _ _ _ _ Hk) | split; [exact (to_w_wtype _ _ _ _ Hx) |]].
        split; [apply (Pk true) | apply (Px false)]; apply Hall.
    - intros n s fs ofs Hs _ _ H key Hwt.
      destruct (wt_struct_parts _ _ _ _ _ Hs Hwt) as (_ & Hslots & _). rewrite Forall_forall in Hslots.
      pose proof (wf_env_struct _ _ _ Henv Hs) as Hwfs.
      apply wf_struct_iff, Forall_cat_somes, (Forall2_right _ _ _ _ H). intros p ow Hin (f & Hf & Hshape).
      destruct ow as [wf0|]; [|exact I]. destruct Hshape as (_ & x & wx & Hx & Hwx & -> & Px). cbn [fst snd].
      split; [exact (to_w_wtype _ _ _ _ Hwx)|].
      split; [exact (wf_struct_ids s f Hwfs (proj1 (find_field_In _ _ _ Hf)))|].
      destruct (slot_ok_payload _ _ _ _ _ Hf (Hslots p Hin) Hx) as [Hok | ->];
        [exact (Px false Hok) | exact (to_w_nil_wf _ _ Hwx)].
  Qed.
End WF.

Theorem write_read_bytes e s v :
  wf_env e = true -> find_struct e (s_name s) = Some s -> wt e s v = true ->
  exists bs, write_bytes e s v = Ok bs /\
    forall rest, read_bytes e s (new_struct e s) (bs ++ rest) = Ok (norm_struct e s v).
Proof.
  intros Henv Hs Hwt. destruct (write_read e s v Henv Hs Hwt) as (wfs & Hw & Hr).
  exists (enc (WStruct wfs)). unfold write_bytes. rewrite Hw. cbn [bind]. split; [reflexivity|].
  intro rest. unfold read_bytes.
  destruct (to_w_wf e Henv v _ _ _ (wt_wt_val _ _ _ Hwt) Hw) as [Hwf _].
  rewrite dec_struct_enc by assumption. exact Hr.
Qed.

Lemma emitted_hdrs_ofs e s fs ofs :
  mapM (wfield_fn e s) fs = Ok ofs -> map hdr (cat_somes ofs) = emitted_hdrs s fs.
Proof.
  intro Hm. apply mapM_Forall2 in Hm. unfold emitted_hdrs.
  induction Hm as [|p ow fs ofs Hp _ IH]; [reflexivity|]. cbn [map].
  destruct (wfield_fn_inv _ _ _ _ Hp) as (f & -> & Hshape). destruct ow as [wf0|].
  - destruct Hshape as (-> & x & wx & _ & _ & ->). cbn [cat_somes map hdr fst snd].
    rewrite ttype_of_spec, IH. reflexivity.
  - rewrite Hshape. exact IH.
Qed.

(* the emitted top-level fields: exactly the present ones, in declaration order, schema ids, spec wire types *)
Theorem wire_shape e s fs wfs :
  find_struct e (s_name s) = Some s ->
  to_wire e s (VStruct fs) = Ok (WStruct wfs) ->
  map hdr wfs = emitted_hdrs s fs /\
  Forall (fun wf => wtype (snd wf) = fst (fst wf)) wfs /\
  conforms e (TRef (s_name s)) (WStruct wfs) = true.
Proof.
  intros Hs Hw. pose proof (to_w_conforms e _ _ _ Hw) as Hc.
  destruct (proj1 (to_wire_ok e s fs _ Hs) Hw) as (_ & ofs & Hm & [= ->]).
  split; [exact (emitted_hdrs_ofs _ _ _ _ Hm)|]. split; [|exact Hc].
  apply Forall_cat_somes, (Forall2_right _ _ _ _ (mapM_Forall2 _ _ _ Hm)). intros p ow _ Hp.
  destruct (wfield_fn_inv _ _ _ _ Hp) as (f & _ & Hshape). destruct ow as [wf0|]; [|exact I].
  destruct Hshape as (_ & x & wx & _ & Hwx & ->). exact (to_w_wtype _ _ _ _ Hwx).
Qed.

Definition skippable (e : env) (s : sschema) (wf : wfield) : bool :=
  match find_field (snd (fst wf)) (s_fields s) with
  | Some f => negb (ttype_eqb (fst (fst wf)) (ttype_of e (f_ty f)))
  | None => true end.

(* what a wire field does to the reader state: nothing (skipped), or one slot update *)
Definition upd (e : env) (s : sschema) (wf : wfield) : result (option (Z * value * bool)) :=
  match find_field (snd (fst wf)) (s_fields s) with
  | Some f =>
      if ttype_eqb (fst (fst wf)) (ttype_of e (f_ty f)) then
        bind (from_w e (f_ty f) (snd wf)) (fun v => Ok (Some (f_id f, wrap_slot f v, is_required f)))
      else Ok None
  | None => Ok None
  end.

Definition apply_upd (st : rstate) (u : option (Z * value * bool)) : rstate :=
  match u with
  | None => st
  | Some (id, v, rq) => (set_field id v (fst st), if rq then id :: snd st else snd st)
  end.

Lemma read_step_upd e s st wf :
  read_step e s st wf = match upd e s wf with Err x => Err x | Ok u => Ok (apply_upd st u) end.
Proof.
  unfold read_step, upd. destruct (find_field (snd (fst wf)) (s_fields s)) as [f|]; [|reflexivity].
  destruct (ttype_eqb (fst (fst wf)) (ttype_of e (f_ty f))); [|reflexivity].
  destruct (from_w e (f_ty f) (snd wf)); reflexivity.
Qed.

Lemma from_wire_ok e s fs0 wfs v :
  from_wire e s (VStruct fs0) (WStruct wfs) = Ok v <->
  exists st, foldM (read_step e s) wfs (fs0, []) = Ok st /\
             first_missing (s_fields s) (snd st) = None /\ v = VStruct (fst st).
Proof.
  unfold from_wire. rewrite bind_ok. unfold finish_read.
  split; intros (st & Hf & H); exists st; (split; [exact Hf|]).
  - destruct (first_missing (s_fields s) (snd st)); [discriminate|]. injection H as <-. split; reflexivity.
  - destruct H as [-> ->]. reflexivity.
Qed.

Lemma read_step_skippable e s st wf : skippable e s wf = true -> read_step e s st wf = Ok st.
Proof.
  unfold skippable, read_step. destruct (find_field (snd (fst wf)) (s_fields s)); [|reflexivity].
  intro H. apply negb_true_iff in H. rewrite H. reflexivity.
Qed.

Lemma foldM_ignores e s wfs : forall st,
  foldM (read_step e s) wfs st = foldM (read_step e s) (filter (fun wf => negb (skippable e s wf)) wfs) st.
Proof.
  induction wfs as [|wf wfs IH]; intro st; [reflexivity|]. cbn [filter].
  destruct (skippable e s wf) eqn:Hk; cbn [negb foldM].
  - rewrite read_step_skippable by assumption. apply IH.
  - destruct (read_step e s st wf); [apply IH | reflexivity].
Qed.

Theorem read_ignores_unknown e s init wfs :
  from_wire e s init (WStruct wfs) =
  from_wire e s init (WStruct (filter (fun wf => negb (skippable e s wf)) wfs)).
Proof.
  unfold from_wire. destruct init; try reflexivity. rewrite foldM_ignores. reflexivity.
Qed.

Corollary read_ignores_inserted e s init l1 u l2 :
  skippable e s u = true ->
  from_wire e s init (WStruct (l1 ++ u :: l2)) = from_wire e s init (WStruct (l1 ++ l2)).
Proof.
  intro H. rewrite read_ignores_unknown, (read_ignores_unknown e s init (l1 ++ l2)).
  rewrite !filter_app. cbn [filter]. rewrite H. reflexivity.
Qed.

Lemma foldM_seen e s wfs : forall st st',
  foldM (read_step e s) wfs st = Ok st' ->
  forall id, In id (snd st') ->
    In id (snd st) \/ exists f x, find_field id (s_fields s) = Some f /\ In (ttype_of e (f_ty f), id, x) wfs.
Proof.
  induction wfs as [|wf wfs IH]; intros st st' H id Hin; cbn in H.
  - injection H as <-. left. assumption.
  - destruct (read_step e s st wf) as [st1|] eqn:E; [|discriminate].
    destruct (IH _ _ H id Hin) as [H1|(f & x & Hf & Hx)].
    + unfold read_step in E. destruct wf as [[t i] x]. cbn [fst snd] in E.
      destruct (find_field i (s_fields s)) as [f|] eqn:Hf; [|injection E as <-; left; assumption].
      destruct (ttype_eqb_spec t (ttype_of e (f_ty f))) as [->|Hne]; [|injection E as <-; left; assumption].
      destruct (from_w e (f_ty f) x) as [v|]; [|discriminate]. cbn [bind] in E. injection E as <-.
      cbn [snd] in H1. destruct (find_field_In _ _ _ Hf) as [_ Hid].
      destruct (is_required f); [|left; assumption].
      destruct H1 as [<-|H1]; [|left; assumption].
      right. exists f, x. rewrite Hid. split; [assumption | left; reflexivity].
    + right. exists f, x. split; [assumption | right; assumption].
Qed.

Theorem read_required_missing e s init wfs f :
  wf_struct s = true -> In f (s_fields s) -> is_required f = true ->
  (forall x, ~ In (ttype_of e (f_ty f), f_id f, x) wfs) ->
  exists er, from_wire e s init (WStruct wfs) = Err er /\
    (forall st, (exists fs0, init = VStruct fs0 /\ foldM (read_step e s) wfs (fs0, []) = Ok st) ->
                exists id, er = ERequiredMissing id).
Proof.
  intros Hwf Hin Hreq Hno. unfold from_wire.
  destruct init as [| | | | | |  |fs0| |]; try (eexists; split; [reflexivity | intros st (fs1 & Hd & _); discriminate]).
  destruct (foldM (read_step e s) wfs (fs0, [])) as [st|er] eqn:Hfold; cbn [bind].
  - assert (Hnot : ~ In (f_id f) (snd st)).
    { intro Hi. destruct (foldM_seen _ _ _ _ _ Hfold _ Hi) as [[]|(f' & x & Hf' & Hx)].
      rewrite (find_field_nodup _ _ (wf_struct_nodup _ Hwf) Hin) in Hf'. injection Hf' as <-. exact (Hno x Hx). }
    destruct (first_missing_some _ _ _ Hin Hreq Hnot) as (id & Hid). unfold finish_read. rewrite Hid.
    eexists. split; [reflexivity|]. intros _ _. eexists. reflexivity.
  - eexists. split; [reflexivity|]. intros st (fs1 & [= <-] & H). congruence.
Qed.

Theorem union_write_refused e s fs :
  find_struct e (s_name s) = Some s -> is_union s = true ->
  count_set (s_fields s) fs <> 1%nat ->
  to_wire e s (VStruct fs) = Err (EUnionCount (count_set (s_fields s) fs)).
Proof.
  intros Hs Hu Hc. unfold to_wire. rewrite to_w_struct, Hs. cbn zeta. rewrite Hu.
  destruct (Nat.eqb_spec (count_set (s_fields s) fs) 1); [contradiction|]. reflexivity.
Qed.

Theorem union_write_exactly_one e s fs w :
  find_struct e (s_name s) = Some s -> is_union s = true ->
  to_wire e s (VStruct fs) = Ok w -> count_set (s_fields s) fs = 1%nat.
Proof.
  intros Hs Hu Hw. destruct (Nat.eq_dec (count_set (s_fields s) fs) 1) as [E|E]; [assumption|].
  rewrite (union_write_refused e s fs Hs Hu E) in Hw. discriminate.
Qed.

