(* Wire/Codec.v — the Thrift binary protocol (non-strict struct encoding used by
   TBinaryProtocol for struct bodies) over generic wire values.

     enc  : wval -> bytes
     dec  : fuel -> ttype -> bytes -> option (wval * rest)      None = malformed / truncated / out of fuel
     skip : fuel -> ttype -> bytes -> option rest               what thrift.Skip consumes on well-formed data
     dec_struct bs = dec (length bs) T_STRUCT bs                enough fuel for any input (see StdMoreFacts.dec_struct_complete)

   This file models github.com/apache/thrift v0.13.0 lib/go/thrift TBinaryProtocol over a
   TMemoryBuffer (trusted, not verified): big-endian fixed-width integers, bool = (byte = 1),
   strings / binaries as i32 length + bytes (negative length is an error), containers as
   element type byte(s) + i32 count (negative count is an error), struct = fields
   (type byte, i16 id, value) terminated by a 0 byte. *)
From Coq Require Import List ZArith NArith Lia Bool.
From Coq.Strings Require Import Byte.
From Verif Require Import Base.Bytes Base.BE Wire.TType Wire.WVal.
Import ListNotations.
Open Scope Z_scope.

Fixpoint enc (v : wval) : bytes :=
  match v with
  | WBool b => [if b then x01 else x00]
  | WByte z => put_be 1 z
  | WDouble z => put_be 8 z
  | WI16 z => put_be 2 z
  | WI32 z => put_be 4 z
  | WI64 z => put_be 8 z
  | WStr s => put_be 4 (Z.of_nat (length s)) ++ s
  | WStruct fs =>
      (fix go (l : list (ttype * Z * wval)) : bytes :=
         match l with
         | [] => [x00]
         | (t, id, x) :: r => put_be 1 (code t) ++ put_be 2 id ++ enc x ++ go r
         end) fs
  | WMap kt vt kvs =>
      put_be 1 (code kt) ++ put_be 1 (code vt) ++ put_be 4 (Z.of_nat (length kvs)) ++
      (fix go (l : list (wval * wval)) : bytes :=
         match l with [] => [] | (k, x) :: r => enc k ++ enc x ++ go r end) kvs
  | WSet et l | WList et l =>
      put_be 1 (code et) ++ put_be 4 (Z.of_nat (length l)) ++
      (fix go (l : list wval) : bytes :=
         match l with [] => [] | x :: r => enc x ++ go r end) l
  end.

(* one field header + value, as the generated WriteFieldBegin / value / WriteFieldEnd emit it *)
Definition enc_field (f : wfield) : bytes :=
  let '(t, id, x) := f in put_be 1 (code t) ++ put_be 2 id ++ enc x.

Section Comb.
  Context {A : Type}.
  Variable p : bytes -> option (A * bytes).
  Fixpoint rep (n : nat) (bs : bytes) : option (list A * bytes) :=
    match n with
    | O => Some ([], bs)
    | S m => match p bs with
             | None => None
             | Some (x, r) => match rep m r with
                              | None => None
                              | Some (xs, r') => Some (x :: xs, r') end end
    end.
End Comb.

Definition pairp {A B} (p : bytes -> option (A*bytes)) (q : bytes -> option (B*bytes))
  (bs : bytes) : option ((A*B) * bytes) :=
  match p bs with None => None | Some (a, r) =>
    match q r with None => None | Some (b, r') => Some ((a,b), r') end end.

Section Fields.
  Variable d : ttype -> bytes -> option (wval * bytes).
  Fixpoint fields (n : nat) (bs : bytes) : option (list (ttype*Z*wval) * bytes) :=
    match n with
    | O => None
    | S m =>
      match get_be 1 bs with
      | Some (c, r) =>
        if c =? 0 then Some ([], r) else
        match of_code c with
        | Some ft => match get_s 2 r with
           | Some (id, r1) => match d ft r1 with
                | Some (x, r2) => match fields m r2 with
                      | Some (fs, r3) => Some ((ft,id,x)::fs, r3) | None => None end
                | None => None end
           | None => None end
        | None => None end
      | None => None end
    end.
End Fields.

(* container count: i32, negative is "invalid data length" *)
Definition get_count (bs : bytes) : option (nat * bytes) :=
  match get_s 4 bs with
  | Some (n, r) => if n <? 0 then None else Some (Z.to_nat n, r)
  | None => None
  end.

Fixpoint dec (fuel : nat) (t : ttype) (bs : bytes) {struct fuel} : option (wval * bytes) :=
  match fuel with
  | O => None
  | S f =>
    match t with
    | T_BOOL => match bs with b :: r => Some (WBool (Byte.eqb b x01), r) | [] => None end
    | T_BYTE => match get_s 1 bs with Some (z, r) => Some (WByte z, r) | None => None end
    | T_DOUBLE => match get_be 8 bs with Some (z, r) => Some (WDouble z, r) | None => None end
    | T_I16 => match get_s 2 bs with Some (z, r) => Some (WI16 z, r) | None => None end
    | T_I32 => match get_s 4 bs with Some (z, r) => Some (WI32 z, r) | None => None end
    | T_I64 => match get_s 8 bs with Some (z, r) => Some (WI64 z, r) | None => None end
    | T_STRING =>
        match get_count bs with
        | Some (n, r) => if (length r <? n)%nat then None
                         else Some (WStr (firstn n r), skipn n r)
        | None => None end
    | T_LIST =>
        match get_be 1 bs with
        | Some (c, r) => match of_code c with
          | Some et => match get_count r with
             | Some (n, r1) => match rep (dec f et) n r1 with
                  | Some (xs, r2) => Some (WList et xs, r2) | None => None end
             | None => None end
          | None => None end
        | None => None end
    | T_SET =>
        match get_be 1 bs with
        | Some (c, r) => match of_code c with
          | Some et => match get_count r with
             | Some (n, r1) => match rep (dec f et) n r1 with
                  | Some (xs, r2) => Some (WSet et xs, r2) | None => None end
             | None => None end
          | None => None end
        | None => None end
    | T_MAP =>
        match get_be 1 bs with
        | Some (c, r) => match of_code c with
          | Some kt => match get_be 1 r with
            | Some (c2, r0) => match of_code c2 with
              | Some vt => match get_count r0 with
                 | Some (n, r1) => match rep (pairp (dec f kt) (dec f vt)) n r1 with
                      | Some (xs, r2) => Some (WMap kt vt xs, r2) | None => None end
                 | None => None end
              | None => None end
            | None => None end
          | None => None end
        | None => None end
    | T_STRUCT =>
        match fields (dec f) (S (length bs)) bs with
        | Some (fs, r) => Some (WStruct fs, r) | None => None end
    end
  end.

Definition skip (fuel : nat) (t : ttype) (bs : bytes) : option bytes :=
  match dec fuel t bs with Some (_, r) => Some r | None => None end.

(* every value nested in [bs] has depth <= length bs, so this fuel always suffices *)
Definition dec_struct (bs : bytes) : option (wval * bytes) := dec (S (length bs)) T_STRUCT bs.
