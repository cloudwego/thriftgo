(* Wire/FastReadFacts.v — proofs about the reader of the fastgo model (Wire/Fast.v: fskip, fr_val, fast_read).

     fskip_enc              gopkg Skip consumes exactly an encoding (well-formed, depth <= its limit)
     fr_val_from_w          FastRead of an encoding = the standard Read of the wire value (same object,
                            same required-field error), for every wire value the standard Write of ANY
                            schema can produce, as long as the fields the reader knows carry what its
                            schema says (otherwise the standard model answers EHeader)
     fast_read_from_wire    the same at top level; fast_read_eq_std_read goes through bytes on the
                            standard side too
     fast_read_total        the fuel never runs out: fast_read always answers with a value or an error
     fr_val_prefix / fast_read_prefix_error
                            every proper prefix of an encoding of the reader's own value is refused as
                            too short
     *_refuted              inputs on which the transcribed Skip panics in the generated code  *)
From Coq Require Import List ZArith Bool Lia Permutation.
From Coq.Strings Require Import Byte.
From Verif Require Import Base.Bytes Base.BE Wire.TType Wire.WVal Wire.Codec Wire.CodecFacts
  Wire.Schema Wire.Value Wire.GenTables Wire.FastTables Wire.Std Wire.StdFacts Wire.Fast Wire.FastFacts.
Import ListNotations.
Open Scope Z_scope.

Lemma Z_of_byte_code t : Z_of_byte (byte_of_Z (code t)) = code t.
Proof. rewrite Z_of_byte_of_Z. pose proof (code_range t). apply Z.mod_small. lia. Qed.

Lemma adv_app (a b : bytes) : adv (lenZ a) (a ++ b) = b.
Proof. unfold adv, lenZ. rewrite Nat2Z.id, skipn_app, skipn_all, Nat.sub_diag. reflexivity. Qed.

Lemma adv_app_n n (a b : bytes) : n = lenZ a -> adv n (a ++ b) = b.
Proof. intros ->. apply adv_app. Qed.

Lemma enc_nonempty x : 1 <= lenZ (enc x).
Proof.
  unfold lenZ. rewrite enc_length. destruct x; cbn [wsize]; try lia.
  induction fs as [|[[t i] y] fs IH]; lia.
Qed.

Definition fixed_ttype (t : ttype) : Z :=
  match t with T_BOOL | T_BYTE => 1 | T_I16 => 2 | T_I32 => 4 | T_I64 | T_DOUBLE => 8 | _ => 0 end.

Lemma type_size_code t : type_size (code t) = fixed_ttype t.
Proof. destruct t; reflexivity. Qed.

Lemma neg_type_code t : neg_type (code t) = false.
Proof. destruct t; reflexivity. Qed.

Lemma enc_fixed x : 0 < fixed_ttype (wtype x) -> lenZ (enc x) = fixed_ttype (wtype x).
Proof. destruct x; cbn [wtype fixed_ttype]; try lia; intros _; cbn [enc]; rewrite ?lenZ_put; reflexivity. Qed.

Lemma i32_0_put n r : in_srange 4 n -> i32_0 (put_be 4 n ++ r) = n.
Proof. intro H. unfold i32_0. rewrite get_s_put by (auto; lia). reflexivity. Qed.

Lemma skipstr_enc s r : in_srange 4 (Z.of_nat (length s)) -> skipstr (enc (WStr s) ++ r) = FOk (lenZ (enc (WStr s))).
Proof.
  intro H. cbn [enc]. unfold skipstr. rewrite <- app_assoc, i32_0_put by assumption.
  rewrite !lenZ_app, lenZ_put. fold (lenZ s).
  pose proof (lenZ_nonneg s). pose proof (lenZ_nonneg r). unfold lenZ in *.
  destruct (Z.leb_spec 4 (Z.of_nat 4 + (Z.of_nat (length s) + Z.of_nat (length r)))); [|lia].
  destruct (Z.ltb_spec (Z.of_nat (length s)) 0); [lia|].
  destruct (Z.leb_spec (4 + Z.of_nat (length s)) (Z.of_nat 4 + (Z.of_nat (length s) + Z.of_nat (length r)))); [|lia].
  f_equal; lia.
Qed.

(* Skip with depth limit [d] consumes exactly the encoding of [x], whatever follows *)
Definition skips (d : nat) (x : wval) : Prop :=
  forall r, fskip d (code (wtype x)) (enc x ++ r) = FOk (lenZ (enc x)).

(* what the loops of skipType use for one element *)
Lemma skip_elem_enc d x r :
  wf x -> skips d x -> skip_elem (fskip d) (enc x ++ r) (code (wtype x)) = FOk (lenZ (enc x)).
Proof.
  intros Hwf Hx. unfold skip_elem. rewrite type_size_code.
  destruct (Z.ltb_spec 0 (fixed_ttype (wtype x))) as [Hf|Hf].
  - rewrite enc_fixed by assumption. reflexivity.
  - destruct x; cbn [wtype fixed_ttype code] in *; try lia; cbn [Z.eqb Pos.eqb]; try apply Hx.
    apply skipstr_enc. exact Hwf.
Qed.

Lemma match_nonempty {A} (rem : bytes) (a b : A) : 1 <= lenZ rem -> match rem with [] => a | _ :: _ => b end = b.
Proof. destruct rem; [cbn; lia | reflexivity]. Qed.

Lemma enc_app_nonempty x r : 1 <= lenZ (enc x ++ r).
Proof. rewrite lenZ_app. pose proof (enc_nonempty x). pose proof (lenZ_nonneg r). lia. Qed.

(* the premises on the elements of the three loops are what wf_depth_ind hands to the container cases *)
Lemma skip_list_loop_enc d et l : forall fuel acc r,
  (length l <= fuel)%nat -> fixed_ttype et = 0 ->
  Forall (fun x => wtype x = et /\ wf x /\ (depth x <= d)%nat /\ skips d x) l ->
  skip_list_loop (fskip d) fuel (code et) (lenZ l) acc (enc_list_go l ++ r) = FOk (acc + lenZ (enc_list_go l)).
Proof.
  induction l as [|x l IH]; intros fuel acc r Hf Hfix Hall.
  - destruct fuel; cbn; rewrite Z.add_0_r; reflexivity.
  - apply Forall_cons_iff in Hall. destruct Hall as [(Ht & Hwf & Hd & Hs) Hrest]. subst et.
    destruct fuel; [cbn in Hf; lia|]. cbn [skip_list_loop].
    rewrite lenZ_cons. destruct (Z.leb_spec (1 + lenZ l) 0); [pose proof (lenZ_nonneg l); lia|].
    change (enc_list_go (x :: l)) with (enc x ++ enc_list_go l). rewrite <- app_assoc.
    rewrite (match_nonempty (enc x ++ enc_list_go l ++ r)) by apply enc_app_nonempty.
    rewrite skip_elem_enc by assumption. rewrite adv_app.
    replace (1 + lenZ l - 1) with (lenZ l) by lia.
    rewrite IH by (assumption || (cbn in Hf; lia)). rewrite lenZ_app. f_equal. lia.
Qed.

Lemma skip_map_loop_enc d kt vt kvs : forall fuel acc r,
  (length kvs <= fuel)%nat ->
  Forall (fun kv => (wtype (fst kv) = kt /\ wf (fst kv) /\ (depth (fst kv) <= d)%nat /\ skips d (fst kv)) /\
                    (wtype (snd kv) = vt /\ wf (snd kv) /\ (depth (snd kv) <= d)%nat /\ skips d (snd kv))) kvs ->
  skip_map_loop (fskip d) fuel (code kt) (code vt) (lenZ kvs) acc (enc_map_go kvs ++ r) = FOk (acc + lenZ (enc_map_go kvs)).
Proof.
  induction kvs as [|[k x] kvs IH]; intros fuel acc r Hf Hall.
  - destruct fuel; cbn; rewrite Z.add_0_r; reflexivity.
  - apply Forall_cons_iff in Hall. destruct Hall as [[(Htk & Hwk & Hdk & Hsk) (Htx & Hwx & Hdx & Hsx)] Hrest]. cbn [fst snd] in *. subst kt vt.
    destruct fuel; [cbn in Hf; lia|]. cbn [skip_map_loop].
    rewrite lenZ_cons. destruct (Z.leb_spec (1 + lenZ kvs) 0); [pose proof (lenZ_nonneg kvs); lia|].
    change (enc_map_go ((k, x) :: kvs)) with (enc k ++ enc x ++ enc_map_go kvs). rewrite <- !app_assoc.
    rewrite (match_nonempty (enc k ++ enc x ++ enc_map_go kvs ++ r)) by apply enc_app_nonempty.
    rewrite skip_elem_enc by assumption. rewrite adv_app.
    assert (Hne : 1 <= lenZ (enc x ++ enc_map_go kvs ++ r)) by apply enc_app_nonempty.
    destruct (enc x ++ enc_map_go kvs ++ r) as [|b0 rem1] eqn:E; [cbn in Hne; lia|]. rewrite <- E. clear Hne.
    rewrite skip_elem_enc by assumption. rewrite adv_app.
    replace (1 + lenZ kvs - 1) with (lenZ kvs) by lia.
    rewrite IH by (assumption || (cbn in Hf; lia)). rewrite !lenZ_app. f_equal. lia.
Qed.

Lemma skip_struct_loop_enc d fs : forall fuel acc r,
  (length fs < fuel)%nat ->
  Forall (fun f => wtype (snd f) = fst (fst f) /\ in_srange 2 (snd (fst f)) /\
                   wf (snd f) /\ (depth (snd f) <= d)%nat /\ skips d (snd f)) fs ->
  skip_struct_loop (fskip d) fuel acc (enc_fields_go fs ++ r) = FOk (acc + lenZ (enc_fields_go fs)).
Proof.
  induction fs as [|[[t i] x] fs IH]; intros fuel acc r Hf Hall.
  - destruct fuel; [cbn in Hf; lia|]. reflexivity.
  - apply Forall_cons_iff in Hall. destruct Hall as [(Ht & _ & Hwf & Hd & Hs) Hrest]. cbn [fst snd] in *.
    destruct fuel; [cbn in Hf; lia|]. rewrite enc_fields_go_cons. cbn [skip_struct_loop].
    rewrite put_be_1. cbn [app]. subst t. rewrite Z_of_byte_code.
    destruct (Z.eqb_spec (code (wtype x)) 0) as [E0|_]; [pose proof (code_range (wtype x)); lia|].
    rewrite <- !app_assoc.
    rewrite (adv_app_n 2 (put_be 2 i)) by (rewrite lenZ_put; reflexivity).
    assert (Hne : 1 <= lenZ (enc x ++ enc_fields_go fs ++ r)) by apply enc_app_nonempty.
    destruct (enc x ++ enc_fields_go fs ++ r) as [|b0 rem1] eqn:E; [cbn in Hne; lia|]. rewrite <- E. clear Hne.
    rewrite neg_type_code. rewrite skip_elem_enc by assumption. rewrite adv_app.
    rewrite IH by (assumption || (cbn in Hf; lia)). rewrite ?lenZ_cons, ?lenZ_app, ?lenZ_put. f_equal; lia.
Qed.

Lemma byte0_code t r : byte0 (put_be 1 (code t) ++ r) = code t.
Proof. rewrite put_be_1. cbn [app byte0]. apply Z_of_byte_code. Qed.

Lemma length_le_enc_list l : (length l <= length (enc_list_go l))%nat.
Proof.
  induction l as [|x l IH]; [cbn; lia|]. change (enc_list_go (x :: l)) with (enc x ++ enc_list_go l).
  rewrite app_length. pose proof (enc_nonempty x). unfold lenZ in *. cbn [length]. lia.
Qed.
Lemma length_le_enc_map l : (length l <= length (enc_map_go l))%nat.
Proof.
  induction l as [|[k x] l IH]; [cbn; lia|]. change (enc_map_go ((k, x) :: l)) with (enc k ++ enc x ++ enc_map_go l).
  rewrite !app_length. pose proof (enc_nonempty k). unfold lenZ in *. cbn [length]. lia.
Qed.

Lemma fskip_fixed d t bs :
  neg_type t = false -> 0 < type_size t -> type_size t <= lenZ bs -> fskip (S d) t bs = FOk (type_size t).
Proof.
  intros Hn Hp Hl. cbn [fskip]. rewrite Hn.
  destruct (Z.ltb_spec 0 (type_size t)); [|lia]. destruct (Z.ltb_spec (lenZ bs) (type_size t)); [lia|]. reflexivity.
Qed.

Lemma fskip_string d bs : fskip (S d) 11 bs = skipstr bs.
Proof. reflexivity. Qed.

Lemma fskip_struct d bs : fskip (S d) 12 bs = skip_struct_loop (fskip d) (S (length bs)) 0 bs.
Proof. reflexivity. Qed.

Lemma fskip_map d bs :
  fskip (S d) 13 bs =
  if lenZ bs <? 6 then FErr FShort else
  let kt := byte0 bs in let vt := byte0 (adv 1 bs) in let sz := i32_0 (adv 2 bs) in
  if sz <? 0 then FErr FNegLen else
  if neg_type kt || neg_type vt then FErr FIndex else
  let ksz := type_size kt in let vsz := type_size vt in
  if (0 <? ksz) && (0 <? vsz) then
    (if lenZ bs <? 6 + sz * (ksz + vsz) then FErr FShort else FOk (6 + sz * (ksz + vsz)))
  else skip_map_loop (fskip d) (S (length bs)) kt vt sz 6 (adv 6 bs).
Proof. reflexivity. Qed.

Lemma fskip_list d t bs : t = 15 \/ t = 14 ->
  fskip (S d) t bs =
  if lenZ bs <? 5 then FErr FShort else
  let vt := byte0 bs in let sz := i32_0 (adv 1 bs) in
  if sz <? 0 then FErr FNegLen else
  if neg_type vt then FErr FIndex else
  let vsz := type_size vt in
  if 0 <? vsz then (if lenZ bs <? 5 + sz * vsz then FErr FShort else FOk (5 + sz * vsz))
  else skip_list_loop (fskip d) (S (length bs)) vt sz 5 (adv 5 bs).
Proof. intros [-> | ->]; reflexivity. Qed.

Lemma fskip_fixed_enc d x r :
  0 < fixed_ttype (wtype x) -> fskip (S d) (code (wtype x)) (enc x ++ r) = FOk (lenZ (enc x)).
Proof.
  intro Hf. pose proof (lenZ_nonneg r).
  rewrite (enc_fixed x Hf), <- type_size_code. apply fskip_fixed.
  - apply neg_type_code.
  - rewrite type_size_code. exact Hf.
  - rewrite type_size_code, lenZ_app, (enc_fixed x Hf). lia.
Qed.

Lemma fskip_listlike d t et l r :
  t = 15 \/ t = 14 -> in_srange 4 (Z.of_nat (length l)) ->
  Forall (fun x => wtype x = et /\ wf x /\ (depth x <= d)%nat /\ skips d x) l ->
  fskip (S d) t ((put_be 1 (code et) ++ put_be 4 (Z.of_nat (length l)) ++ enc_list_go l) ++ r) =
  FOk (lenZ (put_be 1 (code et) ++ put_be 4 (Z.of_nat (length l)) ++ enc_list_go l)).
Proof.
  intros Ht Hlen Hel.
  rewrite <- !app_assoc, (fskip_list d t _ Ht). cbn zeta.
  set (body := enc_list_go l) in *.
  assert (L : lenZ (put_be 1 (code et) ++ put_be 4 (Z.of_nat (length l)) ++ body ++ r) = 5 + lenZ body + lenZ r)
    by (rewrite !lenZ_app, !lenZ_put; lia).
  rewrite L. pose proof (lenZ_nonneg body). pose proof (lenZ_nonneg r).
  destruct (Z.ltb_spec (5 + lenZ body + lenZ r) 5); [lia|].
  rewrite byte0_code.
  rewrite (adv_app_n 1 (put_be 1 (code et))) by (rewrite lenZ_put; reflexivity).
  rewrite i32_0_put by assumption.
  destruct (Z.ltb_spec (Z.of_nat (length l)) 0); [lia|].
  rewrite neg_type_code, type_size_code.
  destruct (Z.ltb_spec 0 (fixed_ttype et)) as [Hf|Hf].
  - assert (Eb : lenZ body = Z.of_nat (length l) * fixed_ttype et).
    { unfold body. rewrite enc_list_go_flat. symmetry. apply lenZ_flat_map_const. revert Hel. apply Forall_impl. intros x [Hx _].
      rewrite enc_fixed by (rewrite Hx; assumption). rewrite Hx. reflexivity. }
    destruct (Z.ltb_spec (5 + lenZ body + lenZ r) (5 + Z.of_nat (length l) * fixed_ttype et)); [lia|].
    f_equal. rewrite !lenZ_app, !lenZ_put. lia.
  - replace (adv 5 (put_be 1 (code et) ++ put_be 4 (Z.of_nat (length l)) ++ body ++ r)) with (body ++ r)
      by (symmetry; rewrite (app_assoc (put_be 1 (code et))); apply adv_app_n; rewrite !lenZ_app, !lenZ_put; reflexivity).
    assert (Hvar : fixed_ttype et = 0) by (destruct et; cbn [fixed_ttype] in *; lia).
    (* the loop's fuel, one more than the bytes at hand, covers the elements: each takes a byte at least *)
    assert (Hfuel : (length l <= S (length (put_be 1 (code et) ++ put_be 4 (Z.of_nat (length l)) ++ enc_list_go l ++ r)))%nat).
    { rewrite !app_length. pose proof (length_le_enc_list l). lia. }
    unfold body. fold (lenZ l). rewrite (skip_list_loop_enc d et l _ _ r Hfuel Hvar Hel).
    f_equal. rewrite !lenZ_app, !lenZ_put. lia.
Qed.

Theorem fskip_enc : forall x d, wf x -> (depth x <= d)%nat -> skips d x.
Proof.
  apply (wf_depth_ind skips); intros d.
  1-6: intros; intro r; apply fskip_fixed_enc; cbn [wtype fixed_ttype]; lia.
  - intros s Hs r. cbn [wtype code]. rewrite fskip_string. apply skipstr_enc. exact Hs.
  - intros fs Hfs r. cbn [wtype code]. rewrite enc_struct_unfold, fskip_struct.
    apply skip_struct_loop_enc; [|exact Hfs]. rewrite app_length. pose proof (enc_fields_len fs). lia.
  - intros kt vt kvs Hlen Hel r. cbn [wtype code]. rewrite enc_map_unfold.
    set (body := enc_map_go kvs) in *.
    rewrite fskip_map. cbn zeta.
    rewrite <- !app_assoc.
    assert (L : lenZ (put_be 1 (code kt) ++ put_be 1 (code vt) ++ put_be 4 (Z.of_nat (length kvs)) ++ body ++ r)
                = 6 + lenZ body + lenZ r) by (rewrite !lenZ_app, !lenZ_put; lia).
    rewrite L. pose proof (lenZ_nonneg body). pose proof (lenZ_nonneg r).
    destruct (Z.ltb_spec (6 + lenZ body + lenZ r) 6); [lia|].
    rewrite byte0_code.
    rewrite (adv_app_n 1 (put_be 1 (code kt))) by (rewrite lenZ_put; reflexivity). rewrite byte0_code.
    replace (adv 2 (put_be 1 (code kt) ++ put_be 1 (code vt) ++ put_be 4 (Z.of_nat (length kvs)) ++ body ++ r))
      with (put_be 4 (Z.of_nat (length kvs)) ++ body ++ r)
      by (symmetry; rewrite (app_assoc (put_be 1 (code kt))); apply adv_app_n; rewrite lenZ_app, !lenZ_put; reflexivity).
    rewrite i32_0_put by assumption.
    destruct (Z.ltb_spec (Z.of_nat (length kvs)) 0); [lia|].
    rewrite !neg_type_code. cbn [orb]. rewrite !type_size_code.
    destruct ((0 <? fixed_ttype kt) && (0 <? fixed_ttype vt)) eqn:Hfix.
    + apply andb_true_iff in Hfix. destruct Hfix as [Hk Hv]. apply Z.ltb_lt in Hk, Hv.
      assert (Eb : lenZ body = Z.of_nat (length kvs) * (fixed_ttype kt + fixed_ttype vt)).
      { unfold body. rewrite enc_map_go_flat. symmetry. apply lenZ_flat_map_const. revert Hel. apply Forall_impl. intros kv [(Hk1 & _) (Hv1 & _)].
        rewrite lenZ_app, !enc_fixed by (rewrite ?Hk1, ?Hv1; assumption). rewrite Hk1, Hv1. reflexivity. }
      destruct (Z.ltb_spec (6 + lenZ body + lenZ r) (6 + Z.of_nat (length kvs) * (fixed_ttype kt + fixed_ttype vt))); [lia|].
      f_equal. rewrite !lenZ_app, !lenZ_put. lia.
    + replace (adv 6 (put_be 1 (code kt) ++ put_be 1 (code vt) ++ put_be 4 (Z.of_nat (length kvs)) ++ body ++ r)) with (body ++ r)
        by (symmetry; rewrite (app_assoc (put_be 1 (code kt))), (app_assoc (_ ++ _) (put_be 4 _)); apply adv_app_n; rewrite !lenZ_app, !lenZ_put; reflexivity).
      assert (Hfuel : (length kvs <= S (length (put_be 1 (code kt) ++ put_be 1 (code vt) ++
                                                  put_be 4 (Z.of_nat (length kvs)) ++ enc_map_go kvs ++ r)))%nat).
      { rewrite !app_length. pose proof (length_le_enc_map kvs). lia. }
      unfold body. fold (lenZ kvs). rewrite (skip_map_loop_enc d kt vt kvs _ _ r Hfuel Hel).
      f_equal. rewrite !lenZ_app, !lenZ_put. lia.
  - intros et l Hlen Hel r. cbn [wtype code]. rewrite enc_set_unfold.
    apply fskip_listlike; [right; reflexivity | assumption..].
  - intros et l Hlen Hel r. cbn [wtype code]. rewrite enc_list_unfold.
    apply fskip_listlike; [left; reflexivity | assumption..].
Qed.

Corollary fskip_top_enc x r : wf x -> (depth x <= default_recursion_depth)%nat ->
  fskip_top (code (wtype x)) (enc x ++ r) = FOk (lenZ (enc x)).
Proof.
  intros Hwf Hd. unfold fskip_top. pose proof (enc_app_nonempty x r) as Hne.
  destruct (enc x ++ r) eqn:E; [cbn in Hne; lia|]. rewrite <- E. apply (fskip_enc x _ Hwf Hd).
Qed.

Definition idf (f : field) : Z * field := (f_id f, f).

Lemma sort_by_id_nil_iff {A} (l : list (Z * A)) : sort_by_id l = [] <-> l = [].
Proof.
  split; [|intros ->; reflexivity]. intro H. pose proof (sort_by_id_perm l) as P. rewrite H in P.
  apply Permutation_sym, Permutation_nil in P. exact P.
Qed.

Lemma sort_by_id_single {A} (x : Z * A) : sort_by_id [x] = [x].
Proof. reflexivity. Qed.

Lemma filter_id_nodup fid (P : field -> bool) l :
  NoDup (map f_id l) ->
  filter (fun p : Z * field => (fst p =? fid) && P (snd p)) (map idf l) =
  match find_field fid l with
  | Some f => if P f then [idf f] else []
  | None => [] end.
Proof.
  induction l as [|f l IH]; intro Hnd; [reflexivity|].
  inversion Hnd as [|? ? Hnot Hnd']; subst. cbn [map filter find_field idf fst snd].
  rewrite (Z.eqb_sym (f_id f) fid). destruct (Z.eqb_spec fid (f_id f)) as [->|Hne]; cbn [andb].
  - (* no later field has this id: the hypothesis on the tail says so *)
    rewrite (IH Hnd'). destruct (find_field (f_id f) l) as [g|] eqn:E; [|reflexivity].
    destruct (find_field_In _ _ _ E) as [Hin Hid]. exfalso. apply Hnot. rewrite <- Hid. apply in_map, Hin.
  - apply IH. exact Hnd'.
Qed.

Lemma find_case_spec e s fid ftyp :
  NoDup (map f_id (s_fields s)) ->
  find_case e s fid ftyp =
  match find_field fid (s_fields s) with
  | Some f => if wire_type e (f_ty f) =? ftyp then Some f else None
  | None => None end.
Proof.
  intro Hnd. unfold find_case. fold idf.
  rewrite (filter_sort_by_id (fun p : Z * field => (fst p =? fid) && (wire_type e (f_ty (snd p)) =? ftyp))).
  rewrite (filter_id_nodup fid (fun f => wire_type e (f_ty f) =? ftyp)) by assumption.
  destruct (find_field fid (s_fields s)) as [f|]; [|reflexivity].
  destruct (wire_type e (f_ty f) =? ftyp); reflexivity.
Qed.

Lemma missing_filter s seen :
  filter (fun p : Z * field => is_required (snd p) && negb (existsb (Z.eqb (fst p)) seen)) (map idf (s_fields s)) =
  map idf (filter (fun f => is_required f && negb (existsb (Z.eqb (f_id f)) seen)) (s_fields s)).
Proof.
  induction (s_fields s) as [|f l IH]; [reflexivity|]. cbn [map filter idf fst snd].
  destruct (is_required f && negb (existsb (Z.eqb (f_id f)) seen)); cbn [map]; rewrite IH; reflexivity.
Qed.

Lemma missing_none_iff s seen : first_missing (s_fields s) seen = None <-> fast_first_missing s seen = None.
Proof.
  unfold first_missing, fast_first_missing. fold idf.
  rewrite (filter_sort_by_id (fun p : Z * field => is_required (snd p) && negb (existsb (Z.eqb (fst p)) seen))).
  rewrite missing_filter.
  destruct (filter (fun f => is_required f && negb (existsb (Z.eqb (f_id f)) seen)) (s_fields s)) as [|f l] eqn:E.
  - cbn. tauto.
  - split; [discriminate|]. intro H.
    destruct (sort_by_id (map idf (f :: l))) as [|p q] eqn:E2; [|discriminate].
    apply (proj1 (sort_by_id_nil_iff _)) in E2. discriminate.
Qed.

(* what FastRead [f] does on the bytes [body] (followed by anything), given what the standard Read says *)
Definition agree {A} (r : result A) (f : bytes -> fres (A * bytes)) (body : bytes) : Prop :=
  match r with
  | Ok v => forall rest, f (body ++ rest) = FOk (v, rest)
  | Err (ERequiredMissing _) => forall rest, exists id, f (body ++ rest) = FErr (FRequired id)
  | Err _ => True
  end.

Definition rd_ok (e : env) (w : wval) : Prop :=
  forall fuel t, wf w -> (depth w <= fuel)%nat -> (depth w <= default_recursion_depth)%nat ->
                 wtype w = spec_ttype t ->
                 agree (from_w e t w) (fr_val fuel e t) (enc w).

Lemma agree_shift {A} (r : result A) f f' whole body :
  (forall rest, f (whole ++ rest) = f' (body ++ rest)) -> agree r f' body -> agree r f whole.
Proof.
  intros E H. destruct r as [v|err]; [|destruct err]; cbn [agree] in *; try exact I; intro rest; rewrite E; apply H.
Qed.

(* the fuel [f] runs on may depend on its input *)
Lemma agree_fuel {A} (r : result A) (fn : nat -> bytes -> fres (A * bytes)) (fuel : bytes -> nat) f body :
  (forall bs, f bs = fn (fuel bs) bs) -> (forall rest, agree r (fn (fuel (body ++ rest))) body) -> agree r f body.
Proof.
  intros E H. destruct r as [v|err]; [|destruct err]; cbn [agree] in *; try exact I; intro rest; rewrite E; apply (H rest).
Qed.

Lemma agree_bind {A B} (ra : result A) (k : A -> result B) p q f ka kb :
  (forall bs, f bs = match p bs with FErr x => FErr x | FOk (a, r) => q a r end) ->
  agree ra p ka -> (forall a, ra = Ok a -> agree (k a) (q a) kb) ->
  agree (bind ra k) f (ka ++ kb).
Proof.
  intros Ef Ha Hk. destruct ra as [a|err]; cbn [bind agree] in *.
  - apply agree_shift with (f' := q a) (body := kb); [|apply Hk; reflexivity].
    intro rest. rewrite Ef, <- app_assoc, Ha. reflexivity.
  - destruct err; try exact I. intro rest. destruct (Ha (kb ++ rest)) as [i Hi].
    exists i. rewrite Ef, <- app_assoc, Hi. reflexivity.
Qed.

Lemma agree_map {A B} (ra : result A) (h : A -> B) p f body :
  (forall bs, f bs = match p bs with FErr x => FErr x | FOk (a, r) => FOk (h a, r) end) ->
  agree ra p body -> agree (bind ra (fun a => Ok (h a))) f body.
Proof.
  intros Ef Ha. destruct ra as [a|err]; [|destruct err]; cbn [bind agree] in *; try exact I; intro rest; rewrite Ef.
  - rewrite Ha. reflexivity.
  - destruct (Ha rest) as [i Hi]. exists i. rewrite Hi. reflexivity.
Qed.

Lemma bind_bind {A B C} (r : result A) (k : A -> result B) (k' : B -> result C) :
  bind (bind r k) k' = bind r (fun a => bind (k a) k').
Proof. destruct r; reflexivity. Qed.

Lemma frep_cons {A} (p : bytes -> fres (A * bytes)) fuel n bs : 0 <= n ->
  frep p (S fuel) (1 + n) bs =
  match p bs with
  | FErr x => FErr x
  | FOk (a, r) => match frep p fuel n r with FErr x => FErr x | FOk (l, r') => FOk (a :: l, r') end
  end.
Proof.
  intro H. cbn [frep]. destruct (Z.leb_spec (1 + n) 0); [lia|]. replace (1 + n - 1) with n by lia. reflexivity.
Qed.

Lemma frep_enc {A B} (p : bytes -> fres (A * bytes)) (g : B -> result A) (encb : B -> bytes) l : forall fuel,
  (length l <= fuel)%nat ->
  Forall (fun x => agree (g x) p (encb x)) l ->
  agree (mapM g l) (frep p fuel (lenZ l)) (flat_map encb l).
Proof.
  induction l as [|x l IH]; intros fuel Hf Hall.
  - intro rest. destruct fuel; reflexivity.
  - apply Forall_cons_iff in Hall. destruct Hall as [Hx Hrest]. destruct fuel; [cbn in Hf; lia|]. cbn [flat_map].
    change (mapM g (x :: l)) with (bind (g x) (fun y => bind (mapM g l) (fun ys => Ok (y :: ys)))).
    apply (agree_bind (g x) _ p (fun a r => match frep p fuel (lenZ l) r with
                                            | FErr y => FErr y | FOk (xs, r') => FOk (a :: xs, r') end)).
    + intro bs. rewrite lenZ_cons. apply frep_cons, lenZ_nonneg.
    + exact Hx.
    + intros a _. apply (agree_map (mapM g l) (cons a) (frep p fuel (lenZ l))); [reflexivity|].
      apply IH; [cbn in Hf; lia | exact Hrest].
Qed.

Lemma fpair_agree {A B} (p : bytes -> fres (A * bytes)) (q : bytes -> fres (B * bytes)) (ra : result A) (rb : result B) ka kb :
  agree ra p ka -> agree rb q kb ->
  agree (bind ra (fun a => bind rb (fun b => Ok (a, b)))) (fpair p q) (ka ++ kb).
Proof.
  intros Ha Hb.
  apply (agree_bind ra _ p (fun a r => match q r with FErr x => FErr x | FOk (b, r') => FOk ((a, b), r') end));
    [reflexivity | exact Ha |].
  intros a _. apply (agree_map rb (pair a) q); [reflexivity | exact Hb].
Qed.

(* a container: the header by [hd], the elements by [p] on fuel taken from what is left, a total constructor *)
Lemma fcontainer_agree {A B C} (hd : bytes -> fres (Z * bytes)) (p : bytes -> fres (A * bytes)) (g : B -> result A)
      (encb : B -> bytes) (mk : list A -> C) f l whole :
  (forall bs, f bs = match hd bs with
                     | FErr x => FErr x
                     | FOk (n, r) => match frep p (S (length r)) n r with
                                     | FErr x => FErr x | FOk (xs, r') => FOk (mk xs, r') end
                     end) ->
  (forall r, hd (whole ++ r) = FOk (lenZ l, flat_map encb l ++ r)) ->
  (length l <= length (flat_map encb l))%nat ->
  Forall (fun x => agree (g x) p (encb x)) l ->
  agree (bind (mapM g l) (fun xs => Ok (mk xs))) f whole.
Proof.
  intros Ef Ehd Hlen Hel.
  apply agree_shift with (body := flat_map encb l)
    (f' := fun r => match frep p (S (length r)) (lenZ l) r with FErr x => FErr x | FOk (xs, r') => FOk (mk xs, r') end).
  { intro rest. rewrite Ef, Ehd. reflexivity. }
  apply agree_fuel with (fuel := fun r => S (length r))
    (fn := fun n r => match frep p n (lenZ l) r with FErr x => FErr x | FOk (xs, r') => FOk (mk xs, r') end);
    [reflexivity|].
  intro rest. apply (agree_map (mapM g l) mk (frep p (S (length (flat_map encb l ++ rest))) (lenZ l))); [reflexivity|].
  apply frep_enc; [rewrite app_length; lia | exact Hel].
Qed.

Section LoopProof.
  Variable e : env.
  Variable s : sschema.
  Variable rv : ty -> bytes -> fres (value * bytes).
  Hypothesis Hnd : NoDup (map f_id (s_fields s)).

  Definition field_ok (f : wfield) : Prop :=
    wtype (snd f) = fst (fst f) /\ in_srange 2 (snd (fst f)) /\ wf (snd f) /\
    (depth (snd f) <= default_recursion_depth)%nat /\
    forall t, wtype (snd f) = spec_ttype t -> agree (from_w e t (snd f)) (rv t) (enc (snd f)).

  (* the loop of the generated FastRead from the state [st], and the object it leaves *)
  Definition fr_struct (lf : nat) (st : rstate) (bs : bytes) : fres (value * bytes) :=
    match fr_loop rv e s lf st bs with FErr x => FErr x | FOk (fs, r) => FOk (VStruct fs, r) end.

  Lemma fr_loop_stop lf st rest :
    fr_loop rv e s (S lf) st (enc_fields_go [] ++ rest) =
    match fast_first_missing s (snd st) with Some id => FErr (FRequired id) | None => FOk (fst st, rest) end.
  Proof. reflexivity. Qed.

  Lemma fr_loop_step lf st tt id x wfs rest : in_srange 2 id ->
    fr_loop rv e s (S lf) st (enc_fields_go ((tt, id, x) :: wfs) ++ rest) =
    match find_case e s id (code tt) with
    | Some f =>
        match rv (f_ty f) (enc x ++ enc_fields_go wfs ++ rest) with
        | FErr y => FErr y
        | FOk (v, r2) => fr_loop rv e s lf (set_field (f_id f) (wrap_slot f v) (fst st),
                                           if is_required f then f_id f :: snd st else snd st) r2
        end
    | None =>
        match fskip_top (code tt) (enc x ++ enc_fields_go wfs ++ rest) with
        | FErr y => FErr y
        | FOk n => if lenZ (enc x ++ enc_fields_go wfs ++ rest) <? n then FErr FOverrun
                   else fr_loop rv e s lf st (skipn (Z.to_nat n) (enc x ++ enc_fields_go wfs ++ rest))
        end
    end.
  Proof.
    intro Hid. rewrite enc_fields_go_cons, <- !app_assoc, put_be_1. cbn [app fr_loop]. rewrite Z_of_byte_code.
    destruct (Z.eqb_spec (code tt) 0) as [E0|_]; [pose proof (code_range tt); lia|].
    rewrite get_s_put by (auto; lia). reflexivity.
  Qed.

  (* the default branch of the switch: Skip consumes exactly the payload *)
  Lemma fr_loop_skip lf st id x wfs rest :
    in_srange 2 id -> wf x -> (depth x <= default_recursion_depth)%nat ->
    find_case e s id (code (wtype x)) = None ->
    fr_loop rv e s (S lf) st (enc_fields_go ((wtype x, id, x) :: wfs) ++ rest) =
    fr_loop rv e s lf st (enc_fields_go wfs ++ rest).
  Proof.
    intros Hid Hwf Hd Hnone. rewrite fr_loop_step, Hnone, fskip_top_enc by assumption.
    destruct (Z.ltb_spec (lenZ (enc x ++ enc_fields_go wfs ++ rest)) (lenZ (enc x))) as [Hlt|_];
      [rewrite lenZ_app in Hlt; pose proof (lenZ_nonneg (enc_fields_go wfs ++ rest)); lia|].
    fold (adv (lenZ (enc x)) (enc x ++ enc_fields_go wfs ++ rest)). rewrite adv_app. reflexivity.
  Qed.

  Lemma fr_loop_enc wfs : forall lf st,
    (length wfs < lf)%nat -> Forall field_ok wfs ->
    agree (bind (foldM (read_step e s) wfs st) (finish_read s)) (fr_struct lf st) (enc_fields_go wfs).
  Proof.
    induction wfs as [|[[tt id] x] wfs IH]; intros lf st Hlf Hall; (destruct lf; [cbn in Hlf; lia|]).
    - cbn [foldM bind]. unfold finish_read, fr_struct. pose proof (missing_none_iff s (snd st)) as Hm.
      destruct (first_missing (s_fields s) (snd st)) as [mid|]; cbn [agree]; intro rest; rewrite fr_loop_stop;
        destruct (fast_first_missing s (snd st)) as [mid'|].
      + exists mid'. reflexivity.
      + destruct Hm as [_ Hm]. discriminate (Hm eq_refl).
      + destruct Hm as [Hm _]. discriminate (Hm eq_refl).
      + reflexivity.
    - apply Forall_cons_iff in Hall. destruct Hall as [(Ht & Hid & Hwf & Hd & Hag) Hrest]. cbn [fst snd] in *. subst tt.
      assert (Hlf' : (length wfs < lf)%nat) by (cbn in Hlf; lia).
      change (foldM (read_step e s) ((wtype x, id, x) :: wfs) st)
        with (bind (read_step e s st (wtype x, id, x)) (foldM (read_step e s) wfs)).
      rewrite bind_bind. unfold read_step at 1. cbn [fst snd].
      assert (Hskip : find_case e s id (code (wtype x)) = None ->
                agree (bind (foldM (read_step e s) wfs st) (finish_read s)) (fr_struct (S lf) st)
                      (enc_fields_go ((wtype x, id, x) :: wfs))).
      { intro Hnone. apply agree_shift with (f' := fr_struct lf st) (body := enc_fields_go wfs); [|apply IH; assumption].
        intro rest. unfold fr_struct. rewrite fr_loop_skip by assumption. reflexivity. }
      rewrite find_case_spec in Hskip by assumption.
      destruct (find_field id (s_fields s)) as [fld|] eqn:Hf; [|apply Hskip; reflexivity].
      assert (Heq : ttype_eqb (wtype x) (ttype_of e (f_ty fld)) = (wire_type e (f_ty fld) =? code (wtype x))).
      { unfold ttype_eqb. rewrite wire_type_spec, ttype_of_spec. apply Z.eqb_sym. }
      rewrite Heq. destruct (wire_type e (f_ty fld) =? code (wtype x)) eqn:Hm; [|apply Hskip; reflexivity].
      (* the case of the switch *)
      apply ttype_eqb_eq in Heq. rewrite ttype_of_spec in Heq.
      rewrite bind_bind.
      apply agree_shift with (body := enc x ++ enc_fields_go wfs)
        (f' := fun bs => match rv (f_ty fld) bs with
                         | FErr y => FErr y
                         | FOk (v, r2) => fr_struct lf (set_field (f_id fld) (wrap_slot fld v) (fst st),
                                                      if is_required fld then f_id fld :: snd st else snd st) r2
                         end).
      { intro rest. unfold fr_struct. rewrite fr_loop_step, find_case_spec, Hf, Hm, <- app_assoc by assumption.
        destruct (rv (f_ty fld) (enc x ++ enc_fields_go wfs ++ rest)) as [[v r2]|]; reflexivity. }
      apply (agree_bind (from_w e (f_ty fld) x) _ (rv (f_ty fld))
               (fun v => fr_struct lf (set_field (f_id fld) (wrap_slot fld v) (fst st),
                                       if is_required fld then f_id fld :: snd st else snd st)));
        [reflexivity | apply Hag; exact Heq |].
      intros v _. apply IH; assumption.
  Qed.
End LoopProof.

Lemma rd_list_begin_enc et n r : in_srange 4 n -> 0 <= n ->
  rd_list_begin (put_be 1 (code et) ++ put_be 4 n ++ r) = FOk (n, r).
Proof.
  intros Hr Hn. rewrite put_be_1. cbn [app rd_list_begin]. rewrite get_s_put by (auto; lia).
  destruct (Z.ltb_spec n 0); [lia | reflexivity].
Qed.

Lemma rd_map_begin_enc kt vt n r : in_srange 4 n -> 0 <= n ->
  rd_map_begin (put_be 1 (code kt) ++ put_be 1 (code vt) ++ put_be 4 n ++ r) = FOk (n, r).
Proof.
  intros Hr Hn. rewrite !put_be_1. cbn [app rd_map_begin]. rewrite get_s_put by (auto; lia).
  destruct (Z.ltb_spec n 0); [lia | reflexivity].
Qed.

Lemma rd_s_put n z r : (0 < n)%nat -> in_srange n z -> rd_s n (put_be n z ++ r) = FOk (z, r).
Proof. intros Hn Hz. unfold rd_s. rewrite get_s_put by assumption. reflexivity. Qed.

Lemma rd_str_enc s r : in_srange 4 (Z.of_nat (length s)) ->
  rd_str (put_be 4 (Z.of_nat (length s)) ++ s ++ r) = FOk (s, r).
Proof.
  intro H. unfold rd_str. rewrite get_s_put by (auto; lia).
  destruct (Z.ltb_spec (Z.of_nat (length s)) 0); [lia|].
  rewrite lenZ_app. unfold lenZ. destruct (Z.ltb_spec (Z.of_nat (length s) + Z.of_nat (length r)) (Z.of_nat (length s))); [lia|].
  rewrite Nat2Z.id, firstn_app, firstn_all, skipn_app, skipn_all, Nat.sub_diag. cbn [firstn skipn]. rewrite app_nil_r. reflexivity.
Qed.

Lemma struct_agree e fuel lf s st fs :
  wf_struct s = true -> Forall (fun f : wfield => rd_ok e (snd f)) fs -> wf (WStruct fs) ->
  (depth (WStruct fs) <= S fuel)%nat -> (depth (WStruct fs) <= default_recursion_depth)%nat -> (length fs < lf)%nat ->
  agree (bind (foldM (read_step e s) fs st) (finish_read s)) (fr_struct e s (fr_val fuel e) lf st) (enc (WStruct fs)).
Proof.
  intros Hs H Hwf Hfu Hd Hlf. apply wf_struct_iff in Hwf. rewrite depth_struct_unfold in Hfu, Hd.
  rewrite enc_struct_unfold. apply fr_loop_enc; [apply wf_struct_nodup; exact Hs | exact Hlf |].
  rewrite Forall_forall in *. intros f Hf. specialize (H f Hf). destruct (Hwf f Hf) as (Hw1 & Hw2 & Hw3).
  pose proof (depth_struct_le fs f Hf) as Hdf.
  unfold field_ok. split; [assumption|]. split; [assumption|]. split; [assumption|]. split; [lia|].
  intros t0 Ht0. apply H; try assumption; lia.
Qed.

Lemma struct_fuel fs rest : (length fs < S (length (enc (WStruct fs) ++ rest)))%nat.
Proof. rewrite app_length, enc_struct_unfold. pose proof (enc_fields_len fs). lia. Qed.

Section ReadProof.
  Variable e : env.
  Hypothesis Henv : wf_env e = true.

  (* lists and sets: the same statement of the generated reader, the same clause of the standard Read *)
  Lemma seq_agree fuel a et l :
    Forall (rd_ok e) l -> in_srange 4 (Z.of_nat (length l)) -> Forall (fun x => wtype x = et /\ wf x) l ->
    (depth_list_go l <= fuel)%nat -> (S (depth_list_go l) <= default_recursion_depth)%nat ->
    agree (if ttype_eqb et (ttype_of e a) || (length l =? 0)%nat
           then bind (mapM (from_w e a) l) (fun xs => Ok (VList xs)) else Err EHeader)
          (fr_val (S fuel) e (TList a))
          (put_be 1 (code et) ++ put_be 4 (Z.of_nat (length l)) ++ enc_list_go l).
  Proof.
    intros H Hlen Hall Hfu Hd.
    destruct (ttype_eqb et (ttype_of e a) || (length l =? 0)%nat) eqn:Hhdr; [|exact I].
    rewrite enc_list_go_flat.
    apply (fcontainer_agree rd_list_begin (fr_val fuel e a) (from_w e a) enc VList); [reflexivity | | |].
    - intro r. rewrite <- !app_assoc. apply rd_list_begin_enc; [assumption | apply lenZ_nonneg].
    - rewrite <- enc_list_go_flat. apply length_le_enc_list.
    - destruct l as [|x0 l0]; [constructor|].
      apply orb_true_iff in Hhdr. destruct Hhdr as [Hhdr|Hhdr]; [|discriminate].
      apply ttype_eqb_eq in Hhdr. rewrite ttype_of_spec in Hhdr.
      rewrite Forall_forall in *. intros x Hx. destruct (Hall x Hx) as [Hx1 Hwx].
      pose proof (depth_list_le _ x Hx) as Hdp.
      apply H; try assumption; try lia; congruence.
  Qed.

  Theorem fr_val_from_w : forall w, rd_ok e w.
  Proof.
    intro w. induction w using wval_ind2; intros fuel t Hwf Hfu Hd Ht;
      (destruct fuel as [|fuel]; [cbn [depth] in Hfu; lia|]).
    (* the four integer widths, read by rd_s; T_I32 carries i32 and enum *)
    2, 4-6: destruct t; try discriminate; intro rest; cbn [fr_val enc]; rewrite rd_s_put by (exact Hwf || lia); reflexivity.
    - (* bool *) destruct t; try discriminate. intro rest. destruct b; reflexivity.
    - (* double *) destruct t; try discriminate. intro rest. cbn [fr_val enc]. unfold rd_u.
      rewrite get_put by exact Hwf. reflexivity.
    - (* string *) destruct t; try discriminate; intro rest; cbn [fr_val enc]; rewrite <- app_assoc, rd_str_enc by exact Hwf; reflexivity.
    - (* struct *)
      destruct t; try discriminate. rewrite from_w_struct.
      destruct (find_struct e name) as [s|] eqn:Hs; [|exact I].
      apply agree_fuel with (fn := fun lf => fr_struct e s (fr_val fuel e) lf (new_fields s, []))
                            (fuel := fun bs => S (length bs)).
      + intro bs. cbn [fr_val]. rewrite Hs. reflexivity.
      + intro rest. apply struct_agree; try assumption; [apply (wf_env_struct e name); assumption | apply struct_fuel].
    - (* map *)
      destruct t; try discriminate. apply wf_map_iff in Hwf. destruct Hwf as [Hlen Hall]. rewrite depth_map_unfold in Hfu, Hd.
      cbn [from_w].
      destruct ((ttype_eqb kt (ttype_of e t1) && ttype_eqb vt (ttype_of e t2)) || (length kvs =? 0)%nat) eqn:Hhdr; [|exact I].
      rewrite enc_map_unfold, enc_map_go_flat.
      apply (fcontainer_agree rd_map_begin (fpair (fr_val fuel e t1) (fr_val fuel e t2)) _
               (fun kv => enc (fst kv) ++ enc (snd kv)) (fun kvs => VMap (map_build kvs))); [reflexivity | | |].
      + intro r. rewrite <- !app_assoc. apply rd_map_begin_enc; [assumption | apply lenZ_nonneg].
      + rewrite <- enc_map_go_flat. apply length_le_enc_map.
      + destruct kvs as [|kv0 kvs0]; [constructor|].
        apply orb_true_iff in Hhdr. destruct Hhdr as [Hhdr|Hhdr]; [|discriminate].
        apply andb_true_iff in Hhdr. destruct Hhdr as [Hk Hv]. apply ttype_eqb_eq in Hk, Hv. rewrite ttype_of_spec in Hk, Hv.
        rewrite Forall_forall in *. intros kv Hkv. destruct (H kv Hkv) as [IHk IHv]. destruct (Hall kv Hkv) as (Hk1 & Hv1 & Hwk & Hwv).
        pose proof (depth_map_le _ kv Hkv) as Hdp.
        apply fpair_agree; [apply IHk | apply IHv]; try assumption; try lia; congruence.
    - (* set *)
      apply wf_set_iff in Hwf. destruct Hwf as [Hlen Hall]. rewrite depth_set_unfold in Hfu, Hd.
      destruct t; try discriminate. rewrite enc_set_unfold.
      exact (seq_agree fuel t et l H Hlen Hall ltac:(lia) ltac:(lia)).
    - (* list *)
      apply wf_list_iff in Hwf. destruct Hwf as [Hlen Hall]. rewrite depth_list_unfold in Hfu, Hd.
      destruct t; try discriminate. rewrite enc_list_unfold.
      exact (seq_agree fuel t et l H Hlen Hall ltac:(lia) ltac:(lia)).
  Qed.
End ReadProof.

Lemma fast_read_struct e s fs0 bs :
  fast_read e s (VStruct fs0) bs =
  match fr_struct e s (fr_val (S (length bs)) e) (S (length bs)) (fs0, []) bs with
  | FErr x => FErr x
  | FOk (v, r) => FOk (v, lenZ bs - lenZ r)
  end.
Proof. unfold fast_read, fr_struct. destruct (fr_loop _ e s _ _ bs) as [[fs r]|]; reflexivity. Qed.

Theorem fast_read_from_wire e s init wfs :
  wf_env e = true -> wf_struct s = true -> wf (WStruct wfs) ->
  (depth (WStruct wfs) <= default_recursion_depth)%nat ->
  match from_wire e s init (WStruct wfs) with
  | Ok v => forall rest, fast_read e s init (enc (WStruct wfs) ++ rest) = FOk (v, lenZ (enc (WStruct wfs)))
  | Err (ERequiredMissing _) => forall rest, exists id, fast_read e s init (enc (WStruct wfs) ++ rest) = FErr (FRequired id)
  | Err _ => True
  end.
Proof.
  intros Henv Hs Hwf Hd. destruct init; try exact I.
  assert (HA : agree (from_wire e s (VStruct fs) (WStruct wfs))
                 (fun bs => fr_struct e s (fr_val (S (length bs)) e) (S (length bs)) (fs, []) bs) (enc (WStruct wfs))).
  { apply agree_fuel with (fn := fun n => fr_struct e s (fr_val n e) n (fs, [])) (fuel := fun bs => S (length bs));
      [reflexivity|].
    intro rest. apply struct_agree; try assumption; [| |apply struct_fuel].
    - apply Forall_forall. intros f _. apply fr_val_from_w. exact Henv.
    - pose proof (depth_le_size (WStruct wfs)). rewrite app_length, enc_length. lia. }
  destruct (from_wire e s (VStruct fs) (WStruct wfs)) as [v|err]; [|destruct err; try exact I];
    cbn [agree] in HA; intro rest; rewrite fast_read_struct.
  - rewrite HA, lenZ_app. f_equal. f_equal. lia.
  - destruct (HA rest) as [i Hi]. exists i. rewrite Hi. reflexivity.
Qed.

Lemma read_bytes_enc e s init wfs rest :
  wf (WStruct wfs) -> read_bytes e s init (enc (WStruct wfs) ++ rest) = from_wire e s init (WStruct wfs).
Proof. intro Hwf. unfold read_bytes. rewrite dec_struct_enc by assumption. reflexivity. Qed.

(* through bytes on the standard side as well: the two generated readers on the same input *)
Theorem fast_read_eq_std_read e s init wfs rest v :
  wf_env e = true -> wf_struct s = true -> wf (WStruct wfs) ->
  (depth (WStruct wfs) <= default_recursion_depth)%nat ->
  read_bytes e s init (enc (WStruct wfs) ++ rest) = Ok v ->
  fast_read e s init (enc (WStruct wfs) ++ rest) = FOk (v, lenZ (enc (WStruct wfs))).
Proof.
  intros Henv Hs Hwf Hd Hr. rewrite read_bytes_enc in Hr by assumption.
  pose proof (fast_read_from_wire e s init wfs Henv Hs Hwf Hd) as H. rewrite Hr in H. apply H.
Qed.

Theorem fast_read_required_missing e s init wfs rest id :
  wf_env e = true -> wf_struct s = true -> wf (WStruct wfs) ->
  (depth (WStruct wfs) <= default_recursion_depth)%nat ->
  read_bytes e s init (enc (WStruct wfs) ++ rest) = Err (ERequiredMissing id) ->
  exists id', fast_read e s init (enc (WStruct wfs) ++ rest) = FErr (FRequired id').
Proof.
  intros Henv Hs Hwf Hd Hr. rewrite read_bytes_enc in Hr by assumption.
  pose proof (fast_read_from_wire e s init wfs Henv Hs Hwf Hd) as H. rewrite Hr in H. apply H.
Qed.

(* unknown and mistyped fields are skipped: the object FastRead builds is the one the standard Read builds from
   the fields it does not skip *)
Corollary fast_read_ignores_unknown e s init wfs rest v :
  wf_env e = true -> wf_struct s = true -> wf (WStruct wfs) ->
  (depth (WStruct wfs) <= default_recursion_depth)%nat ->
  from_wire e s init (WStruct (filter (fun wf => negb (skippable e s wf)) wfs)) = Ok v ->
  fast_read e s init (enc (WStruct wfs) ++ rest) = FOk (v, lenZ (enc (WStruct wfs))).
Proof.
  intros Henv Hs Hwf Hd Hr. rewrite <- read_ignores_unknown in Hr.
  pose proof (fast_read_from_wire e s init wfs Henv Hs Hwf Hd) as H. rewrite Hr in H. apply H.
Qed.

Lemma adv_length n (rem : bytes) : (length (adv n rem) <= length rem)%nat.
Proof. unfold adv. rewrite skipn_length. lia. Qed.

Lemma adv_shrinks n b (rem : bytes) : 1 <= n -> (length (adv n (b :: rem)) <= length rem)%nat.
Proof.
  intro H. unfold adv. rewrite skipn_length. cbn [length]. assert (1 <= Z.to_nat n)%nat by lia. lia.
Qed.

Lemma type_size_pos t : 0 < type_size t -> 1 <= type_size t.
Proof. lia. Qed.

(* an answer of Skip: never the model's own out-of-fuel answer, and at least one byte when it succeeds *)
Definition res_good (r : fres Z) : Prop := match r with FOk k => 1 <= k | FErr x => x <> FFuel end.

Lemma skipstr_good rem : res_good (skipstr rem).
Proof.
  unfold skipstr. cbv zeta. destruct (4 <=? lenZ rem); [|discriminate].
  destruct (Z.ltb_spec (i32_0 rem) 0); [discriminate|].
  destruct (4 + i32_0 rem <=? lenZ rem); [unfold res_good; lia | discriminate].
Qed.

Definition sk_good (sk : Z -> bytes -> fres Z) : Prop := forall t bs, res_good (sk t bs).

(* the step the three loops of skipType share: one element, then the rest of the loop [K] *)
Lemma skip_elem_then sk rem t (K : Z -> fres Z) : sk_good sk ->
  (forall vi, 1 <= vi -> res_good (K vi)) ->
  res_good (match skip_elem sk rem t with FErr x => FErr x | FOk vi => K vi end).
Proof.
  intros Hsk HK. assert (G : res_good (skip_elem sk rem t)).
  { unfold skip_elem. destruct (Z.ltb_spec 0 (type_size t)); [unfold res_good; lia|].
    destruct (t =? 11); [apply skipstr_good | apply Hsk]. }
  destruct (skip_elem sk rem t) as [vi|x]; [apply HK, G | exact G].
Qed.

Lemma skip_list_loop_good sk : sk_good sk -> forall fuel vt j acc rem,
  (length rem < fuel)%nat -> 1 <= acc -> res_good (skip_list_loop sk fuel vt j acc rem).
Proof.
  intros Hsk. induction fuel as [|fuel IH]; intros vt j acc rem Hf Hacc; [lia|].
  cbn [skip_list_loop]. destruct (j <=? 0); [exact Hacc|].
  destruct rem as [|b rem]; [discriminate|].
  apply skip_elem_then; [exact Hsk|]. intros vi Hvi.
  apply IH; [|lia]. pose proof (adv_shrinks vi b rem Hvi). cbn [length] in Hf. lia.
Qed.

Lemma skip_map_loop_good sk : sk_good sk -> forall fuel kt vt j acc rem,
  (length rem < fuel)%nat -> 1 <= acc -> res_good (skip_map_loop sk fuel kt vt j acc rem).
Proof.
  intros Hsk. induction fuel as [|fuel IH]; intros kt vt j acc rem Hf Hacc; [lia|].
  cbn [skip_map_loop]. destruct (j <=? 0); [exact Hacc|].
  destruct rem as [|b rem]; [discriminate|].
  apply skip_elem_then; [exact Hsk|]. intros ki Hki. pose proof (adv_shrinks ki b rem Hki) as Hl1.
  destruct (adv ki (b :: rem)) as [|b1 rem1]; [discriminate|].
  apply skip_elem_then; [exact Hsk|]. intros vi Hvi.
  apply IH; [|lia]. pose proof (adv_shrinks vi b1 rem1 Hvi). cbn [length] in *. lia.
Qed.

Lemma skip_struct_loop_good sk : sk_good sk -> forall fuel acc rem,
  (length rem < fuel)%nat -> 0 <= acc -> res_good (skip_struct_loop sk fuel acc rem).
Proof.
  intros Hsk. induction fuel as [|fuel IH]; intros acc rem Hf Hacc; [lia|].
  cbn [skip_struct_loop]. destruct rem as [|tb r0]; [discriminate|].
  destruct (Z_of_byte tb =? 0); [unfold res_good; lia|].
  pose proof (adv_length 2 r0) as Hl0.
  destruct (adv 2 r0) as [|b1 r1]; [discriminate|].
  destruct (neg_type (Z_of_byte tb)); [discriminate|].
  apply skip_elem_then; [exact Hsk|]. intros fi Hfi.
  apply IH; [|lia]. pose proof (adv_shrinks fi b1 r1 Hfi). cbn [length] in *. lia.
Qed.

Lemma fskip_good d : sk_good (fskip d).
Proof.
  induction d as [|d IH]; intros t bs; [discriminate|]. cbn [fskip].
  destruct (neg_type t); [discriminate|].
  destruct (Z.ltb_spec 0 (type_size t)).
  { destruct (lenZ bs <? type_size t); [discriminate | unfold res_good; lia]. }
  destruct (t =? 11); [apply skipstr_good|].
  destruct (t =? 13).
  { destruct (lenZ bs <? 6); [discriminate|].
    destruct (Z.ltb_spec (i32_0 (adv 2 bs)) 0); [discriminate|].
    destruct (neg_type (byte0 bs) || neg_type (byte0 (adv 1 bs))); [discriminate|].
    destruct ((0 <? type_size (byte0 bs)) && (0 <? type_size (byte0 (adv 1 bs)))) eqn:Eb.
    - apply andb_true_iff in Eb. destruct Eb as [Eb1 Eb2]. apply Z.ltb_lt in Eb1, Eb2.
      match goal with |- context [lenZ bs <? ?x] => destruct (lenZ bs <? x) end; [discriminate | unfold res_good; nia].
    - apply skip_map_loop_good; [exact IH | | lia]. pose proof (adv_length 6 bs). lia. }
  destruct ((t =? 15) || (t =? 14)).
  { destruct (lenZ bs <? 5); [discriminate|].
    destruct (Z.ltb_spec (i32_0 (adv 1 bs)) 0); [discriminate|].
    destruct (neg_type (byte0 bs)); [discriminate|].
    destruct (Z.ltb_spec 0 (type_size (byte0 bs))).
    - match goal with |- context [lenZ bs <? ?x] => destruct (lenZ bs <? x) end; [discriminate | unfold res_good; nia].
    - apply skip_list_loop_good; [exact IH | | lia]. pose proof (adv_length 5 bs). lia. }
  destruct (t =? 12); [|discriminate].
  apply skip_struct_loop_good; [exact IH | lia | lia].
Qed.

Lemma fskip_top_good t bs : res_good (fskip_top t bs).
Proof. unfold fskip_top. destruct bs; [discriminate | apply fskip_good]. Qed.

(* what a reader answers on [bs]: a successful read consumes at least one byte, and the model's own
   out-of-fuel answer is given only on inputs of at least [n] bytes *)
Definition rd_good {A} (n : nat) (p : bytes -> fres (A * bytes)) : Prop :=
  forall bs, match p bs with
             | FOk (_, r) => (length r < length bs)%nat
             | FErr x => x = FFuel -> (n <= length bs)%nat
             end.

Lemma get_s_shorter k bs z r : (0 < k)%nat -> get_s k bs = Some (z, r) -> (length r < length bs)%nat.
Proof. intros Hk E. destruct (get_s_split _ _ _ _ E) as (used & -> & Hl & _). rewrite app_length. lia. Qed.

Lemma rd_bool_good n : rd_good n rd_bool.
Proof. intros [|b bs]; cbn [rd_bool length]; [discriminate | lia]. Qed.

Lemma rd_s_good k n : (0 < k)%nat -> rd_good n (rd_s k).
Proof.
  intros Hk bs. unfold rd_s. destruct (get_s k bs) as [[z r]|] eqn:E; [exact (get_s_shorter _ _ _ _ Hk E) | discriminate].
Qed.

Lemma rd_s_nofuel n bs : match rd_s n bs with FErr FFuel => False | _ => True end.
Proof. unfold rd_s. destruct (get_s n bs) as [[? ?]|]; exact I. Qed.

Lemma rd_u_good k n : (0 < k)%nat -> rd_good n (rd_u k).
Proof.
  intros Hk bs. unfold rd_u. destruct (get_be k bs) as [[z r]|] eqn:E; [|discriminate].
  destruct (get_be_split _ _ _ _ E) as (used & -> & Hl & _). rewrite app_length. lia.
Qed.

Lemma rd_str_good n : rd_good n rd_str.
Proof.
  intro bs. unfold rd_str. destruct (get_s 4 bs) as [[k r]|] eqn:E; [|discriminate].
  destruct (k <? 0); [discriminate|]. destruct (lenZ r <? k); [discriminate|].
  pose proof (get_s_shorter 4 _ _ _ ltac:(lia) E). rewrite skipn_length. lia.
Qed.

Lemma rd_list_begin_good n : rd_good n rd_list_begin.
Proof.
  intros [|b bs]; cbn [rd_list_begin]; [discriminate|].
  destruct (get_s 4 bs) as [[k r]|] eqn:E; [|discriminate]. destruct (k <? 0); [discriminate|].
  pose proof (get_s_shorter 4 _ _ _ ltac:(lia) E). cbn [length]. lia.
Qed.

Lemma rd_map_begin_good n : rd_good n rd_map_begin.
Proof.
  intros [|b [|b2 bs]]; cbn [rd_map_begin]; try discriminate.
  destruct (get_s 4 bs) as [[k r]|] eqn:E; [|discriminate]. destruct (k <? 0); [discriminate|].
  pose proof (get_s_shorter 4 _ _ _ ltac:(lia) E). cbn [length]. lia.
Qed.

Lemma fmap_good {A B} n (p : bytes -> fres (A * bytes)) (h : A -> B) :
  rd_good n p -> rd_good n (fun bs => match p bs with FOk (a, r) => FOk (h a, r) | FErr x => FErr x end).
Proof. intros H bs. specialize (H bs). cbv beta. destruct (p bs) as [[a r]|x]; exact H. Qed.

Lemma fpair_good {A B} n (p : bytes -> fres (A * bytes)) (q : bytes -> fres (B * bytes)) :
  rd_good n p -> rd_good n q -> rd_good n (fpair p q).
Proof.
  intros Hp Hq bs. unfold fpair. specialize (Hp bs). destruct (p bs) as [[x r1]|x]; [|exact Hp].
  specialize (Hq r1). destruct (q r1) as [[y r2]|y]; cbv beta iota in *; [lia | intro E; specialize (Hq E); lia].
Qed.

(* the loop gives up for lack of fuel only when the fuel is no more than the input, or an element does *)
Lemma frep_good {A} n (p : bytes -> fres (A * bytes)) : rd_good n p -> forall fuel k bs,
  match frep p fuel k bs with
  | FOk (_, r) => (length r <= length bs)%nat
  | FErr x => x = FFuel -> (fuel <= length bs)%nat \/ (n <= length bs)%nat
  end.
Proof.
  intros Hp. induction fuel as [|fuel IH]; intros k bs; cbn [frep]; destruct (k <=? 0); try exact (le_n _).
  - intros _. left. lia.
  - specialize (Hp bs). destruct (p bs) as [[a r1]|x]; [|intro E; right; exact (Hp E)].
    specialize (IH (k - 1) r1). destruct (frep p fuel (k - 1) r1) as [[l r2]|y]; cbv beta iota in *;
      [lia | intro E; destruct (IH E); [left | right]; lia].
Qed.

Lemma fcontainer_good {A C} n (hd : bytes -> fres (Z * bytes)) (p : bytes -> fres (A * bytes)) (mk : list A -> C) :
  rd_good (S n) hd -> rd_good n p ->
  rd_good (S n) (fun bs => match hd bs with
                           | FErr x => FErr x
                           | FOk (k, r) => match frep p (S (length r)) k r with
                                           | FErr x => FErr x | FOk (xs, r') => FOk (mk xs, r') end
                           end).
Proof.
  intros Hh Hp bs. cbv beta. specialize (Hh bs). destruct (hd bs) as [[k r0]|x]; [|exact Hh].
  pose proof (frep_good n p Hp (S (length r0)) k r0) as H.
  destruct (frep p (S (length r0)) k r0) as [[l r1]|y]; cbv beta iota in *; [lia | intro E; destruct (H E); lia].
Qed.

Lemma fr_loop_good n rv e s : (forall t, rd_good n (rv t)) -> forall fuel st bs,
  match fr_loop rv e s fuel st bs with
  | FOk (_, r) => (length r < length bs)%nat
  | FErr x => x = FFuel -> (fuel <= length bs)%nat \/ (n < length bs)%nat
  end.
Proof.
  intros Hrv. induction fuel as [|fuel IH]; intros st bs; [intros _; left; lia|].
  cbn [fr_loop]. destruct bs as [|tb r0]; [discriminate|].
  (* the rest of the loop, on what a field left over *)
  assert (Hnext : forall st' r', (length r' < length r0)%nat ->
            match fr_loop rv e s fuel st' r' with
            | FOk (_, r) => (length r < length (tb :: r0))%nat
            | FErr x => x = FFuel -> (S fuel <= length (tb :: r0))%nat \/ (n < length (tb :: r0))%nat
            end).
  { intros st' r' Hr. specialize (IH st' r'). cbn [length].
    destruct (fr_loop rv e s fuel st' r') as [[fs r]|x]; [lia | intro E; destruct (IH E); [left | right]; lia]. }
  destruct (Z_of_byte tb =? 0).
  { destruct (fast_first_missing s (snd st)); [discriminate | cbn [length]; lia]. }
  destruct (get_s 2 r0) as [[fid r1]|] eqn:E; [|discriminate].
  pose proof (get_s_shorter 2 _ _ _ ltac:(lia) E) as Hl.
  destruct (find_case e s fid (Z_of_byte tb)) as [f|].
  - specialize (Hrv (f_ty f) r1). destruct (rv (f_ty f) r1) as [[v r2]|x].
    + apply Hnext. lia.
    + intro Ex. right. specialize (Hrv Ex). cbn [length]. lia.
  - pose proof (fskip_top_good (Z_of_byte tb) r1) as Hs.
    destruct (fskip_top (Z_of_byte tb) r1) as [k|x]; [|intro Ex; destruct (Hs Ex)].
    destruct (lenZ r1 <? k); [discriminate|]. apply Hnext. rewrite skipn_length. lia.
Qed.

Lemma fr_val_good e : forall fuel t, rd_good fuel (fr_val fuel e t).
Proof.
  induction fuel as [|fuel IH]; intros t; [intros bs _; apply Nat.le_0_l|].
  destruct t.
  2-5, 9: apply (fmap_good _ (rd_s _) VInt), rd_s_good; lia.
  - apply (fmap_good _ rd_bool VBool), rd_bool_good.
  - apply (fmap_good _ (rd_u 8) VDbl), rd_u_good; lia.
  - apply (fmap_good _ rd_str VStr), rd_str_good.
  - apply (fmap_good _ rd_str VBin), rd_str_good.
  - intro bs. cbn [fr_val]. destruct (find_struct e name) as [s|]; [|discriminate].
    pose proof (fr_loop_good fuel _ e s IH (S (length bs)) (new_fields s, []) bs) as H.
    destruct (fr_loop (fr_val fuel e) e s (S (length bs)) (new_fields s, []) bs) as [[fs r]|x];
      [exact H | intro Ex; destruct (H Ex); lia].
  - apply (fcontainer_good fuel rd_list_begin (fr_val fuel e t) VList); [apply rd_list_begin_good | apply IH].
  - apply (fcontainer_good fuel rd_list_begin (fr_val fuel e t) VList); [apply rd_list_begin_good | apply IH].
  - apply (fcontainer_good fuel rd_map_begin (fpair (fr_val fuel e t1) (fr_val fuel e t2)) (fun kvs => VMap (map_build kvs)));
      [apply rd_map_begin_good | apply fpair_good; apply IH].
Qed.

(* fast_read always answers: an object, or one of the error classes the generated code can produce
   (the model's own out-of-fuel answer is never given) *)
Theorem fast_read_total e s init bs : fast_read e s init bs <> FErr FFuel.
Proof.
  unfold fast_read. destruct init; try discriminate.
  pose proof (fr_loop_good _ _ e s (fr_val_good e (S (length bs))) (S (length bs)) (fs, []) bs) as H.
  destruct (fr_loop (fr_val (S (length bs)) e) e s (S (length bs)) (fs, []) bs) as [[fs' r]|x]; [discriminate|].
  intros [= ->]. destruct (H eq_refl); lia.
Qed.

(* [p] reads the element [x] (encoded by [encb], at least one byte) completely when it is at most K bytes
   long, and refuses every proper prefix of at most K bytes as too short *)
Definition elem_ok {A B} (K : nat) (p : bytes -> fres (A * bytes)) (encb : B -> bytes) (x : B) : Prop :=
  ((length (encb x) <= K)%nat -> exists v, forall rest, p (encb x ++ rest) = FOk (v, rest)) /\
  (forall m, (m < length (encb x))%nat -> (m <= K)%nat -> p (firstn m (encb x)) = FErr FShort) /\
  (1 <= length (encb x))%nat.

Lemma elem_ok_mono {A B} K K' (p : bytes -> fres (A * bytes)) (encb : B -> bytes) x :
  (K' <= K)%nat -> elem_ok K p encb x -> elem_ok K' p encb x.
Proof.
  intros Hle (H1 & H2 & H3). split; [|split]; [intro H; apply H1; lia | intros m Hm Hk; apply H2; lia | exact H3].
Qed.

Lemma firstn_app_lt {A} (a b : list A) m : (m < length a)%nat -> firstn m (a ++ b) = firstn m a.
Proof. intro H. rewrite firstn_app. replace (m - length a)%nat with O by lia. cbn [firstn]. apply app_nil_r. Qed.

Lemma firstn_app_ge {A} (a b : list A) m : (length a <= m)%nat -> firstn m (a ++ b) = a ++ firstn (m - length a) b.
Proof. intro H. rewrite firstn_app, firstn_all2 by lia. reflexivity. Qed.

Lemma get_s_short n m (bs : bytes) : (m < n)%nat -> get_s n (firstn m bs) = None.
Proof. intro H. apply get_s_None. rewrite firstn_length. lia. Qed.

Lemma rd_s_short n z m : (m < n)%nat -> rd_s n (firstn m (put_be n z)) = FErr FShort.
Proof. intro H. unfold rd_s. rewrite get_s_short by exact H. reflexivity. Qed.

Lemma frep_prefix {A B} (p : bytes -> fres (A * bytes)) (encb : B -> bytes) l : forall fuel k,
  (k < fuel)%nat -> Forall (elem_ok k p encb) l ->
  (k < length (flat_map encb l))%nat ->
  frep p fuel (lenZ l) (firstn k (flat_map encb l)) = FErr FShort.
Proof.
  induction l as [|x l IH]; intros fuel k Hf Hall Hk; [cbn in Hk; lia|].
  apply Forall_cons_iff in Hall. destruct Hall as [(Hfull & Hpre & Hne) Hrest].
  destruct fuel; [lia|]. cbn [flat_map]. rewrite lenZ_cons, frep_cons by apply lenZ_nonneg.
  destruct (Nat.lt_ge_cases k (length (encb x))) as [Hlt|Hge].
  - rewrite firstn_app_lt by assumption. rewrite Hpre by (assumption || lia). reflexivity.
  - rewrite firstn_app_ge by assumption. destruct (Hfull Hge) as [v Hv]. rewrite Hv.
    cbn [flat_map] in Hk. rewrite app_length in Hk.
    rewrite IH; [reflexivity | lia | | lia].
    revert Hrest. apply Forall_impl. intro y. apply elem_ok_mono. lia.
Qed.

Lemma fpair_elem_ok {A B} K (p : bytes -> fres (A * bytes)) (q : bytes -> fres (B * bytes)) (k x : wval) :
  elem_ok K p enc k -> elem_ok K q enc x ->
  elem_ok K (fpair p q) (fun kv : wval * wval => enc (fst kv) ++ enc (snd kv)) (k, x).
Proof.
  intros (Hk & Hpk & Hnk) (Hx & Hpx & Hnx). unfold elem_ok. cbn [fst snd]. split; [|split].
  - rewrite app_length. intro Hl. destruct (Hk ltac:(lia)) as [vk Hvk]. destruct (Hx ltac:(lia)) as [vx Hvx].
    exists (vk, vx). intro rest. unfold fpair. rewrite <- app_assoc, Hvk, Hvx. reflexivity.
  - intros m Hm HmK. unfold fpair. rewrite app_length in Hm.
    destruct (Nat.lt_ge_cases m (length (enc k))) as [Hlt|Hge].
    + rewrite firstn_app_lt by assumption. rewrite Hpk by assumption. reflexivity.
    + rewrite firstn_app_ge by assumption. destruct (Hk ltac:(lia)) as [vk Hvk]. rewrite Hvk.
      assert (Hm' : (m - length (enc k) < length (enc x))%nat) by lia.
      rewrite (Hpx _ Hm' ltac:(lia)). reflexivity.
  - rewrite app_length. lia.
Qed.

(* a container cut short: inside the header, or inside the elements *)
Lemma fcontainer_prefix {A B C} (hd : bytes -> fres (Z * bytes)) (p : bytes -> fres (A * bytes)) (encb : B -> bytes)
      (mk : list A -> C) f l whole m :
  (forall bs, f bs = match hd bs with
                     | FErr x => FErr x
                     | FOk (n, r) => match frep p (S (length r)) n r with
                                     | FErr x => FErr x | FOk (xs, r') => FOk (mk xs, r') end
                     end) ->
  (forall k body, (k < length whole)%nat -> hd (firstn k (whole ++ body)) = FErr FShort) ->
  (forall r, hd (whole ++ r) = FOk (lenZ l, r)) ->
  ((length whole <= m)%nat -> Forall (elem_ok (m - length whole) p encb) l) ->
  (m < length (whole ++ flat_map encb l))%nat ->
  f (firstn m (whole ++ flat_map encb l)) = FErr FShort.
Proof.
  intros Ef Hshort Hhd Hel Hm. rewrite Ef. rewrite app_length in Hm.
  destruct (Nat.lt_ge_cases m (length whole)) as [Hlt|Hge].
  - rewrite Hshort by exact Hlt. reflexivity.
  - rewrite firstn_app_ge, Hhd by exact Hge.
    rewrite frep_prefix; [reflexivity | rewrite firstn_length; lia | apply Hel, Hge | lia].
Qed.

Lemma foldM_cons_ok {A S} (f : S -> A -> result S) x l st st' :
  foldM f (x :: l) st = Ok st' -> exists st1, f st x = Ok st1 /\ foldM f l st1 = Ok st'.
Proof. cbn [foldM]. destruct (f st x) as [st1|]; [|discriminate]. intro H. exists st1. auto. Qed.

Lemma mapM_ok_Forall {A B} (f : A -> result B) l ys : mapM f l = Ok ys -> Forall (fun x => exists y, f x = Ok y) l.
Proof. intro H. apply mapM_Forall2 in H. induction H as [|x y l ys Hxy _ IH]; constructor; [exists y; exact Hxy | exact IH]. Qed.

(* a list or map header cut short: the type bytes may be there, the four bytes of the count are not *)
Lemma header_prefix5 (b : byte) (hd body : bytes) m :
  length hd = 4%nat -> (m < 5)%nat -> rd_list_begin (firstn m (b :: hd ++ body)) = FErr FShort.
Proof.
  intros Hl Hm. destruct m as [|m]; [reflexivity|]. cbn [firstn rd_list_begin].
  rewrite firstn_app_lt, get_s_short by lia. reflexivity.
Qed.

Lemma header_prefix6 (b1 b2 : byte) (hd body : bytes) m :
  length hd = 4%nat -> (m < 6)%nat -> rd_map_begin (firstn m (b1 :: b2 :: hd ++ body)) = FErr FShort.
Proof.
  intros Hl Hm. destruct m as [|[|m]]; [reflexivity | reflexivity |]. cbn [firstn rd_map_begin].
  rewrite firstn_app_lt, get_s_short by lia. reflexivity.
Qed.

Section PrefixProof.
  Variable e : env.
  Hypothesis Henv : wf_env e = true.

  Definition pre_ok (w : wval) : Prop :=
    forall fuel t v, wf w -> (depth w <= default_recursion_depth)%nat ->
                     conforms e t w = true -> from_w e t w = Ok v ->
                     forall m, (m < length (enc w))%nat -> (m < fuel)%nat ->
                     fr_val fuel e t (firstn m (enc w)) = FErr FShort.

  Lemma elem_ok_of w fuel t v K :
    pre_ok w -> wf w -> (depth w <= default_recursion_depth)%nat ->
    conforms e t w = true -> from_w e t w = Ok v -> (K < fuel)%nat -> elem_ok K (fr_val fuel e t) enc w.
  Proof.
    intros Hp Hwf Hd Hc Hr HK. split; [|split].
    - intro Hl. exists v. pose proof (depth_le_size w). rewrite <- enc_length in *.
      pose proof (fr_val_from_w e Henv w fuel t Hwf ltac:(lia) Hd (conforms_wtype _ _ _ Hc)) as H0.
      rewrite Hr in H0. exact H0.
    - intros m Hm HmK. apply (Hp fuel t v); try assumption. lia.
    - pose proof (enc_nonempty w). unfold lenZ in *. lia.
  Qed.

  (* a struct all of whose fields are the reader's own (known id, the wire type of its IDL type, readable), cut
     short: the loop refuses from any state, on any sufficient fuel *)
  Lemma struct_prefix s fuel fs : forall lf st st0 st' m,
    NoDup (map f_id (s_fields s)) ->
    Forall (fun f : wfield => pre_ok (snd f)) fs ->
    Forall (fun f : wfield => wtype (snd f) = fst (fst f) /\ in_srange 2 (snd (fst f)) /\ wf (snd f)) fs ->
    (depth_struct_go fs <= default_recursion_depth)%nat ->
    forallb (fun wf : wfield =>
               match find_field (snd (fst wf)) (s_fields s) with
               | Some f => ttype_eqb (fst (fst wf)) (spec_ttype (f_ty f)) && conforms e (f_ty f) (snd wf)
               | None => false end) fs = true ->
    foldM (read_step e s) fs st0 = Ok st' ->
    (m < length (enc_fields_go fs))%nat -> (m < lf)%nat -> (m <= fuel + 2)%nat ->
    fr_loop (fr_val fuel e) e s lf st (firstn m (enc_fields_go fs)) = FErr FShort.
  Proof.
    induction fs as [|[[tt id] x] fs IH]; intros lf st st0 st' m Hnd H Hwf Hd Hc Hfold Hm Hlf Hfu.
    - cbn in Hm. assert (m = O) by lia. subst m. destruct lf; [lia|]. reflexivity.
    - destruct lf; [lia|].
      apply Forall_cons_iff in H. destruct H as [Hx Hrest]. apply Forall_cons_iff in Hwf. destruct Hwf as [(Hw1 & Hw2 & Hw3) Hwrest].
      cbn [forallb fst snd] in *. subst tt. apply andb_true_iff in Hc. destruct Hc as [Hc1 Hc2].
      destruct (find_field id (s_fields s)) as [fld|] eqn:Hf; [|discriminate].
      apply andb_true_iff in Hc1. destruct Hc1 as [Htt Hcx]. apply ttype_eqb_eq in Htt.
      destruct (foldM_cons_ok _ _ _ _ _ Hfold) as (st1 & Hstep & Hfold').
      unfold read_step in Hstep. cbn [fst snd] in Hstep. rewrite Hf, Htt, ttype_of_spec, ttype_eqb_refl in Hstep.
      destruct (from_w e (f_ty fld) x) as [vx|] eqn:Hvx; [|discriminate].
      cbn [depth_struct_go] in Hd. fold depth_struct_go in Hd.
      rewrite enc_fields_go_cons in *. rewrite put_be_1 in *. cbn [app] in *.
      destruct m as [|k]; [reflexivity|]. cbn [firstn fr_loop].
      pose proof (code_range (wtype x)) as Hcr. rewrite Z_of_byte_code.
      destruct (Z.eqb_spec (code (wtype x)) 0) as [E0|_]; [lia|].
      cbn [length] in Hm. rewrite !app_length, put_be_length in Hm.
      destruct (Nat.lt_ge_cases k 2) as [Hk2|Hk2].
      + rewrite firstn_app_lt by (rewrite put_be_length; lia). rewrite get_s_short by exact Hk2. reflexivity.
      + rewrite firstn_app_ge by (rewrite put_be_length; lia). rewrite put_be_length.
        rewrite get_s_put by (auto; lia).
        rewrite find_case_spec, Hf, Htt, wire_type_spec, Z.eqb_refl by assumption.
        destruct (elem_ok_of x fuel (f_ty fld) vx (k - 2)) as (Hfull & Hpre & Hne); try assumption; try lia.
        destruct (Nat.lt_ge_cases (k - 2) (length (enc x))) as [Hlt|Hge].
        * rewrite firstn_app_lt by assumption. rewrite Hpre by (assumption || lia). reflexivity.
        * rewrite firstn_app_ge by assumption. destruct (Hfull ltac:(lia)) as [v Hv]. rewrite Hv.
          apply (IH lf _ st1 st'); try assumption; lia.
  Qed.

  Lemma seq_prefix fuel a et l v m :
    Forall pre_ok l -> in_srange 4 (Z.of_nat (length l)) -> Forall (fun x => wtype x = et /\ wf x) l ->
    (S (depth_list_go l) <= default_recursion_depth)%nat ->
    ttype_eqb et (spec_ttype a) && forallb (conforms e a) l = true ->
    (if ttype_eqb et (ttype_of e a) || (length l =? 0)%nat
     then bind (mapM (from_w e a) l) (fun xs => Ok (VList xs)) else Err EHeader) = Ok v ->
    (m < length (put_be 1 (code et) ++ put_be 4 (Z.of_nat (length l)) ++ enc_list_go l))%nat -> (m <= fuel)%nat ->
    fr_val (S fuel) e (TList a) (firstn m (put_be 1 (code et) ++ put_be 4 (Z.of_nat (length l)) ++ enc_list_go l)) = FErr FShort.
  Proof.
    intros H Hlen Hall Hd Hc Hr Hm Hfu. apply andb_true_iff in Hc. destruct Hc as [_ Hcall].
    destruct (ttype_eqb et (ttype_of e a) || (length l =? 0)%nat); [|discriminate].
    destruct (mapM (from_w e a) l) as [xs|] eqn:Hmap; [|discriminate]. apply mapM_ok_Forall in Hmap.
    rewrite enc_list_go_flat, app_assoc in *.
    apply (fcontainer_prefix rd_list_begin (fr_val fuel e a) enc VList); [reflexivity | | | | exact Hm].
    - intros k body Hk. rewrite app_length, !put_be_length in Hk. rewrite put_be_1. cbn [app].
      apply header_prefix5; [apply put_be_length | exact Hk].
    - intro r. rewrite <- app_assoc. apply rd_list_begin_enc; [assumption | apply lenZ_nonneg].
    - rewrite app_length, !put_be_length. intro Hge.
      rewrite Forall_forall in *. rewrite forallb_forall in Hcall. intros x Hx.
      destruct (Hall _ Hx) as [_ Hwx]. destruct (Hmap _ Hx) as [y Hy]. pose proof (depth_list_le _ _ Hx) as Hdp.
      apply (elem_ok_of x fuel a y); try assumption; try lia; [apply H | apply Hcall]; assumption.
  Qed.

  Theorem fr_val_prefix : forall w, pre_ok w.
  Proof.
    intro w. induction w using wval_ind2; intros fuel t v Hwf Hd Hc Hr m Hm Hmf;
      (destruct fuel as [|fuel]; [lia|]).
    2, 4-6: destruct t; try discriminate; cbn [enc] in *; rewrite put_be_length in Hm; cbn [fr_val];
      rewrite rd_s_short by exact Hm; reflexivity.
    - (* bool *) destruct t; try discriminate. cbn in Hm. assert (m = O) by lia. subst. reflexivity.
    - (* double *) destruct t; try discriminate. cbn [enc] in *. rewrite put_be_length in Hm. cbn [fr_val]. unfold rd_u.
      rewrite (proj2 (get_be_None _ _)) by (rewrite firstn_length, put_be_length; lia). reflexivity.
    - (* string *)
      assert (Hs : rd_str (firstn m (enc (WStr s))) = FErr FShort).
      { cbn [enc] in *. rewrite app_length, put_be_length in Hm. unfold rd_str.
        destruct (Nat.lt_ge_cases m 4) as [Hlt|Hge].
        - rewrite firstn_app_lt by (rewrite put_be_length; lia). rewrite get_s_short by exact Hlt. reflexivity.
        - rewrite firstn_app_ge by (rewrite put_be_length; lia). rewrite put_be_length.
          rewrite get_s_put by (auto; lia || exact Hwf).
          destruct (Z.ltb_spec (Z.of_nat (length s)) 0); [lia|].
          unfold lenZ. rewrite firstn_length.
          destruct (Z.ltb_spec (Z.of_nat (Nat.min (m - 4) (length s))) (Z.of_nat (length s))); [reflexivity | lia]. }
      destruct t; try discriminate; cbn [fr_val]; rewrite Hs; reflexivity.
    - (* struct *)
      destruct t; try discriminate. rewrite from_w_struct in Hr. cbn [conforms] in Hc. cbn [fr_val].
      destruct (find_struct e name) as [s|] eqn:Hs; [|discriminate].
      destruct (foldM (read_step e s) fs (new_fields s, [])) as [st'|] eqn:Hfold; [|discriminate].
      rewrite enc_struct_unfold in *.
      apply wf_struct_iff in Hwf. rewrite depth_struct_unfold in Hd.
      assert (Hnd : NoDup (map f_id (s_fields s))) by (apply wf_struct_nodup, (wf_env_struct e name); assumption).
      assert (Hlf : (m < S (length (firstn m (enc_fields_go fs))))%nat) by (rewrite firstn_length; lia).
      rewrite (struct_prefix s fuel fs _ (new_fields s, []) _ st' m Hnd H Hwf ltac:(lia) Hc Hfold Hm Hlf ltac:(lia)).
      reflexivity.
    - (* map *)
      destruct t; try discriminate. apply wf_map_iff in Hwf. destruct Hwf as [Hlen Hall]. rewrite depth_map_unfold in Hd.
      cbn [conforms] in Hc. apply andb_true_iff in Hc. destruct Hc as [_ Hcall].
      cbn [from_w] in Hr.
      destruct ((ttype_eqb kt (ttype_of e t1) && ttype_eqb vt (ttype_of e t2)) || (length kvs =? 0)%nat); [|discriminate].
      set (g := fun kv : wval * wval => bind (from_w e t1 (fst kv)) (fun k => bind (from_w e t2 (snd kv)) (fun x => Ok (k, x)))) in *.
      destruct (mapM g kvs) as [xs|] eqn:Hmap; [|discriminate]. apply mapM_ok_Forall in Hmap.
      rewrite enc_map_unfold, enc_map_go_flat, (app_assoc (put_be 1 (code kt))), app_assoc in *.
      apply (fcontainer_prefix rd_map_begin (fpair (fr_val fuel e t1) (fr_val fuel e t2))
               (fun kv : wval * wval => enc (fst kv) ++ enc (snd kv)) (fun xs => VMap (map_build xs)));
        [reflexivity | | | | exact Hm].
      + intros k body Hk. rewrite !app_length, !put_be_length in Hk. rewrite !put_be_1. cbn [app].
        apply header_prefix6; [apply put_be_length | exact Hk].
      + intro r. rewrite <- !app_assoc. apply rd_map_begin_enc; [assumption | apply lenZ_nonneg].
      + rewrite !app_length, !put_be_length. intro Hge.
        rewrite Forall_forall in *. rewrite forallb_forall in Hcall. intros [k x] Hkv.
        destruct (H _ Hkv) as [IHk IHx]. destruct (Hall _ Hkv) as (_ & _ & Hwk & Hwx). cbn [fst snd] in *.
        destruct (Hmap _ Hkv) as [y Hy]. unfold g in Hy. cbn [fst snd] in Hy.
        destruct (from_w e t1 k) as [vk|] eqn:E1; [|discriminate]. destruct (from_w e t2 x) as [vx|] eqn:E2; [|discriminate].
        specialize (Hcall _ Hkv). cbn [fst snd] in Hcall. apply andb_true_iff in Hcall. destruct Hcall as [Hc1 Hc2].
        pose proof (depth_map_le _ _ Hkv) as Hdp. cbn [fst snd] in Hdp.
        apply fpair_elem_ok; [apply (elem_ok_of k fuel t1 vk) | apply (elem_ok_of x fuel t2 vx)]; try assumption; lia.
    - (* set *)
      destruct t; try discriminate. apply wf_set_iff in Hwf. destruct Hwf as [Hlen Hall]. rewrite depth_set_unfold in Hd.
      rewrite enc_set_unfold in *. apply (seq_prefix fuel t et l v); assumption || lia.
    - (* list *)
      destruct t; try discriminate. apply wf_list_iff in Hwf. destruct Hwf as [Hlen Hall]. rewrite depth_list_unfold in Hd.
      rewrite enc_list_unfold in *. apply (seq_prefix fuel t et l v); assumption || lia.
  Qed.
End PrefixProof.

(* every proper prefix of an encoding of a value of the struct itself (all fields known, typed as the schema
   says, readable) is refused as too short: an error of class INVALID_DATA, not one of the panic classes *)
Theorem fast_read_prefix_error e s fs0 wfs v m :
  wf_env e = true -> find_struct e (s_name s) = Some s -> wf (WStruct wfs) ->
  (depth (WStruct wfs) <= default_recursion_depth)%nat ->
  conforms e (TRef (s_name s)) (WStruct wfs) = true ->
  from_wire e s (VStruct fs0) (WStruct wfs) = Ok v ->
  (m < length (enc (WStruct wfs)))%nat ->
  fast_read e s (VStruct fs0) (firstn m (enc (WStruct wfs))) = FErr FShort.
Proof.
  intros Henv Hs Hwf Hd Hc Hr Hm. unfold fast_read.
  cbn [conforms] in Hc. rewrite Hs in Hc. unfold from_wire in Hr.
  destruct (foldM (read_step e s) wfs (fs0, [])) as [st'|] eqn:Hfold; [|discriminate].
  rewrite enc_struct_unfold in *.
  apply wf_struct_iff in Hwf. rewrite depth_struct_unfold in Hd.
  assert (Hnd : NoDup (map f_id (s_fields s))) by (apply wf_struct_nodup, (wf_env_struct e (s_name s)); assumption).
  assert (Hpre : Forall (fun f : wfield => pre_ok e (snd f)) wfs).
  { apply Forall_forall. intros f _. apply fr_val_prefix. exact Henv. }
  assert (Hlf : (m < S (length (firstn m (enc_fields_go wfs))))%nat) by (rewrite firstn_length; lia).
  rewrite (struct_prefix e Henv s _ wfs _ (fs0, []) _ st' m Hnd Hpre Hwf ltac:(lia) Hc Hfold Hm Hlf);
    [reflexivity | rewrite firstn_length; lia].
Qed.

Module Witness.
Import Coq.Strings.String.
Local Open Scope string_scope.

(* struct K { 1: i32 x, 2: optional string y } *)
Definition sK : sschema := mkstruct (B "a.K") KStruct
  [mkfield 1 (B "x") Default TI32 None false; mkfield 2 (B "y") Optional TString None false].
Definition eK : env := mkenv [sK] [].
Definition vK : value := VStruct [(1, VInt 226); (2, VSome (VStr (hx "04")))].

(* struct Small { 1: i32 a } and an encoding that carries an unknown field 7: map<string,i64> *)
Definition sSmall : sschema := mkstruct (B "a.Small") KStruct [mkfield 1 (B "a") Default TI32 None false].
Definition eSmall : env := mkenv [sSmall] [].
Definition wUnknown : wval :=
  WStruct [(T_I32, 1, WI32 5); (T_MAP, 7, WMap T_STRING T_I64 [(WStr (B "k"), WI64 7)])].

(* struct Ov { 1: OvIn inner }  struct OvIn { 2560: string s } *)
Definition sOvIn : sschema := mkstruct (B "a.OvIn") KStruct [mkfield 2560 (B "s") Default TString None false].
Definition sOv : sschema := mkstruct (B "a.Ov") KStruct [mkfield 1 (B "inner") Default (TRef (B "a.OvIn")) None false].
Definition eOv : env := mkenv [sOvIn; sOv] [].
Definition vOv : value :=
  VStruct [(1, VStruct [(2560, VStr (hx "0000fa" ++ repeat x00 253)%list)])].

(* struct L { 2: list<i64> l } and a list header that claims 2^31-1 elements with nothing behind it *)
Definition sL : sschema := mkstruct (B "a.L") KStruct [mkfield 2 (B "l") Default (TList TI64) None true].
Definition eL : env := mkenv [sL] [].
Definition hostile : bytes := hx "0f 00 02 0a 7f ff ff ff".
End Witness.

(* one corrupted type byte (08 -> ff) of a well-formed encoding: the model reaches Skip's index with a negative type *)
Theorem fast_read_corrupted_type_byte_refuted :
  exists e s v bs, wt e s v = true /\ fast_append e s v = x08 :: bs /\
                   fast_read e s (new_struct e s) (fast_append e s v) = FOk (v, lenZ (fast_append e s v)) /\
                   fast_read e s (new_struct e s) (xff :: bs) = FErr FIndex.
Proof.
  exists Witness.eK, Witness.sK, Witness.vK. eexists. split; [vm_compute; reflexivity|]. split; [vm_compute; reflexivity|].
  split; [vm_compute; reflexivity|]. vm_compute. reflexivity.
Qed.

(* a proper prefix of a well-formed encoding with an unknown map<string,i64> field: Skip reports more bytes than it has *)
Theorem fast_read_truncated_refuted :
  exists e s w n, wf w /\ (n < List.length (enc w))%nat /\
                  (exists v, fast_read e s (new_struct e s) (enc w) = FOk (v, lenZ (enc w))) /\
                  fast_read e s (new_struct e s) (firstn n (enc w)) = FErr FOverrun.
Proof.
  exists Witness.eSmall, Witness.sSmall, Witness.wUnknown, 24%nat.
  split; [vm_compute; intuition discriminate|]. split; [vm_compute; lia|].
  split; [eexists; vm_compute; reflexivity | vm_compute; reflexivity].
Qed.

(* one corrupted type byte (0c -> 0d) of an encoding of the struct's own value: the same overrun *)
Theorem fast_read_corrupted_overrun_refuted :
  exists e s v bs, wt e s v = true /\ fast_append e s v = x0c :: bs /\
                   fast_read e s (new_struct e s) (x0d :: bs) = FErr FOverrun.
Proof.
  exists Witness.eOv, Witness.sOv, Witness.vOv. eexists. split; [vm_compute; reflexivity|].
  split; [vm_compute; reflexivity|]. vm_compute. reflexivity.
Qed.

(* a size taken from the input is accepted although nothing follows it: the generated code executes
   make(T, 2147483647) (16 GiB for i64 elements) before the first element read fails as too short. The model
   answers with the error; a process under a memory limit is aborted by the Go runtime instead (the
   standard generated Read allocates in the same way) *)
Theorem fast_read_hostile_size_refuted :
  exists e s bs,
    fast_read e s (new_struct e s) bs = FErr FShort /\
    rd_list_begin (skipn 3 bs) = FOk (2147483647, []).
Proof.
  exists Witness.eL, Witness.sL, Witness.hostile. split; vm_compute; reflexivity.
Qed.
