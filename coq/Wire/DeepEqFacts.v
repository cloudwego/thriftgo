(* Wire/DeepEqFacts.v — proofs about the generated DeepEqual (Wire/DeepEq.v).

     deq_sym            deq e t x y = deq e t y x                  (shaped values; any sharing, any keys)
     deq_same_pk        deq e t x y = same_pk x y                  (shaped values, consistent heap, any keys)
     deq_same           deq e t x y = same x y                     (on eq_domain; a corollary of deq_same_pk)
     deq_refl           nan_free x -> deq e t x x = true           (shaped x)
     deq_same_object    the pointer shortcut
     validate_set_spec  validate_set refuses exactly the sets with two structurally equal elements
     sets_ok_distinct   Write (set validation) refuses exactly the values holding such a set
   and the laws of the specification itself (same_sym, same_refl). *)
From Coq Require Import List ZArith Bool Lia.
From Verif Require Import Base.Bytes Wire.TType Wire.Schema Wire.Value Wire.DeepEq.
Import ListNotations.
Open Scope Z_scope.

Section HvalInd.
  Variable P : hval -> Prop.
  Hypothesis Hbool : forall b, P (HBool b).
  Hypothesis Hint : forall z, P (HInt z).
  Hypothesis Hdbl : forall z, P (HDbl z).
  Hypothesis Hstr : forall s, P (HStr s).
  Hypothesis Hbin : forall s, P (HBin s).
  Hypothesis Hlist : forall l, Forall P l -> P (HList l).
  Hypothesis Hmap : forall m, Forall (fun kv => P (fst kv) /\ P (snd kv)) m -> P (HMap m).
  Hypothesis Hstruct : forall a fs, Forall (fun p => P (snd p)) fs -> P (HStruct a fs).
  Hypothesis Hnil : P HNil.
  Hypothesis Hsome : forall a v, P v -> P (HSome a v).

  Fixpoint hval_ind' (x : hval) : P x :=
    match x with
    | HBool b => Hbool b
    | HInt z => Hint z
    | HDbl z => Hdbl z
    | HStr s => Hstr s
    | HBin s => Hbin s
    | HList l =>
        Hlist l ((fix go (l : list hval) : Forall P l :=
                    match l with
                    | [] => Forall_nil _
                    | a :: r => Forall_cons _ (hval_ind' a) (go r)
                    end) l)
    | HMap m =>
        Hmap m ((fix go (m : list (hval * hval)) : Forall (fun kv => P (fst kv) /\ P (snd kv)) m :=
                   match m with
                   | [] => Forall_nil _
                   | kv :: r => Forall_cons _ (conj (hval_ind' (fst kv)) (hval_ind' (snd kv))) (go r)
                   end) m)
    | HStruct a fs =>
        Hstruct a fs ((fix go (fs : list (Z * hval)) : Forall (fun p => P (snd p)) fs :=
                         match fs with
                         | [] => Forall_nil _
                         | p :: r => Forall_cons _ (hval_ind' (snd p)) (go r)
                         end) fs)
    | HNil => Hnil
    | HSome a v => Hsome a v (hval_ind' v)
    end.
End HvalInd.

(* hval_ind' with one more induction hypothesis in the struct case: the value u under an optional
   base slot HSome a u.  shape and the generated code read such a slot as u at the type of the field,
   and shape refuses HSome everywhere else: the hypothesis for the slot itself says nothing. *)
Lemma hval_ind3 (P : hval -> Prop) :
  (forall b, P (HBool b)) -> (forall z, P (HInt z)) -> (forall z, P (HDbl z)) ->
  (forall s, P (HStr s)) -> (forall s, P (HBin s)) ->
  (forall l, Forall P l -> P (HList l)) ->
  (forall m, Forall (fun kv => P (fst kv) /\ P (snd kv)) m -> P (HMap m)) ->
  (forall a fs, Forall (fun p => P (snd p) /\ match snd p with HSome _ u => P u | _ => True end) fs ->
                P (HStruct a fs)) ->
  P HNil -> (forall a v, P v -> P (HSome a v)) -> forall x, P x.
Proof.
  intros Hbool Hint Hdbl Hstr Hbin Hlist Hmap Hstruct Hnil Hsome x.
  enough (H : P x /\ match x with HSome _ u => P u | _ => True end) by apply H.
  induction x using hval_ind'; (split; [|exact I || apply IHx]); auto.
  - apply Hlist. eapply Forall_impl; [|exact H]. intros a Ha. apply Ha.
  - apply Hmap. eapply Forall_impl; [|exact H]. intros kv [Hk Hv]. split; [apply Hk|apply Hv].
  - apply Hsome. apply IHx.
Qed.

Lemma forallb_In {A} (p : A -> bool) l : forallb p l = true -> forall x, In x l -> p x = true.
Proof. intros H x Hx. rewrite forallb_forall in H. auto. Qed.

Lemma forallb_ext_in {A} (f g : A -> bool) l : (forall x, In x l -> f x = g x) -> forallb f l = forallb g l.
Proof.
  induction l as [|a l IH]; cbn; intros H; auto.
  rewrite (H a) by auto. f_equal. apply IH. intros; apply H; auto.
Qed.

Lemma existsb_ext_in {A} (f g : A -> bool) l : (forall x, In x l -> f x = g x) -> existsb f l = existsb g l.
Proof.
  induction l as [|a l IH]; cbn; intros H; auto.
  rewrite (H a) by auto. f_equal. apply IH. intros; apply H; auto.
Qed.

Lemma all2_length {A B} (f : A -> B -> bool) la lb : all2 f la lb = true -> length la = length lb.
Proof.
  revert lb. induction la as [|a la IH]; intros [|b lb] H; cbn in *; try discriminate; auto.
  apply andb_true_iff in H as [_ H]. f_equal. auto.
Qed.

Lemma incl_refl' {A} (l : list A) : incl l l.
Proof. intros x H; exact H. Qed.
Lemma incl_trans' {A} (a b c : list A) : incl a b -> incl b c -> incl a c.
Proof. intros H1 H2 x H. auto. Qed.

Lemma all2_ext_in {A B} (f g : A -> B -> bool) la lb :
  (forall a b, In a la -> In b lb -> f a b = g a b) -> all2 f la lb = all2 g la lb.
Proof.
  revert lb. induction la as [|a la IH]; intros [|b lb] H; cbn; auto.
  rewrite (H a b) by (left; auto). f_equal. apply IH. intros; apply H; right; auto.
Qed.

Lemma all2_flip {A B} (f : A -> B -> bool) la lb : all2 f la lb = all2 (fun b a => f a b) lb la.
Proof. revert lb. induction la as [|a la IH]; intros [|b lb]; cbn; auto. f_equal. auto. Qed.

Lemma len_all2 {A B} (f : A -> B -> bool) la lb :
  (length la =? length lb)%nat && all2 f la lb = all2 f la lb.
Proof.
  destruct (all2 f la lb) eqn:E.
  - apply all2_length in E. rewrite E, Nat.eqb_refl. reflexivity.
  - apply andb_false_r.
Qed.

Lemma list_eqbZ_true a b : list_eqbZ a b = true -> a = b.
Proof.
  revert b. induction a as [|x a IH]; intros [|y b] H; cbn in H; try discriminate; auto.
  apply andb_true_iff in H as [H1 H2]. apply Z.eqb_eq in H1. subst. f_equal. auto.
Qed.

Lemma is_empty_nil {A} (l : list A) : is_empty l = true <-> l = [].
Proof. destruct l; cbn; split; intros; auto; discriminate. Qed.

Lemma booleqb_sym a b : Bool.eqb a b = Bool.eqb b a.
Proof. destruct a, b; reflexivity. Qed.

Lemma feq_sym a b : feq a b = feq b a.
Proof. unfold feq. rewrite (orb_comm (dbl_is_nan a)), (Z.eqb_sym a b), (andb_comm (dbl_is_zero a)). reflexivity. Qed.

Lemma feq_trans a b c : feq a b = true -> feq b c = true -> feq a c = true.
Proof.
  unfold feq. destruct (dbl_is_nan a), (dbl_is_nan b), (dbl_is_nan c); cbn; try discriminate.
  intros H1 H2. apply orb_true_iff in H1, H2. apply orb_true_iff.
  destruct H1 as [H1|H1], H2 as [H2|H2].
  - apply Z.eqb_eq in H1, H2. subst. left. apply Z.eqb_refl.
  - apply Z.eqb_eq in H1. subst. right. auto.
  - apply Z.eqb_eq in H2. subst. right. auto.
  - apply andb_true_iff in H1 as [Ha _], H2 as [_ Hc]. right. rewrite Ha, Hc. reflexivity.
Qed.

Lemma feq_refl a : negb (dbl_is_nan a) = true -> feq a a = true.
Proof. unfold feq. intros H. apply negb_true_iff in H. rewrite H, Z.eqb_refl. reflexivity. Qed.

Lemma hkey_eq_sym a b : hkey_eq a b = hkey_eq b a.
Proof. destruct a, b; cbn; auto using booleqb_sym, feq_sym, beqb_sym, Z.eqb_sym. Qed.

Lemma hkey_eq_trans a b c : hkey_eq a b = true -> hkey_eq b c = true -> hkey_eq a c = true.
Proof.
  destruct a, b; cbn; try discriminate; destruct c; cbn; try discriminate; intros H1 H2.
  - destruct b, b0, b1; cbn in *; auto; discriminate.
  - apply Z.eqb_eq in H1, H2. subst. apply Z.eqb_refl.
  - eauto using feq_trans.
  - apply beqb_true in H1, H2. subst. apply beqb_refl.
  - apply beqb_true in H1, H2. subst. apply beqb_refl.
  - apply Z.eqb_eq in H1, H2. subst. apply Z.eqb_refl.
  - reflexivity.
Qed.

Lemma keyable_refl k : keyable k = true -> nan_free k = true -> hkey_eq k k = true.
Proof. destruct k; cbn; try discriminate; auto using eqb_reflx, Z.eqb_refl, beqb_refl, feq_refl. Qed.

Definition nodupk (m : list (hval * hval)) : Prop := has_dup hkey_eq (map fst m) = false.

Lemma nodupk_cons k v m :
  nodupk ((k, v) :: m) <-> (forall k' w, In (k', w) m -> hkey_eq k k' = false) /\ nodupk m.
Proof.
  unfold nodupk. cbn [map fst has_dup]. rewrite orb_false_iff. split; intros [H1 H2]; split; auto.
  - intros k' w Hin. destruct (hkey_eq k k') eqn:E; auto.
    assert (existsb (hkey_eq k) (map fst m) = true); [|congruence].
    apply existsb_exists. exists k'. split; auto. apply in_map_iff. exists (k', w). auto.
  - destruct (existsb (hkey_eq k) (map fst m)) eqn:E; auto.
    apply existsb_exists in E as [k' [Hin Hk]]. apply in_map_iff in Hin as [[k'' w] [Heq Hin]].
    cbn in Heq. subst. rewrite (H1 _ _ Hin) in Hk. discriminate.
Qed.

Lemma nodupk_remove l1 x l2 : nodupk (l1 ++ x :: l2) -> nodupk (l1 ++ l2).
Proof.
  induction l1 as [|[k v] l1 IH]; cbn [app].
  - destruct x as [k v]. intros H. apply nodupk_cons in H. tauto.
  - intros H. apply nodupk_cons in H as [H1 H2]. apply nodupk_cons. split; auto.
    intros k' w Hin. apply (H1 k' w). apply in_app_or in Hin as [Hin|Hin]; apply in_or_app; auto.
    right. right. auto.
Qed.

Lemma hfind_some_in k m w : hfind k m = Some w -> exists k', In (k', w) m /\ hkey_eq k k' = true.
Proof.
  induction m as [|[k0 w0] m IH]; cbn; try discriminate.
  destruct (hkey_eq k k0) eqn:E.
  - intros [= <-]. exists k0. auto.
  - intros H. destruct (IH H) as [k' [Hin Hk]]. exists k'. auto.
Qed.

Lemma hfind_none k m : hfind k m = None -> forall k' w, In (k', w) m -> hkey_eq k k' = false.
Proof.
  induction m as [|[k0 w0] m IH]; cbn; [tauto|].
  destruct (hkey_eq k k0) eqn:E; try discriminate.
  intros H k' w [[= <- <-]|Hin]; eauto.
Qed.

Lemma hfind_unique k k' w m :
  nodupk m -> In (k', w) m -> hkey_eq k k' = true -> hfind k m = Some w.
Proof.
  induction m as [|[k0 w0] m IH]; cbn [In hfind]; [tauto|].
  intros Hnd Hin Hk. apply nodupk_cons in Hnd as [H1 H2].
  destruct Hin as [[= -> ->]|Hin].
  - rewrite Hk. reflexivity.
  - destruct (hkey_eq k k0) eqn:E; auto.
    rewrite hkey_eq_sym in E. pose proof (hkey_eq_trans _ _ _ E Hk) as Ht.
    rewrite (H1 _ _ Hin) in Ht. discriminate.
Qed.

Definition cov (la lb : list (hval * hval)) : Prop :=
  forall k v, In (k, v) la -> exists k' w, In (k', w) lb /\ hkey_eq k k' = true.

Lemma pigeon la : forall lb,
  nodupk la -> nodupk lb -> length la = length lb -> cov la lb -> cov lb la.
Proof.
  induction la as [|[k0 v0] la IH]; intros lb Hna Hnb Hlen Hcov.
  - destruct lb; [|discriminate]. intros k v [].
  - apply nodupk_cons in Hna as [Ha1 Ha2].
    destruct (Hcov k0 v0 (or_introl eq_refl)) as [k0' [w0' [Hin0 Hk0]]].
    destruct (in_split _ _ Hin0) as [l1 [l2 ->]].
    assert (Hcov' : cov la (l1 ++ l2)).
    { intros k v Hin. destruct (Hcov k v (or_intror Hin)) as [k' [w [Hin' Hk]]].
      apply in_app_or in Hin' as [Hin'|[Heq|Hin']].
      - exists k', w. split; auto. apply in_or_app; auto.
      - inversion Heq; subst. exfalso.
        assert (hkey_eq k0 k = true).
        { apply hkey_eq_trans with k'; auto. rewrite hkey_eq_sym. exact Hk. }
        rewrite (Ha1 _ _ Hin) in H. discriminate.
      - exists k', w. split; auto. apply in_or_app; auto. }
    assert (Hlen' : length la = length (l1 ++ l2)).
    { rewrite app_length in *. cbn in Hlen. lia. }
    specialize (IH (l1 ++ l2) Ha2 (nodupk_remove _ _ _ Hnb) Hlen' Hcov').
    intros k' w Hin. apply in_app_or in Hin as [Hin|[Heq|Hin]].
    + destruct (IH k' w) as [k [v [Hi Hk]]]; [apply in_or_app; auto|]. exists k, v. split; [right|]; auto.
    + inversion Heq; subst. exists k0, v0. split; [left; auto|]. rewrite hkey_eq_sym. exact Hk0.
    + destruct (IH k' w) as [k [v [Hi Hk]]]; [apply in_or_app; auto|]. exists k, v. split; [right|]; auto.
Qed.

(* range the first map, index the second (with the presence test) *)
Definition mapcmp (V : hval -> hval -> bool) (mx my : list (hval * hval)) : bool :=
  forallb (fun kv => match hfind (fst kv) my with Some w => V (snd kv) w | None => false end) mx.

Lemma mapcmp_cov V mx my : mapcmp V mx my = true -> cov mx my.
Proof.
  intros H k v Hin. apply (forallb_In _ _ H) in Hin. cbn in Hin.
  destruct (hfind k my) eqn:E; try discriminate.
  apply hfind_some_in in E as [k' [Hi Hk]]. eauto.
Qed.

Lemma mapcmp_swap V mx my :
  nodupk mx -> nodupk my -> length mx = length my ->
  mapcmp V mx my = true -> mapcmp (fun w v => V v w) my mx = true.
Proof.
  intros Hnx Hny Hlen H. apply forallb_forall. intros [k' w] Hin. cbn [fst snd].
  destruct (pigeon mx my Hnx Hny Hlen (mapcmp_cov _ _ _ H) k' w Hin) as [k [v [Hi Hk]]].
  rewrite (hfind_unique k' k v mx Hnx Hi Hk).
  apply (forallb_In _ _ H) in Hi. cbn [fst snd] in Hi.
  rewrite hkey_eq_sym in Hk. rewrite (hfind_unique k k' w my Hny Hin Hk) in Hi. exact Hi.
Qed.

Lemma mapcmp_ext V1 V2 mx my :
  (forall kv kv', In kv mx -> In kv' my -> V1 (snd kv) (snd kv') = V2 (snd kv) (snd kv')) ->
  mapcmp V1 mx my = mapcmp V2 mx my.
Proof.
  intros H. unfold mapcmp. apply forallb_ext_in. intros kv Hin.
  destruct (hfind (fst kv) my) eqn:E; auto.
  apply hfind_some_in in E as [k' [Hi _]]. apply (H kv (k', h) Hin Hi).
Qed.

Lemma mapcmp_exists V mx my :
  nodupk my ->
  mapcmp V mx my = forallb (fun kv => existsb (fun kv' => hkey_eq (fst kv) (fst kv') && V (snd kv) (snd kv')) my) mx.
Proof.
  intros Hny. unfold mapcmp. apply forallb_ext_in. intros [k v] Hin. cbn [fst snd].
  apply eq_true_iff_eq. split.
  - destruct (hfind k my) eqn:E; try discriminate. intros HV.
    apply hfind_some_in in E as [k' [Hi Hk]]. apply existsb_exists. exists (k', h). cbn. rewrite Hk, HV. auto.
  - intros H. apply existsb_exists in H as [[k' w] [Hi Hkv]]. cbn in Hkv. apply andb_true_iff in Hkv as [Hk HV].
    rewrite (hfind_unique k k' w my Hny Hi Hk). exact HV.
Qed.

Definition slot_cmp (rep : bool) (e : env) (s : sschema) (p q : Z * hval) : bool :=
  (fst p =? fst q) &&
  match find_field (fst p) (s_fields s) with
  | Some f => deq_slot rep e f (snd p) (snd q)
  | None => false
  end.

Lemma deq_struct_unfold rep e n a fs b gs :
  deq_gen rep e (TRef n) (HStruct a fs) (HStruct b gs) =
  if a =? b then true
  else match find_struct e n with
       | None => false
       | Some s => all2 (slot_cmp rep e s) fs gs
       end.
Proof.
  cbn [deq_gen]. destruct (a =? b); auto. destruct (find_struct e n) as [s|]; auto.
  revert gs. induction fs as [|[i u] fs IH]; intros [|[j w] gs]; auto.
  cbn [all2]. rewrite <- IH. unfold slot_cmp, deq_slot. cbn [fst snd]. reflexivity.
Qed.

Lemma deq_list_unfold rep e t et lx ly :
  t = TList et \/ t = TSet et ->
  deq_gen rep e t (HList lx) (HList ly) = all2 (deq_gen rep e et) lx ly.
Proof. intros [->| ->]; cbn [deq_gen]; apply len_all2. Qed.

Lemma deq_map_unfold e kt vt mx my :
  deq e (TMap kt vt) (HMap mx) (HMap my) = (length mx =? length my)%nat && mapcmp (deq e vt) mx my.
Proof. reflexivity. Qed.

Definition slot_shape (e : env) (s : sschema) (p : Z * hval) : bool :=
  match find_field (fst p) (s_fields s) with
  | Some f =>
      if base_ptr f then
        match snd p with
        | HNil => true
        | HSome _ u => shape e false (f_ty f) u
        | _ => false end
      else shape e false (f_ty f) (snd p)
  | None => false end.

Lemma shape_struct e key t a fs :
  shape e key t (HStruct a fs) = true ->
  exists n s, t = TRef n /\ find_struct e n = Some s /\ map fst fs = map f_id (s_fields s) /\
              forallb (slot_shape e s) fs = true.
Proof.
  cbn [shape]. destruct t; try discriminate. destruct (find_struct e name) as [s|] eqn:E; try discriminate.
  intros H. apply andb_true_iff in H as [H1 H2]. exists name, s. repeat split; auto using list_eqbZ_true.
Qed.

Lemma shape_list e key t l :
  shape e key t (HList l) = true ->
  exists et, (t = TList et \/ t = TSet et) /\ forallb (shape e false et) l = true.
Proof. cbn [shape]. destruct t; try discriminate; intros H; exists t; auto. Qed.

Lemma shape_map e key t m :
  shape e key t (HMap m) = true ->
  exists kt vt, t = TMap kt vt /\
    forallb (fun kv => keyable (fst kv) && shape e true kt (fst kv) && shape e false vt (snd kv)) m = true /\
    nodupk m.
Proof.
  cbn [shape]. destruct t; try discriminate. intros H. apply andb_true_iff in H as [H1 H2].
  exists t1, t2. repeat split; auto. apply negb_true_iff in H2. exact H2.
Qed.

Lemma shape_nil_inv e key t : shape e key t HNil = true ->
  t = TBinary \/ (exists n, t = TRef n) \/ (exists et, t = TList et \/ t = TSet et) \/ (exists kt vt, t = TMap kt vt).
Proof. destruct t; cbn; try discriminate; eauto 6. Qed.

Definition shared_ok (x y : hval) : Prop :=
  forall a u w, In (a, u) (ptrs x) -> In (a, w) (ptrs y) -> u = w /\ nan_free u = true.

(* the same with comparable keys inside the shared objects *)
Definition heap_ok (x y : hval) : Prop :=
  forall a u w, In (a, u) (ptrs x) -> In (a, w) (ptrs y) -> u = w /\ nan_free u = true /\ keys_ok u = true.

Lemma heap_ok_incl x y x' y' :
  incl (ptrs x') (ptrs x) -> incl (ptrs y') (ptrs y) -> heap_ok x y -> heap_ok x' y'.
Proof. intros Hx Hy H a u w Hu Hw. apply (H a u w); auto. Qed.

Lemma ptrs_list_incl l v : In v l -> incl (ptrs v) (ptrs (HList l)).
Proof. intros Hin p Hp. cbn [ptrs]. apply in_flat_map. eauto. Qed.

Lemma ptrs_map_key_incl m k v : In (k, v) m -> incl (ptrs k) (ptrs (HMap m)).
Proof. intros Hin p Hp. cbn [ptrs]. apply in_flat_map. exists (k, v). split; auto. apply in_or_app. auto. Qed.

Lemma ptrs_map_val_incl m k v : In (k, v) m -> incl (ptrs v) (ptrs (HMap m)).
Proof. intros Hin p Hp. cbn [ptrs]. apply in_flat_map. exists (k, v). split; auto. apply in_or_app. auto. Qed.

Lemma ptrs_struct_incl a fs p : In p fs -> incl (ptrs (snd p)) (ptrs (HStruct a fs)).
Proof. intros Hin q Hq. cbn [ptrs]. right. apply in_flat_map. eauto. Qed.

Lemma ptrs_some_incl a u : incl (ptrs u) (ptrs (HSome a u)).
Proof. intros q Hq. cbn [ptrs]. right. auto. Qed.

Lemma all2_eq {A} (f : A -> A -> bool) la : forall lb,
  Forall (fun a => forall b, f a b = true -> a = b) la -> all2 f la lb = true -> la = lb.
Proof.
  induction la as [|a la IH]; intros [|b lb] HF H; cbn in H; try discriminate; auto.
  inversion HF as [|? ? Ha Hla]; subst. apply andb_true_iff in H as [Hb1 Hb2]. f_equal; auto.
Qed.

Lemma heqb_eq x : forall y, heqb x y = true -> x = y.
Proof.
  induction x using hval_ind'; intros y Hy; destruct y; cbn in Hy; try discriminate.
  1-5: f_equal; first [apply eqb_prop|apply Z.eqb_eq|apply beqb_true]; exact Hy.
  - f_equal. apply (all2_eq heqb); auto.
  - f_equal. eapply all2_eq; [|exact Hy].
    eapply Forall_impl; [|exact H]. intros [k v] [Hk Hv] [k' v'] Hb. cbn in *.
    apply andb_true_iff in Hb as [Hb1 Hb2]. f_equal; auto.
  - apply andb_true_iff in Hy as [H1 H2]. apply Z.eqb_eq in H1. subst. f_equal.
    eapply all2_eq; [|exact H2].
    eapply Forall_impl; [|exact H]. intros [i v] Hv [j w] Hb. cbn in *.
    apply andb_true_iff in Hb as [Hi Hw]. apply Z.eqb_eq in Hi. subst. f_equal. auto.
  - reflexivity.
  - apply andb_true_iff in Hy as [H1 H2]. apply Z.eqb_eq in H1. subst. f_equal. auto.
Qed.

Lemma shared_okb_ok x y : shared_okb x y = true -> shared_ok x y.
Proof.
  unfold shared_okb. intros H a u w Hu Hw.
  apply (forallb_In _ _ H) in Hu. apply (forallb_In _ _ Hu) in Hw. cbn [fst snd] in Hw.
  rewrite Z.eqb_refl in Hw. cbn in Hw. apply andb_true_iff in Hw as [H1 H2].
  split; auto. apply heqb_eq. exact H1.
Qed.

Lemma heap_okb_ok x y : heap_okb x y = true -> heap_ok x y.
Proof.
  unfold heap_okb. intros H a u w Hu Hw.
  apply (forallb_In _ _ H) in Hu. apply (forallb_In _ _ Hu) in Hw. cbn [fst snd] in Hw.
  rewrite Z.eqb_refl in Hw. cbn in Hw. apply andb_true_iff in Hw as [Hw H3]. apply andb_true_iff in Hw as [H1 H2].
  repeat split; auto. apply heqb_eq. exact H1.
Qed.

Lemma all2_refl {A} (f : A -> A -> bool) l : (forall a, In a l -> f a a = true) -> all2 f l l = true.
Proof. induction l as [|a l IH]; cbn; intros H; auto. rewrite (H a), IH; auto. Qed.

Lemma same_refl : forall x, nan_free x = true -> same x x = true.
Proof.
  induction x using hval_ind'; cbn [nan_free same]; intros Hn; auto using eqb_reflx, Z.eqb_refl, beqb_refl, feq_refl.
  - apply all2_refl. intros a Ha. rewrite Forall_forall in H. apply H; auto. apply (forallb_In _ _ Hn); auto.
  - rewrite Nat.eqb_refl. cbn [andb]. rewrite Forall_forall in H.
    assert (Hw : forall kv, In kv m -> same (fst kv) (fst kv) && same (snd kv) (snd kv) = true).
    { intros kv Hi. destruct (H kv Hi) as [Hk Hv]. apply (forallb_In _ _ Hn) in Hi.
      apply andb_true_iff in Hi as [Hi1 Hi2]. rewrite Hk, Hv; auto. }
    apply andb_true_iff. split; apply forallb_forall; intros kv Hi; apply existsb_exists; exists kv; auto.
  - apply all2_refl. intros p Hp. rewrite Forall_forall in H. rewrite Z.eqb_refl. cbn [andb].
    apply H; auto. apply (forallb_In _ _ Hn p Hp).
Qed.

Lemma same_sym : forall x y, same x y = same y x.
Proof.
  induction x using hval_ind'; intros y; destruct y; cbn [same]; auto using booleqb_sym, Z.eqb_sym, feq_sym, beqb_sym.
  - rewrite (all2_flip _ l0 l). apply all2_ext_in. intros a b Ha Hb. rewrite Forall_forall in H. apply H; auto.
  - rewrite Forall_forall in H. rewrite (Nat.eqb_sym (length kvs)).
    rewrite <- !andb_assoc. f_equal. rewrite andb_comm. f_equal.
    + apply forallb_ext_in. intros kv Hi. apply existsb_ext_in. intros kv' Hi'.
      destruct (H kv' Hi') as [Hk Hv]. rewrite Hk, Hv. reflexivity.
    + apply forallb_ext_in. intros kv Hi. apply existsb_ext_in. intros kv' Hi'.
      destruct (H kv Hi) as [Hk Hv]. rewrite Hk, Hv. reflexivity.
  - rewrite (all2_flip _ fs0 fs). apply all2_ext_in. intros p q Hp Hq. rewrite Forall_forall in H.
    rewrite (Z.eqb_sym (fst q)). f_equal. apply H; auto.
Qed.

Lemma same_key_base k k' : is_base_hval k = true -> is_base_hval k' = true -> same k k' = hkey_eq k k'.
Proof. destruct k; cbn; try discriminate; destruct k'; cbn; try discriminate; auto. Qed.

Lemma same_pk_refl : forall x, nan_free x = true -> keys_ok x = true -> same_pk x x = true.
Proof.
  induction x using hval_ind'; cbn [nan_free keys_ok same_pk]; intros Hn Hk;
    auto using eqb_reflx, Z.eqb_refl, beqb_refl, feq_refl.
  - apply all2_refl. intros a Ha. rewrite Forall_forall in H. apply H; auto; eapply forallb_In; eauto.
  - rewrite Nat.eqb_refl. cbn [andb]. rewrite Forall_forall in H.
    assert (Hw : forall kv, In kv m -> hkey_eq (fst kv) (fst kv) && same_pk (snd kv) (snd kv) = true).
    { intros kv Hi. destruct (H kv Hi) as [_ Hv]. pose proof (forallb_In _ _ Hn _ Hi) as N1.
      pose proof (forallb_In _ _ Hk _ Hi) as K1. cbn beta in N1, K1.
      apply andb_true_iff in N1 as [Nk Nv]. apply andb_true_iff in K1 as [K1 Kv]. apply andb_true_iff in K1 as [Ky Kk].
      rewrite (keyable_refl _ Ky Nk), Hv; auto. }
    apply andb_true_iff. split; apply forallb_forall; intros kv Hi; apply existsb_exists; exists kv; auto.
  - apply all2_refl. intros p Hp. rewrite Forall_forall in H. rewrite Z.eqb_refl. cbn [andb].
    apply H; auto; [apply (forallb_In _ _ Hn p Hp)|apply (forallb_In _ _ Hk p Hp)].
Qed.

Lemma same_pk_same : forall x y, no_struct_keys x = true -> no_struct_keys y = true -> same_pk x y = same x y.
Proof.
  induction x using hval_ind'; intros y Nx Ny; destruct y; cbn [same same_pk]; auto; cbn [no_struct_keys] in Nx, Ny; auto.
  - apply all2_ext_in. intros a b Ha Hb. rewrite Forall_forall in H.
    apply H; [exact Ha|apply (forallb_In _ _ Nx a Ha)|apply (forallb_In _ _ Ny b Hb)].
  - rewrite Forall_forall in H.
    assert (Hpt : forall kv kv', In kv m -> In kv' kvs ->
              hkey_eq (fst kv) (fst kv') && same_pk (snd kv) (snd kv') =
              same (fst kv) (fst kv') && same (snd kv) (snd kv')).
    { intros kv kv' Hi Hi'. apply (forallb_In _ _ Nx) in Hi as N1. apply (forallb_In _ _ Ny) in Hi' as N2.
      apply andb_true_iff in N1 as [B1 N1], N2 as [B2 N2].
      rewrite (same_key_base _ _ B1 B2). f_equal. apply (proj2 (H kv Hi)); auto. }
    f_equal; [f_equal|]; apply forallb_ext_in; intros ? ?; apply existsb_ext_in; auto.
  - apply all2_ext_in. intros p q Hp Hq. rewrite Forall_forall in H. f_equal.
    apply H; auto; [apply (forallb_In _ _ Nx p Hp)|apply (forallb_In _ _ Ny q Hq)].
Qed.

Lemma beqb_nil_r s : beqb s [] = is_empty s.
Proof. destruct s as [|b s]; [reflexivity|]. cbn [is_empty]. apply beqb_false. discriminate. Qed.
Lemma beqb_nil_l s : beqb [] s = is_empty s.
Proof. rewrite beqb_sym. apply beqb_nil_r. Qed.

(* a base value on one side: the two shapes leave t and the other side such that the generated
   comparison and the specification both compute, and to the same test *)
Lemma deq_base e t kx ky x y :
  shape e kx t x = true -> shape e ky t y = true -> is_base_hval x = true ->
  deq e t x y = same x y /\ deq e t y x = same y x.
Proof.
  intros Hx Hy Hb. destruct x; try discriminate Hb; destruct t; try discriminate Hx;
    destruct y; try discriminate Hy; cbn; auto using beqb_nil_l, beqb_nil_r.
Qed.

Lemma same_pk_base x y : is_base_hval x = true -> same_pk x y = same x y.
Proof. destruct x; try discriminate; reflexivity. Qed.

(* a nil receiver, argument or field is compared as the specification says, whatever the other side holds *)
Theorem deq_nil e k t y :
  shape e k t y = true -> deq e t HNil y = same HNil y /\ deq e t y HNil = same y HNil.
Proof.
  intros Hy. destruct y; destruct t; cbn in Hy; try discriminate; cbn; split; auto using beqb_nil_l, beqb_nil_r;
    try (destruct l; reflexivity); try (destruct kvs; reflexivity).
Qed.

Theorem deq_sym e t kx ky x y :
  shape e kx t x = true -> shape e ky t y = true -> deq e t x y = deq e t y x.
Proof.
  revert t kx ky y. induction x using hval_ind3; intros t kx ky y Hx Hy.
  1-5: destruct (deq_base e t kx ky _ y Hx Hy eq_refl) as [-> ->]; apply same_sym.
  4: destruct (deq_nil e ky t y Hy) as [-> ->]; apply same_sym.
  - destruct (shape_list _ _ _ _ Hx) as [et [Ht Hl]].
    destruct y; try (destruct Ht; subst; cbn in Hy; discriminate).
    + destruct (shape_list _ _ _ _ Hy) as [et' [Ht' Hl']].
      assert (et' = et) by (destruct Ht, Ht'; congruence). subst et'.
      rewrite (deq_list_unfold true e t et l l0 Ht), (deq_list_unfold true e t et l0 l Ht).
      rewrite (all2_flip _ l0 l). apply all2_ext_in. intros a b Ha Hb.
      rewrite Forall_forall in H. apply (H a Ha et false false b); eauto using forallb_In.
    + destruct Ht; subst; cbn; destruct l; reflexivity.
  - destruct (shape_map _ _ _ _ Hx) as [kt [vt [-> [Hm Hnd]]]].
    destruct y; try (cbn in Hy; discriminate).
    + destruct (shape_map _ _ _ _ Hy) as [kt' [vt' [Ht' [Hm' Hnd']]]]. inversion Ht'; subst kt' vt'.
      rewrite !deq_map_unfold. rewrite (Nat.eqb_sym (length kvs)).
      destruct (length m =? length kvs)%nat eqn:L; cbn [andb]; auto. apply Nat.eqb_eq in L.
      rewrite Forall_forall in H.
      assert (Hsw : forall kv kv', In kv m -> In kv' kvs ->
                deq e vt (snd kv) (snd kv') = deq e vt (snd kv') (snd kv)).
      { intros kv kv' Hi Hi'. destruct (H kv Hi) as [_ Hq].
        apply (forallb_In _ _ Hm) in Hi. apply (forallb_In _ _ Hm') in Hi'.
        apply andb_true_iff in Hi as [_ Hi], Hi' as [_ Hi']. apply (Hq vt false false); auto. }
      apply eq_true_iff_eq. split; intros Hc.
      * apply mapcmp_swap in Hc; auto.
        rewrite (mapcmp_ext _ (deq e vt) kvs m) in Hc; [exact Hc|]. intros kv kv' Hi Hi'. cbn. auto.
      * apply mapcmp_swap in Hc; auto.
        rewrite (mapcmp_ext _ (deq e vt) m kvs) in Hc; [exact Hc|]. intros kv kv' Hi Hi'. cbn. symmetry. auto.
    + cbn. destruct m; reflexivity.
  - destruct (shape_struct _ _ _ _ _ Hx) as [n [s [-> [Hs [Hids Hsl]]]]].
    destruct y; try (cbn in Hy; discriminate).
    + destruct (shape_struct _ _ _ _ _ Hy) as [n' [s' [Ht' [Hs' [Hids' Hsl']]]]]. inversion Ht'; subst n'.
      rewrite Hs in Hs'. inversion Hs'; subst s'.
      rewrite !deq_struct_unfold, Hs. rewrite (Z.eqb_sym a0 a). destruct (a =? a0); auto.
      rewrite (all2_flip _ fs0 fs). apply all2_ext_in. intros p q Hp Hq.
      unfold slot_cmp. rewrite (Z.eqb_sym (fst q)). destruct (fst p =? fst q) eqn:E; cbn [andb]; auto.
      apply Z.eqb_eq in E. rewrite <- E.
      pose proof (forallb_In _ _ Hsl _ Hp) as Sp. pose proof (forallb_In _ _ Hsl' _ Hq) as Sq.
      unfold slot_shape in Sp, Sq. rewrite <- E in Sq.
      destruct (find_field (fst p) (s_fields s)) as [f|]; try discriminate.
      rewrite Forall_forall in H. destruct (H p Hp) as [Hq1 Hq2].
      unfold deq_slot. destruct (base_ptr f).
      * destruct (snd p) eqn:Ep; try discriminate; destruct (snd q) eqn:Eq; try discriminate; auto.
        rewrite (Z.eqb_sym a1 a2). f_equal. apply (Hq2 (f_ty f) false false); auto.
      * apply (Hq1 (f_ty f) false false); auto.
    + reflexivity.
  - cbn in Hx. discriminate.
Qed.

(* an object reached from both sides is compared by the pointer shortcut only; the specification
   descends into it and finds it equal to itself *)
Lemma heap_same a u w x y :
  heap_ok x y -> In (a, u) (ptrs x) -> In (a, w) (ptrs y) -> same_pk u w = true.
Proof. intros H Hu Hw. destruct (H a u w Hu Hw) as [<- [Hn Hk]]. apply same_pk_refl; auto. Qed.

(* on every pair of shaped values with a consistent heap, struct-typed map keys included, the generated
   comparison is structural equality with keys matched by Go identity *)
Lemma deq_same_pk_all e : forall x t kx ky y,
  shape e kx t x = true -> shape e ky t y = true -> heap_ok x y -> deq e t x y = same_pk x y.
Proof.
  induction x using hval_ind3; intros t kx ky y Hx Hy Hs.
  1-5: rewrite same_pk_base by reflexivity; exact (proj1 (deq_base e t kx ky _ y Hx Hy eq_refl)).
  4: exact (proj1 (deq_nil e ky t y Hy)).
  - destruct (shape_list _ _ _ _ Hx) as [et [Ht Hl]].
    destruct y; try (destruct Ht; subst; cbn in Hy; discriminate).
    + destruct (shape_list _ _ _ _ Hy) as [et' [Ht' Hl']].
      assert (et' = et) by (destruct Ht, Ht'; congruence). subst et'.
      rewrite (deq_list_unfold true e t et l l0 Ht). cbn [same_pk].
      apply all2_ext_in. intros a b Ha Hb.
      rewrite Forall_forall in H. apply (H a Ha et false false b); eauto using forallb_In.
      eapply heap_ok_incl; [apply ptrs_list_incl; eassumption|apply ptrs_list_incl; eassumption|exact Hs].
    + destruct Ht; subst; reflexivity.
  - destruct (shape_map _ _ _ _ Hx) as [kt [vt [-> [Hm Hnd]]]].
    destruct y; try (cbn in Hy; discriminate).
    + destruct (shape_map _ _ _ _ Hy) as [kt' [vt' [Ht' [Hm' Hnd']]]]. inversion Ht'; subst kt' vt'.
      rewrite deq_map_unfold. cbn [same_pk].
      rewrite Forall_forall in H.
      assert (Hpt : forall kv kv', In kv m -> In kv' kvs ->
                hkey_eq (fst kv) (fst kv') && same_pk (snd kv) (snd kv') =
                hkey_eq (fst kv) (fst kv') && deq e vt (snd kv) (snd kv')).
      { intros kv kv' Hi Hi'. destruct (H kv Hi) as [_ Hq].
        pose proof (forallb_In _ _ Hm _ Hi) as S1. pose proof (forallb_In _ _ Hm' _ Hi') as S2.
        apply andb_true_iff in S1 as [_ S1], S2 as [_ S2].
        f_equal. symmetry. apply (Hq vt false false); auto.
        destruct kv as [k v], kv' as [k' v'].
        eapply heap_ok_incl; [eapply ptrs_map_val_incl; eassumption|eapply ptrs_map_val_incl; eassumption|exact Hs]. }
      rewrite (forallb_ext_in _ (fun kv => existsb (fun kv' => hkey_eq (fst kv) (fst kv') && deq e vt (snd kv) (snd kv')) kvs) m)
        by (intros kv Hi; apply existsb_ext_in; intros kv' Hi'; auto).
      rewrite <- (mapcmp_exists (deq e vt) m kvs Hnd').
      rewrite (forallb_ext_in _ (fun kv' => existsb (fun kv => hkey_eq (fst kv') (fst kv) && deq e vt (snd kv) (snd kv')) m) kvs)
        by (intros kv' Hi'; apply existsb_ext_in; intros kv Hi; rewrite (hkey_eq_sym (fst kv')); auto).
      rewrite <- (mapcmp_exists (fun w v => deq e vt v w) kvs m Hnd).
      destruct (length m =? length kvs)%nat eqn:L; cbn [andb]; auto. apply Nat.eqb_eq in L.
      destruct (mapcmp (deq e vt) m kvs) eqn:C; cbn [andb]; auto.
      symmetry. apply mapcmp_swap; auto.
    + reflexivity.
  - rename Hs into Hsh. destruct (shape_struct _ _ _ _ _ Hx) as [n [s [-> [Hs [Hids Hsl]]]]].
    destruct y; try (cbn in Hy; discriminate).
    + destruct (shape_struct _ _ _ _ _ Hy) as [n' [s' [Ht' [Hs' [Hids' Hsl']]]]]. inversion Ht'; subst n'.
      rewrite Hs in Hs'. inversion Hs'; subst s'.
      rewrite deq_struct_unfold, Hs. destruct (a =? a0) eqn:Ea.
      * apply Z.eqb_eq in Ea. subst a0. symmetry.
        apply (heap_same a _ _ _ _ Hsh); cbn [ptrs]; left; reflexivity.
      * cbn [same_pk]. apply all2_ext_in. intros p q Hp Hq.
        unfold slot_cmp. destruct (fst p =? fst q) eqn:E; cbn [andb]; auto.
        apply Z.eqb_eq in E.
        pose proof (forallb_In _ _ Hsl _ Hp) as Sp. pose proof (forallb_In _ _ Hsl' _ Hq) as Sq.
        unfold slot_shape in Sp, Sq. rewrite <- E in Sq.
        destruct (find_field (fst p) (s_fields s)) as [f|]; try discriminate.
        rewrite Forall_forall in H. destruct (H p Hp) as [Hq1 Hq2].
        assert (Hsub : heap_ok (snd p) (snd q)).
        { eapply heap_ok_incl; [apply ptrs_struct_incl; eassumption|apply ptrs_struct_incl; eassumption|exact Hsh]. }
        unfold deq_slot. destruct (base_ptr f).
        -- destruct (snd p) eqn:Ep; try discriminate; destruct (snd q) eqn:Eq; try discriminate; auto.
           cbn [same_pk]. destruct (a1 =? a2) eqn:Eb; cbn [orb].
           ++ apply Z.eqb_eq in Eb. subst a2. symmetry.
              assert (Hw : same_pk (HSome a1 h) (HSome a1 h0) = true)
                by (apply (heap_same a1 _ _ _ _ Hsub); cbn [ptrs]; left; reflexivity).
              exact Hw.
           ++ apply (Hq2 (f_ty f) false false); auto.
              eapply heap_ok_incl; [apply ptrs_some_incl|apply ptrs_some_incl|exact Hsub].
        -- apply (Hq1 (f_ty f) false false); auto.
    + reflexivity.
  - cbn in Hx. discriminate.
Qed.

Theorem deq_same_pk e t kx ky x y :
  shape e kx t x = true -> shape e ky t y = true -> heap_okb x y = true -> deq e t x y = same_pk x y.
Proof. intros Hx Hy Hh. apply (deq_same_pk_all e x t kx ky y Hx Hy). apply heap_okb_ok. exact Hh. Qed.

Lemma shape_keys_ok e : forall x k t, shape e k t x = true -> keys_ok x = true.
Proof.
  induction x using hval_ind3; intros k t Hx; try reflexivity; cbn [keys_ok].
  - destruct (shape_list _ _ _ _ Hx) as [et [_ Hl]]. apply forallb_forall. intros a Ha.
    rewrite Forall_forall in H. apply (H a Ha false et). apply (forallb_In _ _ Hl a Ha).
  - destruct (shape_map _ _ _ _ Hx) as [kt [vt [_ [Hm _]]]]. apply forallb_forall. intros kv Hi.
    rewrite Forall_forall in H. destruct (H kv Hi) as [Hk Hv].
    apply (forallb_In _ _ Hm) in Hi. apply andb_true_iff in Hi as [Hi Sv]. apply andb_true_iff in Hi as [Ky Sk].
    rewrite Ky, (Hk _ _ Sk), (Hv _ _ Sv). reflexivity.
  - destruct (shape_struct _ _ _ _ _ Hx) as [n [s [_ [_ [_ Hsl]]]]]. apply forallb_forall. intros p Hp.
    rewrite Forall_forall in H. destruct (H p Hp) as [H1 H2].
    apply (forallb_In _ _ Hsl) in Hp. unfold slot_shape in Hp.
    destruct (find_field (fst p) (s_fields s)) as [f|]; try discriminate.
    destruct (base_ptr f); [|eauto].
    destruct (snd p); try discriminate; cbn [keys_ok]; eauto.
  - cbn in Hx. discriminate.
Qed.

Lemma keys_ok_ptrs : forall x a u, keys_ok x = true -> In (a, u) (ptrs x) -> keys_ok u = true.
Proof.
  induction x using hval_ind'; cbn [keys_ok ptrs]; intros a' u Hk Hin; try contradiction.
  - apply in_flat_map in Hin as [v [Hv Hin]]. rewrite Forall_forall in H.
    apply (H v Hv a' u); auto. apply (forallb_In _ _ Hk v Hv).
  - apply in_flat_map in Hin as [kv [Hi Hin]]. rewrite Forall_forall in H. destruct (H kv Hi) as [Hkk Hkv].
    apply (forallb_In _ _ Hk) in Hi. apply andb_true_iff in Hi as [Hi Kv]. apply andb_true_iff in Hi as [_ Kk].
    apply in_app_or in Hin as [Hin|Hin]; [exact (Hkk a' u Kk Hin) | exact (Hkv a' u Kv Hin)].
  - destruct Hin as [[= <- <-]|Hin]; [exact Hk|].
    apply in_flat_map in Hin as [p [Hp Hin]]. rewrite Forall_forall in H.
    apply (H p Hp a' u); auto. apply (forallb_In _ _ Hk p Hp).
  - destruct Hin as [[= <- <-]|Hin]; eauto.
Qed.

Lemma shared_heap_ok e k t x y : shape e k t x = true -> shared_ok x y -> heap_ok x y.
Proof.
  intros Hx H a u w Hu Hw. destruct (H a u w Hu Hw) as [Huw Hn]. repeat split; auto.
  apply (keys_ok_ptrs x a u); auto. apply (shape_keys_ok e x k t Hx).
Qed.

(* without struct-typed keys same_pk is same, and the keys of a shaped value are comparable: the
   statement about structural equality is a corollary of the one about same_pk *)
Lemma deq_same_shared e t kx ky x y :
  shape e kx t x = true -> shape e ky t y = true -> no_struct_keys x = true -> no_struct_keys y = true ->
  shared_ok x y -> deq e t x y = same x y.
Proof.
  intros Hx Hy Nx Ny Hs. rewrite <- (same_pk_same x y Nx Ny).
  apply (deq_same_pk_all e x t kx ky y Hx Hy). exact (shared_heap_ok e kx t x y Hx Hs).
Qed.

Theorem deq_same e t x y : eq_domain e t x y = true -> deq e t x y = same x y.
Proof.
  unfold eq_domain. intros H. repeat (apply andb_true_iff in H as [H ?]).
  eapply deq_same_shared; eauto using shared_okb_ok.
Qed.

Theorem gen_deep_eq_iff_same e s x y :
  eq_domain e (TRef (s_name s)) x y = true -> (gen_deep_eq e s x y = true <-> same x y = true).
Proof. intros H. unfold gen_deep_eq. rewrite (deq_same e _ x y H). tauto. Qed.

Lemma deq_same_object rep e n a fs gs : deq_gen rep e (TRef n) (HStruct a fs) (HStruct a gs) = true.
Proof. rewrite deq_struct_unfold, Z.eqb_refl. reflexivity. Qed.

Lemma gen_deep_eq_self e s x :
  (x = HNil \/ exists a fs, x = HStruct a fs) -> gen_deep_eq e s x x = true.
Proof. intros [->|[a [fs ->]]]; [reflexivity|apply deq_same_object]. Qed.

Theorem deq_refl e k t x : shape e k t x = true -> nan_free x = true -> deq e t x x = true.
Proof.
  revert k t. induction x using hval_ind'; intros k t Hx Hn.
  1-5: rewrite (proj1 (deq_base e t k k _ _ Hx Hx eq_refl)); apply same_refl; exact Hn.
  4: rewrite (proj1 (deq_nil e k t _ Hx)); reflexivity.
  - destruct (shape_list _ _ _ _ Hx) as [et [Ht Hl]].
    rewrite (deq_list_unfold true e t et l l Ht). apply all2_refl. intros a Ha.
    rewrite Forall_forall in H. cbn [nan_free] in Hn. apply (H a Ha false et); eauto using forallb_In.
  - destruct (shape_map _ _ _ _ Hx) as [kt [vt [-> [Hm Hnd]]]].
    rewrite deq_map_unfold, Nat.eqb_refl. cbn [andb]. apply forallb_forall. intros [k0 v0] Hi. cbn [fst snd].
    cbn [nan_free] in Hn. pose proof (forallb_In _ _ Hn _ Hi) as N1. pose proof (forallb_In _ _ Hm _ Hi) as S1.
    cbn [fst snd] in N1, S1. apply andb_true_iff in N1 as [Nk Nv]. apply andb_true_iff in S1 as [S1 Sv].
    apply andb_true_iff in S1 as [Kk Sk].
    rewrite (hfind_unique k0 k0 v0 m Hnd Hi (keyable_refl _ Kk Nk)).
    rewrite Forall_forall in H. destruct (H _ Hi) as [_ Hq]. apply (Hq false vt); auto.
  - destruct (shape_struct _ _ _ _ _ Hx) as [n [s [-> _]]]. apply deq_same_object.
  - cbn in Hx. discriminate.
Qed.

Lemma has_dup_ext_pairwise (r f g : hval -> hval -> bool) l :
  pairwise r l = true ->
  (forall a b, r a b = true -> f a b = g a b) ->
  has_dup f l = has_dup g l.
Proof.
  intros Hp Hfg. induction l as [|a l IH]; cbn [has_dup]; auto.
  cbn [pairwise] in Hp. apply andb_true_iff in Hp as [H1 H2]. f_equal; auto.
  apply existsb_ext_in. intros b Hb. apply Hfg. apply (forallb_In _ _ H1 b Hb).
Qed.

Lemma has_dup_nth (f : hval -> hval -> bool) l :
  has_dup f l = true <-> exists i j, (i < j < length l)%nat /\ f (nth i l HNil) (nth j l HNil) = true.
Proof.
  induction l as [|a l IH]; cbn [has_dup length].
  - split; [discriminate|]. intros [i [j [Hij _]]]. lia.
  - rewrite orb_true_iff, IH. split.
    + intros [H|[i [j [Hij H]]]].
      * apply existsb_exists in H as [b [Hb Hf]]. destruct (In_nth _ _ HNil Hb) as [j [Hj Hn]].
        exists 0%nat, (S j). cbn [nth]. rewrite Hn. split; auto. lia.
      * exists (S i), (S j). cbn [nth]. split; auto. lia.
    + intros [i [j [Hij H]]]. destruct j as [|j]; [lia|]. destruct i as [|i]; cbn [nth] in H.
      * left. apply existsb_exists. exists (nth j l HNil). split; auto. apply nth_In. lia.
      * right. exists i, j. split; auto. lia.
Qed.

(* the domain for one set: its elements pairwise inside eq_domain *)
Definition set_domain (e : env) (et : ty) (l : list hval) : bool := pairwise (eq_domain e et) l.

Theorem validate_set_spec e et l :
  set_domain e et l = true ->
  (validate_set e et l = false <->
   exists i j, (i < j < length l)%nat /\ same (nth i l HNil) (nth j l HNil) = true).
Proof.
  intros Hd. unfold validate_set_gen. rewrite negb_false_iff.
  rewrite (has_dup_ext_pairwise (eq_domain e et) (deq e et) same l Hd (deq_same e et)).
  apply has_dup_nth.
Qed.

Lemma pairwise_and (r1 r2 : hval -> hval -> bool) l :
  pairwise r1 l = true -> pairwise r2 l = true -> pairwise (fun a b => r1 a b && r2 a b) l = true.
Proof.
  induction l as [|a l IH]; cbn [pairwise]; auto. intros H1 H2.
  apply andb_true_iff in H1 as [A1 B1], H2 as [A2 B2]. apply andb_true_iff. split; auto.
  apply forallb_forall. intros b Hb. rewrite (forallb_In _ _ A1 b Hb), (forallb_In _ _ A2 b Hb). reflexivity.
Qed.

Lemma pairwise_unary (p : hval -> bool) l : forallb p l = true -> pairwise (fun a b => p a && p b) l = true.
Proof.
  induction l as [|a l IH]; cbn [pairwise forallb]; auto. intros H. apply andb_true_iff in H as [Ha Hl].
  apply andb_true_iff. split; auto. apply forallb_forall. intros b Hb. rewrite Ha, (forallb_In _ _ Hl b Hb). reflexivity.
Qed.

Lemma pairwise_impl (r1 r2 : hval -> hval -> bool) l :
  (forall a b, r1 a b = true -> r2 a b = true) -> pairwise r1 l = true -> pairwise r2 l = true.
Proof.
  intros Hi. induction l as [|a l IH]; cbn [pairwise]; auto. intros H. apply andb_true_iff in H as [A B].
  apply andb_true_iff. split; auto. apply forallb_forall. intros b Hb. apply Hi. apply (forallb_In _ _ A b Hb).
Qed.

(* all of Write: every set of the value *)
Theorem sets_ok_distinct e k t x :
  shape e k t x = true -> no_struct_keys x = true -> sets_shared_ok e t x = true ->
  sets_ok true e t x = sets_distinct e t x.
Proof.
  unfold sets_ok, sets_distinct, sets_shared_ok. revert k t.
  induction x using hval_ind'; intros k t Hx Nx Sx; try reflexivity.
  - destruct (shape_list _ _ _ _ Hx) as [et [Ht Hl]]. cbn [no_struct_keys] in Nx. rewrite Forall_forall in H.
    destruct Ht as [-> | ->]; cbn [sets_all] in *.
    + apply forallb_ext_in. intros a Ha. apply (H a Ha false et); eauto using forallb_In.
    + apply andb_true_iff in Sx as [Sp Sx]. f_equal.
      * unfold validate_set_gen. f_equal.
        apply (has_dup_ext_pairwise (eq_domain e et)); [|apply deq_same].
        unfold eq_domain.
        apply pairwise_and; [|exact Sp].
        eapply pairwise_impl; [|apply (pairwise_unary (fun a => shape e false et a && no_struct_keys a))].
        -- intros a b Hab. apply andb_true_iff in Hab as [Ha Hb].
           apply andb_true_iff in Ha as [Ha1 Ha2], Hb as [Hb1 Hb2]. rewrite Ha1, Ha2, Hb1, Hb2. reflexivity.
        -- apply forallb_forall. intros a Ha. rewrite (forallb_In _ _ Hl a Ha), (forallb_In _ _ Nx a Ha). reflexivity.
      * apply forallb_ext_in. intros a Ha. apply (H a Ha false et); eauto using forallb_In.
  - destruct (shape_map _ _ _ _ Hx) as [kt [vt [-> [Hm Hnd]]]]. cbn [no_struct_keys] in Nx. cbn [sets_all] in *.
    rewrite Forall_forall in H. apply forallb_ext_in. intros kv Hi.
    destruct (H kv Hi) as [Hk Hv].
    pose proof (forallb_In _ _ Hm _ Hi) as S1. pose proof (forallb_In _ _ Nx _ Hi) as N1.
    pose proof (forallb_In _ _ Sx _ Hi) as X1. cbn beta in S1, N1, X1.
    apply andb_true_iff in S1 as [S1 Sv]. apply andb_true_iff in S1 as [_ Sk].
    apply andb_true_iff in N1 as [Bk Nv]. apply andb_true_iff in X1 as [Xk Xv].
    f_equal.
    + apply (Hk true kt); auto. destruct (fst kv); cbn in Bk; try discriminate; reflexivity.
    + apply (Hv false vt); auto.
  - destruct (shape_struct _ _ _ _ _ Hx) as [n [s [-> [Hs [Hids Hsl]]]]]. cbn [no_struct_keys] in Nx.
    cbn [sets_all] in *. rewrite Hs in *. rewrite Forall_forall in H. apply forallb_ext_in. intros p Hp.
    pose proof (forallb_In _ _ Hsl _ Hp) as Sp. pose proof (forallb_In _ _ Nx _ Hp) as Np.
    pose proof (forallb_In _ _ Sx _ Hp) as Xp. unfold slot_shape in Sp. cbn beta in Np, Xp.
    destruct (find_field (fst p) (s_fields s)) as [f|]; auto.
    destruct (base_ptr f).
    + destruct (snd p); try discriminate; reflexivity.
    + apply (H p Hp false (f_ty f)); auto.
Qed.

Module Witness.
  Import String.
  Open Scope string_scope.
  Definition K : sschema := mkstruct (B "a.K") KStruct [mkfield 1 (B "x") Default TI32 None false].
  Definition M : sschema := mkstruct (B "a.M") KStruct
    [ mkfield 1 (B "m1") Default (TMap TI32 TString) None false;
      mkfield 3 (B "mk") Default (TMap (TRef (B "a.K")) TI32) None false;
      mkfield 10 (B "smk") Default (TSet (TMap (TRef (B "a.K")) TI32)) None false;
      mkfield 12 (B "d") Default TDouble None false;
      mkfield 7 (B "oi") Optional TI32 None false ].
  Definition E : env := mkenv [K; M] [].
  Definition tM : ty := TRef (B "a.M").
  Definition tKI : ty := TMap (TRef (B "a.K")) TI32.
  Definition k (a x : Z) : hval := HStruct a [(1, HInt x)].
  Definition m (a : Z) (m1 mk smk : hval) (d : Z) (oi : hval) : hval :=
    HStruct a [(1, m1); (3, mk); (10, smk); (12, HDbl d); (7, oi)].
  Definition nan : Z := 9221120237041090560.      (* 0x7ff8000000000000 *)

  (* recorded finding: a deep copy of a value with a struct-typed map key is not DeepEqual *)
  Definition sk_x := m 1 HNil (HMap [(k 2 1, HInt 7)]) HNil 0 HNil.
  Definition sk_y := m 3 HNil (HMap [(k 4 1, HInt 7)]) HNil 0 HNil.
  (* the same two maps as elements of one set: structurally equal elements that Write accepts *)
  Definition sk_set := [HMap [(k 2 1, HInt 7)]; HMap [(k 4 1, HInt 7)]].
  (* repaired defect: same size, disjoint keys, zero values *)
  Definition mk_x := m 1 (HMap [(HInt 1, HStr [])]) HNil HNil 0 HNil.
  Definition mk_y := m 2 (HMap [(HInt 2, HStr [])]) HNil HNil 0 HNil.
  (* inside the domain, not trivial: nested containers, optional pointer, distinct objects *)
  Definition dom_x := m 1 (HMap [(HInt 1, HStr (B "a")); (HInt 2, HStr [])]) HNil (HList [HNil; HMap []]) 5 (HSome 9 (HInt 3)).
  Definition dom_y := m 2 (HMap [(HInt 2, HStr []); (HInt 1, HStr (B "a"))]) (HMap []) (HList [HMap []; HNil]) 5 (HSome 8 (HInt 3)).
  (* the same object holding a NaN *)
  Definition nan_x := m 1 HNil HNil HNil nan HNil.
End Witness.

Lemma struct_keys_witness :
  shape Witness.E false Witness.tM Witness.sk_x = true /\ shape Witness.E false Witness.tM Witness.sk_y = true /\
  shared_okb Witness.sk_x Witness.sk_y = true /\ nan_free Witness.sk_x = true /\
  no_struct_keys Witness.sk_x = false /\
  same Witness.sk_x Witness.sk_y = true /\ gen_deep_eq Witness.E Witness.M Witness.sk_x Witness.sk_y = false.
Proof. vm_compute. repeat split. Qed.

Lemma struct_keys_set_witness :
  same (nth 0%nat Witness.sk_set HNil) (nth 1%nat Witness.sk_set HNil) = true /\
  validate_set_gen true Witness.E Witness.tKI Witness.sk_set = true.
Proof. vm_compute. repeat split. Qed.

Lemma missing_key_witness :
  eq_domain Witness.E Witness.tM Witness.mk_x Witness.mk_y = true /\
  same Witness.mk_x Witness.mk_y = false /\
  gen_deep_eq_pinned Witness.E Witness.M Witness.mk_x Witness.mk_y = true /\
  gen_deep_eq Witness.E Witness.M Witness.mk_x Witness.mk_y = false.
Proof. vm_compute. repeat split. Qed.

Lemma domain_witness :
  eq_domain Witness.E Witness.tM Witness.dom_x Witness.dom_y = true /\
  gen_deep_eq Witness.E Witness.M Witness.dom_x Witness.dom_y = true.
Proof. vm_compute. repeat split. Qed.

Lemma nan_object_witness :
  gen_deep_eq Witness.E Witness.M Witness.nan_x Witness.nan_x = true /\ same Witness.nan_x Witness.nan_x = false /\
  shared_okb Witness.nan_x Witness.nan_x = false.
Proof. vm_compute. repeat split. Qed.

Lemma all2_map_r {A B C} (f : A -> C -> bool) (g : B -> C) la lb :
  all2 f la (map g lb) = all2 (fun a b => f a (g b)) la lb.
Proof. revert lb. induction la as [|a la IH]; intros [|b lb]; cbn; auto. f_equal. auto. Qed.

Lemma existsb_map {A B} (f : B -> bool) (g : A -> B) l : existsb f (map g l) = existsb (fun a => f (g a)) l.
Proof. induction l as [|a l IH]; cbn; auto. f_equal. auto. Qed.

Lemma forallb_map {A B} (f : B -> bool) (g : A -> B) l : forallb f (map g l) = forallb (fun a => f (g a)) l.
Proof. induction l as [|a l IH]; cbn; auto. f_equal. auto. Qed.

Lemma is_empty_map {A B} (g : A -> B) l : is_empty (map g l) = is_empty l.
Proof. destruct l; reflexivity. Qed.

Lemma same_readdr_r d : forall x y, same x (readdr d y) = same x y.
Proof.
  induction x using hval_ind'; intros y; destruct y; cbn [same readdr]; auto using is_empty_map.
  - rewrite all2_map_r. apply all2_ext_in. intros a b Ha Hb. rewrite Forall_forall in H. apply H; auto.
  - rewrite Forall_forall in H. rewrite map_length. f_equal; [f_equal|].
    + apply forallb_ext_in. intros kv Hi. rewrite existsb_map. apply existsb_ext_in. intros kv' Hi'. cbn [fst snd].
      destruct (H kv Hi) as [Hk Hv]. rewrite Hk, Hv. reflexivity.
    + rewrite forallb_map. apply forallb_ext_in. intros kv' Hi'. apply existsb_ext_in. intros kv Hi. cbn [fst snd].
      destruct (H kv Hi) as [Hk Hv]. rewrite Hk, Hv. reflexivity.
  - rewrite all2_map_r. apply all2_ext_in. intros p q Hp Hq. cbn [fst snd]. rewrite Forall_forall in H.
    f_equal. apply H; auto.
Qed.

Lemma hkey_eq_readdr d a b : hkey_eq (readdr d a) (readdr d b) = hkey_eq a b.
Proof.
  destruct a, b; cbn; auto.
  destruct (Z.eqb_spec a a0), (Z.eqb_spec (a + d) (a0 + d)); auto; lia.
Qed.

Lemma keyable_readdr d k : keyable (readdr d k) = keyable k.
Proof. destruct k; reflexivity. Qed.

Lemma has_dup_map {A} (eq : A -> A -> bool) (g : A -> A) l :
  (forall a b, eq (g a) (g b) = eq a b) -> has_dup eq (map g l) = has_dup eq l.
Proof.
  intros Hg. induction l as [|a l IH]; cbn; auto. rewrite IH. f_equal.
  rewrite existsb_map. apply existsb_ext_in. intros b _. apply Hg.
Qed.

Lemma shape_readdr e d k t x : shape e k t (readdr d x) = shape e k t x.
Proof.
  revert k t. induction x using hval_ind3; intros k t; try reflexivity; cbn [readdr shape].
  - destruct t; auto; rewrite forallb_map; apply forallb_ext_in; intros a Ha;
      rewrite Forall_forall in H; apply (H a Ha).
  - destruct t; auto. rewrite Forall_forall in H. f_equal.
    + rewrite forallb_map. apply forallb_ext_in. intros kv Hi. cbn [fst snd].
      destruct (H kv Hi) as [Hk Hv]. rewrite keyable_readdr, Hk, Hv. reflexivity.
    + f_equal. rewrite map_map. cbn [fst]. rewrite <- (map_map fst (readdr d)).
      apply has_dup_map. apply hkey_eq_readdr.
  - destruct t; auto. destruct (find_struct e name) as [s|]; auto.
    rewrite Forall_forall in H. f_equal.
    + f_equal. rewrite map_map. apply map_ext. reflexivity.
    + rewrite forallb_map. apply forallb_ext_in. intros p Hp. cbn [fst snd].
      destruct (find_field (fst p) (s_fields s)) as [f|]; auto.
      destruct (H p Hp) as [Hq1 Hq2].
      destruct (base_ptr f).
      * destruct (snd p); cbn [readdr]; auto.
      * apply Hq1.
Qed.

Lemma is_base_readdr d k : is_base_hval (readdr d k) = is_base_hval k.
Proof. destruct k; reflexivity. Qed.

Lemma no_struct_keys_readdr d : forall x, no_struct_keys (readdr d x) = no_struct_keys x.
Proof.
  induction x using hval_ind'; cbn [readdr no_struct_keys]; auto.
  - rewrite forallb_map. apply forallb_ext_in. intros a Ha. rewrite Forall_forall in H. auto.
  - rewrite forallb_map. apply forallb_ext_in. intros kv Hi. cbn [fst snd]. rewrite Forall_forall in H.
    rewrite is_base_readdr. f_equal. apply (H kv Hi).
  - rewrite forallb_map. apply forallb_ext_in. intros p Hp. cbn [fst snd]. rewrite Forall_forall in H. auto.
Qed.

Lemma disjoint_shared_ok x y : disjointb x y = true -> shared_okb x y = true.
Proof.
  unfold disjointb, shared_okb. intros H. apply forallb_forall. intros p Hp.
  apply forallb_forall. intros q Hq. rewrite (forallb_In _ _ (forallb_In _ _ H p Hp) q Hq). reflexivity.
Qed.

(* a deep copy into fresh objects is DeepEqual to the original: NaN-free, no struct-typed map keys *)
Theorem deep_copy_equal e k t x d :
  shape e k t x = true -> no_struct_keys x = true -> nan_free x = true ->
  disjointb x (readdr d x) = true ->
  deq e t x (readdr d x) = true.
Proof.
  intros Hs Hn Hf Hd.
  rewrite (deq_same_shared e t k k x (readdr d x)).
  - rewrite same_readdr_r. apply same_refl. exact Hf.
  - exact Hs.
  - rewrite shape_readdr. exact Hs.
  - exact Hn.
  - rewrite no_struct_keys_readdr. exact Hn.
  - apply shared_okb_ok, disjoint_shared_ok. exact Hd.
Qed.

Lemma copy_witness :
  disjointb Witness.dom_x (readdr 100 Witness.dom_x) = true /\
  gen_deep_eq Witness.E Witness.M Witness.dom_x (readdr 100 Witness.dom_x) = true.
Proof. vm_compute. repeat split. Qed.

Lemma pk_witness :
  heap_okb Witness.sk_x Witness.sk_y = true /\
  same_pk Witness.sk_x Witness.sk_y = false /\ gen_deep_eq Witness.E Witness.M Witness.sk_x Witness.sk_y = false /\
  same Witness.sk_x Witness.sk_y = true.
Proof. vm_compute. repeat split. Qed.

Theorem validate_set_pk_spec e et l :
  set_domain_pk e et l = true ->
  (validate_set e et l = false <->
   exists i j, (i < j < length l)%nat /\ same_pk (nth i l HNil) (nth j l HNil) = true).
Proof.
  intros Hd. unfold validate_set_gen. rewrite negb_false_iff.
  rewrite (has_dup_ext_pairwise _ (deq e et) same_pk l Hd).
  - apply has_dup_nth.
  - intros a b Hab. apply andb_true_iff in Hab as [Hab Hh]. apply andb_true_iff in Hab as [Ha Hb].
    eapply deq_same_pk; eauto.
Qed.
