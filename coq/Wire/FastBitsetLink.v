(* Wire/FastBitsetLink.v — the required-field check of the reader model (Fast.fast_first_missing) is what the
   code emitted by bitset.go computes: fields are added in id order, a field's bit is set when it is read,
   and the emitted tests name the first required field (in id order) that was not read. *)
From Coq Require Import List ZArith Bool Lia Arith.
From Verif Require Import Wire.Schema Wire.StdFacts Wire.Fast Wire.FastFacts Wire.FastBitset Wire.FastBitsetFacts.
Import ListNotations.
Open Scope Z_scope.

(* isset.Add(f) for every required field, in the order of getSortedFields *)
Definition req_ids (s : sschema) : list Z :=
  map fst (filter (fun p : Z * field => is_required (snd p)) (sort_by_id (map (fun f => (f_id f, f)) (s_fields s)))).

Fixpoint index_of (l : list Z) (x : Z) : nat :=
  match l with [] => O | y :: r => if x =? y then O else S (index_of r x) end.

(* the id the generated `fid = ..; goto RequiredFieldNotSetError` reports, given the ids whose bit was set *)
Definition bitset_first_missing (s : sschema) (seen : list Z) : option Z :=
  let l := req_ids s in
  option_map (fun i => nth i l 0)
             (run (state (length l) (map (index_of l) seen)) (gen_if_not_set (length l))).

Lemma index_of_lt l x : In x l -> (index_of l x < length l)%nat.
Proof.
  induction l as [|y l IH]; [intros []|]. intro H. cbn [index_of length].
  destruct (Z.eqb_spec x y); [lia|]. destruct H as [->|H]; [congruence|]. specialize (IH H). lia.
Qed.

Lemma index_of_nth l i : NoDup l -> (i < length l)%nat -> index_of l (nth i l 0) = i.
Proof.
  intro Hnd. revert i. induction Hnd as [|y l Hnot _ IH]; intros i Hi; [cbn in Hi; lia|].
  destruct i as [|i]; cbn [nth index_of]; [rewrite Z.eqb_refl; reflexivity|].
  cbn [length] in Hi. destruct (Z.eqb_spec (nth i l 0) y) as [E|_].
  - exfalso. apply Hnot. rewrite <- E. apply nth_In. lia.
  - rewrite IH by lia. reflexivity.
Qed.

Lemma nth_index_of l x : In x l -> nth (index_of l x) l 0 = x.
Proof.
  induction l as [|y l IH]; [intros []|]. intro H. cbn [index_of].
  destruct (Z.eqb_spec x y) as [->|Hne]; [reflexivity|]. destruct H as [->|H]; [congruence|]. cbn [nth]. apply IH. exact H.
Qed.

Lemma find_ext_in {A} (f g : A -> bool) l : (forall x, In x l -> f x = g x) -> find f l = find g l.
Proof.
  induction l as [|x l IH]; intro H; [reflexivity|]. cbn [find]. rewrite (H x (or_introl eq_refl)).
  destruct (g x); [reflexivity|]. apply IH. intros y Hy. apply H. right. exact Hy.
Qed.

Lemma find_map {A B} (f : B -> bool) (g : A -> B) l : find f (map g l) = option_map g (find (fun x => f (g x)) l).
Proof. induction l as [|x l IH]; [reflexivity|]. cbn [map find]. destruct (f (g x)); [reflexivity | exact IH]. Qed.

Lemma find_seq_nth (P : Z -> bool) l :
  option_map (fun i => nth i l 0) (find (fun i => P (nth i l 0)) (seq 0 (length l))) = find P l.
Proof.
  induction l as [|y l IH]; [reflexivity|]. cbn [length seq find nth].
  destruct (P y); [reflexivity|]. rewrite <- seq_shift, find_map.
  rewrite <- IH. cbn [nth]. destruct (find (fun x => P (nth x l 0)) (seq 0 (length l))); reflexivity.
Qed.

Lemma first_of_filter {A B} (f : A -> bool) (g : B -> bool) (h : A -> B) l :
  match filter (fun x => f x && g (h x)) l with x :: _ => Some (h x) | [] => None end = find g (map h (filter f l)).
Proof.
  induction l as [|x l IH]; [reflexivity|]. cbn [filter]. destruct (f x); cbn [andb map find]; [|exact IH].
  destruct (g (h x)); [reflexivity | exact IH].
Qed.

Lemma fast_first_missing_find s seen :
  fast_first_missing s seen = find (fun id => negb (existsb (Z.eqb id) seen)) (req_ids s).
Proof. exact (first_of_filter _ (fun id => negb (existsb (Z.eqb id) seen)) fst _). Qed.

(* the model's check = the emitted code's check, for every struct (any number of required fields), whatever
   required fields have been read, in any order and any number of times *)
Theorem bitset_first_missing_spec s seen :
  NoDup (req_ids s) -> Forall (fun id => In id (req_ids s)) seen ->
  bitset_first_missing s seen = fast_first_missing s seen.
Proof.
  intros Hnd Hseen. unfold bitset_first_missing. set (l := req_ids s) in *.
  rewrite gen_if_not_set_spec.
  - rewrite fast_first_missing_find. fold l. unfold first_unset.
    rewrite <- (find_seq_nth (fun id => negb (existsb (Z.eqb id) seen)) l). f_equal.
    apply find_ext_in. intros i Hi. apply in_seq in Hi. f_equal.
    clear -Hnd Hseen Hi. induction Hseen as [|x seen Hx _ IH]; [reflexivity|]. cbn [map existsb]. rewrite IH. f_equal.
    destruct (Z.eqb_spec (nth i l 0) x) as [<-|Hne].
    + rewrite index_of_nth by (assumption || lia). apply Nat.eqb_refl.
    + apply Nat.eqb_neq. intro E. apply Hne. rewrite E. apply nth_index_of. exact Hx.
  - rewrite Forall_forall in *. intros j Hj. apply in_map_iff in Hj. destruct Hj as (x & <- & Hx).
    apply index_of_lt. apply Hseen. exact Hx.
Qed.

Lemma NoDup_map_filter {A B} (g : A -> B) (f : A -> bool) l : NoDup (map g l) -> NoDup (map g (filter f l)).
Proof.
  induction l as [|x l IH]; intro H; [constructor|]. inversion H as [|? ? Hnot Hnd]; subst. cbn [filter].
  destruct (f x); [|apply IH; exact Hnd]. cbn [map]. constructor; [|apply IH; exact Hnd].
  intro Hin. apply Hnot. apply in_map_iff in Hin. destruct Hin as (y & Hy & Hyin). apply filter_In in Hyin.
  apply in_map_iff. exists y. tauto.
Qed.

Lemma req_ids_nodup s : NoDup (map f_id (s_fields s)) -> NoDup (req_ids s).
Proof.
  intro H. unfold req_ids. apply NoDup_map_filter.
  eapply Permutation.Permutation_NoDup; [apply Permutation.Permutation_map; apply sort_by_id_perm|].
  rewrite map_map. cbn [fst]. exact H.
Qed.

Lemma req_ids_in s f : In f (s_fields s) -> is_required f = true -> In (f_id f) (req_ids s).
Proof.
  intros Hin Hr. unfold req_ids. apply in_map_iff. exists (f_id f, f). split; [reflexivity|].
  apply filter_In. split; [|exact Hr].
  eapply Permutation.Permutation_in; [apply sort_by_id_perm|]. apply in_map_iff. exists f. auto.
Qed.

Corollary bitset_first_missing_wf s seen :
  wf_struct s = true -> Forall (fun id => In id (req_ids s)) seen ->
  bitset_first_missing s seen = fast_first_missing s seen.
Proof.
  intros Hs. apply bitset_first_missing_spec. apply req_ids_nodup. apply wf_struct_nodup. exact Hs.
Qed.
