(* Wire/UnknownCodecFacts.v — the byte-level re-encoder of the keep_unknown_fields extension
   (Unknown.append_val / append_field = unknown.read / Fields.Append, Unknown.uwrite / write_unknown
   = unknown.write / Fields.Write).

     uwrite_dec            binary.go's reader accepts exactly what the TBinaryProtocol model accepts
     append_val_spec       unknown.read yields the binary encoding, and fails exactly when the value
                           nests deeper than the limit
     write_unknown_enc     Fields.Write parses the concatenated encodings of well-formed fields back
     unknown_reencode_id   within the limit the kept bytes re-encode to exactly the original field
     unknown_reencode_many the same for a whole buffer: arrival order, nothing dropped or duplicated *)
From Coq Require Import List ZArith Bool Lia.
From Coq.Strings Require Import Byte.
From Verif Require Import Base.Bytes Base.BE Wire.TType Wire.WVal Wire.Codec Wire.CodecFacts Wire.Unknown.
Import ListNotations.
Open Scope Z_scope.

Lemma rep_ext {A} (p q : bytes -> option (A * bytes)) :
  (forall bs, p bs = q bs) -> forall n bs, rep p n bs = rep q n bs.
Proof.
  intros H n. induction n as [|n IH]; intro bs; cbn [rep]; [reflexivity|].
  rewrite H. destruct (q bs) as [[x r]|]; [|reflexivity]. rewrite IH. reflexivity.
Qed.

Lemma pairp_ext {A B} (p p' : bytes -> option (A * bytes)) (q q' : bytes -> option (B * bytes)) :
  (forall bs, p bs = p' bs) -> (forall bs, q bs = q' bs) -> forall bs, pairp p q bs = pairp p' q' bs.
Proof.
  intros Hp Hq bs. unfold pairp. rewrite Hp. destruct (p' bs) as [[a r]|]; [|reflexivity].
  rewrite Hq. reflexivity.
Qed.

Lemma fields_ext d d' : (forall t bs, d t bs = d' t bs) -> forall n bs, fields d n bs = fields d' n bs.
Proof.
  intros H n. induction n as [|n IH]; intro bs; cbn [fields]; [reflexivity|].
  destruct (get_be 1 bs) as [[c r]|]; [|reflexivity].
  destruct (c =? 0); [reflexivity|].
  destruct (of_code c) as [ft|]; [|reflexivity].
  destruct (get_s 2 r) as [[id r1]|]; [|reflexivity].
  rewrite H. destruct (d' ft r1) as [[x r2]|]; [|reflexivity].
  rewrite IH. reflexivity.
Qed.

Lemma dec_seq_ext c d d' : (forall t bs, d t bs = d' t bs) -> forall bs, dec_seq c d bs = dec_seq c d' bs.
Proof.
  intros H bs. unfold dec_seq. destruct (get_be 1 bs) as [[cd r]|]; [|reflexivity].
  destruct (of_code cd) as [et|]; [|reflexivity]. destruct (get_count r) as [[n r1]|]; [|reflexivity].
  rewrite (rep_ext _ _ (H et)). reflexivity.
Qed.

Theorem uwrite_dec : forall f t bs, uwrite f t bs = dec f t bs.
Proof.
  induction f as [|f IH]; intros t bs; [reflexivity|].
  destruct t; cbn [uwrite dec]; try reflexivity.
  - (* string: binary.go's own bound *)
    unfold get_count. destruct (get_s 4 bs) as [[n r]|] eqn:E; [|reflexivity].
    destruct (Z.ltb_spec n 0) as [Hn|Hn]; [reflexivity|]. cbn [orb].
    destruct (Z.ltb_spec (Z.of_nat (length bs)) n) as [Hl|Hl]; [|reflexivity].
    (* size beyond the whole buffer: the protocol model fails as well *)
    apply get_s_split in E. destruct E as (used & -> & Hu & _).
    rewrite app_length in Hl.
    destruct (Nat.ltb_spec (length r) (Z.to_nat n)) as [_|Hge]; [reflexivity|lia].
  - (* struct *)
    rewrite (fields_ext (uwrite f) (dec f) IH). reflexivity.
  - (* map *)
    destruct (get_be 1 bs) as [[c r]|]; [|reflexivity].
    destruct (of_code c) as [kt|]; [|reflexivity].
    destruct (get_be 1 r) as [[c2 r0]|]; [|reflexivity].
    destruct (of_code c2) as [vt|]; [|reflexivity].
    destruct (get_count r0) as [[n r1]|]; [|reflexivity].
    rewrite (rep_ext _ _ (pairp_ext _ _ _ _ (IH kt) (IH vt))). reflexivity.
  - exact (dec_seq_ext WSet _ _ IH bs).
  - exact (dec_seq_ext WList _ _ IH bs).
Qed.

Definition app_list_go (d : nat) :=
  fix go (l : list wval) : option bytes :=
    match l with
    | [] => Some []
    | x :: r => match append_val d x with
                | None => None
                | Some b => match go r with None => None | Some br => Some (b ++ br) end end
    end.
Definition app_map_go (d : nat) :=
  fix go (l : list (wval * wval)) : option bytes :=
    match l with
    | [] => Some []
    | (k, x) :: r =>
        match append_val d k with
        | None => None
        | Some bk => match append_val d x with
                     | None => None
                     | Some bx => match go r with None => None | Some br => Some (bk ++ bx ++ br) end end
        end
    end.
Definition app_fields_go (d : nat) :=
  fix go (l : list (ttype * Z * wval)) : option bytes :=
    match l with
    | [] => Some [x00]
    | (t, id, x) :: r =>
        match append_val d x with
        | None => None
        | Some b => match go r with
                    | None => None
                    | Some br => Some (put_be 1 (code t) ++ put_be 2 id ++ b ++ br) end
        end
    end.

Lemma app_list_go_spec d l :
  Forall (fun x => append_val d x = if (depth x <=? d)%nat then Some (enc x) else None) l ->
  app_list_go d l = if (depth_list_go l <=? d)%nat then Some (enc_list_go l) else None.
Proof.
  induction 1 as [|x l Hx _ IHl]; [reflexivity|].
  cbn [app_list_go]. fold (app_list_go d). rewrite Hx, IHl.
  cbn [depth_list_go enc_list_go]. fold depth_list_go. fold enc_list_go.
  destruct (Nat.leb_spec (depth x) d) as [Hx'|Hx'];
    destruct (Nat.leb_spec (depth_list_go l) d) as [Hr|Hr];
    destruct (Nat.leb_spec (Nat.max (depth x) (depth_list_go l)) d) as [Hm|Hm];
    try reflexivity; lia.
Qed.

(* unknown.read: the encoding when the nesting fits, ErrExceedDepthLimit otherwise *)
Theorem append_val_spec : forall w d,
  append_val d w = if (depth w <=? d)%nat then Some (enc w) else None.
Proof.
  induction w using wval_ind2; intros [|d]; try reflexivity.
  - cbn [append_val]. fold (app_fields_go d). rewrite depth_struct_unfold, enc_struct_unfold. cbn [Nat.leb].
    induction H as [|[[t i] x] fs Hx _ IHfs]; [reflexivity|]. cbn [snd] in Hx.
    cbn [app_fields_go]. fold (app_fields_go d). rewrite (Hx d), IHfs.
    cbn [depth_struct_go]. fold depth_struct_go. rewrite enc_fields_go_cons.
    destruct (Nat.leb_spec (depth x) d) as [Hx'|Hx'];
      destruct (Nat.leb_spec (depth_struct_go fs) d) as [Hr|Hr];
      destruct (Nat.leb_spec (Nat.max (depth x) (depth_struct_go fs)) d) as [Hm|Hm];
      try reflexivity; lia.
  - cbn [append_val]. fold (app_map_go d). rewrite depth_map_unfold, enc_map_unfold. cbn [Nat.leb].
    assert (E : app_map_go d kvs = if (depth_map_go kvs <=? d)%nat then Some (enc_map_go kvs) else None).
    { induction H as [|[k x] kvs [Hk Hx] _ IHk]; [reflexivity|]. cbn [fst snd] in Hk, Hx.
      cbn [app_map_go]. fold (app_map_go d). rewrite (Hk d), (Hx d), IHk.
      cbn [depth_map_go enc_map_go]. fold depth_map_go. fold enc_map_go.
      destruct (Nat.leb_spec (depth k) d) as [Hk'|Hk'];
        destruct (Nat.leb_spec (depth x) d) as [Hx'|Hx'];
        destruct (Nat.leb_spec (depth_map_go kvs) d) as [Hr|Hr];
        destruct (Nat.leb_spec (Nat.max (Nat.max (depth k) (depth x)) (depth_map_go kvs)) d) as [Hm|Hm];
        try reflexivity; lia. }
    rewrite E. destruct (depth_map_go kvs <=? d)%nat; reflexivity.
  - cbn [append_val]. fold (app_list_go d). rewrite depth_set_unfold, enc_set_unfold. cbn [Nat.leb].
    rewrite app_list_go_spec by (eapply Forall_impl; [|exact H]; intros x Hx; apply Hx).
    destruct (depth_list_go l <=? d)%nat; reflexivity.
  - cbn [append_val]. fold (app_list_go d). rewrite depth_list_unfold, enc_list_unfold. cbn [Nat.leb].
    rewrite app_list_go_spec by (eapply Forall_impl; [|exact H]; intros x Hx; apply Hx).
    destruct (depth_list_go l <=? d)%nat; reflexivity.
Qed.

Corollary append_val_enc w d : (depth w <= d)%nat -> append_val d w = Some (enc w).
Proof. intro H. rewrite append_val_spec. destruct (Nat.leb_spec (depth w) d); [reflexivity|lia]. Qed.

Corollary append_val_limit w d : (d < depth w)%nat -> append_val d w = None.
Proof. intro H. rewrite append_val_spec. destruct (Nat.leb_spec (depth w) d); [lia|reflexivity]. Qed.

(* Fields.Append: the field as the protocol would encode it, or the depth error *)
Theorem append_field_spec f d :
  append_field d f = if (depth (snd f) <=? d)%nat then Some (enc_field f) else None.
Proof.
  unfold append_field. rewrite append_val_spec. destruct f as [[t id] x]. cbn [fst snd enc_field].
  destruct (depth x <=? d)%nat; reflexivity.
Qed.

Corollary append_field_some f d b : append_field d f = Some b -> b = enc_field f /\ (depth (snd f) <= d)%nat.
Proof.
  rewrite append_field_spec. destruct (Nat.leb_spec (depth (snd f)) d) as [Hd|Hd]; [|discriminate].
  intro Hb. injection Hb as <-. split; [reflexivity|assumption].
Qed.

(* a field as it appears inside a well-formed struct *)
Definition wf_field (f : wfield) : Prop :=
  wtype (snd f) = fst (fst f) /\ in_srange 2 (snd (fst f)) /\ wf (snd f).

Lemma enc_field_length f : (3 <= length (enc_field f))%nat.
Proof. destruct f as [[t id] x]. cbn [enc_field]. rewrite !app_length, !put_be_length. lia. Qed.

Lemma flat_enc_length (fs : list wfield) : (length fs <= length (flat_map enc_field fs))%nat.
Proof.
  induction fs as [|f fs IH]; [cbn; lia|]. cbn [flat_map length]. rewrite app_length.
  pose proof (enc_field_length f). lia.
Qed.

Lemma write_unknown_enc : forall (fs : list wfield) fuel,
  Forall wf_field fs -> (length fs <= fuel)%nat ->
  write_unknown fuel (flat_map enc_field fs) = Some fs.
Proof.
  induction fs as [|[[t id] x] fs IH]; intros fuel Hwf Hfuel.
  - destruct fuel; reflexivity.
  - inversion Hwf as [|? ? [Ht [Hid Hx]] Hrest]; subst. cbn [fst snd] in Ht, Hid, Hx.
    destruct fuel as [|fuel]; [cbn in Hfuel; lia|].
    cbn [flat_map enc_field]. rewrite <- !app_assoc.
    assert (Hne : exists b r, put_be 1 (code t) ++ put_be 2 id ++ enc x ++ flat_map enc_field fs = b :: r).
    { cbn [put_be]. eexists. eexists. reflexivity. }
    destruct Hne as (b0 & r0 & Hne). cbn [write_unknown]. rewrite Hne. rewrite <- Hne. clear Hne b0 r0.
    rewrite get_put by apply code_in_range1. rewrite of_code_code.
    rewrite get_s_put by (try assumption; lia).
    rewrite uwrite_dec. rewrite <- Ht. rewrite dec_enc; [| |assumption].
    + rewrite IH; [reflexivity|assumption|cbn in Hfuel; lia].
    + rewrite app_length, enc_length. pose proof (depth_le_size x). lia.
Qed.

Theorem unknown_fields_enc (fs : list wfield) :
  Forall wf_field fs -> unknown_fields (flat_map enc_field fs) = Some fs.
Proof. intro H. unfold unknown_fields. apply write_unknown_enc; [assumption|apply flat_enc_length]. Qed.

Theorem unknown_reencode_id f :
  wf_field f -> (depth (snd f) <= limit)%nat ->
  exists b, append_field limit f = Some b /\ unknown_fields b = Some [f].
Proof.
  intros Hwf Hd. exists (enc_field f). split.
  - rewrite append_field_spec. destruct (Nat.leb_spec (depth (snd f)) limit); [reflexivity|lia].
  - replace (enc_field f) with (flat_map enc_field [f]) by (cbn; apply app_nil_r).
    apply unknown_fields_enc. constructor; [assumption|constructor].
Qed.

(* beyond the limit Append fails: nothing is silently cut off *)
Theorem unknown_append_limit f : (limit < depth (snd f))%nat -> append_field limit f = None.
Proof.
  intro H. rewrite append_field_spec. destruct (Nat.leb_spec (depth (snd f)) limit); [lia|reflexivity].
Qed.

(* a whole buffer: fields appended one after the other come back in arrival order *)
Fixpoint append_all (buf : bytes) (fs : list wfield) : option bytes :=
  match fs with
  | [] => Some buf
  | f :: r => match append_field limit f with Some b => append_all (buf ++ b) r | None => None end
  end.

Lemma append_all_enc fs : forall buf,
  Forall (fun f => (depth (snd f) <= limit)%nat) fs ->
  append_all buf fs = Some (buf ++ flat_map enc_field fs).
Proof.
  induction fs as [|f fs IH]; intros buf H; cbn [append_all flat_map].
  - rewrite app_nil_r. reflexivity.
  - inversion H as [|? ? Hf Hr]; subst. rewrite append_field_spec.
    destruct (Nat.leb_spec (depth (snd f)) limit); [|lia]. rewrite IH by assumption.
    rewrite app_assoc. reflexivity.
Qed.

Theorem unknown_reencode_many fs :
  Forall wf_field fs -> Forall (fun f => (depth (snd f) <= limit)%nat) fs ->
  exists b, append_all [] fs = Some b /\ unknown_fields b = Some fs.
Proof.
  intros Hwf Hd. exists (flat_map enc_field fs). split.
  - rewrite append_all_enc by assumption. reflexivity.
  - apply unknown_fields_enc. assumption.
Qed.
