(* Base/Bytes.v — byte strings, hex literals, prefix tests, association lists, decimal digits, and the
   list lemmas (NoDup, Forall2, existsb) that several areas share.
   Stdlib only; nothing assumed. *)
From Coq Require Import List Arith Bool Lia NArith ZArith.
From Coq.Strings Require Import Byte Ascii String.
Import ListNotations.

Definition bytes := list byte.

Definition beqb (a b : bytes) : bool :=
  if list_eq_dec Byte.byte_eq_dec a b then true else false.

Lemma beqb_true a b : beqb a b = true <-> a = b.
Proof. unfold beqb. destruct (list_eq_dec _ a b); split; congruence. Qed.
Lemma beqb_false a b : beqb a b = false <-> a <> b.
Proof. unfold beqb. destruct (list_eq_dec _ a b); split; congruence. Qed.
Lemma beqb_refl a : beqb a a = true.
Proof. apply beqb_true; reflexivity. Qed.
Lemma beqb_sym a b : beqb a b = beqb b a.
Proof.
  destruct (beqb a b) eqn:E; symmetry.
  - apply beqb_true in E. subst. apply beqb_refl.
  - apply beqb_false. apply beqb_false in E. congruence.
Qed.

Definition B (s : string) : bytes := list_byte_of_string s.

(* hex literals: [hx "48 65"] ; characters that are not hex digits are skipped *)
Definition hexval (a : ascii) : option N :=
  let n := N_of_ascii a in
  if (48 <=? n)%N && (n <=? 57)%N then Some (n - 48)%N
  else if (97 <=? n)%N && (n <=? 102)%N then Some (n - 87)%N
  else if (65 <=? n)%N && (n <=? 70)%N then Some (n - 55)%N
  else None.

Fixpoint hx_go (s : string) (pending : option N) : bytes :=
  match s with
  | EmptyString => []
  | String a r =>
    match hexval a with
    | None => hx_go r pending
    | Some d =>
      match pending with
      | None => hx_go r (Some d)
      | Some h => match Byte.of_N (h * 16 + d) with
                  | Some b => b :: hx_go r None
                  | None => hx_go r None
                  end
      end
    end
  end.
Definition hx (s : string) : bytes := hx_go s None.

Fixpoint is_prefix (p s : bytes) : bool :=
  match p, s with
  | [], _ => true
  | a :: p', b :: s' => Byte.eqb a b && is_prefix p' s'
  | _ :: _, [] => false
  end.

Lemma byte_eqb_eq a b : Byte.eqb a b = true <-> a = b.
Proof. split; [apply Byte.byte_dec_bl | apply Byte.byte_dec_lb]. Qed.

Lemma byte_eqb_refl a : Byte.eqb a a = true.
Proof. apply byte_eqb_eq. reflexivity. Qed.

Lemma is_prefix_spec p s : is_prefix p s = true <-> exists r, s = p ++ r.
Proof.
  revert s; induction p as [|a p IH]; intros s; cbn.
  - split; [intros _; exists s; reflexivity | reflexivity].
  - destruct s as [|b s]; [split; [discriminate | intros [r H]; discriminate]|].
    rewrite andb_true_iff, byte_eqb_eq, IH. split.
    + intros [-> [r ->]]. exists r. reflexivity.
    + intros [r H]. injection H as -> ->. split; [reflexivity | exists r; reflexivity].
Qed.

(* association lists keyed by bytes, insertion ordered *)
Fixpoint lookup {A} (k : bytes) (m : list (bytes * A)) : option A :=
  match m with [] => None | (k', v) :: r => if beqb k k' then Some v else lookup k r end.
Fixpoint update {A} (k : bytes) (v : A) (m : list (bytes * A)) : list (bytes * A) :=
  match m with
  | [] => [(k, v)]
  | (k', v') :: r => if beqb k k' then (k, v) :: r else (k', v') :: update k v r
  end.

Lemma lookup_update_same {A} k (v : A) m : lookup k (update k v m) = Some v.
Proof.
  induction m as [|[k' v'] m IH]; cbn; [rewrite beqb_refl; reflexivity|].
  destruct (beqb k k') eqn:E; cbn; rewrite ?beqb_refl, ?E; auto.
Qed.
Lemma lookup_update_other {A} k k' (v : A) m : k <> k' -> lookup k' (update k v m) = lookup k' m.
Proof.
  intro Hne. induction m as [|[k2 v2] m IH]; cbn.
  - assert (beqb k' k = false) as -> by (apply beqb_false; congruence). reflexivity.
  - destruct (beqb k k2) eqn:E; cbn.
    + apply beqb_true in E; subst k2.
      assert (beqb k' k = false) as -> by (apply beqb_false; congruence). reflexivity.
    + destruct (beqb k' k2); auto.
Qed.

Lemma lookup_In {A} k (v : A) m : lookup k m = Some v -> In (k, v) m.
Proof.
  induction m as [|[k' v'] m IH]; cbn; [discriminate|].
  destruct (beqb k k') eqn:E; [apply beqb_true in E; subst; intros [= ->]; auto | auto].
Qed.
Lemma lookup_None_not_In {A} k (m : list (bytes * A)) : lookup k m = None <-> ~ In k (map fst m).
Proof.
  induction m as [|[k' v'] m IH]; cbn; [tauto|].
  destruct (beqb k k') eqn:E.
  - apply beqb_true in E; subst. split; [discriminate | tauto].
  - apply beqb_false in E. rewrite IH. split; [intros H [H1|H1]; congruence | tauto].
Qed.

Lemma lookup_NoDup_In {A} k (v : A) m : NoDup (map fst m) -> In (k, v) m -> lookup k m = Some v.
Proof.
  induction m as [|[k' v'] m IH]; cbn [lookup map fst]; [intros _ []|].
  intros ND [[= -> ->]|Hin]; [rewrite beqb_refl; reflexivity|].
  inversion ND as [|? ? Hni ND']; subst. destruct (beqb k k') eqn:E; [|auto].
  apply beqb_true in E. subst k'. destruct Hni. exact (in_map fst _ _ Hin).
Qed.

Lemma existsb_beqb_In k l : existsb (beqb k) l = true <-> In k l.
Proof.
  rewrite existsb_exists. split.
  - intros (x & Hx & E). apply beqb_true in E. subst. exact Hx.
  - intros H. exists k. split; [exact H | apply beqb_refl].
Qed.

Lemma NoDup_app_l {A} (l r : list A) : NoDup (l ++ r) -> NoDup l.
Proof.
  induction l as [|a l IH]; cbn [app]; intros H; [constructor|]. inversion H as [|? ? Hn H']; subst.
  constructor; [intros Hx; apply Hn, in_or_app; auto | auto].
Qed.

Lemma NoDup_app_disjoint {A} (a b : list A) : NoDup a -> NoDup b -> (forall x, In x a -> ~ In x b) -> NoDup (a ++ b).
Proof.
  intros Ha Hb Hd. induction Ha as [|x a Hx Ha IH]; [exact Hb|]. cbn [app]. constructor.
  - rewrite in_app_iff. intros [H|H]; [contradiction|]. exact (Hd x (or_introl eq_refl) H).
  - apply IH. intros y Hy. apply Hd. right. exact Hy.
Qed.

Lemma Forall2_length {A B} (R : A -> B -> Prop) l l' : Forall2 R l l' -> List.length l = List.length l'.
Proof. induction 1; cbn [List.length]; congruence. Qed.

(* decimal digits of a nat (N-based to stay cheap) *)
Fixpoint digits_pos (fuel : nat) (n : N) (acc : bytes) : bytes :=
  match fuel with
  | O => acc
  | S f =>
    let d := match Byte.of_N (48 + n mod 10)%N with Some b => b | None => x30 end in
    if (n <? 10)%N then d :: acc else digits_pos f (n / 10)%N (d :: acc)
  end.
Definition digitsN (n : N) : bytes := digits_pos (S (N.to_nat (N.log2 n))) n [].
Definition digits (n : nat) : bytes := digitsN (N.of_nat n).
