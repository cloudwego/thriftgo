(* Base/BE.v — big-endian integers over Z and two's complement views.
   Shared by every wire-level model (binary protocol, fastgo codec, message framing).

     put_be n z        n bytes, most significant first, of z mod 256^n (any z : Z)
     get_be n bs       unsigned reading of the first n bytes
     get_s  n bs       signed (two's complement) reading of the first n bytes
     wrap bits z       what Go's intN(z) conversion does; wrap8 / wrap16 / wrap32 / wrap64
     to_u / to_s       unsigned <-> signed view of a bits-wide pattern
     in_range n z      0 <= z < 256^n          in_srange n z   -2^(8n-1) <= z < 2^(8n-1)

   Stdlib only; nothing assumed. *)
From Coq Require Import List ZArith NArith Lia Bool.
From Coq.Strings Require Import Byte.
From Verif Require Import Base.Bytes.
Import ListNotations.
Open Scope Z_scope.

Definition byte_of_Z (z : Z) : byte :=
  match Byte.of_N (Z.to_N (z mod 256)) with Some b => b | None => x00 end.
Definition Z_of_byte (b : byte) : Z := Z.of_N (Byte.to_N b).

Lemma Z_of_byte_of_Z z : Z_of_byte (byte_of_Z z) = z mod 256.
Proof.
  unfold Z_of_byte, byte_of_Z.
  assert (H: 0 <= z mod 256 < 256) by (apply Z.mod_pos_bound; lia).
  destruct (Byte.of_N (Z.to_N (z mod 256))) eqn:E.
  - apply Byte.to_of_N in E. rewrite E. lia.
  - apply Byte.of_N_None_iff in E. lia.
Qed.

Lemma Z_of_byte_range b : 0 <= Z_of_byte b < 256.
Proof. unfold Z_of_byte. pose proof (Byte.to_N_bounded b). lia. Qed.

Lemma byte_of_Z_of_byte b : byte_of_Z (Z_of_byte b) = b.
Proof.
  unfold byte_of_Z. rewrite Z.mod_small by apply Z_of_byte_range.
  unfold Z_of_byte. rewrite N2Z.id, Byte.of_to_N. reflexivity.
Qed.

Fixpoint put_be (n : nat) (z : Z) : bytes :=
  match n with O => [] | S k => byte_of_Z (z / 256 ^ Z.of_nat k) :: put_be k z end.
Fixpoint get_be_acc (n : nat) (acc : Z) (bs : bytes) : option (Z * bytes) :=
  match n with
  | O => Some (acc, bs)
  | S k => match bs with [] => None | b :: r => get_be_acc k (acc * 256 + Z_of_byte b) r end
  end.
Definition get_be n bs := get_be_acc n 0 bs.

Lemma pow256_pos n : 0 < 256 ^ Z.of_nat n.
Proof. apply Z.pow_pos_nonneg; lia. Qed.

Lemma div_pow_mod_succ z n :
  (z mod 256 ^ Z.of_nat (S n)) / 256 ^ Z.of_nat n mod 256 = z / 256 ^ Z.of_nat n mod 256.
Proof.
  rewrite Nat2Z.inj_succ, Z.pow_succ_r by lia.
  pose proof (pow256_pos n) as HQ. set (Q := 256 ^ Z.of_nat n) in *.
  rewrite (Z.mul_comm 256 Q). rewrite Z.rem_mul_r by lia.
  rewrite (Z.mul_comm Q), Z.div_add by lia.
  rewrite (Z.div_small (z mod Q)) by (apply Z.mod_pos_bound; lia).
  rewrite Z.add_0_l, Z.mod_mod by lia. reflexivity.
Qed.

Lemma put_be_mod n : forall z, put_be n z = put_be n (z mod 256 ^ Z.of_nat n).
Proof.
  induction n as [|n IH]; intro z; [reflexivity|].
  cbn [put_be]. f_equal.
  - unfold byte_of_Z. rewrite div_pow_mod_succ. reflexivity.
  - rewrite Nat2Z.inj_succ, Z.pow_succ_r by lia.
    pose proof (pow256_pos n) as HQ. set (Q := 256 ^ Z.of_nat n) in *.
    rewrite (IH z), (IH (z mod (256 * Q))). f_equal.
    rewrite (Z.mul_comm 256 Q), Z.rem_mul_r, (Z.mul_comm Q), Z.mod_add by lia. symmetry. apply Z.mod_mod. lia.
Qed.

Lemma get_put_acc n : forall z acc r, 0 <= z < 256 ^ Z.of_nat n ->
  get_be_acc n acc (put_be n z ++ r) = Some (acc * 256 ^ Z.of_nat n + z, r).
Proof.
  induction n as [|n IH]; intros z acc r Hz.
  - cbn in *. f_equal. f_equal. lia.
  - cbn [put_be get_be_acc app]. rewrite Z_of_byte_of_Z.
    rewrite Nat2Z.inj_succ, Z.pow_succ_r in * by lia.
    pose proof (pow256_pos n) as HP. set (P := 256 ^ Z.of_nat n) in *.
    assert (Hq: 0 <= z / P < 256).
    { split. apply Z.div_pos; lia. apply Z.div_lt_upper_bound; lia. }
    rewrite (Z.mod_small (z / P)) by lia.
    rewrite put_be_mod. fold P. rewrite IH by (apply Z.mod_pos_bound; lia).
    f_equal. f_equal. pose proof (Z.div_mod z P). nia.
Qed.

Lemma get_put n z r : 0 <= z < 256 ^ Z.of_nat n -> get_be n (put_be n z ++ r) = Some (z, r).
Proof. intro H. unfold get_be. rewrite get_put_acc by assumption. f_equal. Qed.

Lemma put_be_length n z : length (put_be n z) = n.
Proof. induction n; cbn; congruence. Qed.

(* A successful read of n bytes shifts the accumulator by n bytes and adds a number below 256^n; the
   bytes read are put_be of that number. Splitting, range and reading back all follow. *)
Lemma get_be_acc_inv n : forall acc bs z r, get_be_acc n acc bs = Some (z, r) ->
  exists v, 0 <= v < 256 ^ Z.of_nat n /\ z = acc * 256 ^ Z.of_nat n + v /\ bs = put_be n v ++ r.
Proof.
  induction n as [|n IH]; intros acc bs z r H; cbn [get_be_acc] in H.
  - injection H as <- <-. exists 0. cbn. repeat split; lia.
  - destruct bs as [|b bs]; [discriminate|].
    destruct (IH _ _ _ _ H) as (v & Hv & -> & ->).
    pose proof (Z_of_byte_range b) as Hb. pose proof (pow256_pos n) as HP.
    rewrite Nat2Z.inj_succ, Z.pow_succ_r by lia.
    exists (Z_of_byte b * 256 ^ Z.of_nat n + v). split; [nia|]. split; [ring|].
    cbn [put_be app]. rewrite Z.div_add_l, (Z.div_small v), Z.add_0_r, byte_of_Z_of_byte by lia.
    rewrite (put_be_mod n (_ + v)), Z.add_comm, Z.mod_add, <- put_be_mod by lia. reflexivity.
Qed.

Lemma get_be_split n bs z r : get_be n bs = Some (z, r) ->
  exists used, bs = used ++ r /\ length used = n /\ forall r', get_be n (used ++ r') = Some (z, r').
Proof.
  intro H. destruct (get_be_acc_inv _ _ _ _ _ H) as (v & Hv & -> & ->). exists (put_be n v).
  split; [reflexivity|]. split; [apply put_be_length|]. intro r'. apply get_put_acc, Hv.
Qed.

Lemma get_be_range n bs z r : get_be n bs = Some (z, r) -> 0 <= z < 256 ^ Z.of_nat n.
Proof. intro H. destruct (get_be_acc_inv _ _ _ _ _ H) as (v & Hv & -> & _). lia. Qed.

Lemma put_get n bs z r : get_be n bs = Some (z, r) -> bs = put_be n z ++ r.
Proof. intro H. destruct (get_be_acc_inv _ _ _ _ _ H) as (v & _ & -> & ->). reflexivity. Qed.

Lemma get_be_acc_None n : forall acc bs, get_be_acc n acc bs = None <-> (length bs < n)%nat.
Proof.
  induction n as [|n IH]; intros acc bs; cbn.
  - split; [discriminate | lia].
  - destruct bs as [|b bs]; cbn; [split; [lia | reflexivity]|].
    rewrite IH. lia.
Qed.

Lemma get_be_None n bs : get_be n bs = None <-> (length bs < n)%nat.
Proof. apply get_be_acc_None. Qed.

Definition wrap (bits : Z) (z : Z) : Z := (z + 2 ^ (bits - 1)) mod 2 ^ bits - 2 ^ (bits - 1).
Definition wrap8 := wrap 8.
Definition wrap16 := wrap 16.
Definition wrap32 := wrap 32.
Definition wrap64 := wrap 64.

Definition to_u (bits z : Z) : Z := z mod 2 ^ bits.
Definition to_s (bits u : Z) : Z := if u <? 2 ^ (bits - 1) then u else u - 2 ^ bits.

Definition in_range (n : nat) (z : Z) := 0 <= z < 256 ^ Z.of_nat n.
Definition in_srange (n : nat) (z : Z) :=
  - (256 ^ Z.of_nat n / 2) <= z < 256 ^ Z.of_nat n / 2.
Definition in_srangeb (n : nat) (z : Z) : bool :=
  (- (256 ^ Z.of_nat n / 2) <=? z) && (z <? 256 ^ Z.of_nat n / 2).

Lemma in_srangeb_spec n z : in_srangeb n z = true <-> in_srange n z.
Proof. unfold in_srangeb, in_srange. rewrite andb_true_iff, Z.leb_le, Z.ltb_lt. tauto. Qed.

Lemma pow2_split bits : 0 < bits -> 2 ^ bits = 2 * 2 ^ (bits - 1).
Proof. intro H. rewrite <- Z.pow_succ_r by lia. f_equal. lia. Qed.

Lemma wrap_range bits z : 0 < bits -> - 2 ^ (bits - 1) <= wrap bits z < 2 ^ (bits - 1).
Proof.
  intro H. unfold wrap. pose proof (pow2_split bits H).
  assert (0 < 2 ^ (bits - 1)) by (apply Z.pow_pos_nonneg; lia).
  pose proof (Z.mod_pos_bound (z + 2 ^ (bits - 1)) (2 ^ bits)). lia.
Qed.

Lemma wrap_small bits z : 0 < bits -> - 2 ^ (bits - 1) <= z < 2 ^ (bits - 1) -> wrap bits z = z.
Proof.
  intros H Hz. unfold wrap. pose proof (pow2_split bits H).
  rewrite Z.mod_small by lia. lia.
Qed.

Lemma wrap_idem bits z : 0 < bits -> wrap bits (wrap bits z) = wrap bits z.
Proof. intro H. apply wrap_small; [assumption | apply wrap_range; assumption]. Qed.

Lemma wrap_mod bits z : 0 < bits -> wrap bits z mod 2 ^ bits = z mod 2 ^ bits.
Proof.
  intro H. unfold wrap. pose proof (pow2_split bits H).
  assert (0 < 2 ^ (bits - 1)) by (apply Z.pow_pos_nonneg; lia).
  rewrite Zminus_mod, Zmod_mod, <- Zminus_mod. f_equal. lia.
Qed.

Lemma to_s_to_u bits z : 0 < bits -> to_s bits (to_u bits z) = wrap bits z.
Proof.
  intro H. unfold to_s, to_u, wrap. pose proof (pow2_split bits H) as HP.
  assert (HQ : 0 < 2 ^ (bits - 1)) by (apply Z.pow_pos_nonneg; lia).
  set (Q := 2 ^ (bits - 1)) in *. rewrite HP.
  pose proof (Z.mod_pos_bound z (2 * Q) ltac:(lia)) as Hm.
  assert (E : (z + Q) mod (2 * Q) = (z mod (2 * Q) + Q) mod (2 * Q))
    by (rewrite Zplus_mod_idemp_l; reflexivity).
  rewrite E.
  destruct (Z.ltb_spec (z mod (2 * Q)) Q).
  - rewrite (Z.mod_small (z mod (2 * Q) + Q)) by lia. lia.
  - replace (z mod (2 * Q) + Q) with ((z mod (2 * Q) - Q) + 1 * (2 * Q)) by lia.
    rewrite Z.mod_add by lia. rewrite (Z.mod_small (z mod (2 * Q) - Q)) by lia. lia.
Qed.

Lemma to_s_wrap bits u : 0 < bits -> 0 <= u < 2 ^ bits -> to_s bits u = wrap bits u.
Proof. intros H Hu. rewrite <- to_s_to_u by exact H. unfold to_u. rewrite Z.mod_small by exact Hu. reflexivity. Qed.

Lemma to_u_to_s bits u : 0 < bits -> 0 <= u < 2 ^ bits -> to_u bits (to_s bits u) = u.
Proof. intros H Hu. unfold to_u. rewrite to_s_wrap, wrap_mod by assumption. apply Z.mod_small, Hu. Qed.

Lemma pow256_bits n : 256 ^ Z.of_nat n = 2 ^ (8 * Z.of_nat n).
Proof. rewrite Z.pow_mul_r by lia. reflexivity. Qed.

Lemma half_pow256 n : (0 < n)%nat -> 256 ^ Z.of_nat n / 2 = 2 ^ (8 * Z.of_nat n - 1).
Proof.
  intro H. rewrite pow256_bits, (pow2_split (8 * Z.of_nat n)) by lia.
  rewrite Z.mul_comm, Z.div_mul by lia. reflexivity.
Qed.

Definition get_s (n : nat) (bs : bytes) : option (Z * bytes) :=
  match get_be n bs with
  | Some (u, r) => Some (to_s (8 * Z.of_nat n) u, r)
  | None => None
  end.

Lemma get_s_put n z r : (0 < n)%nat -> in_srange n z -> get_s n (put_be n z ++ r) = Some (z, r).
Proof.
  intros Hn Hz. unfold get_s, in_srange in *. rewrite half_pow256 in Hz by assumption.
  rewrite put_be_mod.
  rewrite get_put by (apply Z.mod_pos_bound; apply pow256_pos).
  rewrite pow256_bits. fold (to_u (8 * Z.of_nat n) z).
  rewrite to_s_to_u by lia. rewrite wrap_small by lia. reflexivity.
Qed.

Lemma get_s_split n bs z r : get_s n bs = Some (z, r) ->
  exists used, bs = used ++ r /\ length used = n /\ forall r', get_s n (used ++ r') = Some (z, r').
Proof.
  unfold get_s. destruct (get_be n bs) as [[u r0]|] eqn:E; [|discriminate].
  intros [= <- <-]. destruct (get_be_split _ _ _ _ E) as (used & -> & Hl & Hu).
  exists used. repeat split; [assumption|]. intro r'. rewrite Hu. reflexivity.
Qed.

Lemma get_s_None n bs : get_s n bs = None <-> (length bs < n)%nat.
Proof.
  unfold get_s. destruct (get_be n bs) as [[u r0]|] eqn:E.
  - split; [discriminate|]. intro H. apply get_be_None in H. congruence.
  - apply get_be_None in E. tauto.
Qed.

Lemma get_s_range n bs z r : (0 < n)%nat -> get_s n bs = Some (z, r) -> in_srange n z.
Proof.
  intros Hn. unfold get_s. destruct (get_be n bs) as [[u r0]|] eqn:E; [|discriminate].
  intros [= <- <-]. apply get_be_range in E. rewrite pow256_bits in E.
  unfold in_srange. rewrite half_pow256, (to_s_wrap (8 * Z.of_nat n)) by first [assumption | lia]. apply wrap_range. lia.
Qed.

Lemma put_get_s n bs z r : (0 < n)%nat -> get_s n bs = Some (z, r) -> bs = put_be n z ++ r.
Proof.
  intros Hn. unfold get_s. remember (8 * Z.of_nat n) as bits eqn:Hbits.
  destruct (get_be n bs) as [[u r0]|] eqn:E; [|discriminate].
  intros [= <- <-]. pose proof (get_be_range _ _ _ _ E) as Hr. apply put_get in E. rewrite E at 1. f_equal.
  rewrite (put_be_mod n (to_s _ _)). rewrite pow256_bits in *. rewrite <- Hbits in *.
  fold (to_u bits (to_s bits u)). rewrite to_u_to_s by lia. reflexivity.
Qed.

Lemma in_srange_1 z : in_srange 1 z <-> -128 <= z < 128.
Proof. unfold in_srange. replace (256 ^ Z.of_nat 1%nat / 2) with 128 by reflexivity. lia. Qed.
Lemma in_srange_2 z : in_srange 2 z <-> -32768 <= z < 32768.
Proof. unfold in_srange. replace (256 ^ Z.of_nat 2%nat / 2) with 32768 by reflexivity. lia. Qed.
Lemma in_srange_4 z : in_srange 4 z <-> -2147483648 <= z < 2147483648.
Proof. unfold in_srange. replace (256 ^ Z.of_nat 4%nat / 2) with 2147483648 by reflexivity. lia. Qed.
Lemma in_srange_8 z : in_srange 8 z <-> -9223372036854775808 <= z < 9223372036854775808.
Proof. unfold in_srange. replace (256 ^ Z.of_nat 8%nat / 2) with 9223372036854775808 by reflexivity. lia. Qed.

Lemma wrap32_in_srange z : in_srange 4 (wrap32 z).
Proof.
  apply in_srange_4. assert (H : 0 < 32) by lia. pose proof (wrap_range 32 z H) as W.
  replace (2 ^ (32 - 1)) with 2147483648 in W by reflexivity. unfold wrap32. lia.
Qed.
Lemma wrap32_small z : in_srange 4 z -> wrap32 z = z.
Proof.
  intro H. destruct (in_srange_4 z) as [F _]. apply F in H. apply wrap_small; [lia|].
  replace (2 ^ (32 - 1)) with 2147483648 by reflexivity. lia.
Qed.

Lemma put_be_1 z : put_be 1 z = [byte_of_Z z].
Proof. cbn [put_be]. rewrite Z.pow_0_r, Z.div_1_r. reflexivity. Qed.

Lemma put_be_wrap32 z : put_be 4 (wrap32 z) = put_be 4 z.
Proof.
  rewrite (put_be_mod 4 (wrap32 z)), (put_be_mod 4 z). f_equal.
  change (256 ^ Z.of_nat 4) with (2 ^ 32). unfold wrap32. apply wrap_mod. lia.
Qed.
