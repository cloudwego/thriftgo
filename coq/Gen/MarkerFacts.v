(* Gen/MarkerFacts.v — the marker syntax of the model (Gen/FileManager.v: ip_prefix, marker,
   ip_char) is what the translator read from plugin/plugin.go and generator/file_manager.go on
   this run (Gen/MarkerTable.v). *)
From Coq Require Import List Bool NArith Lia ZifyBool.
From Coq.Strings Require Import Byte.
From Verif Require Import Base.Bytes Gen.FileManager Gen.MarkerTable.
Import ListNotations.

Definition in_class (cls : list (byte * byte)) (c : byte) : bool :=
  existsb (fun r => (Byte.to_N (fst r) <=? Byte.to_N c)%N && (Byte.to_N c <=? Byte.to_N (snd r))%N) cls.

(* fmt.Sprintf(InsertionPointFormat, ip) *)
Theorem marker_is_source ip : marker ip = src_marker_head ++ [x28] ++ ip ++ [x29].
Proof.
  unfold marker. assert (H : ip_prefix = src_marker_head ++ [x28]) by (vm_compute; reflexivity).
  rewrite H, <- app_assoc. reflexivity.
Qed.

(* the character class of insertReg: both sides test the code of [c] against the same ranges *)
Theorem ip_char_is_source c : ip_char c = in_class src_ip_class c.
Proof.
  unfold ip_char, in_class, src_ip_class. cbn [existsb fst snd].
  generalize (Byte.to_N c) as n; intro n. cbv [Byte.to_N]. lia.
Qed.
