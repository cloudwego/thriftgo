(* Gen/OptionsFacts.v — proofs about the option model Gen/Options.v, against the table generated
   into Gen/OptionsTable.v and the documentation tables in Gen/OptionsDoc.v.
   Finite facts about the regenerated tables are decided by vm_compute on boolean checkers and
   lifted with forallb_forall; everything about option lists is by induction (any length, any order). *)
From Coq Require Import String.
From Coq Require Import List Arith Bool Lia.
From Coq.Strings Require Import Byte.
From Verif Require Import Base.Bytes Gen.OptionsSyntax Gen.OptionsTable Gen.OptionsDoc Gen.Options.
Import ListNotations.
Close Scope string_scope.

Lemma prefixb_is_prefix p s : prefixb p s = is_prefix p s.
Proof.
  revert s; induction p as [|a p IH]; intros [|b s]; cbn [prefixb is_prefix]; auto.
  all: try (destruct (Byte.eqb a b); cbn [andb]; auto).
Qed.

Lemma prefixb_refl p : prefixb p p = true.
Proof.
  rewrite prefixb_is_prefix. apply is_prefix_spec. exists []. now rewrite app_nil_r.
Qed.

Lemma action_eqb_eq a b : action_eqb a b = true -> a = b.
Proof.
  destruct a, b; cbn [action_eqb]; try discriminate; auto.
  intro H. apply Nat.eqb_eq in H. now subst.
Qed.

Lemma action_eqb_refl a : action_eqb a a = true.
Proof. destruct a; cbn [action_eqb]; auto. apply Nat.eqb_refl. Qed.

Lemma setting_eqb_eq a b : setting_eqb a b = true <-> a = b.
Proof.
  destruct a, b; cbn [setting_eqb]; split; try discriminate; try reflexivity; intro H.
  - apply Nat.eqb_eq in H. now subst.
  - injection H as ->. apply Nat.eqb_refl.
  - apply beqb_true in H. now subst.
  - injection H as ->. apply beqb_refl.
Qed.

Lemma setting_eqb_refl s : setting_eqb s s = true.
Proof. now apply setting_eqb_eq. Qed.

Lemma set_nth_length i b l : List.length (set_nth i b l) = List.length l.
Proof.
  revert i; induction l as [|x l IH]; intros [|i]; cbn [set_nth List.length]; auto.
Qed.

Lemma nth_set_nth i j b l : i < List.length l ->
  nth j (set_nth i b l) false = if Nat.eqb j i then b else nth j l false.
Proof.
  revert i j; induction l as [|x l IH]; intros i j Hi; cbn [List.length] in Hi; [lia|].
  destruct i as [|i]; destruct j as [|j]; cbn [set_nth nth Nat.eqb]; auto.
  apply IH. lia.
Qed.

Lemma nth_set_nth_false i l : nth i (set_nth i false l) false = false.
Proof.
  revert i; induction l as [|x l IH]; intros [|i]; cbn [set_nth nth]; auto.
Qed.

Lemma split_first_app sep p r : ~ In sep p -> split_first sep (p ++ sep :: r) = (p, Some r).
Proof.
  intro Hp. induction p as [|b p IH]; cbn [app split_first].
  - now rewrite (proj2 (byte_eqb_eq sep sep) eq_refl).
  - destruct (Byte.eqb b sep) eqn:E.
    + apply byte_eqb_eq in E. subst. exfalso. apply Hp. now left.
    + rewrite IH; auto. intro H. apply Hp. now right.
Qed.

Lemma parse_bool_some v b : parse_bool v = Some b ->
  (b = true /\ (v = [] \/ v = s_true)) \/ (b = false /\ v = s_false).
Proof.
  unfold parse_bool. destruct v as [|x v]; [intros [= <-]; auto|].
  destruct (beqb (x :: v) s_true) eqn:E1.
  - intros [= <-]. apply beqb_true in E1. auto.
  - destruct (beqb (x :: v) s_false) eqn:E2; [|discriminate].
    intros [= <-]. apply beqb_true in E2. auto.
Qed.

Lemma parse_bool_none v : parse_bool v = None <-> v <> [] /\ v <> s_true /\ v <> s_false.
Proof.
  split.
  - intro H. repeat split; intro E; subst v; vm_compute in H; discriminate.
  - intros (H0 & H1 & H2). unfold parse_bool. destruct v as [|x v]; [congruence|].
    apply beqb_false in H1. apply beqb_false in H2. now rewrite H1, H2.
Qed.

Lemma parse_bool_empty : parse_bool [] = Some true. Proof. reflexivity. Qed.
Lemma parse_bool_true : parse_bool s_true = Some true. Proof. reflexivity. Qed.
Lemma parse_bool_false : parse_bool s_false = Some false. Proof. reflexivity. Qed.

Definition action_in_range (a : action) : bool :=
  match a with AFeature i => Nat.ltb i nfeat | AUnknown => false | _ => true end.

(* The checkers below take the looked-up part as an argument and are characterised over variables;
   the closed instances are evaluated once each and never unfolded afterwards: a conversion between
   a folded and an unfolded boolean over [table] makes the kernel evaluate the whole table again. *)
Definition found_is (t : list (bytes * action)) (e : bytes * action) : bool :=
  match find_entry (fst e) t with
  | Some e' => beqb (fst e') (fst e) && action_eqb (snd e') (snd e)
  | None => false
  end.

Lemma found_is_spec t e : found_is t e = true -> find_entry (fst e) t = Some e.
Proof.
  unfold found_is. destruct (find_entry (fst e) t) as [[n' a']|]; [|discriminate].
  destruct e as [n a]. cbn [fst snd]. intro H. apply andb_true_iff in H as [Hn Ha].
  apply beqb_true in Hn. apply action_eqb_eq in Ha. now subst.
Qed.

Lemma find_entry_exact t n a : find_entry n t = Some (n, a) -> lookup n t = Some a.
Proof.
  unfold find_entry. induction t as [|[m b] t IH]; cbn [find lookup fst]; [discriminate|].
  destruct (prefixb m n) eqn:P.
  - intros [= -> ->]. now rewrite beqb_refl.
  - destruct (beqb n m) eqn:E; auto. apply beqb_true in E. subst m. now rewrite prefixb_refl in P.
Qed.

Lemma table_found : forallb (found_is table) table = true.
Proof. vm_compute. reflexivity. Qed.

Lemma table_in_range : forallb (fun e => action_in_range (snd e)) table = true.
Proof. vm_compute. reflexivity. Qed.

Lemma entry_facts n a : In (n, a) table ->
  find_entry n table = Some (n, a) /\ exact_action n = Some a /\ action_in_range a = true.
Proof.
  intro Hin.
  pose proof (found_is_spec _ _ (proj1 (forallb_forall _ _) table_found _ Hin)) as Hf.
  split; [exact Hf|]. split; [exact (find_entry_exact _ _ _ Hf)|].
  exact (proj1 (forallb_forall _ _) table_in_range _ Hin).
Qed.

Lemma documented_entry n : documented n -> exists a, In (n, a) table.
Proof.
  unfold documented. rewrite in_map_iff. intros [[n' a] [E Hin]]. cbn in E. subst. eauto.
Qed.

Lemma in_range_feature i : action_in_range (AFeature i) = true -> i < nfeat.
Proof. cbn [action_in_range]. apply Nat.ltb_lt. Qed.

(* the name sets used by validateOptions / post / checkOptions resolve to documented options *)
Definition named_indices_ok : bool :=
  forallb (fun p => match exact_action (fst p) with
                    | Some (AFeature i) => Nat.eqb i (snd p) && Nat.ltb i nfeat
                    | _ => false
                    end)
    [(B "gen_deep_equal"%string, ix_deep_equal); (B "enable_nested_struct", ix_nested);
     (B "apache_warning"%string, ix_apache_warning); (B "apache_adaptor", ix_apache_adaptor);
     (B "with_field_mask"%string, ix_with_field_mask); (B "with_reflection", ix_with_reflection);
     (B "snake_style_json_tag"%string, ix_snake); (B "lower_camel_style_json_tag", ix_lower_camel);
     (B "gen_json_tag"%string, ix_gen_json_tag); (B "always_gen_json_tag", ix_always_json)].

Lemma named_indices_ok_true : named_indices_ok = true.
Proof. vm_compute. reflexivity. Qed.

Lemma ix_deep_equal_range : ix_deep_equal < nfeat.
Proof. apply Nat.ltb_lt. vm_compute. reflexivity. Qed.

Definition wf (c : cfg) : Prop :=
  c_curinit c = c_doinit c /\ List.length (c_feats c) = nfeat.

Lemma wf_default : wf default_cfg.
Proof. split; vm_compute; reflexivity. Qed.

Lemma get_feat_set_feat i j b c : i < List.length (c_feats c) ->
  get_feat j (set_feat i b c) = if Nat.eqb j i then b else get_feat j c.
Proof. apply nth_set_nth. Qed.

(* a goal [forall s', get s' (set_.. c) = ...]: by cases on the setting asked for *)
Ltac by_setting :=
  intros [?i| | | | |?q];
  cbn [get set_import set_style set_init set_prefix set_template set_feat setting_eqb
       c_style c_curinit c_prefix c_template c_imports get_feat c_feats]; auto.

Lemma get_set_import p r c s :
  get s (set_import p r c) = if setting_eqb s (SImport p) then VOpt (Some r) else get s c.
Proof.
  revert s. by_setting. destruct (beqb q p) eqn:E.
  - apply beqb_true in E. subst. now rewrite lookup_update_same.
  - apply beqb_false in E. rewrite lookup_update_other; auto.
Qed.

Lemma apply_some a v c s x : wf c -> action_in_range a = true -> writes a v = Some (s, x) ->
  exists c', apply a v c = Ok c' /\ wf c' /\
             forall s', get s' c' = if setting_eqb s' s then x else get s' c.
Proof.
  intros [Hi Hl] Hr Hw.
  (* in every case [apply] answers [Ok c'] for an explicit c': what is left is that c' is well formed and
     differs from c in the one setting *)
  assert (K : forall c', wf c' -> (forall s', get s' c' = if setting_eqb s' s then x else get s' c) ->
              exists c'', Ok c' = Ok c'' /\ wf c'' /\
                          forall s', get s' c'' = if setting_eqb s' s then x else get s' c) by eauto.
  destruct a; cbn [writes apply] in *.
  - injection Hw as <- <-. apply K; [split; auto | apply get_set_import].
  - destruct (split_first ch_eq v) as [p [r|]]; [|discriminate]. injection Hw as <- <-.
    apply K; [split; auto | apply get_set_import].
  - destruct (style_known v); [|discriminate]. injection Hw as <- <-.
    apply K; [split; auto | by_setting]. now rewrite Hi.
  - destruct (parse_bool v) as [b|]; [|discriminate]. injection Hw as <- <-.
    apply K; [split; auto | by_setting].
  - injection Hw as <- <-. apply K; [split; auto | by_setting].
  - destruct (template_known v); [|discriminate]. injection Hw as <- <-.
    apply K; [split; auto | by_setting].
  - destruct (parse_bool v) as [b|]; [|discriminate]. injection Hw as <- <-.
    apply in_range_feature in Hr. apply K.
    + split; cbn [set_feat c_curinit c_doinit c_feats]; auto. now rewrite set_nth_length.
    + by_setting. rewrite get_feat_set_feat by lia. destruct (Nat.eqb i0 i); auto.
  - discriminate.
Qed.

Lemma apply_none a v c : writes a v = None -> exists e, apply a v c = Err e.
Proof.
  destruct a; cbn [writes apply]; try discriminate.
  - destruct (split_first ch_eq v) as [p [r|]]; [discriminate|]. eauto.
  - destruct (style_known v); [discriminate|]. eauto.
  - destruct (parse_bool v); [discriminate|]. eauto.
  - destruct (template_known v); [discriminate|]. eauto.
  - destruct (parse_bool v); [discriminate|]. eauto.
  - eauto.
Qed.

Lemma apply_ok_frame a v c c' : wf c -> action_in_range a = true -> apply a v c = Ok c' ->
  exists s x, writes a v = Some (s, x) /\ wf c' /\
              forall s', get s' c' = if setting_eqb s' s then x else get s' c.
Proof.
  intros Hwf Hr H. destruct (writes a v) as [[s x]|] eqn:Hw.
  - destruct (apply_some a v c s x Hwf Hr Hw) as (c'' & Hc & Hwf' & Hg).
    exists s, x. rewrite Hc in H. injection H as <-. auto.
  - destruct (apply_none a v c Hw) as [e He]. congruence.
Qed.

Lemma step_documented n a v c : In (n, a) table -> step (n, v) c = apply a v c.
Proof.
  intro Hin. unfold step. cbn [fst snd]. destruct (entry_facts _ _ Hin) as (-> & _ & _). reflexivity.
Qed.

Lemma step_frame n a v c c' : In (n, a) table -> wf c -> step (n, v) c = Ok c' ->
  exists s x, writes a v = Some (s, x) /\ wf c' /\
              forall s', get s' c' = if setting_eqb s' s then x else get s' c.
Proof.
  intros Hin Hwf H. rewrite (step_documented _ _ _ _ Hin) in H.
  destruct (entry_facts _ _ Hin) as (_ & _ & Hr). exact (apply_ok_frame a v c c' Hwf Hr H).
Qed.

Lemma wr_documented n a v : In (n, a) table -> wr (n, v) = writes a v.
Proof.
  intro Hin. unfold wr. cbn [fst snd]. destruct (entry_facts _ _ Hin) as (_ & -> & _). reflexivity.
Qed.

Lemma run_app l1 l2 c :
  run (l1 ++ l2) c = match run l1 c with (c1, None) => run l2 c1 | r => r end.
Proof.
  revert c; induction l1 as [|o l1 IH]; intro c; cbn [run app]; auto.
  destruct (step o c) as [c1|e]; auto.
Qed.

Lemma step_spec n v c : documented n -> wf c ->
  match wr (n, v) with
  | Some (s, x) => exists c', step (n, v) c = Ok c' /\ wf c' /\
                              forall s', get s' c' = if setting_eqb s' s then x else get s' c
  | None => exists e, step (n, v) c = Err e
  end.
Proof.
  intros Hn Hwf. destruct (documented_entry n Hn) as [a Hin].
  rewrite (wr_documented _ _ v Hin), (step_documented _ _ v c Hin).
  destruct (entry_facts _ _ Hin) as (_ & _ & Hr).
  destruct (writes a v) as [[s x]|] eqn:Hw; [now apply apply_some | now apply apply_none].
Qed.

Lemma opt_ok_wr n v : documented n -> opt_ok (n, v) = if wr (n, v) then true else false.
Proof.
  intro Hn. destruct (documented_entry n Hn) as [a Hin]. unfold opt_ok, wr. cbn [fst snd].
  destruct (entry_facts _ _ Hin) as (_ & -> & _). reflexivity.
Qed.

(* the loop over documented options, for lists of any length and order: it ends without an error exactly
   when every option is valid, and then last writer wins, setting by setting *)
Lemma run_spec opts : Forall (fun o => documented (fst o)) opts -> forall c, wf c ->
  if forallb opt_ok opts
  then exists c', run opts c = (c', None) /\ wf c' /\ forall s, get s c' = last_setting s opts (get s c)
  else exists c' e, run opts c = (c', Some e).
Proof.
  unfold last_setting. induction 1 as [|[n v] r Hn _ IH]; intros c Hwf; cbn [run forallb map last_w]; [eauto|].
  pose proof (step_spec n v c Hn Hwf) as Hs. rewrite (opt_ok_wr n v Hn).
  destruct (wr (n, v)) as [[s x]|]; cbn [andb].
  - destruct Hs as (c1 & -> & Hwf1 & Hg). specialize (IH c1 Hwf1).
    destruct (forallb opt_ok r); [|exact IH].
    destruct IH as (c' & Hrun & Hwf' & Hl). exists c'. split; [exact Hrun|]. split; [exact Hwf'|].
    intro s'. rewrite Hl, Hg. reflexivity.
  - destruct Hs as [e ->]. eauto.
Qed.

Lemma run_last opts c c' : wf c -> Forall (fun o => documented (fst o)) opts ->
  run opts c = (c', None) -> wf c' /\ forall s, get s c' = last_setting s opts (get s c).
Proof.
  intros Hwf Hdoc Hrun. pose proof (run_spec opts Hdoc c Hwf) as H.
  destruct (forallb opt_ok opts).
  - destruct H as (c'' & E & H). rewrite E in Hrun. injection Hrun as <-. exact H.
  - destruct H as (c'' & e & E). congruence.
Qed.

Lemma run_ok_iff opts c : wf c -> Forall (fun o => documented (fst o)) opts ->
  ((exists c', run opts c = (c', None)) <-> forallb opt_ok opts = true).
Proof.
  intros Hwf Hdoc. pose proof (run_spec opts Hdoc c Hwf) as H.
  destruct (forallb opt_ok opts).
  - destruct H as (c' & E & _). split; eauto.
  - destruct H as (c' & e & E). rewrite E. split; [intros [c'' H]; discriminate | discriminate].
Qed.

Lemma handle_inv opts c c' : handle opts c = Ok c' ->
  exists c1, run opts c = (c1, None) /\ c' = post c1 /\ validate (post c1) = None.
Proof.
  unfold handle. destruct (run opts c) as [c1 [e|]]; [discriminate|].
  destruct (validate (post c1)) eqn:E; [discriminate|]. intros [= <-]. eauto.
Qed.

Lemma post_template c : c_template (post c) = c_template c.
Proof. unfold post. destruct (beqb (c_template c) slim); reflexivity. Qed.

Lemma post_get c s : wf c ->
  get s (post c) =
  match s with
  | SFeat i => if Nat.eqb i ix_deep_equal
               then (if beqb (c_template c) slim then VBool false else get s c)
               else get s c
  | _ => get s c
  end.
Proof.
  intros [_ Hl]. unfold post. destruct (beqb (c_template c) slim) eqn:E.
  - revert s. by_setting. rewrite get_feat_set_feat by (rewrite Hl; apply ix_deep_equal_range).
    destruct (Nat.eqb i ix_deep_equal); reflexivity.
  - destruct s as [i| | | | |q]; auto. destruct (Nat.eqb i ix_deep_equal); reflexivity.
Qed.

Lemma run_post_expected opts c1 : Forall (fun o => documented (fst o)) opts ->
  run opts default_cfg = (c1, None) -> forall s, get s (post c1) = expected default_of s opts.
Proof.
  intros Hdoc Hrun s.
  destruct (run_last opts default_cfg c1 wf_default Hdoc Hrun) as [Hwf1 Hl].
  rewrite (post_get _ _ Hwf1). unfold expected, expected_w, slim_selected_w.
  assert (Ht : beqb (c_template c1) slim =
               value_eqb (last_w STemplate (map wr opts) (default_of STemplate)) (VStr slim)).
  { pose proof (Hl STemplate) as H. unfold last_setting in H. fold (default_of STemplate) in H.
    rewrite <- H. reflexivity. }
  destruct s as [i| | | | |q]; try (rewrite Hl; reflexivity).
  rewrite Ht, Hl. reflexivity.
Qed.

Lemma last_wins opts c : Forall (fun o => documented (fst o)) opts ->
  handle opts default_cfg = Ok c -> forall s, get s c = expected default_of s opts.
Proof.
  intros Hdoc H. destruct (handle_inv _ _ _ H) as (c1 & Hrun & -> & _).
  now apply run_post_expected.
Qed.

Lemma combo_violation_ext f g : (forall i, f i = g i) -> combo_violation f = combo_violation g.
Proof. intro H. unfold combo_violation. now rewrite !H. Qed.

Lemma accepted_iff opts : Forall (fun o => documented (fst o)) opts ->
  ((exists c, handle opts default_cfg = Ok c) <-> spec_accepts default_of opts = true).
Proof.
  intro Hdoc. unfold spec_accepts. rewrite andb_true_iff.
  rewrite <- (run_ok_iff opts default_cfg wf_default Hdoc).
  assert (Hv : forall c1, run opts default_cfg = (c1, None) ->
               validate (post c1) = combo_violation (fun i => vbool (expected_w default_of (SFeat i) (map wr opts)))).
  { intros c1 Hrun. unfold validate. apply combo_violation_ext. intro i.
    pose proof (run_post_expected opts c1 Hdoc Hrun (SFeat i)) as H.
    unfold expected in H. rewrite <- H. reflexivity. }
  split.
  - intros [c H]. destruct (handle_inv _ _ _ H) as (c1 & Hrun & _ & Hval). split; [eauto|].
    unfold combo_ok, combo_ok_w. rewrite <- (Hv c1 Hrun), Hval. reflexivity.
  - intros [[c1 Hrun] Hc]. unfold combo_ok, combo_ok_w in Hc. rewrite <- (Hv c1 Hrun) in Hc.
    exists (post c1). unfold handle. rewrite Hrun.
    destruct (validate (post c1)); [discriminate | reflexivity].
Qed.

(* whatever reads its value with checkBool: bare and =true, =false, anything else *)
Lemma checked_bool_forms {A} (f : bytes -> result A) k :
  (forall v, f v = match parse_bool v with Some b => Ok (k b) | None => Err EBool end) ->
  f [] = Ok (k true) /\ f s_true = Ok (k true) /\ f s_false = Ok (k false) /\
  forall v, v <> [] -> v <> s_true -> v <> s_false -> f v = Err EBool.
Proof.
  intro Hf. rewrite !Hf. repeat split. intros v H0 H1 H2. now rewrite Hf, (proj2 (parse_bool_none v)).
Qed.

Lemma bool_forms_feature n i c : In (n, AFeature i) table -> wf c ->
  step (n, []) c = Ok (set_feat i true c) /\
  step (n, s_true) c = Ok (set_feat i true c) /\
  step (n, s_false) c = Ok (set_feat i false c) /\
  get (SFeat i) (set_feat i true c) = VBool true /\
  get (SFeat i) (set_feat i false c) = VBool false /\
  forall v, v <> [] -> v <> s_true -> v <> s_false -> step (n, v) c = Err EBool.
Proof.
  intros Hin [_ Hl]. destruct (entry_facts _ _ Hin) as (_ & _ & Hr). apply in_range_feature in Hr.
  assert (Hg : forall b, get (SFeat i) (set_feat i b c) = VBool b).
  { intro b. cbn [get]. rewrite get_feat_set_feat by lia. now rewrite Nat.eqb_refl. }
  destruct (checked_bool_forms (fun v => step (n, v) c) (fun b => set_feat i b c)) as (H1 & H2 & H3 & H4).
  { intro v. exact (step_documented n _ v c Hin). }
  exact (conj H1 (conj H2 (conj H3 (conj (Hg true) (conj (Hg false) H4))))).
Qed.

Lemma bool_forms_initialisms n c : In (n, AIgnoreInit) table ->
  step (n, []) c = Ok (set_init false c) /\
  step (n, s_true) c = Ok (set_init false c) /\
  step (n, s_false) c = Ok (set_init true c) /\
  forall v, v <> [] -> v <> s_true -> v <> s_false -> step (n, v) c = Err EBool.
Proof.
  intro Hin. apply (checked_bool_forms (fun v => step (n, v) c) (fun b => set_init (negb b) c)).
  intro v. exact (step_documented n _ v c Hin).
Qed.

Lemma invalid_value_rejected n a v : In (n, a) table -> writes a v = None ->
  forall before after c, exists e, handle (before ++ (n, v) :: after) c = Err e.
Proof.
  intros Hin Hw before after c. unfold handle. rewrite run_app.
  destruct (run before c) as [c1 [e|]]; [eauto|].
  cbn [run]. rewrite (step_documented _ _ _ _ Hin). destruct (apply_none a v c1 Hw) as [e ->]. eauto.
Qed.

Lemma option_map_none {A B} (f : A -> B) o : option_map f o = None <-> o = None.
Proof. destruct o; cbn [option_map]; split; congruence. Qed.

Lemma writes_bool_none i v : writes (AFeature i) v = None <-> v <> [] /\ v <> s_true /\ v <> s_false.
Proof. rewrite <- parse_bool_none. exact (option_map_none _ (parse_bool v)). Qed.

Lemma writes_init_none v : writes AIgnoreInit v = None <-> v <> [] /\ v <> s_true /\ v <> s_false.
Proof. rewrite <- parse_bool_none. exact (option_map_none _ (parse_bool v)). Qed.

Lemma writes_style_none v : writes ANamingStyle v = None <-> ~ In v naming_styles.
Proof.
  cbn [writes]. unfold style_known. rewrite <- existsb_beqb_In.
  destruct (existsb (beqb v) naming_styles); split; congruence.
Qed.

Lemma writes_template_none v : writes ATemplate v = None <-> v <> default_template /\ ~ In v templates.
Proof.
  cbn [writes]. unfold template_known.
  rewrite <- existsb_beqb_In, not_true_iff_false, <- beqb_false, <- orb_false_iff.
  destruct (beqb v default_template || existsb (beqb v) templates); split; congruence.
Qed.

Lemma split_first_none sep v : snd (split_first sep v) = None <-> ~ In sep v.
Proof.
  induction v as [|b v IH]; cbn [split_first snd In]; [tauto|].
  destruct (Byte.eqb b sep) eqn:E.
  - apply byte_eqb_eq in E. subst. cbn [snd]. split; [discriminate | tauto].
  - destruct (split_first sep v) as [h t]. cbn [snd] in *. rewrite IH.
    assert (b <> sep) by (intro; subst; rewrite (proj2 (byte_eqb_eq sep sep) eq_refl) in E; discriminate).
    tauto.
Qed.

Lemma writes_use_package_none v : writes AUsePackage v = None <-> ~ In ch_eq v.
Proof.
  rewrite <- split_first_none. cbn [writes]. destruct (split_first ch_eq v) as [p [r|]]; cbn [snd]; split; congruence.
Qed.

Lemma handle_no_violation opts c c' : handle opts c = Ok c' ->
  combo_violation (fun i => get_feat i c') = None.
Proof. intro H. destruct (handle_inv _ _ _ H) as (c1 & _ & -> & Hv). exact Hv. Qed.

Lemma combo_violation_none f : combo_violation f = None ->
  f ix_apache_warning && f ix_apache_adaptor = false /\
  f ix_with_field_mask && negb (f ix_with_reflection) = false /\
  f ix_snake && f ix_lower_camel = false /\
  negb (f ix_gen_json_tag) && f ix_always_json = false.
Proof.
  unfold combo_violation.
  destruct (f ix_apache_warning && f ix_apache_adaptor); [discriminate|].
  destruct (f ix_with_field_mask && negb (f ix_with_reflection)); [discriminate|].
  destruct (f ix_snake && f ix_lower_camel); [discriminate|].
  destruct (negb (f ix_gen_json_tag) && f ix_always_json); [discriminate | auto].
Qed.

Lemma invalid_combination_rejected opts c c' : handle opts c = Ok c' ->
  ~ (get_feat ix_apache_warning c' = true /\ get_feat ix_apache_adaptor c' = true) /\
  (get_feat ix_with_field_mask c' = true -> get_feat ix_with_reflection c' = true) /\
  ~ (get_feat ix_snake c' = true /\ get_feat ix_lower_camel c' = true) /\
  (get_feat ix_always_json c' = true -> get_feat ix_gen_json_tag c' = true).
Proof.
  intro H. apply handle_no_violation, combo_violation_none in H as (H1 & H2 & H3 & H4).
  split; [intros [Ha Hb]; now rewrite Ha, Hb in H1|].
  split; [intro Ha; rewrite Ha in H2; now destruct (get_feat ix_with_reflection c')|].
  split; [intros [Ha Hb]; now rewrite Ha, Hb in H3|].
  intro Ha. rewrite Ha, andb_true_r in H4. now destruct (get_feat ix_gen_json_tag c').
Qed.

Lemma combination_error opts c c1 : run opts c = (c1, None) ->
  combo_violation (fun i => get_feat i (post c1)) <> None -> exists k, handle opts c = Err (ECombo k).
Proof.
  intros Hrun Hv. unfold handle. rewrite Hrun. unfold validate.
  destruct (combo_violation (fun i => get_feat i (post c1))) as [k|]; [eauto | congruence].
Qed.

Definition no_violation (c : cfg) : bool := match validate c with None => true | Some _ => false end.

Lemma no_violation_spec c : no_violation c = true -> validate c = None.
Proof. unfold no_violation. now destruct (validate c). Qed.

Lemma default_not_slim : beqb default_template slim = false.
Proof. vm_compute. reflexivity. Qed.

Lemma post_default_template c : c_template c = default_template -> post c = c.
Proof. intro H. unfold post. now rewrite H, default_not_slim. Qed.

Lemma validate_default : validate default_cfg = None.
Proof. vm_compute. reflexivity. Qed.

Lemma validate_feats c : c_feats c = c_feats default_cfg -> validate c = None.
Proof. intro H. rewrite <- validate_default. unfold validate, get_feat. now rewrite H. Qed.

Lemma single_accepted n a v c' : In (n, a) table -> apply a v default_cfg = Ok c' ->
  validate (post c') = None -> handle [(n, v)] default_cfg = Ok (post c').
Proof. intros Hin Ha Hv. unfold handle. cbn [run]. now rewrite (step_documented _ _ _ _ Hin), Ha, Hv. Qed.

Lemma single_other_accepted n a v c' : In (n, a) table -> apply a v default_cfg = Ok c' ->
  c_template c' = default_template -> validate c' = None -> handle [(n, v)] default_cfg = Ok c'.
Proof. intros Hin Ha Ht. rewrite <- (post_default_template _ Ht). exact (single_accepted n a v c' Hin Ha). Qed.

Lemma single_bool_checked :
  forallb (fun i => no_violation (set_feat i false default_cfg) &&
                    (Nat.eqb i ix_with_field_mask || no_violation (set_feat i true default_cfg)))
          (seq 0 nfeat) = true.
Proof. vm_compute. reflexivity. Qed.

Lemma single_bool_accepted n i v b : In (n, AFeature i) table -> parse_bool v = Some b ->
  (b = true -> i <> ix_with_field_mask) ->
  handle [(n, v)] default_cfg = Ok (set_feat i b default_cfg).
Proof.
  intros Hin Hp Hx. apply (single_other_accepted n (AFeature i)); auto; [cbn [apply]; now rewrite Hp|].
  destruct (entry_facts _ _ Hin) as (_ & _ & Hr). apply in_range_feature in Hr.
  assert (Hi : In i (seq 0 nfeat)) by (apply in_seq; lia).
  pose proof (proj1 (forallb_forall _ _) single_bool_checked i Hi) as H.
  apply andb_true_iff in H as [Hf Ht].
  apply no_violation_spec. destruct b; auto.
  apply orb_true_iff in Ht as [Ht|Ht]; auto. apply Nat.eqb_eq in Ht. now elim Hx.
Qed.

Lemma single_style_accepted n s : In (n, ANamingStyle) table -> In s naming_styles ->
  handle [(n, s)] default_cfg = Ok (set_style s default_cfg).
Proof.
  intros Hin Hs. apply (single_other_accepted n ANamingStyle); auto using validate_feats.
  cbn [apply]. unfold style_known. now rewrite (proj2 (existsb_beqb_In s naming_styles) Hs).
Qed.

Lemma single_initialisms_accepted n v b : In (n, AIgnoreInit) table -> parse_bool v = Some b ->
  handle [(n, v)] default_cfg = Ok (set_init (negb b) default_cfg).
Proof.
  intros Hin Hp. apply (single_other_accepted n AIgnoreInit); auto using validate_feats.
  cbn [apply]. now rewrite Hp.
Qed.

Lemma single_prefix_accepted n v : In (n, APackagePrefix) table ->
  handle [(n, v)] default_cfg = Ok (set_prefix v default_cfg).
Proof. intros Hin. apply (single_other_accepted n APackagePrefix); auto using validate_feats. Qed.

Lemma single_import_path_accepted n v : In (n, AImportPath) table ->
  handle [(n, v)] default_cfg = Ok (set_import default_thrift_lib v default_cfg).
Proof. intros Hin. apply (single_other_accepted n AImportPath); auto using validate_feats. Qed.

Lemma single_use_package_accepted n p r : In (n, AUsePackage) table -> ~ In ch_eq p ->
  handle [(n, (p ++ ch_eq :: r)%list)] default_cfg = Ok (set_import p r default_cfg).
Proof.
  intros Hin Hp. apply (single_other_accepted n AUsePackage); auto using validate_feats.
  cbn [apply]. now rewrite split_first_app.
Qed.

Lemma single_template_checked :
  forallb (fun t => no_violation (post (set_template t default_cfg))) (default_template :: templates) = true.
Proof. vm_compute. reflexivity. Qed.

Lemma single_template_accepted n t : In (n, ATemplate) table -> t = default_template \/ In t templates ->
  handle [(n, t)] default_cfg = Ok (post (set_template t default_cfg)).
Proof.
  intros Hin Ht. apply (single_accepted n ATemplate); auto.
  - cbn [apply]. assert (template_known t = true) as ->; [|reflexivity].
    unfold template_known. apply orb_true_iff. destruct Ht as [->|Ht]; [left; apply beqb_refl | right; now apply existsb_beqb_In].
  - apply no_violation_spec, (proj1 (forallb_forall _ _) single_template_checked). destruct Ht; [left | right]; auto.
Qed.

Lemma slim_disables_deep_equal opts c c' : handle opts c = Ok c' ->
  c_template c' = slim -> get_feat ix_deep_equal c' = false.
Proof.
  intros H Ht. destruct (handle_inv _ _ _ H) as (c1 & _ & -> & _).
  rewrite post_template in Ht. unfold post. rewrite Ht, beqb_refl.
  unfold get_feat, set_feat; cbn [c_feats]. apply nth_set_nth_false.
Qed.

Lemma template_entry : find_entry template_name table = Some (template_name, ATemplate).
Proof. vm_compute. reflexivity. Qed.

Lemma slim_known : template_known slim = true.
Proof. vm_compute. reflexivity. Qed.

Lemma step_template_slim c : step (template_name, slim) c = Ok (set_template slim c).
Proof. unfold step. cbn [fst snd]. rewrite template_entry. cbn [snd apply]. now rewrite slim_known. Qed.

Lemma check_options_adapts opts :
  get_feat ix_nested (final_state opts default_cfg) = true ->
  (forall o, In o opts -> fst o <> template_name) ->
  check_options opts = (opts ++ [(template_name, slim)])%list.
Proof.
  intros Hn Hno. unfold check_options. rewrite Hn.
  destruct (existsb (fun o => beqb (fst o) template_name) opts) eqn:E; auto.
  apply existsb_exists in E as [o [Hin Ho]]. apply beqb_true in Ho. exfalso. now apply (Hno o).
Qed.

Lemma nested_forces_slim opts c :
  get_feat ix_nested (final_state opts default_cfg) = true ->
  (forall o, In o opts -> fst o <> template_name) ->
  handle (check_options opts) default_cfg = Ok c ->
  c_template c = slim /\ get_feat ix_deep_equal c = false.
Proof.
  intros Hn Hno H. rewrite (check_options_adapts _ Hn Hno) in H.
  assert (Ht : c_template c = slim).
  { destruct (handle_inv _ _ _ H) as (c2 & Hrun & -> & _). rewrite post_template.
    rewrite run_app in Hrun. destruct (run opts default_cfg) as [c1 [e|]]; [discriminate|].
    cbn [run] in Hrun. rewrite step_template_slim in Hrun. now injection Hrun as <-. }
  split; auto. eapply slim_disables_deep_equal; eauto.
Qed.

Lemma check_options_keeps opts :
  get_feat ix_nested (final_state opts default_cfg) = false \/
  (exists o, In o opts /\ fst o = template_name) ->
  check_options opts = opts.
Proof.
  intros [Hn | [o [Hin Ho]]]; unfold check_options.
  - now rewrite Hn.
  - destruct (get_feat ix_nested (final_state opts default_cfg)); auto.
    assert (existsb (fun o => beqb (fst o) template_name) opts = true) as ->; auto.
    apply existsb_exists. exists o. split; auto. rewrite Ho. apply beqb_refl.
Qed.

Definition mem (n : bytes) (l : list bytes) : bool := existsb (beqb n) l.

Lemma mem_incl a b : forallb (fun x => mem x b) a = true -> forall x, In x a -> In x b.
Proof. intros H x Hx. apply existsb_beqb_In. exact (proj1 (forallb_forall _ _) H x Hx). Qed.

Definition same_set (a b : list bytes) : bool :=
  forallb (fun x => mem x b) a && forallb (fun x => mem x a) b.

Lemma same_set_iff a b : same_set a b = true -> forall x, In x a <-> In x b.
Proof.
  unfold same_set. rewrite andb_true_iff. intros [H1 H2] x. split; now apply mem_incl.
Qed.

(* README: every option is a table entry; documented defaults are the code's *)
Definition readme_default_ok (oa : option action) (d : doc_default) : bool :=
  match oa, d with
  | Some (AFeature i), DBool b => Bool.eqb (nth i feature_defaults false) b
  | Some AIgnoreInit, DBool b => Bool.eqb init_curinit (negb b) && Bool.eqb init_doinit (negb b)
  | Some ANamingStyle, DStr s => beqb s default_style
  | Some _, DNone => true
  | _, _ => false
  end.

Lemma readme_default_ok_spec t n d : readme_default_ok (lookup n t) d = true ->
  In n (map fst t) /\
  match d with
  | DBool b => (exists i, In (n, AFeature i) t /\ nth i feature_defaults false = b) \/
               (In (n, AIgnoreInit) t /\ init_curinit = negb b /\ init_doinit = negb b)
  | DStr s => In (n, ANamingStyle) t /\ s = default_style
  | DNone => True
  end.
Proof.
  destruct (lookup n t) as [a|] eqn:E; [|discriminate]. apply lookup_In in E. intro H.
  split; [apply in_map_iff; exists (n, a); auto|].
  destruct d as [b|s|]; auto; destruct a; try discriminate; cbn [readme_default_ok] in H.
  - right. apply andb_true_iff in H as [H1 H2]. apply eqb_prop in H1. apply eqb_prop in H2. auto.
  - left. exists i. apply eqb_prop in H. auto.
  - apply beqb_true in H. auto.
Qed.

Lemma readme_checked :
  forallb (fun e => readme_default_ok (exact_action (fst e)) (snd e)) readme_options = true.
Proof. vm_compute. reflexivity. Qed.

Lemma readme_entry n d : In (n, d) readme_options ->
  documented n /\
  match d with
  | DBool b => (exists i, In (n, AFeature i) table /\ nth i feature_defaults false = b) \/
               (In (n, AIgnoreInit) table /\ init_curinit = negb b /\ init_doinit = negb b)
  | DStr s => In (n, ANamingStyle) table /\ s = default_style
  | DNone => True
  end.
Proof.
  intro Hin. apply readme_default_ok_spec.
  exact (proj1 (forallb_forall _ _) readme_checked _ Hin).
Qed.

(* thriftgo -h: lists exactly the table, in order; "Enabled by default" is the code's default *)
Definition help_enabled_ok (oa : option action) (en : bool) : bool :=
  match oa with
  | Some (AFeature i) => Bool.eqb (nth i feature_defaults false) en
  | Some _ => negb en
  | None => false
  end.

Lemma help_enabled_checked :
  forallb (fun e => help_enabled_ok (exact_action (fst e)) (fst (snd e))) help_options = true.
Proof. vm_compute. reflexivity. Qed.

Lemma help_deprecated_checked :
  forallb (fun e => mem (fst e) (map fst readme_options) || snd (snd e)) help_options = true.
Proof. vm_compute. reflexivity. Qed.

Lemma help_lists_all :
  map fst help_options = map fst table /\
  (forall n, In n (map fst readme_options) -> In n (map fst help_options)) /\
  (forall n en dep, In (n, (en, dep)) help_options -> In n (map fst readme_options) \/ dep = true).
Proof.
  split; [vm_compute; reflexivity|]. split.
  - apply mem_incl. vm_compute. reflexivity.
  - intros n en dep Hin. pose proof (proj1 (forallb_forall _ _) help_deprecated_checked _ Hin) as H.
    cbn [fst snd] in H. apply orb_true_iff in H as [H|H]; auto. left. now apply existsb_beqb_In.
Qed.

Lemma help_defaults_agree n en dep i : In (n, (en, dep)) help_options -> In (n, AFeature i) table ->
  nth i feature_defaults false = en.
Proof.
  intros Hin Ht. pose proof (proj1 (forallb_forall _ _) help_enabled_checked _ Hin) as H.
  cbn [fst snd] in H. destruct (entry_facts _ _ Ht) as (_ & Hex & _). rewrite Hex in H.
  now apply eqb_prop in H.
Qed.

Lemma doc_string_defaults :
  readme_thrift_lib = Some default_thrift_lib /\ help_thrift_lib = Some default_thrift_lib /\
  help_style_default = Some default_style.
Proof. repeat split; vm_compute; reflexivity. Qed.

Lemma doc_value_sets :
  (forall s, In s readme_styles <-> In s naming_styles) /\
  (forall s, In s help_styles <-> In s naming_styles) /\
  (forall t, In t readme_templates <-> In t templates) /\
  (forall t, In t help_templates <-> In t templates) /\
  (forall v, In v readme_bool_forms <-> parse_bool v <> None) /\
  (forall v, In v help_bool_forms <-> parse_bool v <> None).
Proof.
  assert (PB : forall v, In v [[]; s_true; s_false] <-> parse_bool v <> None).
  { intro v. split.
    - intros [<-|[<-|[<-|[]]]]; discriminate.
    - intro Hn. destruct (parse_bool v) as [b|] eqn:E; [|congruence].
      apply parse_bool_some in E as [[_ [->| ->]]|[_ ->]]; cbn; auto. }
  split; [|split; [|split; [|split; [|split]]]]; intro x; try rewrite <- PB.
  all: apply same_set_iff; vm_compute; reflexivity.
Qed.

Lemma value_eqb_eq a b : value_eqb a b = true -> a = b.
Proof.
  destruct a as [x|x|[x|]], b as [y|y|[y|]]; cbn [value_eqb]; try discriminate; auto; intro H.
  - apply eqb_prop in H. now subst.
  - apply beqb_true in H. now subst.
  - apply beqb_true in H. now subst.
Qed.

Lemma doc_defaults_feat :
  forallb (fun i => value_eqb (doc_default_of (SFeat i)) (default_of (SFeat i))) (seq 0 nfeat) = true.
Proof. vm_compute. reflexivity. Qed.

(* the defaults the correspondence oracle takes from the documentation are the model's *)
Lemma documented_defaults_agree s :
  match s with SFeat i => i < nfeat | _ => True end -> doc_default_of s = default_of s.
Proof.
  destruct s as [i| | | | |p]; intro Hs; [|vm_compute; reflexivity..].
  assert (Hi : In i (seq 0 nfeat)) by (apply in_seq; lia).
  exact (value_eqb_eq _ _ (proj1 (forallb_forall _ _) doc_defaults_feat i Hi)).
Qed.

Lemma parse_pack o : ~ In ch_eq (fst o) -> parse_arg (pack o) = o.
Proof.
  destruct o as [n v]. cbn [fst]. intro H. unfold parse_arg, pack. cbn [fst snd].
  now rewrite split_first_app.
Qed.

(* the initial state of NewCodeUtils without proposed_fixes/C20-naming-style-resets-initialisms: the
   doInitialisms field starts false while the initial style object corrects initialisms *)
Definition unrepaired_default_cfg : cfg :=
  mkcfg feature_defaults default_style false true [] default_template [].

Lemma unrepaired_naming_style_resets_initialisms :
  exists n s c', existsb (fun e => beqb (fst e) n && action_eqb (snd e) ANamingStyle) table = true /\
    handle [(n, s)] unrepaired_default_cfg = Ok c' /\
    get SInit unrepaired_default_cfg = VBool true /\ get SInit c' = VBool false.
Proof.
  exists (B "naming_style"%string), (B "golint"%string).
  eexists. split; [vm_compute; reflexivity|]. split; [vm_compute; reflexivity|].
  split; vm_compute; reflexivity.
Qed.

(* the whole command-line path:
   -g value -> ParseCompactArguments -> checkOptions -> Pack -> HandleOptions (SplitN) *)

Lemma split_first_fst_no_sep sep s : ~ In sep (fst (split_first sep s)).
Proof.
  induction s as [|b s IH]; cbn [split_first fst In]; [tauto|].
  destruct (Byte.eqb b sep) eqn:E; [cbn [fst In]; tauto|].
  destruct (split_first sep s) as [h t]. cbn [fst In] in *.
  intros [H|H]; [|tauto]. subst. rewrite (proj2 (byte_eqb_eq sep sep) eq_refl) in E. discriminate.
Qed.

Lemma parse_arg_name a : ~ In ch_eq (fst (parse_arg a)).
Proof.
  unfold parse_arg. pose proof (split_first_fst_no_sep ch_eq a) as H.
  destruct (split_first ch_eq a) as [n r]. exact H.
Qed.

Lemma parse_compact_names g o : In o (snd (parse_compact g)) -> ~ In ch_eq (fst o).
Proof.
  unfold parse_compact. destruct (split_first ch_colon g) as [lang [rest|]]; cbn [snd]; [|intros []].
  rewrite in_map_iff. intros [a [<- _]]. apply parse_arg_name.
Qed.

Lemma template_name_no_eq : ~ In ch_eq template_name.
Proof.
  intro Hin. assert (H : existsb (Byte.eqb ch_eq) template_name = true).
  { apply existsb_exists. exists ch_eq. split; [auto | now apply byte_eqb_eq]. }
  vm_compute in H. discriminate H.
Qed.

Lemma check_options_names opts :
  (forall o, In o opts -> ~ In ch_eq (fst o)) -> forall o, In o (check_options opts) -> ~ In ch_eq (fst o).
Proof.
  intros H o. unfold check_options.
  destruct (get_feat ix_nested (final_state opts default_cfg)); auto.
  destruct (existsb (fun o0 => beqb (fst o0) template_name) opts); auto.
  rewrite in_app_iff. intros [Hin|[<-|[]]]; [auto | cbn [fst]; apply template_name_no_eq].
Qed.

Lemma targets_names g o : In o (targets g) -> ~ In ch_eq (fst o).
Proof. unfold targets. apply check_options_names. apply parse_compact_names. Qed.

Lemma unpack_pack opts : (forall o, In o opts -> ~ In ch_eq (fst o)) -> map parse_arg (map pack opts) = opts.
Proof.
  induction opts as [|o r IH]; intro H; cbn [map]; auto.
  rewrite parse_pack by (apply H; now left). f_equal. apply IH. intros o' Ho. apply H. now right.
Qed.

Lemma handle_packed_eq opts : (forall o, In o opts -> ~ In ch_eq (fst o)) ->
  handle_packed opts = handle opts default_cfg.
Proof. intro H. unfold handle_packed. now rewrite unpack_pack. Qed.

Lemma command_line_handle g : handle_packed (targets g) = handle (targets g) default_cfg.
Proof. apply handle_packed_eq. apply targets_names. Qed.

Lemma nested_forces_slim_outcome opts c :
  handle (check_options opts) default_cfg = Ok c ->
  get_feat ix_nested c = true ->
  (forall o, In o opts -> fst o <> template_name) ->
  c_template c = slim /\ get_feat ix_deep_equal c = false.
Proof.
  intros H Hn Hno.
  destruct (get_feat ix_nested (final_state opts default_cfg)) eqn:E.
  - now apply (nested_forces_slim opts c).
  - exfalso. rewrite (check_options_keeps opts (or_introl E)) in H.
    destruct (handle_inv _ _ _ H) as (c1 & Hrun & -> & _).
    unfold final_state in E. rewrite Hrun in E. congruence.
Qed.

Lemma command_line_nested g c :
  handle_packed (targets g) = Ok c ->
  get_feat ix_nested c = true ->
  (forall o, In o (snd (parse_compact g)) -> fst o <> template_name) ->
  c_template c = slim /\ get_feat ix_deep_equal c = false.
Proof.
  rewrite command_line_handle. unfold targets. apply nested_forces_slim_outcome.
Qed.

Lemma command_line_last_wins g c :
  Forall (fun o => documented (fst o)) (targets g) ->
  handle_packed (targets g) = Ok c -> forall s, get s c = expected default_of s (targets g).
Proof. intros Hd H. rewrite command_line_handle in H. now apply last_wins. Qed.
