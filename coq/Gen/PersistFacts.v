(* Gen/PersistFacts.v — proofs about the transition system of Gen/Persist.v (property C19).
   Everything is for arbitrary job lists, concurrency limits, post-processors and fault oracles,
   and for every execution: induction over reachability with the invariant [Inv]. *)
From Coq Require Import List Arith Bool Lia Permutation.
From Verif Require Import Base.Bytes Gen.Persist.
Import ListNotations.

Definition b2n (b : bool) : nat := if b then 1 else 0.
Arguments count : simpl never.
Arguments getw : simpl never.

Lemma set_length {A} (l : list A) i x : List.length (set l i x) = List.length l.
Proof. revert i; induction l as [|a l IH]; intros [|i]; cbn; auto. Qed.

Lemma nth_set_eq {A} (l : list A) i x dflt : i < List.length l -> nth i (set l i x) dflt = x.
Proof.
  revert i; induction l as [|a l IH]; intros [|i] H; cbn in *; try lia; auto.
  apply IH; lia.
Qed.

Lemma nth_set_neq {A} (l : list A) i j x dflt : i <> j -> nth j (set l i x) dflt = nth j l dflt.
Proof.
  revert i j; induction l as [|a l IH]; intros [|i] [|j] H; cbn; auto; try congruence.
Qed.

Lemma count_set p l j x :
  j < List.length l -> count p (set l j x) + b2n (p (nth j l Idle)) = count p l + b2n (p x).
Proof.
  unfold count. revert j; induction l as [|a l IH]; intros [|j] H; cbn in *; try lia.
  - destruct (p a), (p x); cbn; lia.
  - specialize (IH j ltac:(lia)). destruct (p a); cbn; lia.
Qed.

Lemma sum_set l j x :
  j < List.length l ->
  list_sum (map wmeasure (set l j x)) + wmeasure (nth j l Idle) = list_sum (map wmeasure l) + wmeasure x.
Proof.
  revert j; induction l as [|a l IH]; intros [|j] H; cbn [set map list_sum fold_right nth List.length] in *; try lia.
  specialize (IH j ltac:(lia)). unfold list_sum in IH. lia.
Qed.

Lemma count_le p l : count p l <= List.length l.
Proof. unfold count. induction l as [|a l IH]; cbn; [lia|]. destruct (p a); cbn; lia. Qed.

Lemma count_pos p l j : p Idle = false -> p (nth j l Idle) = true -> 0 < count p l.
Proof.
  intros Hi H. assert (L : j < List.length l).
  { destruct (Nat.lt_ge_cases j (List.length l)) as [L|L]; [exact L|]. rewrite nth_overflow in H by exact L. congruence. }
  pose proof (proj2 (filter_In p _ l) (conj (nth_In l Idle L) H)) as Hin.
  unfold count. destruct (filter p l); [destruct Hin | cbn; lia].
Qed.

Lemma count_pos_ex p l : 0 < count p l -> exists j, j < List.length l /\ p (nth j l Idle) = true.
Proof.
  unfold count. induction l as [|a l IH]; cbn; [lia|]. intros H.
  destruct (p a) eqn:E.
  - exists 0. split; [lia|exact E].
  - destruct (IH H) as [j [Hj Hp]]. exists (S j). split; [lia|exact Hp].
Qed.

Lemma count_two_disjoint p q l :
  (forall w, p w = true -> q w = true -> False) -> count p l + count q l <= List.length l.
Proof.
  intros D. unfold count. induction l as [|a l IH]; cbn; [lia|].
  destruct (p a) eqn:Ep, (q a) eqn:Eq; cbn; try lia. exfalso; eauto.
Qed.

Lemma count_repeat_idle p m : p Idle = false -> count p (repeat Idle m) = 0.
Proof. intros H. unfold count. induction m; cbn; auto. rewrite H. auto. Qed.

Section Facts.
  Variable jobs : list job.
  Variable k : nat.
  Variable pp : bytes -> bytes -> bytes.
  Variable fail_pp fail_w : nat -> bool.

  Notation n := (n jobs).
  Notation cap := (cap k).
  Notation init := (init jobs).
  Notation fire := (fire jobs k pp fail_pp fail_w).
  Notation step := (step jobs k pp fail_pp fail_w).
  Notation path := (path jobs k pp fail_pp fail_w).
  Notation reachable := (reachable jobs k pp fail_pp fail_w).
  Notation out := (out pp).
  Notation outs_of := (outs_of pp).
  Notation failing := (failing fail_pp fail_w).
  Notation measure := (measure jobs).
  Notation succs := (succs jobs k pp fail_pp fail_w).

  Lemma outs_of_ext l1 l2 js :
    List.length l1 = List.length l2 ->
    (forall j, written (nth j l1 Idle) = written (nth j l2 Idle)) -> outs_of l1 js = outs_of l2 js.
  Proof.
    revert l2 js; induction l1 as [|a l1 IH]; intros [|b l2] js HL H; cbn in *; try lia; auto.
    destruct js as [|jb js]; auto.
    rewrite (H 0). cbn. f_equal. apply IH; [lia|]. intros j. apply (H (S j)).
  Qed.

  Lemma outs_of_set_same l js j w :
    written w = written (nth j l Idle) -> j < List.length l -> outs_of (set l j w) js = outs_of l js.
  Proof.
    intros H L. apply outs_of_ext; [apply set_length|]. intros j'.
    destruct (Nat.eq_dec j j') as [<-|Hne]; [rewrite nth_set_eq by exact L; exact H | now rewrite nth_set_neq].
  Qed.

  Lemma outs_of_set_written l js j w p c :
    written (nth j l Idle) = false -> written w = true -> nth_error js j = Some (p, c) ->
    j < List.length l ->
    Permutation (outs_of (set l j w) js) ((p, pp p c) :: outs_of l js).
  Proof.
    revert js j; induction l as [|a l IH]; intros [|jb js] [|j] H Hw Hn Hj; cbn [set Persist.outs_of nth nth_error List.length] in *; try lia; try discriminate.
    - injection Hn as ->. rewrite H, Hw. cbn. apply Permutation_refl.
    - eapply Permutation_trans.
      + apply Permutation_app_head. apply (IH js j H Hw Hn). lia.
      + apply Permutation_sym, Permutation_middle.
  Qed.

  Lemma outs_of_all l js :
    List.length l = List.length js -> (forall j, j < List.length l -> written (nth j l Idle) = true) ->
    outs_of l js = map out js.
  Proof.
    revert js; induction l as [|a l IH]; intros [|jb js] HL H; cbn in *; try lia; auto.
    rewrite (H 0 ltac:(lia)). cbn. f_equal. apply IH; [lia|]. intros j Hj. apply (H (S j)). lia.
  Qed.

  Lemma outs_of_sub l js :
    exists rest, Permutation (outs_of l js ++ rest) (map out js).
  Proof.
    revert js; induction l as [|a l IH]; intros js.
    - exists (map out js). destruct js; apply Permutation_refl.
    - destruct js as [|jb js]; [exists []; apply Permutation_refl|].
      destruct (IH js) as [rest Hr]. cbn [Persist.outs_of map].
      destruct (written a).
      + exists rest. cbn. apply perm_skip. exact Hr.
      + exists (out jb :: rest). cbn. eapply Permutation_trans; [apply Permutation_sym, Permutation_middle|].
        apply perm_skip. exact Hr.
  Qed.

  Definition fresh_from (i : nat) (s : st) : Prop :=
    (forall j, j < i -> getw s j <> Idle) /\ (forall j, i <= j -> getw s j = Idle).

  Definition consumed (x : dst) : nat := match x with ErrWait _ | Ret (Some _) => 1 | _ => 0 end.

  (* what a worker knows: its arguments are those of its own job, and how far it got is
     consistent with the fault oracle *)
  Definition wlocal (j : nat) (w : wst) : Prop :=
    match w with
    | Idle => True
    | Spawned p c | Running p c => nth_error jobs j = Some (p, c)
    | PPdone p c => exists c0, nth_error jobs j = Some (p, c0) /\ c = pp p c0 /\ fail_pp j = false
    | Failed | Reported | DoneW false | Released false => failing j = true
    | Written | DoneW true | Released true => failing j = false
    end.

  Record Inv (s : st) : Prop := {
    I_len : List.length (ws s) = n;
    (* the caller spawns the jobs in order, each at most once *)
    I_front : match d s with
              | Loop i => i <= n /\ fresh_from i s
              | Sel i | Spawn i => i < n /\ fresh_from i s
              | FinalSel | Ret None => forall j, j < n -> getw s j <> Idle
              | _ => True
              end;
    (* token accounting: the semaphore holds one token per worker between acquire and release *)
    I_tok : tokens s = count holds_token (ws s) + match d s with Spawn _ => 1 | _ => 0 end;
    I_cap : tokens s <= cap;
    (* WaitGroup accounting: the counter is the number of workers that have not called Done *)
    I_wg : wg s = count in_flight (ws s);
    (* error accounting: every reported error is in the channel or has been received *)
    I_errs : List.length (errs s) + consumed (d s) = count reported (ws s);
    I_errs_genuine : Forall (fun e => failing e = true) (errs s)
                     /\ match d s with ErrWait e | Ret (Some e) => failing e = true | _ => True end;
    I_wlocal : forall j, wlocal j (getw s j);
    (* the disk log is exactly the outputs of the workers that completed their write *)
    I_disk : Permutation (disk s) (outs_of (ws s) jobs);
    (* at the final select and at return no worker is in flight; nil is returned only when the
       error channel was empty *)
    I_ret : match d s with
            | FinalSel => wg s = 0
            | Ret r => wg s = 0 /\ (r = None -> errs s = [])
            | _ => True
            end
  }.

  Lemma getw_lt s j : getw s j <> Idle -> j < List.length (ws s).
  Proof.
    intros H. destruct (Nat.lt_ge_cases j (List.length (ws s))) as [L|L]; auto.
    exfalso. apply H. unfold getw. apply nth_overflow. exact L.
  Qed.

  Lemma inv_init : Inv init.
  Proof.
    assert (Hidle : forall j, getw init j = Idle) by (intros j; apply nth_repeat).
    constructor; unfold Persist.init; cbn [d ws errs tokens wg disk List.length consumed];
      rewrite ?count_repeat_idle by reflexivity; auto.
    - apply repeat_length.
    - split; [lia|]. split; [intros j Hj; lia | intros j _; apply Hidle].
    - lia.
    - intros j. fold init. rewrite Hidle. exact I.
    - generalize jobs. unfold Persist.n. intros js. induction js as [|jb js IH]; cbn; auto.
  Qed.

  Lemma getw_set s j w dd e t g dk j' : j < List.length (ws s) ->
    getw (mk dd (set (ws s) j w) e t g dk) j' = if Nat.eqb j j' then w else getw s j'.
  Proof.
    intro L. unfold getw; cbn [ws]. destruct (Nat.eqb_spec j j') as [->|Hne];
      [apply nth_set_eq; exact L | apply nth_set_neq; exact Hne].
  Qed.

  Lemma idle_update s j w dd e t g dk j' : getw s j <> Idle -> w <> Idle ->
    (getw (mk dd (set (ws s) j w) e t g dk) j' = Idle <-> getw s j' = Idle).
  Proof.
    intros Hj Hw. rewrite getw_set by (apply getw_lt, Hj).
    destruct (Nat.eqb_spec j j') as [->|]; tauto.
  Qed.

  (* a step of worker j: label, its state before and after, and the new channel, semaphore,
     WaitGroup and disk; nothing else changes *)
  Inductive wtrans (s : st) (j : nat) :
    ev -> wst -> wst -> list nat -> nat -> nat -> list (bytes * bytes) -> Prop :=
  | W_start p c : wtrans s j (EStart j) (Spawned p c) (Running p c) (errs s) (tokens s) (wg s) (disk s)
  | W_pp p c : fail_pp j = false ->
      wtrans s j (EPP j) (Running p c) (PPdone p (pp p c)) (errs s) (tokens s) (wg s) (disk s)
  | W_pp_fail p c : fail_pp j = true ->
      wtrans s j (EPP j) (Running p c) Failed (errs s) (tokens s) (wg s) (disk s)
  | W_write p c : fail_w j = false ->
      wtrans s j (EWrite j) (PPdone p c) Written (errs s) (tokens s) (wg s) (disk s ++ [(p, c)])
  | W_write_fail p c : fail_w j = true ->
      wtrans s j (EWrite j) (PPdone p c) Failed (errs s) (tokens s) (wg s) (disk s)
  | W_send : List.length (errs s) < n ->
      wtrans s j (EErrSend j) Failed Reported (errs s ++ [j]) (tokens s) (wg s) (disk s)
  | W_done : 0 < wg s ->
      wtrans s j (EDone j) Written (DoneW true) (errs s) (tokens s) (pred (wg s)) (disk s)
  | W_done_err : 0 < wg s ->
      wtrans s j (EDone j) Reported (DoneW false) (errs s) (tokens s) (pred (wg s)) (disk s)
  | W_release ok : 0 < tokens s ->
      wtrans s j (ERelease j) (DoneW ok) (Released ok) (errs s) (pred (tokens s)) (wg s) (disk s).

  Inductive fired (s : st) : ev -> st -> Prop :=
  | F_dispatch i : d s = Loop i -> i < n -> fired s (EDispatch i) (with_d s (Sel i))
  | F_acquire i : d s = Sel i -> tokens s < cap ->
      fired s (EAcquire i) (mk (Spawn i) (ws s) (errs s) (S (tokens s)) (wg s) (disk s))
  | F_recv i e r : d s = Sel i -> errs s = e :: r ->
      fired s (ERecvErr i) (mk (ErrWait e) (ws s) r (tokens s) (wg s) (disk s))
  | F_spawn i p c : d s = Spawn i -> nth_error jobs i = Some (p, c) ->
      fired s (ESpawn i) (mk (Loop (S i)) (set (ws s) i (Spawned p c)) (errs s) (tokens s) (S (wg s)) (disk s))
  | F_final i : d s = Loop i -> n <= i -> wg s = 0 -> fired s EFinalWait (with_d s FinalSel)
  | F_ret_wait e : d s = ErrWait e -> wg s = 0 -> fired s EReturn (with_d s (Ret (Some e)))
  | F_ret_err e r : d s = FinalSel -> errs s = e :: r ->
      fired s EReturn (mk (Ret (Some e)) (ws s) r (tokens s) (wg s) (disk s))
  | F_ret_nil : d s = FinalSel -> errs s = [] -> fired s EReturn (with_d s (Ret None))
  | F_worker j l w' e' t' g' dk' : wtrans s j l (getw s j) w' e' t' g' dk' ->
      fired s l (mk (d s) (set (ws s) j w') e' t' g' dk').

  Lemma step_fired s l s' : step s l s' -> fired s l s'.
  Proof.
    unfold Persist.step, Persist.fire.
    destruct l as [i|i|i|i| | |j|j|j|j|j|j].
    1-6: destruct (d s) as [i'|i'|i'|e0| |r] eqn:Ed; try discriminate.
    8-13: destruct (getw s j) as [|p c|p c|p c| | | |ok|ok] eqn:Ew; try discriminate.
    - destruct (Nat.eqb_spec i' i) as [->|]; [|discriminate].
      destruct (Nat.ltb_spec i n); [|discriminate]. intros [= <-]. now constructor.
    - destruct (Nat.eqb_spec i' i) as [->|]; [|discriminate].
      destruct (Nat.ltb_spec (tokens s) cap); [|discriminate]. intros [= <-]. now constructor.
    - destruct (errs s) as [|e r] eqn:Ee; [discriminate|].
      destruct (Nat.eqb_spec i' i) as [->|]; [|discriminate]. intros [= <-]. now constructor.
    - destruct (Nat.eqb_spec i' i) as [->|]; [|discriminate].
      destruct (nth_error jobs i) as [[p c]|] eqn:En; [|discriminate]. intros [= <-]. now constructor.
    - destruct (Nat.leb_spec n i'); [|discriminate].
      destruct (Nat.eqb_spec (wg s) 0); [|discriminate]. intros [= <-]. now apply (F_final s i').
    - destruct (Nat.eqb_spec (wg s) 0); [|discriminate]. intros [= <-]. now constructor.
    - destruct (errs s) as [|e r] eqn:Ee; intros [= <-]; now constructor.
    - intros [= <-]. apply F_worker. rewrite Ew. constructor.
    - intros [= <-]. apply F_worker. rewrite Ew. destruct (fail_pp j) eqn:E; now constructor.
    - destruct (fail_w j) eqn:E; intros [= <-]; apply F_worker; rewrite Ew; now constructor.
    - destruct (Nat.ltb_spec (List.length (errs s)) n); [|discriminate].
      intros [= <-]. apply F_worker. rewrite Ew. now constructor.
    - destruct (Nat.ltb_spec 0 (wg s)); [|discriminate]. intros [= <-]. apply F_worker. rewrite Ew. now constructor.
    - destruct (Nat.ltb_spec 0 (wg s)); [|discriminate]. intros [= <-]. apply F_worker. rewrite Ew. now constructor.
    - destruct (Nat.ltb_spec 0 (tokens s)); [|discriminate]. intros [= <-]. apply F_worker. rewrite Ew. now constructor.
  Qed.

  (* the nine ways a step is fired, under the names the proofs below use: [Ed] is where the dispatcher
     stands, the last case is a worker's transition [Hw] *)
  Ltac fired_cases H :=
    destruct H as [i Ed Li|i Ed Lt|i e r Ed Ee|i p c Ed En|i Ed Li W0|e Ed W0|e r Ed Ee|Ed Ee|j l w' e' t' g' dk' Hw].

  Lemma wtrans_started s j l w w' e' t' g' dk' : wtrans s j l w w' e' t' g' dk' -> w <> Idle /\ w' <> Idle.
  Proof. destruct 1; split; discriminate. Qed.

  Lemma in_flight_wg s j : Inv s -> in_flight (getw s j) = true -> 0 < wg s.
  Proof. intros HI E. rewrite (I_wg s HI). exact (count_pos in_flight (ws s) j eq_refl E). Qed.

  Lemma quiescent s j : Inv s -> wg s = 0 -> in_flight (getw s j) = false.
  Proof.
    intros HI W. destruct (in_flight (getw s j)) eqn:E; auto.
    pose proof (in_flight_wg s j HI E). lia.
  Qed.

  (* a worker moves: the three counters follow the change of its own state; once the WaitGroup is
     0 nobody is in flight, so WaitGroup and channel stay as they are *)
  Lemma Inv_worker s j w' e' t' g' dk' : Inv s -> getw s j <> Idle -> w' <> Idle -> wlocal j w' ->
    t' + b2n (holds_token (getw s j)) = tokens s + b2n (holds_token w') -> t' <= tokens s ->
    g' + b2n (in_flight (getw s j)) = wg s + b2n (in_flight w') ->
    List.length e' + b2n (reported (getw s j)) = List.length (errs s) + b2n (reported w') ->
    Forall (fun e => failing e = true) e' ->
    Permutation dk' (outs_of (set (ws s) j w') jobs) ->
    (in_flight (getw s j) = false -> g' = wg s /\ e' = errs s) ->
    Inv (mk (d s) (set (ws s) j w') e' t' g' dk').
  Proof.
    intros HI Hj Hw Hl Ht Htle Hg He Hgen Hdk Hq. pose proof (getw_lt _ _ Hj) as L.
    pose proof (count_set holds_token (ws s) j w' L) as CT.
    pose proof (count_set in_flight (ws s) j w' L) as CW.
    pose proof (count_set reported (ws s) j w' L) as CR.
    fold (getw s j) in CT, CW, CR.
    pose proof (I_tok s HI). pose proof (I_cap s HI). pose proof (I_wg s HI). pose proof (I_errs s HI).
    constructor; cbn [d ws errs tokens wg disk]; try lia; auto.
    - rewrite set_length. apply (I_len s HI).
    - pose proof (I_front s HI) as F.
      destruct (d s) as [i|i|i|e0| |[e0|]]; auto; try destruct F as [F0 [F1 F2]];
        repeat split; auto; intros j' Hj'; rewrite idle_update by assumption; auto.
    - split; [exact Hgen | apply (I_errs_genuine s HI)].
    - intros j'. rewrite getw_set by exact L.
      destruct (Nat.eqb_spec j j') as [->|]; [exact Hl | apply (I_wlocal s HI)].
    - pose proof (I_ret s HI) as Hret.
      destruct (d s) as [i|i|i|e0| |r]; auto;
        [destruct (Hq (quiescent s j HI Hret)) as [-> _]
        |destruct Hret as [W0 Hr]; destruct (Hq (quiescent s j HI W0)) as [-> ->]]; auto.
  Qed.

  Lemma inv_wtrans s j l w' e' t' g' dk' : Inv s -> wtrans s j l (getw s j) w' e' t' g' dk' ->
    Inv (mk (d s) (set (ws s) j w') e' t' g' dk').
  Proof.
    intros HI H. pose proof (I_wlocal s HI j) as Hl. pose proof (I_errs_genuine s HI) as [Hgen _].
    pose proof (I_disk s HI) as Hdisk. pose proof (proj1 (wtrans_started _ _ _ _ _ _ _ _ _ H)) as Hj.
    pose proof (getw_lt _ _ Hj) as L.
    remember (getw s j) as w eqn:Ew.
    (* rule by rule the counting conditions of Inv_worker are computations on the two worker states;
       what is left is what the worker knows of itself, the new error, the new disk entry *)
    destruct H; cbn [wlocal] in Hl; apply Inv_worker; rewrite <- ?Ew; cbn [b2n holds_token in_flight reported wlocal];
      auto; try lia; try discriminate;
      try (rewrite outs_of_set_same; auto; fold (getw s j); rewrite <- Ew; reflexivity).
    - exists c. auto.
    - unfold Persist.failing. now rewrite H.
    - destruct Hl as (c0 & Hn & Hc & Hfp). unfold Persist.failing. now rewrite H, Hfp.
    - destruct Hl as (c0 & Hn & -> & Hfp).
      rewrite (outs_of_set_written (ws s) jobs j Written p c0); auto; [|fold (getw s j); now rewrite <- Ew].
      rewrite Permutation_app_comm. cbn. now apply perm_skip.
    - unfold Persist.failing. rewrite H. apply orb_true_r.
    - rewrite app_length. cbn. lia.
    - apply Forall_app. split; auto.
  Qed.

  Lemma inv_step s l s' : Inv s -> step s l s' -> Inv s'.
  Proof.
    intros HI Hs. apply step_fired in Hs.
    pose proof HI as [Hlen Hfr Htok Hcap Hwg Herr [Hgen Hgend] Hloc Hdisk Hret].
    fired_cases Hs;
      [rewrite Ed in *; try rewrite Ee in * ..|now apply (inv_wtrans s j l)].
    - constructor; cbn; auto; try lia. destruct Hfr as [_ F]. split; auto.
    - constructor; cbn; auto; try lia.
    - constructor; cbn; auto; try lia.
      + cbn in Herr. lia.
      + inversion Hgen; subst. split; auto.
    - destruct Hfr as [Li [F1 F2]].
      assert (Hidle : nth i (ws s) Idle = Idle) by (apply (F2 i); lia).
      assert (L : i < List.length (ws s)) by lia.
      pose proof (count_set holds_token (ws s) i (Spawned p c) L) as CT.
      pose proof (count_set in_flight (ws s) i (Spawned p c) L) as CW.
      pose proof (count_set reported (ws s) i (Spawned p c) L) as CR.
      rewrite Hidle in CT, CW, CR. cbn in CT, CW, CR.
      constructor; cbn; auto; try lia; try (rewrite set_length; exact Hlen).
      + split; [lia|]. split; intros j Hj; rewrite getw_set by exact L.
        * destruct (Nat.eqb_spec i j) as [->|Hne]; [discriminate | apply F1; lia].
        * destruct (Nat.eqb_spec i j) as [->|Hne]; [lia|]. apply F2. lia.
      + cbn in Herr. lia.
      + intros j. rewrite getw_set by exact L.
        destruct (Nat.eqb_spec i j) as [->|Hne]; [exact En | apply Hloc].
      + rewrite outs_of_set_same; auto. rewrite Hidle. reflexivity.
    - destruct Hfr as [Li' [F1 F2]].
      constructor; cbn; auto; try lia. intros j Hj. apply F1. lia.
    - constructor; cbn; auto; try lia. split; auto. discriminate.
    - constructor; cbn; auto; try lia.
      + cbn in Herr. lia.
      + inversion Hgen; subst. split; auto.
      + split; auto. discriminate.
    - constructor; cbn; rewrite ?Ee; auto; try lia.
  Qed.

  Lemma path_preserves (P : st -> Prop) :
    (forall s l s', P s -> step s l s' -> P s') -> forall s tr s', path s tr s' -> P s -> P s'.
  Proof.
    intros Hstep s tr s' Hp. induction Hp as [s|s l s1 tr s' Hs _ IH]; intros H; [exact H|].
    apply IH. eapply Hstep; eauto.
  Qed.

  Theorem inv_reachable s : reachable s -> Inv s.
  Proof. intros [tr Hp]. exact (path_preserves Inv inv_step _ _ _ Hp inv_init). Qed.

  Theorem token_accounting s : reachable s ->
    tokens s = count holds_token (ws s) + match d s with Spawn _ => 1 | _ => 0 end /\ tokens s <= cap.
  Proof. intros R. pose proof (inv_reachable s R) as HI. split; [apply (I_tok s HI) | apply (I_cap s HI)]. Qed.

  Theorem waitgroup_accounting s : reachable s -> wg s = count in_flight (ws s).
  Proof. intros R. apply (I_wg s (inv_reachable s R)). Qed.

  Lemma errs_room s j : Inv s -> getw s j = Failed -> List.length (errs s) < n.
  Proof.
    intros HI Hj. pose (failed := fun w => match w with Failed => true | _ => false end).
    assert (D : count reported (ws s) + count failed (ws s) <= List.length (ws s))
      by (apply count_two_disjoint; intros [] ? ?; discriminate).
    assert (P : 0 < count failed (ws s))
      by (apply (count_pos failed (ws s) j eq_refl); fold (getw s j); now rewrite Hj).
    pose proof (I_errs s HI). pose proof (I_len s HI). lia.
  Qed.

  Theorem error_channel_never_full s : reachable s ->
    List.length (errs s) <= n /\ forall j, getw s j = Failed -> List.length (errs s) < n.
  Proof.
    intros R. pose proof (inv_reachable s R) as HI. split.
    - pose proof (I_errs s HI). pose proof (count_le reported (ws s)). pose proof (I_len s HI). lia.
    - intros j. apply errs_room; exact HI.
  Qed.

  Theorem no_write_in_flight_at_return s : reachable s -> is_ret s = true ->
    forall j, in_flight (getw s j) = false /\ write_pending (getw s j) = false.
  Proof.
    intros R Hr j. pose proof (inv_reachable s R) as HI.
    assert (W : wg s = 0).
    { pose proof (I_ret s HI) as H. unfold is_ret in Hr. destruct (d s); try discriminate. apply H. }
    pose proof (quiescent s j HI W) as Q. split; auto.
    destruct (getw s j); cbn in *; auto.
  Qed.

  Lemma ret_none_settled s j : Inv s -> d s = Ret None ->
    in_flight (getw s j) = false /\ reported (getw s j) = false.
  Proof.
    intros HI Hd. pose proof (I_ret s HI) as Hr. pose proof (I_errs s HI) as He.
    rewrite Hd in Hr, He. destruct Hr as [W E0]. rewrite (E0 eq_refl) in He. cbn in He.
    split; [exact (quiescent s j HI W)|].
    destruct (reported (getw s j)) eqn:Er; auto.
    pose proof (count_pos reported (ws s) j eq_refl Er). lia.
  Qed.

  Theorem ok_implies_all_written s : reachable s -> d s = Ret None ->
    (forall j, j < n -> finished_ok (getw s j) = true) /\
    Permutation (disk s) (map out jobs) /\
    (forall j, j < n -> failing j = false).
  Proof.
    intros R Hd. pose proof (inv_reachable s R) as HI.
    assert (A : forall j, j < n -> finished_ok (getw s j) = true).
    { intros j Hj. destruct (ret_none_settled s j HI Hd) as [Q Er].
      pose proof (I_front s HI) as F. rewrite Hd in F. specialize (F j Hj).
      destruct (getw s j) as [|p c|p c|p c| | | |[]|[]]; cbn in *; congruence. }
    split; [exact A|]. split.
    - eapply Permutation_trans; [apply (I_disk s HI)|].
      rewrite outs_of_all; [apply Permutation_refl | rewrite (I_len s HI); reflexivity |].
      intros j Hj. rewrite (I_len s HI) in Hj. specialize (A j Hj). unfold getw in A.
      destruct (nth j (ws s) Idle) as [|p c|p c|p c| | | |[]|[]]; cbn in *; congruence.
    - intros j Hj. specialize (A j Hj). pose proof (I_wlocal s HI j) as Wl.
      destruct (getw s j) as [|p c|p c|p c| | | |[]|[]]; cbn in *; congruence.
  Qed.

  Theorem failure_implies_error s r : reachable s -> d s = Ret r ->
    (exists j, has_failed (getw s j) = true) -> exists e, r = Some e /\ failing e = true.
  Proof.
    intros R Hd [j Hj]. pose proof (inv_reachable s R) as HI. destruct r as [e|].
    - exists e. split; [reflexivity|]. pose proof (I_errs_genuine s HI) as [_ Hg]. rewrite Hd in Hg. exact Hg.
    - destruct (ret_none_settled s j HI Hd) as [Q Er].
      destruct (getw s j) as [|p c|p c|p c| | | |[]|[]]; discriminate.
  Qed.

  Theorem fault_implies_error s r : reachable s -> d s = Ret r ->
    (exists j, j < n /\ failing j = true) -> r <> None.
  Proof.
    intros R Hd [j [Hj Hf]] ->. destruct (ok_implies_all_written s R Hd) as (_ & _ & A).
    rewrite (A j Hj) in Hf. discriminate.
  Qed.

  Theorem returned_error_is_genuine s e : reachable s -> d s = Ret (Some e) -> failing e = true.
  Proof. intros R Hd. pose proof (I_errs_genuine s (inv_reachable s R)) as [_ H]. rewrite Hd in H. exact H. Qed.

  (* every error in the channel, and the one received, was sent by a worker that
     was started and failed (a second invariant on top of Inv) *)
  Definition errs_reported (s : st) : Prop :=
    Forall (fun e => reported (getw s e) = true) (errs s) /\
    match d s with ErrWait e | Ret (Some e) => reported (getw s e) = true | _ => True end.

  Lemma reported_update s j w' dd e t g dk x :
    j < List.length (ws s) -> (reported (getw s j) = true -> reported w' = true) ->
    reported (getw s x) = true -> reported (getw (mk dd (set (ws s) j w') e t g dk) x) = true.
  Proof.
    intros L Himp Hx. rewrite getw_set by exact L.
    destruct (Nat.eqb_spec j x) as [->|Hne]; [apply Himp|]; exact Hx.
  Qed.

  Lemma errs_reported_worker s j w' e' t g dk :
    errs_reported s -> j < List.length (ws s) -> (reported (getw s j) = true -> reported w' = true) ->
    (e' = errs s \/ (e' = errs s ++ [j] /\ reported w' = true)) ->
    errs_reported (mk (d s) (set (ws s) j w') e' t g dk).
  Proof.
    intros [HF HD] L Himp He. split; cbn [errs d].
    - assert (F0 : Forall (fun e => reported (getw (mk (d s) (set (ws s) j w') e' t g dk) e) = true) (errs s)).
      { eapply Forall_impl; [|exact HF]. intros x Hx. apply reported_update; auto. }
      destruct He as [->|[-> Hr]]; [exact F0|]. apply Forall_app. split; [exact F0|].
      constructor; [|constructor]. now rewrite getw_set, Nat.eqb_refl.
    - destruct (d s) as [i|i|i|e0| |[e0|]]; auto; apply reported_update; auto.
  Qed.

  Lemma errs_reported_init : errs_reported init.
  Proof. split; cbn; [constructor | exact I]. Qed.

  Lemma errs_reported_step s l s' : Inv s -> errs_reported s -> step s l s' -> errs_reported s'.
  Proof.
    intros HI [HF HD] Hs. apply step_fired in Hs.
    fired_cases Hs;
      try rewrite Ed in HD; try rewrite Ee in HF; try (split; [exact HF | exact I]).
    - inversion HF as [|x y Hx Hy]; subst. split; [exact Hy | exact Hx].
    - pose proof (I_front s HI) as Hfr. rewrite Ed in Hfr. destruct Hfr as [Li [F1 F2]].
      split; cbn [errs d]; [|exact I].
      eapply Forall_impl; [|exact HF]. intros x Hx. apply reported_update; auto; [rewrite (I_len s HI); lia|].
      rewrite (F2 i); [discriminate | lia].
    - split; [exact HF | exact HD].
    - inversion HF as [|x y Hx Hy]; subst. split; [exact Hy | exact Hx].
    - split; [unfold with_d; cbn [errs]; rewrite Ee; constructor | exact I].
    - pose proof (getw_lt _ _ (proj1 (wtrans_started _ _ _ _ _ _ _ _ _ Hw))) as L.
      pose proof (conj HF HD : errs_reported s) as H2. remember (getw s j) as w eqn:Ew.
      destruct Hw; apply errs_reported_worker; auto; rewrite <- ?Ew; auto; try discriminate.
  Qed.

  Theorem errs_reported_reachable s : reachable s -> errs_reported s.
  Proof.
    intros [tr Hp]. apply (path_preserves (fun s => Inv s /\ errs_reported s)) with (2 := Hp).
    - intros s0 l s1 [HI H2] Hs. split; [eapply inv_step | eapply errs_reported_step]; eauto.
    - split; [exact inv_init | exact errs_reported_init].
  Qed.

  Theorem returned_error_from_failed_job s e : reachable s -> d s = Ret (Some e) ->
    has_failed (getw s e) = true /\ failing e = true /\ e < n.
  Proof.
    intros R Hd. pose proof (errs_reported_reachable s R) as [_ H]. rewrite Hd in H.
    pose proof (inv_reachable s R) as HI. split; [|split].
    - destruct (getw s e) as [|p c|p c|p c| | | |[]|[]]; cbn in *; congruence.
    - pose proof (I_errs_genuine s HI) as [_ G]. rewrite Hd in G. exact G.
    - rewrite <- (I_len s HI). apply getw_lt. intros E. rewrite E in H. discriminate.
  Qed.

  Theorem error_iff_failure s r : reachable s -> d s = Ret r ->
    (r <> None <-> exists j, has_failed (getw s j) = true).
  Proof.
    intros R Hd. split.
    - destruct r as [e|]; [|congruence]. intros _. exists e.
      apply (returned_error_from_failed_job s e R Hd).
    - intros Hj. destruct (failure_implies_error s r R Hd Hj) as (e & -> & _). discriminate.
  Qed.

  (* what is on disk is, as a multiset, part of the jobs' outputs: no job's file is there twice and
     none with a content that is not its own job's *)
  Theorem never_twice_never_mixed s : reachable s ->
    exists rest, Permutation (disk s ++ rest) (map out jobs).
  Proof.
    intros R. pose proof (inv_reachable s R) as HI. destruct (outs_of_sub (ws s) jobs) as [rest Hr].
    exists rest. eapply Permutation_trans; [apply Permutation_app_tail, (I_disk s HI) | exact Hr].
  Qed.

  Theorem no_path_written_twice s : NoDup (map fst jobs) -> reachable s -> NoDup (map fst (disk s)).
  Proof.
    intros ND R. destruct (never_twice_never_mixed s R) as [rest Hr].
    assert (E : map fst (map out jobs) = map fst jobs) by (rewrite map_map; apply map_ext; intros [p c]; reflexivity).
    pose proof (Permutation_map fst Hr) as P. rewrite E, map_app in P.
    apply Permutation_sym in P. pose proof (Permutation_NoDup P ND) as ND'.
    apply NoDup_app_l in ND'. exact ND'.
  Qed.

  Theorem schedule_free_content s1 s2 : reachable s1 -> reachable s2 ->
    (forall j, written (getw s1 j) = written (getw s2 j)) -> Permutation (disk s1) (disk s2).
  Proof.
    intros R1 R2 H. pose proof (inv_reachable s1 R1) as I1. pose proof (inv_reachable s2 R2) as I2.
    eapply Permutation_trans; [apply (I_disk s1 I1)|]. eapply Permutation_trans; [|apply Permutation_sym, (I_disk s2 I2)].
    rewrite (outs_of_ext (ws s1) (ws s2) jobs); [apply Permutation_refl | rewrite (I_len s1 I1), (I_len s2 I2); reflexivity | exact H].
  Qed.

  Theorem schedule_free_content_ok s1 s2 : reachable s1 -> reachable s2 ->
    d s1 = Ret None -> d s2 = Ret None -> Permutation (disk s1) (disk s2).
  Proof.
    intros R1 R2 H1 H2. destruct (ok_implies_all_written s1 R1 H1) as (_ & P1 & _).
    destruct (ok_implies_all_written s2 R2 H2) as (_ & P2 & _).
    eapply Permutation_trans; [exact P1 | apply Permutation_sym; exact P2].
  Qed.

  Lemma worker_can_step s j : Inv s -> holds_token (getw s j) = true -> exists l s', step s l s'.
  Proof.
    intros HI H. unfold Persist.step.
    assert (Lt : 0 < tokens s).
    { rewrite (I_tok s HI). pose proof (count_pos holds_token (ws s) j eq_refl H). lia. }
    pose proof (in_flight_wg s j HI) as Lw. pose proof (errs_room s j HI) as Le.
    apply Nat.ltb_lt in Lt. destruct (getw s j) as [|p c|p c|p c| | | |ok|ok] eqn:Ew; try discriminate.
    - exists (EStart j). unfold Persist.fire. rewrite Ew. eauto.
    - exists (EPP j). unfold Persist.fire. rewrite Ew. eauto.
    - exists (EWrite j). unfold Persist.fire. rewrite Ew. destruct (fail_w j); eauto.
    - exists (EErrSend j). unfold Persist.fire. rewrite Ew, (proj2 (Nat.ltb_lt _ _) (Le eq_refl)). eauto.
    - exists (EDone j). unfold Persist.fire. rewrite Ew, (proj2 (Nat.ltb_lt _ _) (Lw eq_refl)). eauto.
    - exists (EDone j). unfold Persist.fire. rewrite Ew, (proj2 (Nat.ltb_lt _ _) (Lw eq_refl)). eauto.
    - exists (ERelease j). unfold Persist.fire. rewrite Ew, Lt. eauto.
  Qed.

  Lemma in_flight_holds w : in_flight w = true -> holds_token w = true.
  Proof. destruct w; cbn; auto. Qed.

  Lemma waiting_can_step s : Inv s -> wg s = 0 \/ exists l s', step s l s'.
  Proof.
    intros HI. destruct (Nat.eq_dec (wg s) 0) as [W|W]; [left; exact W | right].
    destruct (count_pos_ex in_flight (ws s)) as [j [Lj Hj]]; [rewrite <- (I_wg s HI); lia|].
    exact (worker_can_step s j HI (in_flight_holds _ Hj)).
  Qed.

  Lemma progress_inv s : Inv s -> is_ret s = false -> exists l s', step s l s'.
  Proof.
    intros HI Hr. pose proof (I_front s HI) as F. unfold is_ret in Hr.
    destruct (d s) as [i|i|i|e| |r] eqn:Ed; try discriminate.
    - (* loop head *)
      destruct F as [Li _]. destruct (Nat.lt_ge_cases i n) as [Lt%Nat.ltb_lt|Ge%Nat.leb_le].
      + exists (EDispatch i). unfold Persist.step, Persist.fire. rewrite Ed, Nat.eqb_refl, Lt. cbn. eauto.
      + destruct (waiting_can_step s HI) as [W|Hw]; [|exact Hw].
        exists EFinalWait. unfold Persist.step, Persist.fire. rewrite Ed, Ge, W. cbn. eauto.
    - (* select: when the semaphore is full some worker holds a token *)
      destruct (Nat.lt_ge_cases (tokens s) cap) as [Lt%Nat.ltb_lt|Ge].
      + exists (EAcquire i). unfold Persist.step, Persist.fire. rewrite Ed, Nat.eqb_refl, Lt. cbn. eauto.
      + pose proof (I_tok s HI) as Ht. rewrite Ed in Ht.
        assert (C : 0 < cap) by (unfold Persist.cap; destruct (Nat.eqb_spec k 0); lia).
        destruct (count_pos_ex holds_token (ws s)) as [j [Lj Hj]]; [lia|].
        exact (worker_can_step s j HI Hj).
    - (* spawn *)
      destruct F as [Li _]. unfold Persist.n in Li.
      destruct (nth_error jobs i) as [[p c]|] eqn:En; [|apply nth_error_None in En; lia].
      exists (ESpawn i). unfold Persist.step, Persist.fire. rewrite Ed, Nat.eqb_refl, En. eauto.
    - (* wait on the error path *)
      destruct (waiting_can_step s HI) as [W|Hw]; [|exact Hw].
      exists EReturn. unfold Persist.step, Persist.fire. rewrite Ed, W. cbn. eauto.
    - (* final select *)
      exists EReturn. unfold Persist.step, Persist.fire. rewrite Ed. destruct (errs s); eauto.
  Qed.

  Theorem progress s : reachable s -> is_ret s = false -> exists l s', step s l s'.
  Proof. intros R. apply progress_inv. apply inv_reachable. exact R. Qed.

  Lemma wtrans_measure s j l w w' e' t' g' dk' : wtrans s j l w w' e' t' g' dk' -> wmeasure w' < wmeasure w.
  Proof. destruct 1; cbn; lia. Qed.

  Lemma terminates_inv s l s' : Inv s -> step s l s' -> measure s' < measure s.
  Proof.
    intros HI Hs. apply step_fired in Hs. unfold Persist.measure.
    fired_cases Hs;
      cbn [d ws with_d]; try (rewrite Ed; cbn [Persist.dmeasure]; lia).
    - pose proof (I_front s HI) as Hfr. rewrite Ed in *. destruct Hfr as [Li [F1 F2]].
      pose proof (sum_set (ws s) i (Spawned p c) ltac:(rewrite (I_len s HI); lia)) as SS.
      fold (getw s i) in SS. rewrite (F2 i) in SS by lia. cbn [wmeasure Persist.dmeasure] in *. lia.
    - pose proof (wtrans_measure _ _ _ _ _ _ _ _ _ Hw).
      pose proof (sum_set (ws s) j w' (getw_lt _ _ (proj1 (wtrans_started _ _ _ _ _ _ _ _ _ Hw)))) as SS.
      fold (getw s j) in SS. lia.
  Qed.

  Theorem terminates s l s' : reachable s -> step s l s' -> measure s' < measure s.
  Proof. intros R. apply terminates_inv. apply inv_reachable. exact R. Qed.

  Lemma exec_bounded_inv s tr s' : Inv s -> path s tr s' -> List.length tr + measure s' <= measure s.
  Proof.
    intros HI P. induction P as [s|s l s1 tr s' Hs P IH]; cbn; [lia|].
    pose proof (terminates_inv s l s1 HI Hs). specialize (IH (inv_step s l s1 HI Hs)). lia.
  Qed.

  Theorem execution_length_bounded tr s : path init tr s -> List.length tr <= 10 * n + 3.
  Proof.
    intros P. pose proof (exec_bounded_inv init tr s inv_init P) as B.
    assert (M : measure init = 10 * n + 3).
    { unfold Persist.measure, Persist.init; cbn [d ws Persist.dmeasure].
      assert (E : forall m, list_sum (map wmeasure (repeat Idle m)) = 7 * m) by (induction m as [|m IHm]; [reflexivity|]; cbn [repeat map list_sum fold_right wmeasure]; unfold list_sum in IHm; lia).
      rewrite E. lia. }
    lia.
  Qed.

  Lemma path_app s1 tr1 s2 tr2 s3 : path s1 tr1 s2 -> path s2 tr2 s3 -> path s1 (tr1 ++ tr2) s3.
  Proof. intros P Q. induction P; cbn; auto. econstructor; eauto. Qed.

  Lemma reachable_path s tr s' : reachable s -> path s tr s' -> reachable s'.
  Proof. intros [t P] Q. exists (t ++ tr). eapply path_app; eauto. Qed.

  Theorem maximal_execution_returns s tr s' : reachable s -> path s tr s' ->
    (forall l s'', ~ step s' l s'') -> is_ret s' = true.
  Proof.
    intros R P Hmax. destruct (is_ret s') eqn:E; auto. exfalso.
    destruct (progress s' (reachable_path s tr s' R P) E) as (l & s'' & Hs). exact (Hmax l s'' Hs).
  Qed.

  Theorem always_can_return s : reachable s -> exists tr s', path s tr s' /\ is_ret s' = true.
  Proof.
    intros R. pose proof (inv_reachable s R) as HI. clear R.
    remember (measure s) as m eqn:Em. revert s HI Em.
    induction m as [m IH] using lt_wf_ind. intros s HI ->.
    destruct (is_ret s) eqn:E; [exists [], s; split; [constructor|exact E]|].
    destruct (progress_inv s HI E) as (l & s1 & Hs).
    destruct (IH _ (terminates_inv s l s1 HI Hs) s1 (inv_step s l s1 HI Hs) eq_refl) as (tr & s' & P & Rr).
    exists (l :: tr), s'. split; auto. econstructor; eauto.
  Qed.

  Theorem after_return_only_release s l s' : reachable s -> is_ret s = true -> step s l s' ->
    (exists j, l = ERelease j) /\ disk s' = disk s /\ d s' = d s.
  Proof.
    intros R Hr Hs. apply step_fired in Hs.
    fired_cases Hs;
      try (unfold is_ret in Hr; rewrite Ed in Hr; discriminate).
    destruct (no_write_in_flight_at_return s R Hr j) as [Q _].
    destruct Hw; try discriminate. cbn [disk d]. eauto.
  Qed.

  Lemma run_trace_path s tr s' : run_trace jobs k pp fail_pp fail_w s tr = Some s' <-> path s tr s'.
  Proof.
    split.
    - revert s; induction tr as [|l tr IH]; intros s H; cbn in H.
      + injection H as <-. constructor.
      + destruct (fire s l) as [s1|] eqn:E; [|discriminate]. econstructor; [exact E | apply IH; exact H].
    - intros P. induction P as [s|s l s1 tr s' Hs P IH]; cbn; auto.
      unfold Persist.step in Hs. rewrite Hs. exact IH.
  Qed.

  Theorem accepted_trace_is_execution tr :
    accepts_trace jobs k pp fail_pp fail_w tr = true <-> exists s, path init tr s.
  Proof.
    unfold accepts_trace. split.
    - destruct (run_trace jobs k pp fail_pp fail_w init tr) as [s|] eqn:E; [|discriminate].
      intros _. exists s. apply run_trace_path. exact E.
    - intros [s P]. apply run_trace_path in P. rewrite P. reflexivity.
  Qed.

  Lemma fire_in_labels s l s' : fire s l = Some s' -> In l (labels s).
  Proof.
    intros H. apply step_fired in H. unfold labels, dlabels. apply in_or_app.
    fired_cases H;
      [left; rewrite Ed; cbn; auto ..|right].
    apply in_flat_map. exists j. split.
    - apply in_seq. split; [lia|]. apply getw_lt, (wtrans_started _ _ _ _ _ _ _ _ _ Hw).
    - destruct Hw; cbn; auto 8.
  Qed.

  Theorem succs_spec s l s' : In (l, s') (succs s) <-> step s l s'.
  Proof.
    unfold Persist.succs, Persist.step. rewrite in_flat_map. split.
    - intros [l0 [_ H]]. destruct (fire s l0) as [s0|] eqn:E; [|destruct H].
      destruct H as [H|[]]. injection H as -> ->. exact E.
    - intros H. exists l. split; [eapply fire_in_labels; eauto|]. rewrite H. left. reflexivity.
  Qed.
End Facts.
