(* Gen/ScopeTypeNames.v — the Go type names of the struct-likes of one file (user-defined and
   synthesized <Svc><Func>Args / Result) are pairwise distinct for EVERY accepted file, with no
   premise about ids: buildStructLike reserves New<name> right after it obtained <name>, a
   second struct-like that came back with the same name would make that MustReserve land on an
   occupied name.  Instance of reserved_name_fresh (hence of ns_owner_stable). *)
From Coq Require Import List.
From Verif Require Import Base.Bytes Gen.Namespace Gen.NamespaceFacts Idl.Ast Idl.AstUtil Gen.Scope Gen.ScopeFacts.
Import ListNotations.

Definition is_struct_type (e : entry) : bool := kind_eqb (e_kind e) KStructType.

Definition is_new_for (e' e : entry) : Prop :=
  e_table e' = TGlobals /\ e_table e = TGlobals /\ is_add (e_op e') = false /\
  kind_eqb (e_kind e') KNew = true /\ e_name e' = s_New ++ e_name e.

(* newest first: every struct-type entry below the head is directly followed by its reservation *)
Fixpoint paired_in (tr : list entry) : Prop :=
  match tr with
  | e' :: older =>
    match older with
    | e :: _ => (is_struct_type e = true -> is_new_for e' e) /\ paired_in older
    | [] => True
    end
  | [] => True
  end.
Definition head_settled (tr : list entry) : Prop :=
  match tr with e :: _ => is_struct_type e = false | [] => True end.
Definition paired (tr : list entry) : Prop := paired_in tr /\ head_settled tr.

Lemma paired_in_push e tr : paired tr -> paired_in (e :: tr).
Proof.
  intros [Hin Hh]. cbn [paired_in]. destruct tr as [|h r]; [exact I|].
  split; [|exact Hin]. cbn [head_settled] in Hh. intro Hs. congruence.
Qed.

Lemma paired_add t ow k name id :
  kind_eqb k KStructType = false -> tri paired (fun _ => True) (m_add t ow k name id).
Proof.
  intros Hk tr H. unfold m_add.
  destruct (add underscore_suffix (ns_of t tr) name id) as [[s' r]|]; [|exact I].
  split; [apply paired_in_push, H | exact Hk].
Qed.

Lemma paired_reserve t ow k name id :
  kind_eqb k KStructType = false -> tri paired (fun _ => True) (m_reserve t ow k name id).
Proof.
  intros Hk tr H. unfold m_reserve.
  destruct (snd (reserve (ns_of t tr) name id)); [|exact I].
  split; [apply paired_in_push, H | exact Hk].
Qed.

(* the head of buildStructLike: Add of the type name, then MustReserve of New<that name> *)
Lemma paired_struct_head A t n id id' (k : bytes -> M A) :
  (forall sn, tri paired (fun _ => True) (k sn)) ->
  tri paired (fun _ => True)
      (bind (m_add TGlobals t KStructType n id) (fun sn => seq (m_reserve TGlobals t KNew (s_New ++ sn) id') (k sn))).
Proof.
  intros Hk tr H. unfold bind at 1. unfold m_add at 1.
  destruct (add underscore_suffix (ns_of TGlobals tr) n id) as [[s' r]|]; [|exact I].
  unfold seq, bind. unfold m_reserve at 1.
  destruct (snd (reserve _ (s_New ++ r) id')); [|exact I].
  apply Hk. split; [|reflexivity]. cbn [paired_in]. split; [|apply paired_in_push, H].
  intros _. unfold is_new_for. cbn [e_table e_op e_kind e_name is_add]. repeat split; reflexivity.
Qed.

Lemma scope_run_paired identify lower_first ft f es :
  scope_run identify lower_first ft f = SOk es -> paired (rev es).
Proof.
  intros H.
  pose proof (walk_scope_run identify lower_first paired (fun _ => True)
                (fun t ow k name id Hk _ => paired_add t ow k name id Hk)
                (fun t ow k name id Hk _ => paired_reserve t ow k name id Hk)
                paired_struct_head ft f (conj I I)) as W.
  rewrite H in W. exact W.
Qed.

Lemma paired_in_at : forall p x e q,
  paired_in (p ++ x :: e :: q) -> is_struct_type e = true -> is_new_for x e.
Proof.
  induction p as [|y p IH]; intros x e q H Hs.
  - cbn [app paired_in] in H. apply H. exact Hs.
  - cbn [app] in H. cbn [paired_in] in H.
    destruct (p ++ x :: e :: q) as [|z zs] eqn:Ez; [destruct p; discriminate|].
    destruct H as [_ H]. rewrite <- Ez in H. eapply IH; eassumption.
Qed.

Section TypeNames.
Variable identify : bytes -> bytes.
Variable lower_first : bytes -> bytes.

Lemma struct_type_followed ft f es a e rest :
  scope_run identify lower_first ft f = SOk es -> es = a ++ e :: rest -> is_struct_type e = true ->
  exists x rest', rest = x :: rest' /\ is_new_for x e.
Proof.
  intros Hr -> Hs. apply scope_run_paired in Hr. destruct Hr as [Hin Hh].
  destruct rest as [|x rest'].
  - rewrite rev_app_distr in Hh. cbn [rev app head_settled] in Hh. congruence.
  - exists x, rest'. split; [reflexivity|].
    replace (rev (a ++ e :: x :: rest')) with (rev rest' ++ x :: e :: rev a) in Hin.
    + eapply paired_in_at; eassumption.
    + rewrite rev_app_distr. cbn [rev]. repeat rewrite <- app_assoc. reflexivity.
Qed.

Theorem struct_type_names_distinct ft f es a e1 b e2 c :
  scope_run identify lower_first ft f = SOk es ->
  es = a ++ e1 :: b ++ e2 :: c ->
  is_struct_type e1 = true -> is_struct_type e2 = true ->
  e_name e1 <> e_name e2.
Proof.
  intros Hr He H1 H2 Hn.
  destruct (struct_type_followed ft f es a e1 (b ++ e2 :: c) Hr He H1) as (x1 & r1 & Er1 & T1 & _ & _ & _ & M1).
  assert (He' : es = (a ++ e1 :: b) ++ e2 :: c) by (rewrite He, <- app_assoc; reflexivity).
  destruct (struct_type_followed ft f es (a ++ e1 :: b) e2 c Hr He' H2) as (x2 & c' & -> & T2 & _ & A2 & _ & M2).
  (* the reservation for e1 stands before the one for e2, also when it is e2 itself *)
  assert (Hq : exists q, r1 = q ++ x2 :: c').
  { destruct b as [|b0 b']; injection Er1 as _ <-; [exists [] | exists (b' ++ [e2]); rewrite <- app_assoc]; reflexivity. }
  destruct Hq as [q ->].
  apply (reserved_name_fresh identify lower_first ft f es (a ++ [e1]) x1 q x2 c' Hr); [|congruence | exact A2|].
  - rewrite He, Er1, <- app_assoc. reflexivity.
  - rewrite M1, M2, Hn. reflexivity.
Qed.
End TypeNames.
