(* Gen/FileManagerExpand.v — text level specification of BuildResponse WITH patches: every output
   text is the submitted text in which each insertion-point marker is replaced by the contents of
   the patches submitted for that point to that file, in submission order (nothing when there is
   none), and every other byte is kept; inserted text is not scanned again.  `expand` is the
   declarative scanner (it does not mention the regexp result list, the replacer's key table or
   the generic replacer).  Domain: insertion point names over the marker alphabet [$.0-9a-zA-Z_]
   (what plugin.InsertionPoint is meant for; outside it two keys can match at one position and Go
   lists them in map order).  This file holds `expand`, its clauses and the facts about the key
   listing; that BuildResponse computes `expand` on that domain is proved in Gen/FileManagerFull.v
   from the statement for all names. *)
From Coq Require Import List Arith Bool Lia NArith Permutation Sorted.
From Coq.Strings Require Import Byte.
From Verif Require Import Base.Bytes Gen.FileManager Gen.FileManagerFacts Gen.Determinism Corr.C12.
Import ListNotations.

(* insertionPointReplacer.Replace lists the table's keys in descending string order before
   handing them to strings.NewReplacer ([listed_pairs]): the listing has the same entries as the
   table ([lookup_listed]), does not depend on the order in which the table delivers its keys, a
   Go map ([listed_pairs_order_irrelevant]), and puts a key before every key that is a proper
   prefix of it, so the replacer's first-listed-wins rule picks the longest key matching at a
   position ([listed_longest_first]).  [sort_desc] is the insertion sort of Gen/Determinism.v
   over the flipped order [geb]. *)
Definition geb (x y : bytes) : bool := lex_leb y x.

Lemma sort_desc_isort l : sort_desc l = isort bytes geb l.
Proof.
  induction l as [|x l IH]; [reflexivity|]. cbn [sort_desc isort]. rewrite IH.
  generalize (isort bytes geb l) as r. induction r as [|y r IHr]; [reflexivity|].
  cbn [insert_desc insert]. unfold geb at 1. destruct (lex_leb y x); [reflexivity | f_equal; exact IHr].
Qed.

Lemma sort_desc_perm l : Permutation l (sort_desc l).
Proof. rewrite sort_desc_isort. apply isort_perm. Qed.

Lemma In_sort_desc k l : In k (sort_desc l) <-> In k l.
Proof.
  split; intro H.
  - eapply Permutation_in; [apply Permutation_sym, sort_desc_perm | exact H].
  - eapply Permutation_in; [apply sort_desc_perm | exact H].
Qed.

Lemma geb_total x y : geb x y = true \/ geb y x = true.
Proof. unfold geb. destruct (lex_total x y); [right | left]; assumption. Qed.
Lemma geb_trans x y z : geb x y = true -> geb y z = true -> geb x z = true.
Proof. unfold geb. intros H1 H2. eapply lex_trans; eassumption. Qed.
Lemma geb_antisym x y : geb x y = true -> geb y x = true -> x = y.
Proof. unfold geb. intros H1 H2. apply lex_antisym; assumption. Qed.

Lemma sort_desc_perm_invariant l l' : Permutation l l' -> sort_desc l = sort_desc l'.
Proof.
  intro H. rewrite !sort_desc_isort.
  exact (sort_then_emit_perm_invariant bytes geb geb_total geb_trans geb_antisym _ (fun x => x) l l' H).
Qed.

Lemma lookup_map_keys_in (f : bytes -> bytes) k l :
  In k l -> lookup k (map (fun x => (x, f x)) l) = Some (f k).
Proof.
  induction l as [|x l IH]; cbn [map lookup]; [intros []|].
  destruct (beqb k x) eqn:E.
  - apply beqb_true in E. subst x. reflexivity.
  - apply beqb_false in E. intros [->|H]; [congruence | apply IH, H].
Qed.

Lemma lookup_map_keys_out (f : bytes -> bytes) k l :
  ~ In k l -> lookup k (map (fun x => (x, f x)) l) = None.
Proof.
  induction l as [|x l IH]; cbn [map lookup]; [reflexivity|]. intro H.
  destruct (beqb k x) eqn:E.
  - apply beqb_true in E. subst x. exfalso. apply H. left. reflexivity.
  - apply IH. intro H'. apply H. right. exact H'.
Qed.

Lemma lookup_listed P k : lookup k (listed_pairs P) = lookup k P.
Proof.
  unfold listed_pairs. destruct (lookup k P) as [v|] eqn:E.
  - rewrite lookup_map_keys_in; [rewrite E; reflexivity|].
    apply (proj2 (In_sort_desc _ _)). apply in_map_iff. exists (k, v). split; [reflexivity | apply lookup_In, E].
  - apply lookup_map_keys_out. intro H. apply (proj1 (In_sort_desc _ _)) in H. apply lookup_None_not_In in E. exact (E H).
Qed.

Lemma In_listed P k v : In (k, v) (listed_pairs P) -> In (k, v) P.
Proof.
  unfold listed_pairs. intro H. apply in_map_iff in H. destruct H as [x [[= -> <-] Hin]].
  apply (proj1 (In_sort_desc _ _)) in Hin. destruct (lookup k P) as [v|] eqn:E; [apply lookup_In; exact E|].
  apply lookup_None_not_In in E. contradiction.
Qed.

Lemma lookup_perm (P P' : list (bytes * bytes)) k :
  NoDup (map fst P) -> Permutation P P' -> lookup k P = lookup k P'.
Proof.
  intros Hnd Hp.
  assert (Hnd' : NoDup (map fst P')) by (eapply Permutation_NoDup; [apply Permutation_map; exact Hp | exact Hnd]).
  destruct (lookup k P) as [v|] eqn:E.
  - symmetry. apply lookup_NoDup_In; [exact Hnd'|]. eapply Permutation_in; [exact Hp|]. apply lookup_In. exact E.
  - symmetry. apply lookup_None_not_In. apply lookup_None_not_In in E. intro H. apply E.
    eapply Permutation_in; [apply Permutation_sym, Permutation_map; exact Hp | exact H].
Qed.

(* The table is a Go map: whatever order it delivers its entries in, the same list of pairs goes
   to strings.NewReplacer, hence the same output text. *)
Theorem listed_pairs_order_irrelevant P P' :
  NoDup (map fst P) -> Permutation P P' -> listed_pairs P = listed_pairs P'.
Proof.
  intros Hnd Hp. unfold listed_pairs.
  rewrite (sort_desc_perm_invariant (map fst P) (map fst P')) by (apply Permutation_map; exact Hp).
  apply map_ext. intro k. rewrite (lookup_perm P P' k Hnd Hp). reflexivity.
Qed.

Lemma lex_leb_prefix a r : lex_leb a (a ++ r) = true.
Proof.
  induction a as [|c a IH]; [reflexivity|]. cbn [app lex_leb]. rewrite byte_eqb_refl. exact IH.
Qed.

Lemma sort_desc_sorted l : StronglySorted (fun x y => lex_leb y x = true) (sort_desc l).
Proof.
  rewrite sort_desc_isort.
  exact (isort_sorted bytes geb geb_total geb_trans l).
Qed.

Lemma first_match_split L : forall s k v, first_match L s = Some (k, v) ->
  exists L1 L2, L = L1 ++ (k, v) :: L2 /\ (forall p, In p L1 -> is_prefix (fst p) s = false).
Proof.
  induction L as [|[k0 v0] L IH]; intros s k v; cbn [first_match]; [discriminate|].
  destruct (is_prefix k0 s) eqn:E.
  - intros [= -> ->]. exists [], L. split; [reflexivity | intros p []].
  - intro H. destruct (IH _ _ _ H) as [L1 [L2 [-> Hn]]]. exists ((k0, v0) :: L1), L2.
    split; [reflexivity|]. intros p [<-|Hp]; [exact E | apply Hn, Hp].
Qed.

Lemma sorted_after {A} (R : A -> A -> Prop) l1 x l2 :
  StronglySorted R (l1 ++ x :: l2) -> forall y, In y l2 -> R x y.
Proof.
  induction l1 as [|a l1 IH]; cbn [app]; intros H y Hy.
  - inversion H as [|? ? _ Hall]; subst. rewrite Forall_forall in Hall. apply Hall, Hy.
  - inversion H as [|? ? Hs _]; subst. eapply IH; eassumption.
Qed.

Lemma map_fst_listed P : map fst (listed_pairs P) = sort_desc (map fst P).
Proof. unfold listed_pairs. rewrite map_map. cbn [fst]. apply map_id. Qed.

Theorem listed_longest_first P s k v :
  first_match (listed_pairs P) s = Some (k, v) ->
  forall k', In k' (map fst P) -> is_prefix k' s = true -> List.length k' <= List.length k.
Proof.
  intros Hfm k' Hin Hp.
  pose proof (first_match_In _ _ _ _ Hfm) as [_ Hpk].
  destruct (first_match_split _ _ _ _ Hfm) as [L1 [L2 [HL Hn]]].
  pose proof (sort_desc_sorted (map fst P)) as Hs. rewrite <- map_fst_listed, HL, map_app in Hs. cbn [map fst] in Hs.
  assert (Hk' : In k' (map fst (listed_pairs P))) by (rewrite map_fst_listed; apply (proj2 (In_sort_desc _ _)), Hin).
  rewrite HL, map_app in Hk'. cbn [map fst] in Hk'. apply in_app_iff in Hk'.
  destruct Hk' as [H1|[<-|H2]].
  - apply in_map_iff in H1. destruct H1 as [p [<- Hp1]]. rewrite (Hn p Hp1) in Hp. discriminate.
  - apply Nat.le_refl.
  - pose proof (sorted_after _ _ _ _ Hs k' H2) as Hle. cbn beta in Hle.
    apply is_prefix_spec in Hp. apply is_prefix_spec in Hpk. destruct Hp as [r' E'], Hpk as [r E]. rewrite E in E'.
    destruct (app_prefix_split _ _ _ _ E') as [t [[E1 _]|[E1 _]]].
    + rewrite E1, app_length. lia.
    + (* k' = k ++ t: then k <= k' <= k, so t = [] *)
      assert (k = k') as ->; [|apply Nat.le_refl].
      apply lex_antisym; [rewrite E1; apply lex_leb_prefix | exact Hle].
Qed.

Fixpoint expand (ps : list gen) (skip : nat) (s : bytes) : bytes :=
  match s with
  | [] => []
  | c :: r =>
    match skip with
    | S k => expand ps k r
    | O => match marker_at s with
           | Some mk => patch_text mk ps ++ expand ps (List.length mk - 1) r
           | None => c :: expand ps 0 r
           end
    end
  end.

Definition ip_wf (g : gen) : bool := forallb ip_char (g_ip g).
Definition ips_wf (ps : list gen) : bool := forallb ip_wf ps.

Lemma expand_nil : forall s skip, expand [] skip s = strip_markers skip s.
Proof.
  induction s as [|c s IH]; intros skip; cbn [expand strip_markers]; [reflexivity|].
  destruct skip; [|apply IH]. destruct (marker_at (c :: s)); [|f_equal; apply IH].
  unfold patch_text. cbn [filter map List.concat app]. apply IH.
Qed.

Lemma span_fst_all (p : byte -> bool) s : forallb p (fst (span p s)) = true.
Proof.
  induction s as [|c s IH]; cbn [span]; [reflexivity|].
  destruct (p c) eqn:E; [|reflexivity]. destruct (span p s) as [a b]. cbn in *. rewrite E. exact IH.
Qed.

Lemma span_app_eq (p : byte -> bool) s : s = fst (span p s) ++ snd (span p s).
Proof.
  induction s as [|c s IH]; cbn [span]; [reflexivity|].
  destruct (p c); [|reflexivity]. destruct (span p s) as [a b]. cbn in *. f_equal. exact IH.
Qed.

Lemma span_stop (p : byte -> bool) nm c rest :
  forallb p nm = true -> p c = false -> span p (nm ++ c :: rest) = (nm, c :: rest).
Proof.
  induction nm as [|x nm IH]; cbn [app span forallb]; intros Hn Hc.
  - rewrite Hc. reflexivity.
  - apply andb_true_iff in Hn. destruct Hn as [Hx Hn]. rewrite Hx, (IH Hn Hc). reflexivity.
Qed.

Lemma strip_prefix_some p : forall s r, strip_prefix p s = Some r -> s = p ++ r.
Proof.
  induction p as [|a p IH]; intros s r; cbn [strip_prefix].
  - intros [= ->]. reflexivity.
  - destruct s as [|b s]; [discriminate|]. destruct (Byte.eqb a b) eqn:E; [|discriminate].
    apply byte_eqb_eq in E. subst b. intro H. apply IH in H. subst s. reflexivity.
Qed.

Lemma strip_prefix_app p r : strip_prefix p (p ++ r) = Some r.
Proof.
  induction p as [|a p IH]; cbn [app strip_prefix]; [reflexivity|].
  assert (Byte.eqb a a = true) as -> by (apply byte_eqb_eq; reflexivity). exact IH.
Qed.

Lemma ip_char_rparen : ip_char x29 = false.
Proof. vm_compute. reflexivity. Qed.

Lemma marker_at_some s mk : marker_at s = Some mk ->
  exists nm rest, mk = marker nm /\ forallb ip_char nm = true /\ s = mk ++ rest.
Proof.
  unfold marker_at. destruct (strip_prefix ip_prefix s) as [r|] eqn:E; [|discriminate].
  apply strip_prefix_some in E.
  pose proof (span_fst_all ip_char r) as Hall. pose proof (span_app_eq ip_char r) as Happ.
  destruct (span ip_char r) as [nm r']. cbn [fst snd] in *.
  destruct r' as [|c r'']; [discriminate|]. destruct (Byte.eqb c x29) eqn:Ec; [|discriminate].
  apply byte_eqb_eq in Ec. subst c. intros [= <-]. exists nm, r''. split; [reflexivity|]. split; [exact Hall|].
  rewrite E, Happ. unfold marker. rewrite <- !app_assoc. reflexivity.
Qed.

Lemma marker_at_of_prefix nm s :
  forallb ip_char nm = true -> is_prefix (marker nm) s = true -> marker_at s = Some (marker nm).
Proof.
  intros Hn Hp. apply is_prefix_spec in Hp. destruct Hp as [rest ->].
  unfold marker_at, marker. rewrite <- !app_assoc, strip_prefix_app. cbn [app].
  rewrite (span_stop ip_char nm x29 rest Hn ip_char_rparen).
  assert (Byte.eqb x29 x29 = true) as -> by (apply byte_eqb_eq; reflexivity). reflexivity.
Qed.

Definition marker_pairs (P : list (bytes * bytes)) : Prop :=
  forall k v, In (k, v) P -> v = [] /\ exists nm, k = marker nm /\ forallb ip_char nm = true.

Lemma In_update {A} k (v : A) m x w : In (x, w) (update k v m) -> (x = k /\ w = v) \/ In (x, w) m.
Proof.
  induction m as [|[k' v'] m IH]; cbn [update].
  - intros [[= <- <-]|[]]. left; split; reflexivity.
  - destruct (beqb k k') eqn:E.
    + intros [[= <- <-]|H]; [left; split; reflexivity | right; right; exact H].
    + intros [H|H]; [right; left; exact H|]. destruct (IH H) as [H'|H']; [left; exact H' | right; right; exact H'].
Qed.

Lemma found_markers_wf skip : forall s mk, In mk (find_markers_go skip s) ->
  exists nm, mk = marker nm /\ forallb ip_char nm = true.
Proof.
  intros s. revert skip. induction s as [|c s IH]; intros skip mk; cbn [find_markers_go]; [intros []|].
  destruct skip as [|k]; [|apply IH].
  destruct (marker_at (c :: s)) as [m0|] eqn:Em; [|apply IH].
  intros [<-|Hin]; [|eapply IH; exact Hin].
  destruct (marker_at_some _ _ Em) as [nm [rest [H1 [H2 _]]]]. exists nm. split; assumption.
Qed.

Lemma init_pairs_marker_pairs content : marker_pairs (init_pairs content).
Proof.
  unfold init_pairs.
  assert (G : forall ks acc, (forall mk, In mk ks -> exists nm, mk = marker nm /\ forallb ip_char nm = true) ->
              marker_pairs acc -> marker_pairs (fold_left (fun a x => update x [] a) ks acc)).
  { induction ks as [|x ks IH]; intros acc Hks Hacc; cbn [fold_left]; [exact Hacc|].
    apply IH; [intros mk Hin; apply Hks; right; exact Hin|].
    intros k v Hin. apply In_update in Hin. destruct Hin as [[-> ->]|Hin]; [|apply Hacc; exact Hin].
    split; [reflexivity | apply Hks; left; reflexivity]. }
  apply G; [intros mk Hin; eapply found_markers_wf; exact Hin | intros k v []].
Qed.

Lemma first_match_is_lookup P : forall s k v, first_match P s = Some (k, v) -> lookup k P = Some v.
Proof.
  induction P as [|[k0 v0] P IH]; intros s k v; cbn [first_match lookup]; [discriminate|].
  destruct (is_prefix k0 s) eqn:E.
  - intros [= -> ->]. rewrite beqb_refl. reflexivity.
  - intro H. pose proof (first_match_In _ _ _ _ H) as [_ Hp].
    destruct (beqb k k0) eqn:Ek.
    + apply beqb_true in Ek. subst k0. congruence.
    + eapply IH; exact H.
Qed.

Lemma expand_at_marker ps nm rest : forallb ip_char nm = true ->
  expand ps 0 (marker nm ++ rest) = patch_text (marker nm) ps ++ expand ps 0 rest.
Proof.
  intro Hn. assert (Hp : is_prefix (marker nm) (marker nm ++ rest) = true) by (apply is_prefix_spec; eauto).
  pose proof (marker_at_of_prefix nm _ Hn Hp) as Hm.
  assert (Hne : exists c t, marker nm = c :: t) by (unfold marker, ip_prefix; cbn; eauto).
  destruct Hne as [c [t Hct]]. rewrite Hct in *. cbn [app expand]. cbn [app] in Hm. rewrite Hm.
  f_equal. cbn [List.length]. rewrite Nat.sub_succ, Nat.sub_0_r.
  clear. induction t as [|x t IH]; cbn [List.length app expand]; [reflexivity | exact IH].
Qed.

Lemma expand_other ps c rest : marker_at (c :: rest) = None ->
  expand ps 0 (c :: rest) = c :: expand ps 0 rest.
Proof. intro H. cbn [expand]. rewrite H. reflexivity. Qed.
