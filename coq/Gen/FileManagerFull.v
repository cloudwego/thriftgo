(* Gen/FileManagerFull.v — text level specification of BuildResponse for EVERY history, without
   any condition on insertion point names: at each position the longest key of the file's table
   (the markers the scanner found in the submitted text and the markers of the patches recorded
   for the file) that matches there is replaced by the patches of that key in submission order;
   a byte where no key matches is copied; inserted text is not scanned again.  On the domain of
   Gen/FileManagerExpand.v (names over the marker alphabet) at most one key matches at a position,
   which gives the statements about `expand` at the end of this file. *)
From Coq Require Import List Arith Bool Lia NArith Permutation.
From Coq.Strings Require Import Byte.
From Verif Require Import Base.Bytes Gen.FileManager Gen.FileManagerFacts Gen.Determinism
                          Corr.C12 Gen.FileManagerExpand.
Import ListNotations.

Fixpoint longest_key (ks : list bytes) (s : bytes) : option bytes :=
  match ks with
  | [] => None
  | k :: r =>
    let best := longest_key r s in
    if is_prefix k s
    then match best with
         | Some b => if List.length b <? List.length k then Some k else Some b
         | None => Some k
         end
    else best
  end.

Fixpoint expand_keys (ks : list bytes) (ps : list gen) (skip : nat) (s : bytes) : bytes :=
  match s with
  | [] => []
  | c :: r =>
    match skip with
    | S k => expand_keys ks ps k r
    | O => match longest_key ks s with
           | Some k => patch_text k ps ++ expand_keys ks ps (List.length k - 1) r
           | None => c :: expand_keys ks ps 0 r
           end
    end
  end.

Definition table_keys (content : bytes) (ps : list gen) : list bytes :=
  find_markers content ++ map (fun p => marker (g_ip p)) ps.

Lemma longest_key_none ks s : longest_key ks s = None -> forall k, In k ks -> is_prefix k s = false.
Proof.
  induction ks as [|k0 ks IH]; cbn [longest_key]; [intros _ k []|].
  destruct (is_prefix k0 s) eqn:E.
  - destruct (longest_key ks s); [destruct (_ <? _)|]; discriminate.
  - intros H k [<-|Hin]; [exact E | apply IH; assumption].
Qed.

Lemma longest_key_some ks s k : longest_key ks s = Some k ->
  In k ks /\ is_prefix k s = true /\
  forall k', In k' ks -> is_prefix k' s = true -> List.length k' <= List.length k.
Proof.
  revert k. induction ks as [|k0 ks IH]; intros k; cbn [longest_key]; [discriminate|].
  destruct (is_prefix k0 s) eqn:E.
  - destruct (longest_key ks s) as [b|] eqn:Eb.
    + destruct (IH b eq_refl) as [Hin [Hp Hmax]].
      destruct (Nat.ltb_spec (List.length b) (List.length k0)) as [Hlt|Hge]; intros [= <-].
      * split; [left; reflexivity|]. split; [exact E|].
        intros k' [<-|Hk'] Hp'; [lia|]. specialize (Hmax k' Hk' Hp'). lia.
      * split; [right; exact Hin|]. split; [exact Hp|].
        intros k' [<-|Hk'] Hp'; [lia | apply Hmax; assumption].
    + intros [= <-]. split; [left; reflexivity|]. split; [exact E|].
      intros k' [<-|Hk'] Hp'; [lia|]. rewrite (longest_key_none _ _ Eb k' Hk') in Hp'. discriminate.
  - intro H. destruct (IH k H) as [Hin [Hp Hmax]]. split; [right; exact Hin|]. split; [exact Hp|].
    intros k' [<-|Hk'] Hp'; [congruence | apply Hmax; assumption].
Qed.

Lemma longest_key_exists ks s k : In k ks -> is_prefix k s = true -> exists b, longest_key ks s = Some b.
Proof.
  intros Hin Hp. destruct (longest_key ks s) as [b|] eqn:E; [eauto|].
  rewrite (longest_key_none _ _ E k Hin) in Hp. discriminate.
Qed.

Lemma prefixes_same_length a b s :
  is_prefix a s = true -> is_prefix b s = true -> List.length a = List.length b -> a = b.
Proof.
  intros Ha Hb Hl. apply is_prefix_spec in Ha. apply is_prefix_spec in Hb.
  destruct Ha as [ra ->], Hb as [rb E].
  assert (F : forall x r : bytes, firstn (List.length x) (x ++ r) = x)
    by (intros; rewrite firstn_app, firstn_all, Nat.sub_diag; apply app_nil_r).
  rewrite <- (F a ra), E, Hl. apply F.
Qed.

Lemma longest_key_ext ks ks' s : (forall k, In k ks <-> In k ks') -> longest_key ks s = longest_key ks' s.
Proof.
  intro H. destruct (longest_key ks s) as [a|] eqn:Ea, (longest_key ks' s) as [b|] eqn:Eb; try reflexivity.
  - destruct (longest_key_some _ _ _ Ea) as [Ia [Pa Ma]]. destruct (longest_key_some _ _ _ Eb) as [Ib [Pb Mb]].
    f_equal. apply (prefixes_same_length a b s Pa Pb).
    apply Nat.le_antisymm; [apply Mb; [apply H; exact Ia | exact Pa] | apply Ma; [apply H; exact Ib | exact Pb]].
  - destruct (longest_key_some _ _ _ Ea) as [Ia [Pa _]].
    rewrite (longest_key_none _ _ Eb a (proj1 (H a) Ia)) in Pa. discriminate.
  - destruct (longest_key_some _ _ _ Eb) as [Ib [Pb _]].
    rewrite (longest_key_none _ _ Ea b (proj2 (H b) Ib)) in Pb. discriminate.
Qed.

Lemma first_match_listed P s :
  first_match (listed_pairs P) s =
  match longest_key (map fst P) s with
  | Some k => match lookup k P with Some v => Some (k, v) | None => None end
  | None => None
  end.
Proof.
  destruct (first_match (listed_pairs P) s) as [[k v]|] eqn:E.
  - pose proof (first_match_In _ _ _ _ E) as [Hin Hp].
    pose proof (listed_longest_first _ _ _ _ E) as Hmax.
    pose proof (first_match_is_lookup _ _ _ _ E) as Hl. rewrite lookup_listed in Hl.
    assert (Hk : In k (map fst P)) by (apply in_map_iff; exists (k, v); split; [reflexivity | apply lookup_In, Hl]).
    destruct (longest_key_exists _ _ _ Hk Hp) as [b Eb]. rewrite Eb.
    destruct (longest_key_some _ _ _ Eb) as [Ib [Pb Mb]].
    assert (b = k) as ->.
    { apply (prefixes_same_length b k s Pb Hp). apply Nat.le_antisymm; [apply Hmax; assumption | apply Mb; assumption]. }
    rewrite Hl. reflexivity.
  - destruct (longest_key (map fst P) s) as [b|] eqn:Eb; [|reflexivity].
    destruct (longest_key_some _ _ _ Eb) as [Ib [Pb _]].
    destruct (lookup b P) as [v|] eqn:El; [|reflexivity]. exfalso.
    assert (Hin : In (b, v) (listed_pairs P)).
    { apply lookup_In. rewrite lookup_listed. exact El. }
    rewrite (first_match_None _ _ E b v Hin) in Pb. discriminate.
Qed.

Lemma replace_listed_is_expand_keys P ks ps :
  (forall k, In k (map fst P) <-> In k ks) ->
  (forall k, In k (map fst P) -> lookup k P = Some (patch_text k ps)) ->
  forall s skip, replace_go (listed_pairs P) skip s = expand_keys ks ps skip s.
Proof.
  intros Hks Hval. induction s as [|c s IH]; intros skip; cbn [replace_go expand_keys]; [reflexivity|].
  destruct skip as [|n]; [|apply IH].
  rewrite first_match_listed, (longest_key_ext _ _ (c :: s) Hks).
  destruct (longest_key ks (c :: s)) as [k|] eqn:E.
  - destruct (longest_key_some _ _ _ E) as [Ik _]. apply Hks in Ik. rewrite (Hval k Ik). rewrite IH. reflexivity.
  - rewrite IH. reflexivity.
Qed.

Lemma init_pairs_keys content k : lookup k (init_pairs content) <> None <-> In k (find_markers content).
Proof.
  split; [|apply found_marker_is_key].
  unfold init_pairs. generalize (find_markers content) as ks.
  assert (G : forall ks (acc : list (bytes * bytes)),
              lookup k (fold_left (fun a x => update x [] a) ks acc) <> None -> In k ks \/ lookup k acc <> None).
  { induction ks as [|x ks IH]; intros acc; cbn [fold_left]; [intro H; right; exact H|].
    intro H. destruct (IH _ H) as [Hin|Hl]; [left; right; exact Hin|].
    destruct (list_eq_dec Byte.byte_eq_dec x k) as [->|Hne]; [left; left; reflexivity|].
    rewrite lookup_update_other in Hl by assumption. right. exact Hl. }
  intros ks H. destruct (G ks [] H) as [Hin|Hl]; [exact Hin | cbn in Hl; congruence].
Qed.

Lemma table_lookup content ps k :
  let P := fold_left (fun acc p => add_pair acc (marker (g_ip p)) (g_content p)) ps (init_pairs content) in
  (In k (map fst P) <-> In k (table_keys content ps)) /\
  (In k (map fst P) -> lookup k P = Some (patch_text k ps)).
Proof.
  cbn zeta. set (P := fold_left _ ps (init_pairs content)).
  assert (HP : lookup k P = match lookup k (init_pairs content) with
                            | Some old => Some (old ++ patch_text k ps)
                            | None => if existsb (fun p => beqb (marker (g_ip p)) k) ps then Some (patch_text k ps) else None
                            end) by (unfold P; apply patch_fold_lookup).
  assert (Hin : In k (map fst P) <-> lookup k P <> None).
  { split; intro H.
    - intro E. apply lookup_None_not_In in E. exact (E H).
    - destruct (in_dec (list_eq_dec Byte.byte_eq_dec) k (map fst P)) as [i|n]; [exact i|].
      exfalso. apply H. apply lookup_None_not_In. exact n. }
  assert (Hex : existsb (fun p => beqb (marker (g_ip p)) k) ps = true <-> In k (map (fun p => marker (g_ip p)) ps)).
  { rewrite existsb_exists, in_map_iff. split.
    - intros [p [Hp He]]. apply beqb_true in He. exists p. split; assumption.
    - intros [p [He Hp]]. exists p. split; [exact Hp | apply beqb_true; exact He]. }
  split.
  - rewrite Hin, HP. unfold table_keys. rewrite in_app_iff, <- init_pairs_keys, <- Hex.
    destruct (lookup k (init_pairs content)); [|destruct (existsb _ ps)].
    + split; [left|]; discriminate.
    + split; [right; reflexivity | discriminate].
    + split; [intro H; left; exact H | intros [H|H]; [exact H | discriminate]].
  - intro H. apply Hin in H. rewrite HP in *.
    destruct (lookup k (init_pairs content)) as [old|] eqn:El.
    + apply lookup_In in El. destruct (init_pairs_marker_pairs content _ _ El) as [-> _]. reflexivity.
    + destruct (existsb _ ps); [reflexivity | congruence].
Qed.

Theorem build_one_full m name content :
  build_one m (name, content) =
  (name, expand_keys (table_keys content (patches_of m name)) (patches_of m name) 0 content).
Proof.
  unfold build_one. f_equal. unfold replace.
  apply replace_listed_is_expand_keys; intro k; apply (table_lookup content (patches_of m name) k).
Qed.

Theorem history_texts_full h m : feeds fm0 h = Ok m ->
  build m = map (fun f => (fst f, expand_keys (table_keys (snd f) (patches_of m (fst f))) (patches_of m (fst f)) 0 (snd f)))
                (files m).
Proof. intros _. unfold build. apply map_ext. intros [n c]. apply build_one_full. Qed.

(* When every key is a well-formed marker, a key that matches at a position is the marker the scanner reads there,
   so the choice among keys disappears. *)
Lemma expand_keys_is_expand ks ps :
  (forall k, In k ks -> exists nm, k = marker nm /\ forallb ip_char nm = true) ->
  forall s skip, incl (find_markers_go skip s) ks -> expand_keys ks ps skip s = expand ps skip s.
Proof.
  intros Hks.
  assert (Hat : forall s b, In b ks -> is_prefix b s = true -> marker_at s = Some b).
  { intros s b Hb Hp. destruct (Hks b Hb) as [nm [-> Hn]]. apply marker_at_of_prefix; assumption. }
  induction s as [|c s IH]; intros skip Hall; cbn [expand_keys expand]; [reflexivity|].
  destruct skip as [|n]; [|apply IH; exact Hall].
  cbn [find_markers_go] in Hall.
  destruct (longest_key ks (c :: s)) as [b|] eqn:Eb.
  - destruct (longest_key_some _ _ _ Eb) as [Ib [Pb _]]. rewrite (Hat _ _ Ib Pb) in *.
    f_equal. apply IH. intros x Hx. apply Hall. right. exact Hx.
  - destruct (marker_at (c :: s)) as [mk|] eqn:Em; [exfalso | f_equal; apply IH; exact Hall].
    destruct (marker_at_some _ _ Em) as [nm [rest [_ [_ Hs]]]].
    assert (Hp : is_prefix mk (c :: s) = true) by (apply is_prefix_spec; exists rest; exact Hs).
    rewrite (longest_key_none _ _ Eb mk (Hall mk (or_introl eq_refl))) in Hp. discriminate.
Qed.

Theorem build_one_patched m name content :
  ips_wf (patches_of m name) = true ->
  build_one m (name, content) = (name, expand (patches_of m name) 0 content).
Proof.
  intro Hw. rewrite build_one_full. f_equal. apply expand_keys_is_expand.
  - intros k Hk. apply in_app_iff in Hk. destruct Hk as [Hk|Hk]; [eapply found_markers_wf; exact Hk|].
    apply in_map_iff in Hk. destruct Hk as [p [<- Hp]]. exists (g_ip p). split; [reflexivity|].
    unfold ips_wf in Hw. rewrite forallb_forall in Hw. apply Hw, Hp.
  - intros k Hk. apply in_or_app. left. exact Hk.
Qed.

Definition patches_wf (p : list (bytes * list gen)) : Prop := forall t l, lookup t p = Some l -> ips_wf l = true.

Lemma ips_wf_app a b : ips_wf (a ++ b) = ips_wf a && ips_wf b.
Proof. unfold ips_wf. apply forallb_app. Qed.

Lemma patches_wf_add_patch m t g :
  patches_wf (patch m) -> ip_wf g = true -> patches_wf (patch (add_patch m t g)).
Proof.
  intros Hm Hg t' l. unfold add_patch. cbn [patch].
  destruct (list_eq_dec Byte.byte_eq_dec t t') as [<-|Hne].
  - rewrite lookup_update_same. intros [= <-]. rewrite ips_wf_app. cbn [ips_wf forallb]. rewrite Hg, andb_true_r.
    destruct (lookup t (patch m)) as [old|] eqn:E; [eapply Hm; exact E | reflexivity].
  - rewrite lookup_update_other by assumption. apply Hm.
Qed.

(* For EVERY history whose insertion point names are over the marker alphabet: the response is the
   list of kept files, each with its submitted text expanded by the patches recorded for it. *)
Theorem history_texts h m :
  forallb ips_wf h = true -> feeds fm0 h = Ok m ->
  build m = map (fun f => (fst f, expand (patches_of m (fst f)) 0 (snd f))) (files m).
Proof.
  intros Hw Hf. assert (Hp : patches_wf (patch m)).
  { refine (feeds_patch_pres patches_wf ip_wf (fun x t g H Hg _ => patches_wf_add_patch x t g H Hg) h fm0 m _ Hw Hf).
    intros t l. discriminate. }
  unfold build. apply map_ext. intros [n c]. cbn [fst snd]. apply build_one_patched.
  unfold patches_of. destruct (lookup n (patch m)) as [l|] eqn:E; [eapply Hp; exact E | reflexivity].
Qed.
