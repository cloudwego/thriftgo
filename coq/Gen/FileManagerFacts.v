(* Gen/FileManagerFacts.v — proofs about the model of generator/file_manager.go: the invariant of
   Feed and its single-step rules, what BuildResponse does with patches and keys, termination of
   the rename walk, and the declarative bookkeeping of kept files. *)
From Coq Require Import List Arith Bool Lia NArith.
From Coq.Strings Require Import Byte String.
From Verif Require Import Base.Bytes Gen.FileManager Gen.Determinism Corr.C12.
Import ListNotations.

Definition Inv (m : fm) : Prop :=
  NoDup (map fst (files m)) /\
  (forall n, lookup n (index m) = None <-> ~ In n (map fst (files m))).

Lemma NoDup_app_single {A} (l : list A) x : NoDup l -> ~ In x l -> NoDup (l ++ [x]).
Proof.
  induction l as [|y l IH]; cbn; intros Hn Hi.
  - constructor; [intros [] | constructor].
  - inversion Hn as [|? ? Hy Hl]; subst. constructor.
    + rewrite in_app_iff. cbn. intros [H|[H|[]]]; [tauto | subst; tauto].
    + apply IH; tauto.
Qed.

Lemma Inv_fm0 : Inv fm0.
Proof. split; cbn; [constructor | intros n; split; auto]. Qed.

Lemma Inv_add_patch m t g : Inv m -> Inv (add_patch m t g).
Proof. intros [H1 H2]; split; cbn; assumption. Qed.

Lemma Inv_add_file m name c : Inv m -> lookup name (index m) = None -> Inv (add_file m name c).
Proof.
  intros [H1 H2] Hn. split; cbn.
  - rewrite map_app. cbn. apply NoDup_app_single; [assumption | apply H2; assumption].
  - intros n. rewrite map_app, in_app_iff. cbn.
    destruct (list_eq_dec Byte.byte_eq_dec name n) as [->|Hne].
    + rewrite lookup_update_same. split; [discriminate | tauto].
    + rewrite lookup_update_other by assumption. rewrite H2. split; [intros H [H'|[H'|[]]]; congruence | tauto].
Qed.

Lemma Inv_set_count_origin m c o :
  Inv m -> Inv (mkfm (files m) (patch m) (index m) c o).
Proof. intros [H1 H2]; split; assumption. Qed.

Lemma probe_fresh fuel : forall m name content idx cnt k rn k',
  probe fuel m name content idx cnt k = Fresh rn k' -> lookup rn (index m) = None.
Proof.
  induction fuel as [|f IH]; intros m name content idx cnt k rn k'; cbn [probe]; [discriminate|].
  destruct (beqb (content_at m idx) content); [discriminate|].
  destruct (k <? cnt).
  - destruct (lookup (renamed name cnt) (index m)) eqn:E.
    + apply IH.
    + intros [= <- _]. exact E.
  - apply IH.
Qed.

(* Termination: the fuel the model gives to the rename walk (the Go `for {}` loop) and to the item loop always
   suffices, so the model never answers Fuel: in the real code the loop finds a free name after
   finitely many steps.  The candidates name_1, name_2, ... are pairwise distinct because the decimal
   suffix can be read back ([undig] below), so only finitely many of them are taken. *)

Definition dval (b : byte) : N := (Byte.to_N b - 48)%N.
Fixpoint undig (l : bytes) (acc : N) : N :=
  match l with [] => acc | b :: r => undig r (acc * 10 + dval b)%N end.

Lemma undig_app l1 : forall l2 acc, undig (l1 ++ l2) acc = undig l2 (undig l1 acc).
Proof. induction l1 as [|b l1 IH]; intros l2 acc; cbn [app undig]; [reflexivity | apply IH]. Qed.

Lemma digit_byte d : (d < 10)%N ->
  dval (match Byte.of_N (48 + d)%N with Some b => b | None => x30 end) = d.
Proof.
  intro Hd. destruct (Byte.of_N (48 + d)%N) as [b|] eqn:E.
  - apply Byte.to_of_N in E. unfold dval. rewrite E. lia.
  - apply Byte.of_N_None_iff in E. lia.
Qed.

Lemma digits_pos_spec f : forall n acc, (n < 10 ^ N.of_nat f)%N ->
  exists l, digits_pos f n acc = l ++ acc /\
            forall a, undig l a = (a * 10 ^ N.of_nat (List.length l) + n)%N.
Proof.
  induction f as [|f IH]; intros n acc Hn.
  - cbn in Hn. assert (n = 0%N) as -> by lia. exists []. split; [reflexivity|].
    intro a. cbn. lia.
  - cbn [digits_pos].
    assert (Hmod : (n mod 10 < 10)%N) by (apply N.mod_lt; lia).
    set (d := match Byte.of_N (48 + n mod 10)%N with Some b => b | None => x30 end).
    assert (Hd : dval d = (n mod 10)%N) by (apply digit_byte; exact Hmod).
    destruct (n <? 10)%N eqn:Elt.
    + apply N.ltb_lt in Elt. exists [d]. split; [reflexivity|].
      intro a. cbn [undig List.length]. rewrite Hd. rewrite N.mod_small by assumption.
      change (N.of_nat 1) with 1%N. rewrite N.pow_1_r. reflexivity.
    + apply N.ltb_ge in Elt.
      assert (Hdiv : (n / 10 < 10 ^ N.of_nat f)%N).
      { rewrite Nat2N.inj_succ, N.pow_succ_r' in Hn. apply N.div_lt_upper_bound; lia. }
      destruct (IH (n / 10)%N (d :: acc) Hdiv) as [l [Hl Hu]].
      exists (l ++ [d]). split.
      * rewrite Hl, <- app_assoc. reflexivity.
      * intro a. rewrite undig_app, Hu. cbn [undig]. rewrite Hd.
        rewrite app_length. cbn [List.length]. rewrite Nat.add_1_r, Nat2N.inj_succ, N.pow_succ_r'.
        pose proof (N.div_mod n 10). lia.
Qed.

Lemma pow2_le_pow10 k : (2 ^ k <= 10 ^ k)%N.
Proof. apply N.pow_le_mono_l. lia. Qed.

Lemma digitsN_undig n : undig (digitsN n) 0 = n.
Proof.
  unfold digitsN.
  assert (Hn : (n < 10 ^ N.of_nat (S (N.to_nat (N.log2 n))))%N).
  { rewrite Nat2N.inj_succ, N2Nat.id.
    destruct (N.eq_dec n 0) as [->|Hne]; [cbn; lia|].
    pose proof (N.log2_spec n ltac:(lia)) as [_ H2].
    pose proof (pow2_le_pow10 (N.succ (N.log2 n))). lia. }
  destruct (digits_pos_spec _ n [] Hn) as [l [Hl Hu]].
  rewrite Hl, app_nil_r, Hu. lia.
Qed.

Lemma digits_inj a b : digits a = digits b -> a = b.
Proof.
  unfold digits. intro H. apply Nat2N.inj.
  rewrite <- (digitsN_undig (N.of_nat a)), <- (digitsN_undig (N.of_nat b)), H. reflexivity.
Qed.

Lemma renamed_inj name a b : renamed name a = renamed name b -> a = b.
Proof.
  unfold renamed. destruct (split_ext name) as [stem ext]. intro H.
  apply app_inv_head in H. apply app_inv_head in H. apply app_inv_tail in H.
  apply digits_inj; exact H.
Qed.

Lemma taken_iff m rn : Inv m -> (lookup rn (index m) <> None <-> In rn (map fst (files m))).
Proof.
  intros [_ H2]. specialize (H2 rn). split.
  - intro Hn. destruct (in_dec (list_eq_dec Byte.byte_eq_dec) rn (map fst (files m))) as [Hi|Hi]; [exact Hi|].
    exfalso. apply Hn. apply H2. exact Hi.
  - intros Hi Hn. apply H2 in Hn. contradiction.
Qed.

(* phase 2 of the walk (cnt > count): [seen] = the taken candidate names passed so far *)
Lemma probe_phase2 m name content idx : Inv m -> forall fuel cnt k seen,
  k < cnt -> NoDup seen -> incl seen (map fst (files m)) ->
  (forall n, In n seen -> exists c, c < cnt /\ n = renamed name c) ->
  List.length (files m) - List.length seen < fuel ->
  probe fuel m name content idx cnt k <> ProbeFuel.
Proof.
  intro HI. induction fuel as [|f IH]; intros cnt k seen Hk Hnd Hincl Hseen Hfuel; [lia|].
  cbn [probe]. destruct (beqb (content_at m idx) content); [discriminate|].
  assert (E : (k <? cnt) = true) by (apply Nat.ltb_lt; exact Hk). rewrite E.
  destruct (lookup (renamed name cnt) (index m)) as [i|] eqn:El; [|discriminate].
  set (rn := renamed name cnt) in *.
  assert (Hin : In rn (map fst (files m))) by (apply (taken_iff m rn HI); congruence).
  assert (Hnew : ~ In rn seen).
  { intro Hs. destruct (Hseen rn Hs) as [c [Hc Heq]]. apply renamed_inj in Heq. lia. }
  assert (Hlen : List.length (rn :: seen) <= List.length (map fst (files m))).
  { apply NoDup_incl_length; [constructor; assumption|].
    intros x [<-|Hx]; [exact Hin | apply Hincl; exact Hx]. }
  rewrite map_length in Hlen. cbn [List.length] in Hlen.
  apply (IH (S cnt) (S k) (rn :: seen)).
  - lia.
  - constructor; assumption.
  - intros x [<-|Hx]; [exact Hin | apply Hincl; exact Hx].
  - intros n [<-|Hn]; [exists cnt; split; [lia | reflexivity]|].
    destruct (Hseen n Hn) as [c [Hc Heq]]. exists c. split; [lia | exact Heq].
  - cbn [List.length]. lia.
Qed.

(* phase 1 (cnt <= count) walks the own siblings, then phase 2 starts with nothing seen *)
Lemma probe_enough m name content : Inv m -> forall fuel idx cnt k,
  (k + 1 - cnt) + List.length (files m) + 1 <= fuel -> 1 <= cnt ->
  probe fuel m name content idx cnt k <> ProbeFuel.
Proof.
  intro HI. induction fuel as [|f IH]; intros idx cnt k Hfuel Hcnt; [lia|].
  destruct (Nat.ltb_spec k cnt) as [Hlt|Hge].
  - apply (probe_phase2 m name content idx HI (S f) cnt k []); try assumption.
    + constructor.
    + intros x [].
    + intros n [].
    + cbn [List.length]. lia.
  - cbn [probe]. destruct (beqb (content_at m idx) content); [discriminate|].
    assert (E : (k <? cnt) = false) by (apply Nat.ltb_ge; exact Hge). rewrite E.
    apply IH; lia.
Qed.

Lemma drop_unnamed_length l : List.length (drop_unnamed l) <= List.length l.
Proof. induction l as [|g r IH]; cbn; [lia|]. destruct (g_name g); cbn; lia. Qed.

Definition extends (m m' : fm) : Prop := exists extra, files m' = files m ++ extra.

Lemma extends_refl m : extends m m. Proof. exists []. symmetry; apply app_nil_r. Qed.

(* the file items of one Feed call, as oracle 5 of Corr/C12.v lists them *)
Definition fitems (items : list gen) : list (bytes * bytes) :=
  flat_map (fun g => match g_name g with
                     | Some n => if beqb (g_ip g) [] then [(n, g_content g)] else []
                     | None => [] end) items.

Lemma fitems_drop_unnamed l : fitems (drop_unnamed l) = fitems l.
Proof.
  induction l as [|g r IH]; [reflexivity|]. cbn [drop_unnamed]. destruct (g_name g) eqn:E.
  - reflexivity.
  - rewrite IH. unfold fitems. cbn [flat_map]. rewrite E. reflexivity.
Qed.

Lemma file_items_cons x h : file_items (x :: h) = fitems x ++ file_items h.
Proof. reflexivity. Qed.

(* The one walk over the case tree of Feed. [Q d m]: what is known of the state [m] once the file items [d] have been
   submitted; [G] is what is known of every submitted item. A call that is given more fuel than it has items ends in a
   state where [Q] holds of all file items, or with an error, or because the rename walk ran out of fuel in a state
   where [Q] held. *)
Section FeedWalk.
Variable Q : list (bytes * bytes) -> fm -> Prop.
Variable G : gen -> bool.
Hypothesis Q_patch : forall d m t g, Q d m -> G g = true ->
  g_name g = None \/ beqb (g_ip g) [] = false -> Q d (add_patch m t g).
Hypothesis Q_new : forall d m n c, Q d m -> lookup n (index m) = None -> Q (d ++ [(n, c)]) (add_file m n c).
Hypothesis Q_dup : forall d m n c idx fuel, Q d m -> lookup n (index m) = Some idx ->
  probe fuel m n c idx 1 (get_count m n) = Dup -> Q (d ++ [(n, c)]) m.
Hypothesis Q_renamed : forall d m n c idx fuel rn k', Q d m -> lookup n (index m) = Some idx ->
  probe fuel m n c idx 1 (get_count m n) = Fresh rn k' ->
  Q (d ++ [(n, c)]) (mkfm (files (add_file m rn c)) (patch (add_file m rn c)) (index (add_file m rn c))
                          (update n k' (count (add_file m rn c))) (update rn n (origin (add_file m rn c)))).

Definition starved : Prop := exists d m n c idx, Q d m /\
  probe (get_count m n + List.length (files m) + 2) m n c idx 1 (get_count m n) = ProbeFuel.

Lemma drop_unnamed_all l : forallb G l = true -> forallb G (drop_unnamed l) = true.
Proof.
  induction l as [|g r IH]; [reflexivity|]. cbn [drop_unnamed]. destruct (g_name g); [intro H; exact H|].
  cbn [forallb]. intro H. apply andb_true_iff in H. apply IH, H.
Qed.

Lemma feed_items_walk fuel : forall d m last items,
  Q d m -> forallb G items = true -> List.length items < fuel ->
  match feed_items fuel m last items with
  | Ok m' => Q (d ++ fitems items) m' | Err => True | Fuel => starved
  end.
Proof.
  induction fuel as [|f IH]; intros d m last items Hm Hw Hlen; [lia|]. cbn [feed_items].
  destruct items as [|g rest]; [cbn; rewrite app_nil_r; exact Hm|].
  cbn [forallb] in Hw. apply andb_true_iff in Hw. destruct Hw as [Hg Hrest]. cbn [List.length] in Hlen.
  unfold fitems. cbn [flat_map]. fold (fitems rest).
  destruct (g_name g) as [n|] eqn:En.
  - destruct (lookup n (index m)) as [idx|] eqn:El; destruct (beqb (g_ip g) []) eqn:Eip; cbn [negb].
    + rewrite app_assoc.
      destruct (probe _ m n (g_content g) idx 1 (get_count m n)) as [|rn k'|] eqn:Ep.
      * rewrite <- (fitems_drop_unnamed rest).
        apply IH; [eapply Q_dup; eassumption | apply drop_unnamed_all; exact Hrest|].
        pose proof (drop_unnamed_length rest). lia.
      * apply IH; [eapply Q_renamed; eassumption | exact Hrest | lia].
      * exists d, m, n, (g_content g), idx. split; assumption.
    + apply IH; [apply Q_patch; auto | exact Hrest | lia].
    + rewrite app_assoc. apply IH; [apply Q_new; assumption | exact Hrest | lia].
    + exact I.
  - destruct (beqb last []); [exact I|]. apply IH; [apply Q_patch; auto | exact Hrest | lia].
Qed.

Lemma feeds_walk h : forall d m, Q d m -> forallb (forallb G) h = true ->
  match feeds m h with Ok m' => Q (d ++ file_items h) m' | Err => True | Fuel => starved end.
Proof.
  induction h as [|x h IH]; intros d m Hm Hw; cbn [feeds]; [cbn; rewrite app_nil_r; exact Hm|].
  cbn [forallb] in Hw. apply andb_true_iff in Hw. destruct Hw as [Hx Hh].
  pose proof (feed_items_walk (S (List.length x)) d m [] x Hm Hx (Nat.lt_succ_diag_r _)) as H.
  fold (feed m x) in H. destruct (feed m x) as [m1| |]; [|exact I|exact H].
  rewrite file_items_cons, app_assoc. apply IH; assumption.
Qed.
End FeedWalk.

Lemma all_true (h : list (list gen)) : forallb (forallb (fun _ => true)) h = true.
Proof. induction h as [|x h IH]; cbn [forallb]; [reflexivity|]. rewrite IH, andb_true_r. induction x; auto. Qed.

Definition grown (m0 m : fm) : Prop := Inv m /\ extends m0 m.

Lemma grown_file m0 m n c : grown m0 m -> lookup n (index m) = None -> grown m0 (add_file m n c).
Proof.
  intros [Hx [e He]] Hn. split; [apply Inv_add_file; assumption|].
  exists (e ++ [(n, c)]). cbn [files add_file]. now rewrite He, app_assoc.
Qed.

Lemma feeds_grown h m : Inv m ->
  match feeds m h with Ok m' => grown m m' | Err => True | Fuel => False end.
Proof.
  intro HI.
  assert (W : match feeds m h with Ok m' => grown m m' | Err => True | Fuel => starved (fun _ => grown m) end).
  { refine (feeds_walk (fun _ => grown m) (fun _ => true) _ _ _ _ h [] m (conj HI (extends_refl m)) (all_true h)).
    - intros _ x t g [Hx He] _ _. split; [apply Inv_add_patch, Hx | exact He].
    - intros _ x n c. apply grown_file.
    - intros _ x n c idx fuel H _ _. exact H.
    - intros _ x n c idx fuel rn k' H _ Ep. apply probe_fresh in Ep.
      destruct (grown_file m x rn c H Ep) as [Hx He].
      split; [apply (Inv_set_count_origin (add_file x rn c)), Hx | exact He]. }
  destruct (feeds m h); [exact W | exact I|].
  destruct W as [d [x [n [c [idx [[Hx _] Hp]]]]]]. revert Hp. apply probe_enough; [exact Hx | lia | lia].
Qed.

Lemma feeds_inv h m m' : Inv m -> feeds m h = Ok m' -> Inv m' /\ extends m m'.
Proof. intros HI E. pose proof (feeds_grown h m HI) as H. rewrite E in H. exact H. Qed.

Theorem run_never_out_of_fuel h : run h <> Fuel.
Proof.
  unfold run. pose proof (feeds_grown h fm0 Inv_fm0) as H.
  destruct (feeds fm0 h); [discriminate | discriminate | contradiction].
Qed.

Lemma feeds_patch_pres (P : list (bytes * list gen) -> Prop) (G : gen -> bool) :
  (forall m t g, P (patch m) -> G g = true -> g_name g = None \/ beqb (g_ip g) [] = false ->
                 P (patch (add_patch m t g))) ->
  forall h m m', P (patch m) -> forallb (forallb G) h = true -> feeds m h = Ok m' -> P (patch m').
Proof.
  intros HP h m m' Hm Hw E.
  pose proof (feeds_walk (fun _ x => P (patch x)) G (fun _ => HP) (fun _ x n c H _ => H)
    (fun _ x n c idx fuel H _ _ => H) (fun _ x n c idx fuel rn k' H _ _ => H) h [] m Hm Hw) as H.
  rewrite E in H. exact H.
Qed.

Lemma build_names m : map fst (build m) = map fst (files m).
Proof.
  unfold build. rewrite map_map. apply map_ext. intros [n c]. reflexivity.
Qed.

Lemma output_names_unique h outs : run h = Ok outs -> NoDup (map fst outs).
Proof.
  unfold run. destruct (feeds fm0 h) as [m| |] eqn:E; [|discriminate|discriminate].
  intros [= <-]. rewrite build_names. apply feeds_inv in E; [|apply Inv_fm0]. apply E.
Qed.

Lemma never_overwritten h1 h2 m1 m2 :
  feeds fm0 h1 = Ok m1 -> feeds m1 h2 = Ok m2 ->
  forall i f, nth_error (files m1) i = Some f -> nth_error (files m2) i = Some f.
Proof.
  intros E1 E2 i f Hn.
  apply feeds_inv in E1; [|apply Inv_fm0]. destruct E1 as [HI _].
  apply feeds_inv in E2; [|assumption]. destruct E2 as [_ [extra ->]].
  rewrite nth_error_app1; [assumption|]. apply nth_error_Some. congruence.
Qed.

Lemma feeds_app h1 : forall h2 m, feeds m (h1 ++ h2) =
  match feeds m h1 with Ok m1 => feeds m1 h2 | Err => Err | Fuel => Fuel end.
Proof.
  induction h1 as [|x h1 IH]; intros h2 m; cbn [feeds app]; [reflexivity|].
  destruct (feed m x); [apply IH | reflexivity | reflexivity].
Qed.

Lemma unnamed_first_is_error m g rest :
  g_name g = None -> feed m (g :: rest) = Err.
Proof. intro H. unfold feed. cbn. rewrite H. reflexivity. Qed.

Lemma named_patch_without_target_is_error m n ip c rest :
  ip <> [] -> lookup n (index m) = None -> feed m (Np n ip c :: rest) = Err.
Proof.
  intros Hip Hl. unfold feed. cbn. rewrite Hl.
  assert (beqb ip [] = false) as -> by (apply beqb_false; assumption). reflexivity.
Qed.

Lemma new_name_appended f m n c rest last :
  lookup n (index m) = None ->
  feed_items (S f) m last (Fl n c :: rest) = feed_items f (add_file m n c) n rest.
Proof. intro Hl. cbn. rewrite Hl. reflexivity. Qed.

Lemma identical_resubmission_dropped f m n c rest last idx :
  lookup n (index m) = Some idx -> content_at m idx = c ->
  feed_items (S f) m last (Fl n c :: rest) = feed_items f m last (drop_unnamed rest).
Proof.
  intros Hl Hc. cbn. rewrite Hl. cbn.
  replace (get_count m n + List.length (files m) + 2) with (S (get_count m n + List.length (files m) + 1)) by lia.
  cbn. rewrite Hc, beqb_refl. reflexivity.
Qed.

Lemma conflicting_resubmission_kept f m n c rest last idx rn k' :
  lookup n (index m) = Some idx ->
  probe (get_count m n + List.length (files m) + 2) m n c idx 1 (get_count m n) = Fresh rn k' ->
  lookup rn (index m) = None /\
  feed_items (S f) m last (Fl n c :: rest) =
    feed_items f (mkfm (files m ++ [(rn, c)]) (patch m) (update rn (List.length (files m)) (index m))
                       (update n k' (count m)) (update rn n (origin m))) rn rest.
Proof.
  intros Hl Hp. split; [eapply probe_fresh; eassumption|].
  cbn. rewrite Hl. cbn. rewrite Hp. reflexivity.
Qed.

Definition patch_text (k : bytes) (ps : list gen) : bytes :=
  List.concat (map g_content (filter (fun p => beqb (marker (g_ip p)) k) ps)).

Lemma lookup_add_pair_same pairs k v :
  lookup k (add_pair pairs k v) =
    Some (match lookup k pairs with Some old => old ++ v | None => v end).
Proof. unfold add_pair. destruct (lookup k pairs); apply lookup_update_same. Qed.

Lemma lookup_add_pair_other pairs k k' v :
  k <> k' -> lookup k' (add_pair pairs k v) = lookup k' pairs.
Proof. intro H. unfold add_pair. destruct (lookup k pairs); apply lookup_update_other; assumption. Qed.

Lemma patch_text_cons k p ps :
  patch_text k (p :: ps) =
  (if beqb (marker (g_ip p)) k then g_content p else []) ++ patch_text k ps.
Proof.
  unfold patch_text. cbn [filter]. destruct (beqb (marker (g_ip p)) k); reflexivity.
Qed.

Lemma patch_fold_lookup ps : forall pairs k,
  lookup k (fold_left (fun acc p => add_pair acc (marker (g_ip p)) (g_content p)) ps pairs) =
  match lookup k pairs with
  | Some old => Some (old ++ patch_text k ps)
  | None => if existsb (fun p => beqb (marker (g_ip p)) k) ps then Some (patch_text k ps) else None
  end.
Proof.
  induction ps as [|p ps IH]; intros pairs k; cbn [fold_left existsb].
  - unfold patch_text; cbn [filter map List.concat]. destruct (lookup k pairs); [rewrite app_nil_r|]; reflexivity.
  - rewrite IH, patch_text_cons.
    destruct (beqb (marker (g_ip p)) k) eqn:E.
    + apply beqb_true in E. subst k. rewrite lookup_add_pair_same. cbn [orb].
      destruct (lookup (marker (g_ip p)) pairs); rewrite ?app_assoc; reflexivity.
    + apply beqb_false in E. rewrite lookup_add_pair_other by assumption. cbn [orb app].
      destruct (lookup k pairs); reflexivity.
Qed.

Fixpoint no_key_anywhere (pairs : list (bytes * bytes)) (s : bytes) : Prop :=
  match s with
  | [] => True
  | _ :: r => first_match pairs s = None /\ no_key_anywhere pairs r
  end.

Lemma replace_no_key pairs s : no_key_anywhere pairs s -> replace pairs s = s.
Proof.
  unfold replace. induction s as [|c s IH]; cbn; [reflexivity|].
  intros [H1 H2]. rewrite H1. f_equal. apply IH; assumption.
Qed.

Lemma replace_go_skip pairs : forall n s, replace_go pairs n s = replace_go pairs 0 (skipn n s).
Proof.
  induction n as [|n IH]; intros s; [reflexivity|].
  destruct s as [|c s]; [reflexivity|]. cbn. apply IH.
Qed.

Lemma first_match_prefix pairs s k v : first_match pairs s = Some (k, v) -> exists r, s = k ++ r.
Proof.
  induction pairs as [|[k' v'] pairs IH]; cbn; [discriminate|].
  destruct (is_prefix k' s) eqn:E; [|apply IH].
  intros [= -> ->]. apply is_prefix_spec; assumption.
Qed.

Lemma replace_step pairs k v rest :
  k <> [] -> first_match pairs (k ++ rest) = Some (k, v) ->
  replace pairs (k ++ rest) = v ++ replace pairs rest.
Proof.
  intros Hk Hm. unfold replace. destruct k as [|c k]; [congruence|].
  cbn [app replace_go]. cbn [app] in Hm. rewrite Hm. f_equal.
  rewrite replace_go_skip. cbn [List.length]. rewrite Nat.sub_succ, Nat.sub_0_r.
  rewrite skipn_app, skipn_all, Nat.sub_diag. reflexivity.
Qed.

Lemma replace_cons_nomatch pairs c s :
  first_match pairs (c :: s) = None -> replace pairs (c :: s) = c :: replace pairs s.
Proof. unfold replace. cbn. intros ->. reflexivity. Qed.

Lemma lookup_fold_update_keys ks : forall (acc : list (bytes * bytes)) k,
  In k ks \/ lookup k acc <> None ->
  lookup k (fold_left (fun a x => update x [] a) ks acc) <> None.
Proof.
  induction ks as [|x ks IH]; intros acc k; cbn.
  - intros [[]|H]; assumption.
  - intros H. apply IH.
    destruct (list_eq_dec Byte.byte_eq_dec x k) as [->|Hne].
    + right. rewrite lookup_update_same. discriminate.
    + destruct H as [[H|H]|H]; [congruence | left; assumption | right].
      rewrite lookup_update_other by assumption. assumption.
Qed.

Lemma found_marker_is_key content k :
  In k (find_markers content) -> lookup k (init_pairs content) <> None.
Proof. intro H. unfold init_pairs. apply lookup_fold_update_keys. left; assumption. Qed.

(* Bookkeeping: the declarative bookkeeping of kept files (the property oracle of Corr/C12.v, written without
   reference to index / count / origin or the rename walk) holds of the model on EVERY history:
   run h = Ok outs  ->  bookkeeping (file_items h) outs [] = true.
   Walking the submitted file items in order, an item (n, c) is dropped iff an earlier kept item
   has content c and was submitted as n or ended up named n; otherwise it is the next output
   file, named n when no earlier output has that name and under a name no earlier output has. *)

(* a kept entry: submitted name, final name, content *)
Definition kent := (bytes * bytes * bytes)%type.
Definition k_sub (k : kent) := fst (fst k).
Definition k_fin (k : kent) := snd (fst k).
Definition k_con (k : kent) := snd k.

Definition idx_of (m : fm) (rn : bytes) : nat :=
  match lookup rn (index m) with Some i => i | None => 0 end.

(* the invariant tying the model state [m] to the declarative list [K] of kept entries, newest first *)
Record tied (m : fm) (K : list kent) : Prop := mk_tied {
  tied_inv   : Inv m;
  tied_files : files m = map (fun k => (k_fin k, k_con k)) (rev K);
  tied_idx   : forall n i, lookup n (index m) = Some i -> exists c, nth_error (files m) i = Some (n, c);
  tied_sub   : forall k, In k K -> lookup (k_sub k) (index m) <> None;
  tied_sib   : forall k, In k K -> k_fin k <> k_sub k ->
              lookup (k_fin k) (origin m) = Some (k_sub k) /\
              exists j, 1 <= j <= get_count m (k_sub k) /\ k_fin k = renamed (k_sub k) j;
  tied_origin : forall rn s, lookup rn (origin m) = Some s -> exists c, In (s, rn, c) K
}.

Lemma tied_fm0 : tied fm0 [].
Proof.
  constructor.
  - apply Inv_fm0.
  - reflexivity.
  - intros n i H. discriminate.
  - intros k [].
  - intros k [].
  - intros rn s H. discriminate.
Qed.

Lemma tied_add_patch m K t g : tied m K -> tied (add_patch m t g) K.
Proof. intros [H1 H2 H3 H4 H5 H6]. constructor; [apply Inv_add_patch; assumption | assumption ..]. Qed.

Lemma tied_names m K : tied m K -> map fst (files m) = map k_fin (rev K).
Proof. intros HJ. rewrite (tied_files _ _ HJ), map_map. reflexivity. Qed.

Lemma tied_fin_in m K k : tied m K -> In k K -> lookup (k_fin k) (index m) <> None.
Proof.
  intros HJ Hk. destruct (tied_inv _ _ HJ) as [_ H2]. intro Hn. apply H2 in Hn. apply Hn.
  rewrite (tied_names _ _ HJ). apply in_map. apply in_rev in Hk. exact Hk.
Qed.

Lemma tied_entry_at m K k : tied m K -> In k K ->
  nth_error (files m) (idx_of m (k_fin k)) = Some (k_fin k, k_con k).
Proof.
  intros HJ Hk. unfold idx_of.
  destruct (lookup (k_fin k) (index m)) as [i|] eqn:El; [|exfalso; eapply tied_fin_in; eassumption].
  destruct (tied_idx _ _ HJ _ _ El) as [c Hc]. rewrite Hc. f_equal. f_equal.
  (* the entry (k_fin k, k_con k) is in files; names are unique *)
  assert (Hin : In (k_fin k, k_con k) (files m)).
  { rewrite (tied_files _ _ HJ). apply in_map_iff. exists k. split; [reflexivity | apply in_rev in Hk; exact Hk]. }
  assert (Hin2 : In (k_fin k, c) (files m)) by (eapply nth_error_In; exact Hc).
  destruct (tied_inv _ _ HJ) as [Hnd _].
  pose proof (lookup_NoDup_In _ _ _ Hnd Hin) as L. rewrite (lookup_NoDup_In _ _ _ Hnd Hin2) in L. congruence.
Qed.

Lemma content_at_entry m K k : tied m K -> In k K -> content_at m (idx_of m (k_fin k)) = k_con k.
Proof. intros HJ Hk. unfold content_at. rewrite (tied_entry_at _ _ _ HJ Hk). reflexivity. Qed.

Lemma tied_entry_of_index m K n i : tied m K -> lookup n (index m) = Some i ->
  exists k, In k K /\ k_fin k = n /\ content_at m i = k_con k.
Proof.
  intros HJ Hl. destruct (tied_idx _ _ HJ _ _ Hl) as [c Hc].
  assert (Hin : In (n, c) (files m)) by (eapply nth_error_In; exact Hc).
  rewrite (tied_files _ _ HJ) in Hin. apply in_map_iff in Hin. destruct Hin as [k [Hk Hin]].
  exists k. injection Hk as <- <-. split; [apply in_rev; exact Hin|]. split; [reflexivity|].
  unfold content_at. rewrite Hc. reflexivity.
Qed.

Definition own_sibling (m : fm) (n rn : bytes) : bool :=
  match lookup rn (origin m) with Some o => beqb o n | None => false end.

Lemma probe_dup fuel : forall m n c idx cnt k,
  probe fuel m n c idx cnt k = Dup ->
  content_at m idx = c \/
  exists j, cnt <= j <= k /\ own_sibling m n (renamed n j) = true /\
            content_at m (idx_of m (renamed n j)) = c.
Proof.
  induction fuel as [|f IH]; intros m n c idx cnt k; cbn [probe]; [discriminate|].
  destruct (beqb (content_at m idx) c) eqn:Ec; [intros _; left; apply beqb_true; exact Ec|].
  destruct (Nat.ltb_spec k cnt) as [Hlt|Hge].
  - destruct (lookup (renamed n cnt) (index m)); [|discriminate].
    intro H. apply IH in H. destruct H as [H|[j [Hj _]]]; [apply beqb_false in Ec; congruence | lia].
  - intro H. apply IH in H. destruct H as [H|[j [Hj [Ho Hcj]]]].
    + (* the index the walk moved to *)
      destruct (lookup (renamed n cnt) (origin m)) as [o|] eqn:Eo.
      * destruct (beqb o n) eqn:Eb.
        -- right. exists cnt. split; [lia|]. split; [unfold own_sibling; rewrite Eo; exact Eb|].
           unfold idx_of. exact H.
        -- apply beqb_false in Ec. congruence.
      * apply beqb_false in Ec. congruence.
    + right. exists j. split; [lia|]. split; assumption.
Qed.

Lemma probe_fresh_facts fuel : forall m n c idx cnt k rn k',
  cnt <= S k ->
  probe fuel m n c idx cnt k = Fresh rn k' ->
  content_at m idx <> c /\
  (forall j, cnt <= j <= k -> own_sibling m n (renamed n j) = true ->
             content_at m (idx_of m (renamed n j)) <> c) /\
  rn = renamed n k' /\ k < k'.
Proof.
  induction fuel as [|f IH]; intros m n c idx cnt k rn k' Hck; cbn [probe]; [discriminate|].
  destruct (beqb (content_at m idx) c) eqn:Ec; [discriminate|]. apply beqb_false in Ec.
  destruct (Nat.ltb_spec k cnt) as [Hlt|Hge].
  - destruct (lookup (renamed n cnt) (index m)) eqn:El.
    + intro H. apply IH in H; [|lia]. destruct H as [_ [_ [H3 H5]]].
      split; [exact Ec|]. split; [intros j Hj; lia|]. split; [exact H3 | lia].
    + intros [= <- <-]. split; [exact Ec|]. split; [intros j Hj; lia|].
      assert (cnt = S k) as -> by lia. split; [reflexivity | lia].
  - intro H. apply IH in H; [|lia]. destruct H as [H1 [H2 H3]].
    split; [exact Ec|]. split; [|exact H3].
    intros j Hj Ho. destruct (Nat.eq_dec j cnt) as [->|Hne]; [|apply H2; [lia | exact Ho]].
    (* at j = cnt the walk moved to that sibling and compared it on the next round *)
    unfold own_sibling in Ho. destruct (lookup (renamed n cnt) (origin m)) as [o|] eqn:Eo; [|discriminate].
    rewrite Ho in H1. unfold idx_of. exact H1.
Qed.

(* the two tests that [bookkeeping] of Corr/C12.v makes against the entries kept so far: [hit n c] is "has content
   [c] and was submitted as [n] or ended up named [n]" (then the item is dropped), [fin_is x] is "ended up named [x]" *)
Definition hit (n c : bytes) (k : kent) : bool :=
  let '(sub, fin, kc) := k in beqb kc c && (beqb sub n || beqb fin n).
Definition fin_is (x : bytes) (k : kent) : bool := let '(_, f, _) := k in beqb f x.

Lemma bookkeeping_cons n c rest outs K :
  bookkeeping ((n, c) :: rest) outs K =
  if existsb (hit n c) K then bookkeeping rest outs K
  else match outs with
       | [] => false
       | (fin, _) :: outs' =>
         if existsb (fin_is fin) K then false
         else if negb (existsb (fin_is n) K) && negb (beqb fin n) then false
         else bookkeeping rest outs' ((n, fin, c) :: K)
       end.
Proof. reflexivity. Qed.

Lemma hit_true n c K : existsb (hit n c) K = true <->
  exists k, In k K /\ k_con k = c /\ (k_sub k = n \/ k_fin k = n).
Proof.
  assert (H : forall k, hit n c k = true <-> k_con k = c /\ (k_sub k = n \/ k_fin k = n)).
  { intros [[s f] kc]. unfold hit, k_con, k_sub, k_fin. cbn [fst snd].
    rewrite andb_true_iff, orb_true_iff, !beqb_true. reflexivity. }
  rewrite existsb_exists. setoid_rewrite H. reflexivity.
Qed.

Lemma fin_is_true x K : existsb (fin_is x) K = true <-> exists k, In k K /\ k_fin k = x.
Proof.
  assert (H : forall k, fin_is x k = true <-> k_fin k = x) by (intros [[s f] kc]; apply beqb_true).
  rewrite existsb_exists. setoid_rewrite H. reflexivity.
Qed.

Lemma not_in_files_no_fin m K x : tied m K -> lookup x (index m) = None -> existsb (fin_is x) K = false.
Proof.
  intros HJ Hl. destruct (existsb (fin_is x) K) eqn:E; [|reflexivity].
  apply fin_is_true in E. destruct E as [k [Hk Hf]]. exfalso.
  apply (tied_fin_in _ _ _ HJ Hk). rewrite Hf. exact Hl.
Qed.

Lemma tied_add_new m K n c : tied m K -> lookup n (index m) = None -> tied (add_file m n c) ((n, n, c) :: K).
Proof.
  intros HJ Hl. destruct HJ as [H1 H2 H3 H4 H5 H6]. constructor; cbn [files index count origin add_file].
  - apply Inv_add_file; assumption.
  - cbn [rev]. rewrite map_app, <- H2. reflexivity.
  - intros x i Hx. destruct (list_eq_dec Byte.byte_eq_dec n x) as [->|Hne].
    + rewrite lookup_update_same in Hx. injection Hx as <-. exists c.
      rewrite nth_error_app2, Nat.sub_diag by lia. reflexivity.
    + rewrite lookup_update_other in Hx by assumption. destruct (H3 _ _ Hx) as [c' Hc'].
      exists c'. rewrite nth_error_app1; [exact Hc' | apply nth_error_Some; congruence].
  - intros k [<-|Hk]; cbn.
    + rewrite lookup_update_same. discriminate.
    + destruct (list_eq_dec Byte.byte_eq_dec n (k_sub k)) as [->|Hne];
        [rewrite lookup_update_same; discriminate | rewrite lookup_update_other by assumption; apply H4; exact Hk].
  - intros k [<-|Hk] Hne; [cbn in Hne; congruence|]. apply H5; assumption.
  - intros rn s Hrn. destruct (H6 _ _ Hrn) as [c' Hc']. exists c'. right. exact Hc'.
Qed.

Lemma tied_add_renamed m K n c rn k' :
  tied m K -> lookup n (index m) <> None -> lookup rn (index m) = None ->
  rn = renamed n k' -> get_count m n < k' ->
  tied (mkfm (files (add_file m rn c)) (patch (add_file m rn c)) (index (add_file m rn c))
          (update n k' (count (add_file m rn c))) (update rn n (origin (add_file m rn c))))
    ((n, rn, c) :: K).
Proof.
  intros HJ Hn Hrn Heq Hk. pose proof (tied_add_new m K rn c HJ Hrn) as HA.
  destruct HJ as [H1 H2 H3 H4 H5 H6]. destruct HA as [A1 A2 A3 A4 A5 A6].
  constructor; cbn [files index count origin patch add_file] in *.
  - apply (Inv_set_count_origin (add_file m rn c)). exact A1.
  - cbn [rev]. rewrite map_app, <- H2. reflexivity.
  - exact A3.
  - intros k [<-|Hk']; cbn.
    + destruct (list_eq_dec Byte.byte_eq_dec rn n) as [->|Hne]; [rewrite lookup_update_same; discriminate|].
      rewrite lookup_update_other by assumption. exact Hn.
    + apply (A4 k). right. exact Hk'.
  - intros k [<-|Hk'] Hne; cbn [k_fin k_sub fst snd] in *.
    + split; [apply lookup_update_same|]. exists k'. unfold get_count. cbn [count].
      rewrite lookup_update_same. split; [lia | exact Heq].
    + destruct (H5 k Hk' Hne) as [Ho [j [Hj Hf]]].
      assert (Hfr : k_fin k <> rn).
      { intro E. apply (tied_fin_in m K k (mk_tied m K H1 H2 H3 H4 H5 H6) Hk'). rewrite E. exact Hrn. }
      split; [rewrite lookup_update_other by congruence; exact Ho|].
      exists j. split; [|exact Hf].
      destruct (list_eq_dec Byte.byte_eq_dec n (k_sub k)) as [E|Hns].
      * rewrite <- E in *. unfold get_count at 1. cbn [count]. rewrite lookup_update_same. lia.
      * unfold get_count. cbn [count]. rewrite lookup_update_other by assumption. exact Hj.
  - intros x s Hx. destruct (list_eq_dec Byte.byte_eq_dec rn x) as [<-|Hne].
    + rewrite lookup_update_same in Hx. injection Hx as <-. exists c. left. reflexivity.
    + rewrite lookup_update_other in Hx by assumption. destruct (H6 _ _ Hx) as [c' Hc']. exists c'. right. exact Hc'.
Qed.

(* [booked d names K]: the bookkeeping walk over the file items [d] consumes exactly outputs named [names] and
   arrives at the kept list [K]. A statement about the items so far, so it composes over Feed calls by itself. *)
Definition booked (d : list (bytes * bytes)) (names : list bytes) (K : list kent) : Prop :=
  forall rest outs tail, map fst outs = names ->
    bookkeeping (d ++ rest) (outs ++ tail) [] = bookkeeping rest tail K.

Lemma booked_drop d names K n c :
  booked d names K -> existsb (hit n c) K = true -> booked (d ++ [(n, c)]) names K.
Proof.
  intros Hb Hh rest outs tail Ho. rewrite <- app_assoc, (Hb _ _ _ Ho). cbn [app].
  rewrite bookkeeping_cons, Hh. reflexivity.
Qed.

Lemma booked_keep d names K n fin c :
  booked d names K -> existsb (hit n c) K = false -> existsb (fin_is fin) K = false ->
  existsb (fin_is n) K = true \/ fin = n ->
  booked (d ++ [(n, c)]) (names ++ [fin]) ((n, fin, c) :: K).
Proof.
  intros Hb Hh Hf Hn rest outs tail Ho. apply map_eq_app in Ho. destruct Ho as [o1 [o2 [-> [H1 H2]]]].
  destruct o2 as [|[fin' x] [|]]; try discriminate. injection H2 as ->.
  rewrite <- !app_assoc, (Hb _ _ _ H1). cbn [app]. rewrite bookkeeping_cons, Hh, Hf.
  destruct Hn as [->| ->]; [|rewrite beqb_refl, andb_false_r]; reflexivity.
Qed.

Definition kept (d : list (bytes * bytes)) (m : fm) : Prop :=
  exists K, tied m K /\ booked d (map fst (files m)) K.

Lemma kept_new d m n c : kept d m -> lookup n (index m) = None -> kept (d ++ [(n, c)]) (add_file m n c).
Proof.
  intros [K [HJ Hb]] El. exists ((n, n, c) :: K). split; [apply tied_add_new; assumption|].
  cbn [files add_file]. rewrite map_app.
  apply booked_keep; [exact Hb | | eapply not_in_files_no_fin; eassumption | right; reflexivity].
  destruct (existsb (hit n c) K) eqn:E; [|reflexivity]. exfalso.
  apply hit_true in E. destruct E as [k [Hk [_ [Hs|Hf]]]].
  - apply (tied_sub _ _ HJ k Hk). rewrite Hs. exact El.
  - apply (tied_fin_in _ _ _ HJ Hk). rewrite Hf. exact El.
Qed.

Lemma kept_dup d m n c idx fuel : kept d m -> lookup n (index m) = Some idx ->
  probe fuel m n c idx 1 (get_count m n) = Dup -> kept (d ++ [(n, c)]) m.
Proof.
  intros [K [HJ Hb]] El Ep. exists K. split; [exact HJ|]. apply booked_drop; [exact Hb|].
  apply hit_true. apply probe_dup in Ep. destruct Ep as [Hc|[j [Hj [Ho Hc]]]].
  - destruct (tied_entry_of_index _ _ _ _ HJ El) as [k [Hk [Hf Hcc]]].
    exists k. split; [exact Hk|]. split; [congruence | right; exact Hf].
  - unfold own_sibling in Ho. destruct (lookup (renamed n j) (origin m)) as [o|] eqn:Eo; [|discriminate].
    apply beqb_true in Ho. subst o. destruct (tied_origin _ _ HJ _ _ Eo) as [c' Hc'].
    exists (n, renamed n j, c'). split; [exact Hc'|]. split; [|left; reflexivity].
    rewrite <- (content_at_entry _ _ _ HJ Hc'). exact Hc.
Qed.

Lemma kept_renamed d m n c idx fuel rn k' : kept d m -> lookup n (index m) = Some idx ->
  probe fuel m n c idx 1 (get_count m n) = Fresh rn k' ->
  kept (d ++ [(n, c)]) (mkfm (files (add_file m rn c)) (patch (add_file m rn c)) (index (add_file m rn c))
                             (update n k' (count (add_file m rn c))) (update rn n (origin (add_file m rn c)))).
Proof.
  intros [K [HJ Hb]] El Ep. pose proof (probe_fresh _ _ _ _ _ _ _ _ _ Ep) as P5.
  apply probe_fresh_facts in Ep; [|lia]. destruct Ep as [P1 [P2 [P3 P4]]].
  exists ((n, rn, c) :: K). split; [apply tied_add_renamed; [exact HJ | congruence | exact P5 | exact P3 | exact P4]|].
  cbn [files add_file]. rewrite map_app.
  apply booked_keep; [exact Hb | | eapply not_in_files_no_fin; eassumption | left].
  - assert (Hat : forall k, In k K -> k_fin k = n -> content_at m idx = k_con k).
    { intros k Hk Hf. pose proof (content_at_entry _ _ _ HJ Hk) as E.
      rewrite Hf in E. unfold idx_of in E. rewrite El in E. exact E. }
    destruct (existsb (hit n c) K) eqn:E; [|reflexivity]. exfalso.
    apply hit_true in E. destruct E as [k [Hk [Hc [Hs|Hf]]]].
    + destruct (list_eq_dec Byte.byte_eq_dec (k_fin k) (k_sub k)) as [Hfs|Hfs].
      * apply P1. rewrite (Hat k Hk); [exact Hc | congruence].
      * destruct (tied_sib _ _ HJ _ Hk Hfs) as [Ho [j [Hj Hfj]]]. rewrite Hs in *.
        apply (P2 j); [lia | unfold own_sibling; rewrite <- Hfj, Ho; apply beqb_refl |].
        rewrite <- Hfj, (content_at_entry _ _ _ HJ Hk). exact Hc.
    + apply P1. rewrite (Hat k Hk Hf). exact Hc.
  - apply fin_is_true. destruct (tied_entry_of_index _ _ _ _ HJ El) as [k2 [Hk2 [Hf2 _]]]. exists k2. auto.
Qed.

Theorem model_satisfies_bookkeeping h outs :
  run h = Ok outs -> bookkeeping (file_items h) outs [] = true.
Proof.
  unfold run.
  assert (W : match feeds fm0 h with Ok m => kept (file_items h) m | Err => True | Fuel => starved kept end).
  { refine (feeds_walk kept (fun _ => true) _ kept_new kept_dup kept_renamed h [] fm0 _ (all_true h));
      [|exists []; split; [exact tied_fm0|]].
    - intros d m t g [K [HJ Hb]] _ _. exists K. split; [apply tied_add_patch, HJ | exact Hb].
    - intros rest o tail Ho. apply map_eq_nil in Ho. subst o. reflexivity. }
  destruct (feeds fm0 h) as [m| |]; [|discriminate|discriminate]. intros [= <-]. destruct W as [K [_ Hb]].
  rewrite <- (app_nil_r (file_items h)), <- (app_nil_r (build m)). apply (Hb [] (build m) []), build_names.
Qed.
