(* Gen/Determinism.v — when a result does not depend on the order of a map's entries (C07).
   Go map iteration delivers the entries of a map in an arbitrary order chosen by the
   runtime: an emitter that consumes a map sees SOME permutation of its entries.  Three cases in
   which the result is the same for every permutation: the entries are sorted by distinct keys
   first (insertion sort over any total order; [lex_leb] of Gen/FileManager.v, the order of
   sort.Strings, is one); they are folded with a commuting step; they are the pairs of
   [FileManager.replace] with distinct, prefix-free keys (insertion-point markers are such keys). *)
From Coq Require Import List Arith Bool Lia NArith Permutation Sorted.
From Coq.Strings Require Import Byte.
From Verif Require Import Base.Bytes Gen.FileManager.
Import ListNotations.

Section Sorting.
  Variable A : Type.
  Variable leb : A -> A -> bool.
  Hypothesis leb_total : forall x y, leb x y = true \/ leb y x = true.
  Hypothesis leb_trans : forall x y z, leb x y = true -> leb y z = true -> leb x z = true.
  (* keys are distinct: two different elements are never equivalent *)
  Hypothesis leb_antisym : forall x y, leb x y = true -> leb y x = true -> x = y.

  Fixpoint insert (x : A) (l : list A) : list A :=
    match l with
    | [] => [x]
    | y :: r => if leb x y then x :: l else y :: insert x r
    end.
  Fixpoint isort (l : list A) : list A :=
    match l with [] => [] | x :: r => insert x (isort r) end.

  Definition le (x y : A) : Prop := leb x y = true.

  Lemma insert_perm x l : Permutation (x :: l) (insert x l).
  Proof.
    induction l as [|y r IH]; cbn; [reflexivity|].
    destruct (leb x y); [reflexivity|].
    rewrite perm_swap. constructor. exact IH.
  Qed.

  Lemma isort_perm l : Permutation l (isort l).
  Proof.
    induction l as [|x r IH]; cbn; [reflexivity|].
    rewrite <- insert_perm. constructor. exact IH.
  Qed.

  Lemma insert_sorted x l : StronglySorted le l -> StronglySorted le (insert x l).
  Proof.
    induction l as [|y r IH]; cbn; intro H.
    - constructor; constructor.
    - inversion H as [|? ? Hr Hy]; subst.
      destruct (leb x y) eqn:E.
      + constructor; [assumption|]. constructor; [exact E|].
        rewrite Forall_forall in *. intros z Hz. eapply leb_trans; [exact E | apply Hy; assumption].
      + constructor; [apply IH; assumption|].
        assert (Hyx : le y x) by (destruct (leb_total x y) as [H1|H1]; [congruence | exact H1]).
        rewrite Forall_forall in *. intros z Hz.
        apply (Permutation_in _ (Permutation_sym (insert_perm x r))) in Hz.
        destruct Hz as [<-|Hz]; [exact Hyx | apply Hy; assumption].
  Qed.

  Lemma isort_sorted l : StronglySorted le (isort l).
  Proof. induction l as [|x r IH]; cbn; [constructor | apply insert_sorted; exact IH]. Qed.

  Lemma sorted_perm_eq l : forall l', StronglySorted le l -> StronglySorted le l' ->
    Permutation l l' -> l = l'.
  Proof.
    induction l as [|x r IH]; intros l' Hs Hs' Hp.
    - apply Permutation_nil in Hp. subst; reflexivity.
    - destruct l' as [|y r']; [apply Permutation_sym, Permutation_nil in Hp; discriminate|].
      inversion Hs as [|? ? Hr Hx]; subst. inversion Hs' as [|? ? Hr' Hy]; subst.
      assert (x = y) as ->.
      { rewrite Forall_forall in Hx, Hy.
        assert (Hin1 : In x (y :: r')) by (eapply Permutation_in; [exact Hp | left; reflexivity]).
        assert (Hin2 : In y (x :: r)) by (eapply Permutation_in; [apply Permutation_sym; exact Hp | left; reflexivity]).
        destruct Hin1 as [->|Hin1]; [reflexivity|].
        destruct Hin2 as [->|Hin2]; [reflexivity|].
        apply leb_antisym; [apply Hx; assumption | apply Hy; assumption]. }
      f_equal. apply IH; try assumption. eapply Permutation_cons_inv; exact Hp.
  Qed.

  Theorem sort_then_emit_perm_invariant (B : Type) (emit : list A -> B) l l' :
    Permutation l l' -> emit (isort l) = emit (isort l').
  Proof.
    intro Hp. f_equal. apply sorted_perm_eq; try apply isort_sorted.
    rewrite <- (isort_perm l), <- (isort_perm l'). exact Hp.
  Qed.
End Sorting.

Lemma byte_eqb_sym a b : Byte.eqb a b = Byte.eqb b a.
Proof.
  destruct (Byte.eqb b a) eqn:E; [apply byte_eqb_eq in E; subst; apply byte_eqb_refl|].
  destruct (Byte.eqb a b) eqn:E'; [|reflexivity]. apply byte_eqb_eq in E'. subst. rewrite byte_eqb_refl in E. discriminate.
Qed.

Lemma byte_eqb_false a b : Byte.eqb a b = false -> a <> b.
Proof. intros H E. subst. rewrite byte_eqb_refl in H. discriminate. Qed.

Lemma to_N_inj a b : Byte.to_N a = Byte.to_N b -> a = b.
Proof.
  intro H. pose proof (Byte.of_to_N a) as Ha. pose proof (Byte.of_to_N b) as Hb.
  rewrite H in Ha. congruence.
Qed.

Lemma lex_total x : forall y, lex_leb x y = true \/ lex_leb y x = true.
Proof.
  induction x as [|a x IH]; intros y; [left; reflexivity|].
  destruct y as [|b y]; [right; reflexivity|]. cbn [lex_leb].
  destruct (Byte.eqb a b) eqn:E.
  - apply byte_eqb_eq in E. subst b. rewrite byte_eqb_refl. apply IH.
  - rewrite (byte_eqb_sym b a), E.
    unfold bleb. destruct (N.leb_spec (Byte.to_N a) (Byte.to_N b)); [left; reflexivity|].
    right. apply N.leb_le. lia.
Qed.

Lemma lex_antisym x : forall y, lex_leb x y = true -> lex_leb y x = true -> x = y.
Proof.
  induction x as [|a x IH]; intros y; destruct y as [|b y]; cbn [lex_leb]; try discriminate; [reflexivity|].
  destruct (Byte.eqb a b) eqn:E.
  - apply byte_eqb_eq in E. subst b. rewrite byte_eqb_refl. intros H1 H2. f_equal. apply IH; assumption.
  - rewrite (byte_eqb_sym b a), E.
    unfold bleb. intros H1 H2. apply N.leb_le in H1. apply N.leb_le in H2.
    exfalso. apply (byte_eqb_false _ _ E). apply to_N_inj. lia.
Qed.

Lemma lex_trans x : forall y z, lex_leb x y = true -> lex_leb y z = true -> lex_leb x z = true.
Proof.
  induction x as [|a x IH]; intros y z; [reflexivity|].
  destruct y as [|b y]; [discriminate|]. destruct z as [|c z]; [cbn [lex_leb]; intros _ H; discriminate H|].
  cbn [lex_leb].
  destruct (Byte.eqb a b) eqn:Eab.
  - apply byte_eqb_eq in Eab. subst b. destruct (Byte.eqb a c) eqn:Eac; [apply IH | intros _ H; exact H].
  - destruct (Byte.eqb b c) eqn:Ebc.
    + apply byte_eqb_eq in Ebc. subst c. rewrite Eab. intros H _. exact H.
    + unfold bleb. intros H1 H2. apply N.leb_le in H1. apply N.leb_le in H2.
      destruct (Byte.eqb a c) eqn:Eac.
      * apply byte_eqb_eq in Eac. subst c. exfalso. apply (byte_eqb_false _ _ Eab). apply to_N_inj. lia.
      * apply N.leb_le. lia.
Qed.

(* a fold whose step commutes is insensitive to the order (set/map insertion, counters, marks) *)
Section CommFold.
  Variables A S : Type.
  Variable step : S -> A -> S.
  Hypothesis step_comm : forall s x y, step (step s x) y = step (step s y) x.

  Theorem commutative_fold_perm_invariant l l' :
    Permutation l l' -> forall s, fold_left step l s = fold_left step l' s.
  Proof.
    induction 1 as [|x l l' Hp IH|x y l|l l' l'' H1 IH1 H2 IH2]; intros s; cbn.
    - reflexivity.
    - apply IH.
    - rewrite step_comm. reflexivity.
    - rewrite IH1. apply IH2.
  Qed.
End CommFold.

(* strings.NewReplacer over the pairs of a map: when no key is a prefix of another, at most one
   key matches at any position, so the order in which the pairs were listed is irrelevant *)
Definition prefix_free (ks : list bytes) : Prop :=
  forall a b, In a ks -> In b ks -> forall s, is_prefix a s = true -> is_prefix b s = true -> a = b.

Lemma first_match_In pairs s k v : first_match pairs s = Some (k, v) ->
  In (k, v) pairs /\ is_prefix k s = true.
Proof.
  induction pairs as [|[k' v'] pairs IH]; cbn; [discriminate|].
  destruct (is_prefix k' s) eqn:E.
  - intros [= -> ->]. split; [left; reflexivity | exact E].
  - intro H. apply IH in H. destruct H; split; [right|]; assumption.
Qed.

Lemma first_match_None pairs s : first_match pairs s = None ->
  forall k v, In (k, v) pairs -> is_prefix k s = false.
Proof.
  induction pairs as [|[k' v'] pairs IH]; cbn; [intros _ k v []|].
  destruct (is_prefix k' s) eqn:E; [discriminate|].
  intros H k v [Heq|Hin]; [|eapply IH; eassumption].
  assert (k = k') as -> by congruence. exact E.
Qed.

(* at most one key matches at a position, and an association list with distinct keys has one value for it *)
Lemma first_match_perm pairs pairs' s :
  NoDup (map fst pairs) -> prefix_free (map fst pairs) -> Permutation pairs pairs' ->
  first_match pairs s = first_match pairs' s.
Proof.
  intros Hnd Hpf Hperm.
  destruct (first_match pairs s) as [[k v]|] eqn:E1; destruct (first_match pairs' s) as [[k' v']|] eqn:E2; try reflexivity.
  - apply first_match_In in E1. apply first_match_In in E2. destruct E1 as [I1 P1], E2 as [I2 P2].
    apply (Permutation_in _ (Permutation_sym Hperm)) in I2.
    assert (k = k') as <-.
    { apply (Hpf k k') with (s := s); try assumption; apply in_map_iff; [exists (k, v) | exists (k', v')]; auto. }
    pose proof (lookup_NoDup_In _ _ _ Hnd I1) as L1. rewrite (lookup_NoDup_In _ _ _ Hnd I2) in L1. congruence.
  - apply first_match_In in E1. destruct E1 as [I1 P1].
    apply (Permutation_in _ Hperm) in I1.
    rewrite (first_match_None _ _ E2 k v I1) in P1. discriminate.
  - apply first_match_In in E2. destruct E2 as [I2 P2].
    apply (Permutation_in _ (Permutation_sym Hperm)) in I2.
    rewrite (first_match_None _ _ E1 k' v' I2) in P2. discriminate.
Qed.

Theorem replacer_perm_invariant pairs pairs' :
  NoDup (map fst pairs) -> prefix_free (map fst pairs) -> Permutation pairs pairs' ->
  forall s, replace pairs s = replace pairs' s.
Proof.
  intros Hnd Hpf Hperm s. unfold replace. generalize 0 as skip.
  induction s as [|c s IH]; intros skip; cbn [replace_go]; [reflexivity|].
  destruct skip as [|k]; [|apply IH].
  rewrite <- (first_match_perm pairs pairs' (c :: s) Hnd Hpf Hperm).
  destruct (first_match pairs (c :: s)) as [[k v]|]; rewrite IH; reflexivity.
Qed.

(* insertion-point markers end with ')' and their names never contain ')': they are prefix free *)
Definition no_rparen (s : bytes) : Prop := ~ In x29 s.

Lemma app_prefix_split {A} (a b c d : list A) : a ++ b = c ++ d ->
  exists t, (a = c ++ t /\ d = t ++ b) \/ (c = a ++ t /\ b = t ++ d).
Proof.
  revert c; induction a as [|x a IH]; intros c H; cbn in H.
  - exists c. right. split; [reflexivity | exact H].
  - destruct c as [|y c]; cbn in H.
    + exists (x :: a). left. split; [reflexivity | symmetry; exact H].
    + injection H as -> H. destruct (IH c H) as [t [[-> ->]|[-> ->]]]; exists t; [left|right]; split; reflexivity.
Qed.

Theorem markers_prefix_free (names : list bytes) :
  Forall no_rparen names -> prefix_free (map marker names).
Proof.
  intros Hall a b Ha Hb s Pa Pb.
  apply in_map_iff in Ha. destruct Ha as [na [<- Hna]].
  apply in_map_iff in Hb. destruct Hb as [nb [<- Hnb]].
  rewrite Forall_forall in Hall. pose proof (Hall na Hna) as Hra. pose proof (Hall nb Hnb) as Hrb.
  apply is_prefix_spec in Pa. apply is_prefix_spec in Pb. destruct Pa as [ra Ea], Pb as [rb Eb].
  unfold marker in *. rewrite Ea in Eb. rewrite <- !app_assoc in Eb.
  apply app_inv_head in Eb.
  (* na ++ ")" ++ ra = nb ++ ")" ++ rb with no ')' inside na, nb *)
  destruct (app_prefix_split _ _ _ _ Eb) as [t [[E1 E2]|[E1 E2]]].
  - destruct t as [|c t]; [rewrite app_nil_r in E1; subst; reflexivity|].
    cbn in E2. injection E2 as <- _. exfalso. apply Hra. rewrite E1. apply in_app_iff. right. left. reflexivity.
  - destruct t as [|c t]; [rewrite app_nil_r in E1; subst; reflexivity|].
    cbn in E2. injection E2 as <- _. exfalso. apply Hrb. rewrite E1. apply in_app_iff. right. left. reflexivity.
Qed.
