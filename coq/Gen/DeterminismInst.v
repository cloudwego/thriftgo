(* Gen/DeterminismInst.v — what C07 says about the repository at hand: string keys collected from a
   map in ANY iteration order and sorted yield one list, and the site list regenerated into
   Gen/MapSites.v is covered by the classification of Gen/SiteClasses.v. *)
From Coq Require Import List Bool Permutation String.
From Verif Require Import Base.Bytes Gen.FileManager Gen.Determinism Gen.MapSites Gen.SiteClasses.
Import ListNotations.

Theorem sorted_strings_deterministic (B : Type) (emit : list bytes -> B) (l l' : list bytes) :
  Permutation l l' -> emit (isort bytes lex_leb l) = emit (isort bytes lex_leb l').
Proof.
  apply (sort_then_emit_perm_invariant bytes lex_leb lex_total
           (fun x y z => lex_trans x y z) (fun x y => lex_antisym x y)).
Qed.

Lemma site_eqb_eq s x : site_eqb s x = true -> s = x.
Proof.
  destruct s as [[[a1 a2] a3] a4], x as [[[b1 b2] b3] b4]. unfold site_eqb.
  rewrite !andb_true_iff, !String.eqb_eq. intros [[[-> ->] ->] ->]. reflexivity.
Qed.

Lemma existsb_site_In s l : existsb (site_eqb s) l = true -> In s l.
Proof. intro H. apply existsb_exists in H as [x [Hx E]]. now rewrite (site_eqb_eq _ _ E). Qed.

(* everything C07 asks of a site, given its class: the class of each site is computed once *)
Definition site_checked (s : site) : bool :=
  match class_of s with
  | None => false
  | Some KnownOrderSensitive => existsb (site_eqb s) known_sensitive_sites
  | Some Sorted => existsb (site_eqb s) sorted_after_sites
  | Some _ => true
  end.

Lemma sites_checked : forallb site_checked map_sites = true.
Proof. vm_compute. reflexivity. Qed.

Lemma site_facts s : In s map_sites ->
  class_of s <> None /\
  (class_of s = Some KnownOrderSensitive -> In s known_sensitive_sites) /\
  (class_of s = Some Sorted -> existsb (site_eqb s) sorted_after_sites = true).
Proof.
  intro Hs. pose proof (proj1 (forallb_forall _ _) sites_checked s Hs) as H. unfold site_checked in H.
  destruct (class_of s) as [[]|]; try discriminate H;
    (split; [discriminate|]); split; try discriminate; intros _; auto using existsb_site_In.
Qed.
