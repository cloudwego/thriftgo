(* Gen/PluginFacts.v — proofs about the model Gen/Plugin.v (property C11), in this order:
   option strings (Pack / ParseCompactArguments give back what was packed); the trailer of a
   compressed request; include compression (what [compress_gen] keeps, under a sharing hypothesis, and
   that [decompress] undoes it on every well-formed graph, by the induction principle [ast_kids_ind]
   over trees and kid lists); the codec of request and response (each [enc_*] is read back by its
   [dec_*], through the bytes of Wire/Codec.v); the response reader [read_response] on the bytes of
   an encoded response; that [wf_request] makes a request encodable, also after compression; what
   thriftgo does with a plugin's answer ([outcome]); what each plugin of the loop is sent. *)
From Coq Require Import List Arith Bool Lia NArith ZArith Permutation.
From Coq.Strings Require Import Byte String.
From Verif Require Import Base.Bytes Base.BE Wire.TType Wire.WVal Wire.Codec Wire.CodecFacts Wire.Schema
  Wire.SchemaPlugin Idl.Ast Idl.AstFacts Gen.FileManager Gen.Plugin.
Import ListNotations.
Local Open Scope Z_scope.
Local Open Scope list_scope.

Ltac bsplit H := repeat match type of H with _ && _ = true => let H2 := fresh H in apply andb_true_iff in H as [H H2] end.
Ltac bsplit_all := repeat match goal with H : _ && _ = true |- _ => let H2 := fresh H in apply andb_true_iff in H as [H H2] end.

Lemma no_byte_app c a b : no_byte c (a ++ b) = no_byte c a && no_byte c b.
Proof. apply forallb_app. Qed.

Lemma split_first_none sep s : no_byte sep s = true -> split_first sep s = (s, None).
Proof.
  induction s as [|c r IH]; cbn; [reflexivity|].
  destruct (Byte.eqb c sep); [discriminate|]. intro Hr. rewrite IH by exact Hr. reflexivity.
Qed.

Lemma split_first_some sep a b : no_byte sep a = true -> split_first sep (a ++ sep :: b) = (a, Some b).
Proof.
  induction a as [|c r IH]; cbn.
  - intros _. rewrite (proj2 (byte_eqb_eq sep sep) eq_refl). reflexivity.
  - destruct (Byte.eqb c sep); [discriminate|]. intro Hr. rewrite IH by exact Hr. reflexivity.
Qed.

Lemma split_all_single sep s : no_byte sep s = true -> split_all sep s = [s].
Proof.
  induction s as [|c r IH]; cbn; [reflexivity|].
  destruct (Byte.eqb c sep); [discriminate|]. intro Hr. rewrite IH by exact Hr. reflexivity.
Qed.

Lemma split_all_cons sep a b : no_byte sep a = true -> split_all sep (a ++ sep :: b) = a :: split_all sep b.
Proof.
  induction a as [|c r IH]; cbn.
  - intros _. rewrite (proj2 (byte_eqb_eq sep sep) eq_refl). reflexivity.
  - destruct (Byte.eqb c sep); [discriminate|]. intro Hr. rewrite IH by exact Hr. reflexivity.
Qed.

Lemma split_all_join sep l :
  l <> [] -> forallb (no_byte sep) l = true -> split_all sep (join sep l) = l.
Proof.
  induction l as [|x r IH]; [congruence|].
  intros _ H. cbn [forallb] in H. bsplit H.
  destruct r as [|y r'].
  - apply split_all_single. exact H.
  - change (join sep (x :: y :: r')) with (x ++ sep :: join sep (y :: r')).
    rewrite split_all_cons, IH by (assumption || discriminate). reflexivity.
Qed.

Lemma parse_render_opt o : opt_ok o = true -> parse_opt (render_opt o) = o.
Proof.
  destruct o as [n [|c d]]; unfold opt_ok, parse_opt, render_opt; cbn [o_name o_desc app]; intro H; bsplit H.
  - rewrite split_first_none by exact H1. reflexivity.
  - rewrite split_first_some by exact H1. reflexivity.
Qed.

Lemma render_opt_no_comma o : opt_ok o = true -> no_byte x2c (render_opt o) = true.
Proof.
  destruct o as [n [|c d]]; unfold opt_ok, render_opt; cbn [o_name o_desc]; intro H; bsplit H; [exact H|].
  rewrite !no_byte_app, H, H0. reflexivity.
Qed.

Theorem compact_roundtrip d : desc_ok d = true -> parse_compact (render d) = Some d.
Proof.
  destruct d as [[|c n] os]; unfold desc_ok, render; cbn [d_name d_opts]; intro H; [discriminate|]. bsplit H.
  destruct os as [|o os]; unfold parse_compact; cbn [app].
  - rewrite (split_first_none _ (c :: n)) by exact H1. reflexivity.
  - pose proof (split_first_some x3a (c :: n) (join x2c (map render_opt (o :: os))) H1) as E.
    cbn [app] in E. rewrite E, split_all_join, map_map; [|discriminate|].
    + do 2 f_equal. rewrite <- (map_id (o :: os)) at 2. apply map_ext_in. intros a Ha.
      apply parse_render_opt. exact (proj1 (forallb_forall _ _) H0 a Ha).
    + rewrite forallb_forall. intros x Hx. apply in_map_iff in Hx as [a [<- Ha]].
      apply render_opt_no_comma. exact (proj1 (forallb_forall _ _) H0 a Ha).
Qed.

(* the parameters a plugin (or the generator) receives are name=value of every option, in the
   order they were written *)
Theorem pack_order d : desc_ok d = true ->
  params_of (render d) = Some (map (fun o => o_name o ++ [x3d] ++ o_desc o) (d_opts d)) /\
  language_of (render d) = Some (d_name d).
Proof.
  intro H. unfold params_of, language_of. rewrite compact_roundtrip by assumption. split; reflexivity.
Qed.

Lemma pack_length opts : List.length (pack opts) = List.length opts.
Proof. apply map_length. Qed.

Lemma pack_nth opts i o : nth_error opts i = Some o -> nth_error (pack opts) i = Some (o_name o ++ [x3d] ++ o_desc o).
Proof. intro H. unfold pack. rewrite nth_error_map, H. reflexivity. Qed.

Lemma is_prefix_app p r : is_prefix p (p ++ r) = true.
Proof. apply is_prefix_spec. exists r. reflexivity. Qed.

Lemma has_suffix_app d m : has_suffix (d ++ m) m = true.
Proof. unfold has_suffix. rewrite rev_app_distr. apply is_prefix_app. Qed.

Theorem trailer_roundtrip d f f' : 0 <= f < 256 ->
  has_feature (append_trailer d f) f' = (Z.land f f' =? f').
Proof.
  intro Hf. unfold has_feature, append_trailer.
  rewrite app_assoc, has_suffix_app. cbn [negb].
  rewrite !app_length. cbn [List.length].
  destruct (Nat.ltb_spec (List.length d + 1 + List.length trailer_magic) (List.length trailer_magic + 1)) as [H|_]; [lia|].
  replace (List.length d + 1 + List.length trailer_magic - 1 - List.length trailer_magic)%nat with (List.length d + 0)%nat by lia.
  rewrite <- app_assoc. rewrite nth_error_app2 by lia.
  replace (List.length d + 0 - List.length d)%nat with 0%nat by lia. cbn [app nth_error].
  rewrite Z_of_byte_of_Z. rewrite Z.mod_small by lia. reflexivity.
Qed.

Lemma enc_struct_ends_with_stop fs : exists p, enc (WStruct fs) = p ++ [x00].
Proof.
  rewrite enc_struct_unfold. induction fs as [|[[t id] x] r [p Hp]].
  - exists []. reflexivity.
  - rewrite enc_fields_go_cons, Hp. exists (put_be 1 (code t) ++ put_be 2 id ++ enc x ++ p).
    rewrite <- !app_assoc. reflexivity.
Qed.

(* a marshalled struct never looks as if it carried a trailer: it ends with the stop byte 0,
   the trailer with 0xff *)
Theorem trailer_absent_on_plain fs f : has_feature (enc (WStruct fs)) f = false.
Proof.
  destruct (enc_struct_ends_with_stop fs) as [p Hp]. unfold has_feature. rewrite Hp.
  destruct (_ <? _)%nat; [reflexivity|].
  unfold has_suffix. rewrite rev_app_distr. cbn [rev app].
  change (rev trailer_magic) with (xff :: rev (removelast trailer_magic)).
  cbn [is_prefix]. reflexivity.
Qed.

Fixpoint somes {A} (l : list (option A)) : list A :=
  match l with [] => [] | Some x :: r => x :: somes r | None :: r => somes r end.

Lemma in_somes {A} (x : A) l : In x (somes l) <-> In (Some x) l.
Proof.
  induction l as [|[y|] r IH]; cbn [somes In]; rewrite ?IH; [tauto| |].
  - split; (intros [E|H]; [left; congruence|right; exact H]).
  - split; [auto|intros [E|H]; [discriminate|exact H]].
Qed.

Lemma somes_map {A B} (f : A -> B) l : somes (map (omap f) l) = map f (somes l).
Proof. induction l as [|[y|] r IH]; cbn [somes map omap]; congruence. Qed.

Lemma ast_ind' (P : ast -> Prop) :
  (forall f kids, Forall P (somes kids) -> P (Ast f kids)) -> forall a, P a.
Proof.
  intro H. fix IH 1. intros [f kids]. apply H.
  induction kids as [|[k|] r IHr]; cbn [somes]; [constructor|constructor; [apply IH|exact IHr]|exact IHr].
Qed.

Lemma kids_flat_map {B} (g : ast -> list B) l :
  (fix go (l : list (option ast)) : list B :=
     match l with [] => [] | Some k :: r => g k ++ go r | None :: r => go r end) l = flat_map g (somes l).
Proof. induction l as [|[k|] r IH]; cbn [somes flat_map]; congruence. Qed.

Lemma kids_forallb (p : ast -> bool) l :
  (fix go (l : list (option ast)) : bool :=
     match l with [] => true | Some k :: r => p k && go r | None :: r => go r end) l = forallb p (somes l).
Proof. induction l as [|[k|] r IH]; cbn [somes forallb]; congruence. Qed.

Lemma nodes_eq f kids : nodes (Ast f kids) = Ast f kids :: flat_map nodes (somes kids).
Proof. rewrite <- kids_flat_map. reflexivity. Qed.
Lemma below_eq f kids : below (Ast f kids) = flat_map nodes (somes kids).
Proof. unfold below. rewrite nodes_eq. reflexivity. Qed.

Lemma height_kid f kids k : In k (somes kids) -> (height k < height (Ast f kids))%nat.
Proof.
  cbn [height]. induction kids as [|[c|] r IH]; cbn [somes In]; [intros []| |exact IH].
  intros [->|H]; [|specialize (IH H)]; lia.
Qed.

Section CK.
  Variable mk : bytes -> ast.
  Fixpoint compress_kids (seen : list bytes) (ks : list (option ast)) : list (option ast) * list bytes :=
    match ks with
    | [] => ([], seen)
    | None :: r => let '(r', s') := compress_kids seen r in (None :: r', s')
    | Some k :: r =>
        if mem (ast_name k) seen then
          let '(r', s') := compress_kids seen r in (Some (mk (ast_name k)) :: r', s')
        else
          let '(k', s1) := compress_gen mk (ast_name k :: seen) k in
          let '(r', s2) := compress_kids s1 r in (Some k' :: r', s2)
    end.
End CK.
Lemma compress_eq mk seen f kids :
  compress_gen mk seen (Ast f kids) = let '(k', s') := compress_kids mk seen kids in (Ast f k', s').
Proof. reflexivity. Qed.

Fixpoint collect_kids (m : list (bytes * ast)) (ks : list (option ast)) : list (bytes * ast) :=
  match ks with
  | [] => m
  | None :: r => collect_kids m r
  | Some k :: r => if is_stub k then collect_kids m r else collect_kids (collect (update (ast_name k) k m) k) r
  end.
Lemma collect_eq m f kids : collect m (Ast f kids) = collect_kids m kids.
Proof. reflexivity. Qed.

Definition resolve (m : list (bytes * ast)) (k : ast) : ast + bytes :=
  match stub_target k with
  | Some fn => match lookup fn m with Some t => inl t | None => inr fn end
  | None => inl k end.

Section DK.
  Variables (n : nat) (m : list (bytes * ast)).
  Fixpoint decompress_kids (ks : list (option ast)) : list (option ast) * option dres :=
    match ks with
    | [] => ([], None)
    | None :: _ => ([], Some DNilRef)
    | Some k :: r =>
        match resolve m k with
        | inr fn => ([], Some (DNotFound fn))
        | inl t =>
            match decompress n m t with
            | DOk t' => let '(r', e) := decompress_kids r in (Some t' :: r', e)
            | e => ([], Some e)
            end
        end
    end.
End DK.
Lemma decompress_eq n m f kids :
  decompress (S n) m (Ast f kids) =
  match decompress_kids n m kids with (kids', None) => DOk (Ast f kids') | (_, Some e) => e end.
Proof. reflexivity. Qed.

Fixpoint all_refs_kids (l : list (option ast)) : bool :=
  match l with [] => true | Some k :: r => all_refs_set k && all_refs_kids r | None :: _ => false end.
Lemma all_refs_eq f kids : all_refs_set (Ast f kids) = all_refs_kids kids.
Proof. reflexivity. Qed.

(* the nodes collect sees: reached without passing through a stub, stubs themselves excluded *)
Fixpoint live (a : ast) : list ast :=
  match a with
  | Ast _ kids => (fix go (l : list (option ast)) : list ast :=
                     match l with
                     | [] => []
                     | Some k :: r => (if is_stub k then [] else k :: live k) ++ go r
                     | None :: r => go r
                     end) kids
  end.
Definition live1 (k : ast) : list ast := if is_stub k then [] else k :: live k.
Lemma live_eq f kids : live (Ast f kids) = flat_map live1 (somes kids).
Proof. rewrite <- kids_flat_map. reflexivity. Qed.

Lemma nodes_self a : In a (nodes a).
Proof. destruct a. rewrite nodes_eq. left. reflexivity. Qed.

Lemma below_nodes a x : In x (below a) -> In x (nodes a).
Proof. destruct a. rewrite nodes_eq, below_eq. intro. right. assumption. Qed.

Lemma nodes_below a x : In x (nodes a) -> x = a \/ In x (below a).
Proof. destruct a. rewrite nodes_eq, below_eq. intros [H|H]; auto. Qed.

Lemma kid_below f kids k : In k (somes kids) -> In k (below (Ast f kids)).
Proof. intro H. rewrite below_eq, in_flat_map. exists k. split; [exact H|apply nodes_self]. Qed.

Lemma below_height : forall a x, In x (below a) -> (height x < height a)%nat.
Proof.
  induction a as [f kids IH] using ast_ind'. intros x. rewrite below_eq, in_flat_map. intros (k & Hk & Hx).
  pose proof (height_kid f kids k Hk). rewrite Forall_forall in IH.
  apply nodes_below in Hx as [->|Hx]; [assumption|]. specialize (IH k Hk x Hx). lia.
Qed.

Lemma nodes_trans : forall a y z, In y (nodes a) -> In z (nodes y) -> In z (nodes a).
Proof.
  induction a as [f kids IH] using ast_ind'. intros y z Hy Hz.
  rewrite nodes_eq in Hy. destruct Hy as [<-|Hy]; [assumption|].
  rewrite nodes_eq. right. rewrite in_flat_map in *. destruct Hy as (k & Hk & Hy).
  exists k. split; [assumption|]. rewrite Forall_forall in IH. exact (IH k Hk y z Hy Hz).
Qed.

Lemma below_trans a y z : In y (below a) -> In z (nodes y) -> In z (below a).
Proof.
  destruct a as [f kids]. rewrite below_eq, !in_flat_map. intros (k & Hk & Hy) Hz.
  exists k. split; [assumption|]. eapply nodes_trans; eassumption.
Qed.

(* equal Filenames denote the same node; every reference is set; no Filename looks like a stub *)
Definition wf_graph (g : ast) : Prop :=
  all_refs_set g = true /\
  (forall x y, In x (nodes g) -> In y (nodes g) -> ast_name x = ast_name y -> x = y) /\
  (forall x, In x (nodes g) -> name_clean (ast_name x) = true).

Lemma all_refs_kids_some ks : all_refs_kids ks = true -> forall o, In o ks -> exists k, o = Some k /\ all_refs_set k = true.
Proof.
  induction ks as [|[c|] r IH]; cbn [all_refs_kids]; intros H o Ho; [destruct Ho| |discriminate].
  apply andb_true_iff in H as [H1 H2]. destruct Ho as [<-|Ho]; [exists c; auto|auto].
Qed.

Lemma all_refs_nodes : forall a x, all_refs_set a = true -> In x (nodes a) -> all_refs_set x = true.
Proof.
  induction a as [f kids IH] using ast_ind'. intros x Ha Hx.
  rewrite nodes_eq in Hx. destruct Hx as [<-|Hx]; [assumption|].
  apply in_flat_map in Hx as (k & Hk & Hx). rewrite Forall_forall in IH. apply (IH k Hk x); [|exact Hx].
  destruct (all_refs_kids_some kids Ha (Some k) (proj1 (in_somes _ _) Hk)) as (k' & [= <-] & H). exact H.
Qed.

Lemma strip_prefix_app p s : strip_prefix p (p ++ s) = Some s.
Proof.
  induction p as [|c p IH]; [reflexivity|]. cbn. rewrite (proj2 (byte_eqb_eq c c) eq_refl). exact IH.
Qed.

Lemma strip_prefix_is_prefix p s : strip_prefix p s = None <-> is_prefix p s = false.
Proof.
  revert s. induction p as [|c p IH]; intros [|b s]; cbn; try (split; congruence).
  destruct (Byte.eqb c b); cbn; [apply IH|split; reflexivity].
Qed.

Lemma stub_target_stub n : stub_target (stub n) = Some n.
Proof. apply strip_prefix_app. Qed.

Lemma is_stub_stub n : is_stub (stub n) = true.
Proof. unfold is_stub. rewrite stub_target_stub. reflexivity. Qed.

Lemma clean_not_stub a : name_clean (ast_name a) = true -> stub_target a = None.
Proof.
  unfold name_clean, stub_target. intro H. apply strip_prefix_is_prefix.
  destruct (is_prefix ref_prefix (ast_name a)); [discriminate|reflexivity].
Qed.

Lemma clean_is_stub a : name_clean (ast_name a) = true -> is_stub a = false.
Proof. intro H. unfold is_stub. rewrite clean_not_stub by assumption. reflexivity. Qed.

Lemma live1_stub k : is_stub k = true -> live1 k = [].
Proof. unfold live1. intros ->. reflexivity. Qed.

Lemma live1_clean k : name_clean (ast_name k) = true -> live1 k = k :: live k.
Proof. intro H. unfold live1. rewrite clean_is_stub by exact H. reflexivity. Qed.

Lemma ast_kids_ind (P : ast -> Prop) (Q : list (option ast) -> Prop) :
  (forall f kids, Q kids -> P (Ast f kids)) ->
  Q [] -> (forall k r, P k -> Q r -> Q (Some k :: r)) -> (forall r, Q r -> Q (None :: r)) ->
  (forall a, P a) /\ (forall ks, Q ks).
Proof.
  intros HP Hnil Hsome Hnone.
  assert (H : forall a, P a).
  { fix IH 1. intros [f kids]. apply HP.
    induction kids as [|[k|] r IHr]; [exact Hnil|apply Hsome; [apply IH|exact IHr]|apply Hnone; exact IHr]. }
  split; [exact H|]. induction ks as [|[k|] r IHr]; auto.
Qed.

Lemma mem_In n l : mem n l = true <-> In n l.
Proof. apply existsb_beqb_In. Qed.

Definition clean_in (l : list ast) : Prop := forall x, In x l -> name_clean (ast_name x) = true.

Lemma clean_in_app a b : clean_in (a ++ b) -> clean_in a /\ clean_in b.
Proof. intro H. split; intros x Hx; apply H, in_or_app; auto. Qed.

Section Mk.
  Variable mk : bytes -> ast.

  (* the state-free view of compression: the result is the input with some kids replaced by
     [mk] of their name.  Whatever is kept by that replacement is kept by compress_gen. *)
  Lemma compress_rel (R : ast -> ast -> Prop) (RK : list (option ast) -> list (option ast) -> Prop) :
    (forall f ks ks', RK ks ks' -> R (Ast f ks) (Ast f ks')) ->
    RK [] [] -> (forall r r', RK r r' -> RK (None :: r) (None :: r')) ->
    (forall k k' r r', k' = mk (ast_name k) \/ R k k' -> RK r r' -> RK (Some k :: r) (Some k' :: r')) ->
    forall a s, R a (fst (compress_gen mk s a)).
  Proof.
    intros HR Hnil Hnone Hsome.
    enough (H : (forall a s, R a (fst (compress_gen mk s a))) /\
                (forall ks s, RK ks (fst (compress_kids mk s ks)))) by apply H.
    apply ast_kids_ind.
    - intros f ks IH s. rewrite compress_eq. specialize (IH s). destruct (compress_kids mk s ks). apply HR, IH.
    - intro s. exact Hnil.
    - intros k r IHk IHr s. cbn [compress_kids]. destruct (mem (ast_name k) s).
      + specialize (IHr s). destruct (compress_kids mk s r). apply Hsome; [left; reflexivity|exact IHr].
      + specialize (IHk (ast_name k :: s)). destruct (compress_gen mk (ast_name k :: s) k) as [k' s1].
        specialize (IHr s1). destruct (compress_kids mk s1 r). apply Hsome; [right; exact IHk|exact IHr].
    - intros r IHr s. cbn [compress_kids]. specialize (IHr s). destruct (compress_kids mk s r). apply Hnone, IHr.
  Qed.

  Lemma compress_ast_name a seen : ast_name (fst (compress_gen mk seen a)) = ast_name a.
  Proof. destruct a as [f kids]. rewrite compress_eq. destruct (compress_kids mk seen kids). reflexivity. Qed.

  Hypothesis Hmk : forall n, stub_target (mk n) = Some n.
  Definition ctop (g : ast) : ast := fst (compress_gen mk [] g).
  Lemma is_stub_mk n : is_stub (mk n) = true.
  Proof. unfold is_stub. rewrite Hmk. reflexivity. Qed.

  Definition img (a' a : ast) : Prop := exists s, a' = fst (compress_gen mk s a).

  (* the local facts about one call (no sharing hypothesis needed): seen grows exactly by the
     names of the live nodes of the result; those names are pairwise distinct and were not seen
     before; every live node of the result is the image of a proper descendant *)
  Definition CL (L D : list ast) (seen seen' : list bytes) : Prop :=
    (forall n, In n seen' <-> In n seen \/ In n (map ast_name L)) /\
    NoDup (map ast_name L) /\
    (forall n, In n (map ast_name L) -> ~ In n seen) /\
    (forall x, In x L -> exists y, In y D /\ img x y).

  Lemma compress_local_both :
    (forall a, forall seen, clean_in (nodes a) ->
       CL (live (fst (compress_gen mk seen a))) (below a) seen (snd (compress_gen mk seen a))) /\
    (forall ks, forall seen, clean_in (flat_map nodes (somes ks)) ->
       CL (flat_map live1 (somes (fst (compress_kids mk seen ks)))) (flat_map nodes (somes ks)) seen
          (snd (compress_kids mk seen ks))).
  Proof.
    apply ast_kids_ind.
    - intros f kids IH seen Hc. rewrite compress_eq, below_eq. rewrite nodes_eq in Hc.
      specialize (IH seen (fun x Hx => Hc x (or_intror Hx))).
      destruct (compress_kids mk seen kids) as [k' s']. cbn [fst snd]. rewrite live_eq. exact IH.
    - intros seen _. split; [intro n; cbn; tauto|]. split; [constructor|]. split; [intros n []|intros x []].
    - intros k r IHk IHr seen Hc. unfold CL in *. cbn [compress_kids somes flat_map] in *. apply clean_in_app in Hc as [Hck Hcr].
      destruct (mem (ast_name k) seen) eqn:Em.
      + destruct (IHr seen Hcr) as (I1 & I2 & I3 & I4). destruct (compress_kids mk seen r) as [r' s'].
        cbn [fst snd somes flat_map] in *. rewrite (live1_stub _ (is_stub_mk _)). cbn [app].
        repeat split; auto; try apply I1.
        intros x Hx. destruct (I4 x Hx) as (y & Hy & Hi). exists y. split; [apply in_or_app; right; exact Hy|exact Hi].
      + destruct (IHk (ast_name k :: seen) Hck) as (A1 & A2 & A3 & A4).
        pose proof (compress_ast_name k (ast_name k :: seen)) as Hn.
        destruct (compress_gen mk (ast_name k :: seen) k) as [k' s1] eqn:Ek. cbn [fst snd] in A1, A2, A3, A4, Hn.
        destruct (IHr s1 Hcr) as (B1 & B2 & B3 & B4). destruct (compress_kids mk s1 r) as [r' s2].
        cbn [fst snd somes flat_map] in *.
        rewrite (live1_clean k') by (rewrite Hn; apply Hck, nodes_self). cbn [app map]. rewrite map_app, Hn.
        assert (Em' : ~ In (ast_name k) seen) by (rewrite <- mem_In, Em; discriminate).
        (* the four parts of [CL] in their order *)
        split; [|split; [|split]].
        * intro n. rewrite B1, A1. cbn [In]. rewrite in_app_iff. tauto.
        * constructor.
          -- rewrite in_app_iff. intros [H|H]; [apply (A3 _ H); left; reflexivity|apply (B3 _ H), A1; left; left; reflexivity].
          -- apply NoDup_app_disjoint; [assumption|assumption|]. intros n H1 H2. apply (B3 _ H2), A1. right. exact H1.
        * intros n [<-|H]; [exact Em'|]. apply in_app_or in H as [H|H]; intro Hs.
          -- apply (A3 _ H). right. exact Hs.
          -- apply (B3 _ H), A1. left. right. exact Hs.
        * intros x [<-|Hx]; [|apply in_app_or in Hx as [Hx|Hx]].
          -- exists k. split; [apply in_or_app; left; apply nodes_self|]. exists (ast_name k :: seen). rewrite Ek. reflexivity.
          -- destruct (A4 x Hx) as (y & Hy & Hi). exists y. split; [apply in_or_app; left; apply below_nodes; exact Hy|exact Hi].
          -- destruct (B4 x Hx) as (y & Hy & Hi). exists y. split; [apply in_or_app; right; exact Hy|exact Hi].
    - intros r IHr seen Hc. cbn [compress_kids somes] in *.
      specialize (IHr seen Hc). destruct (compress_kids mk seen r) as [r' s']. exact IHr.
  Qed.

  Definition compress_local := proj1 compress_local_both.

  Section Closure.
    Variable g : ast.
    Hypothesis Hsame : forall x y, In x (nodes g) -> In y (nodes g) -> ast_name x = ast_name y -> x = y.
    Hypothesis Hclean : clean_in (nodes g).

    (* [Closed seen k]: every proper descendant of the node named [k] has been seen.  [InvS seen a]: every seen
       name is closed or belongs to an ancestor-or-self of [a], the node being compressed (whose kids are under way) *)
    Definition Closed (seen : list bytes) (k : bytes) : Prop :=
      forall p z, In p (nodes g) -> ast_name p = k -> In z (below p) -> In (ast_name z) seen.
    Definition InvS (seen : list bytes) (a : ast) : Prop :=
      forall k, In k seen -> Closed seen k \/ (exists p, In p (nodes g) /\ ast_name p = k /\ In a (nodes p)).

    Lemma Closed_mono s s' k : (forall n, In n s -> In n s') -> Closed s k -> Closed s' k.
    Proof. intros Hs H p z Hp Hn Hz. apply Hs. eapply H; eassumption. Qed.

    Lemma clean_sub a : In a (nodes g) -> clean_in (nodes a).
    Proof. intros Ha x Hx. apply Hclean. eapply nodes_trans; eassumption. Qed.

    Lemma closure_both :
      (forall a, In a (nodes g) -> forall seen, InvS seen a ->
         forall z, In z (below a) -> In (ast_name z) (snd (compress_gen mk seen a))) /\
      (forall ks, forall par, In par (nodes g) -> (forall k, In k (somes ks) -> In k (below par)) ->
         forall seen, InvS seen par ->
         (forall z, In z (flat_map nodes (somes ks)) -> In (ast_name z) (snd (compress_kids mk seen ks))) /\
         InvS (snd (compress_kids mk seen ks)) par /\
         (forall n, In n seen -> In n (snd (compress_kids mk seen ks)))).
    Proof.
      apply ast_kids_ind.
      - intros f kids IH Ha seen Hinv z Hz. rewrite compress_eq.
        destruct (IH (Ast f kids) Ha (kid_below f kids) seen Hinv) as [H1 _].
        destruct (compress_kids mk seen kids) as [k' s']. apply H1. rewrite below_eq in Hz. exact Hz.
      - intros par Hpar _ seen Hinv. cbn. repeat split; auto. intros z [].
      - intros y r IHy IHr par Hpar Hsub seen Hinv. cbn [compress_kids somes flat_map].
        assert (Hyb : In y (below par)) by (apply Hsub; left; reflexivity).
        assert (Hyg : In y (nodes g)) by (eapply nodes_trans; [exact Hpar|apply below_nodes; exact Hyb]).
        assert (Hsub' : forall k, In k (somes r) -> In k (below par)) by (intros; apply Hsub; right; assumption).
        destruct (mem (ast_name y) seen) eqn:Em.
        + (* already seen: it is closed, because it cannot be an ancestor of its own parent *)
          apply mem_In in Em.
          assert (Hcl : Closed seen (ast_name y)).
          { destruct (Hinv _ Em) as [H|(p & Hp & Hn & Hin)]; [exact H|exfalso].
            assert (p = y) by (apply Hsame; assumption). subst p.
            pose proof (below_height par par (below_trans par y par Hyb Hin)). lia. }
          destruct (IHr par Hpar Hsub' seen Hinv) as (R1 & R2 & R3).
          destruct (compress_kids mk seen r) as [r' s']. cbn [fst snd] in *.
          repeat split; [|exact R2|exact R3].
          intros z Hz. apply in_app_or in Hz as [Hz|Hz]; [|apply R1; exact Hz].
          apply R3. apply nodes_below in Hz as [->|Hz]; [exact Em|]. eapply Hcl; [exact Hyg|reflexivity|exact Hz].
        + assert (Em' : ~ In (ast_name y) seen) by (rewrite <- mem_In, Em; discriminate).
          (* the recursive call: y is in progress, everything else as before *)
          assert (Hinv1 : InvS (ast_name y :: seen) y).
          { intros k [<-|Hk].
            - right. exists y. repeat split; [exact Hyg|apply nodes_self].
            - destruct (Hinv _ Hk) as [H|(p & Hp & Hn & Hin)].
              + left. eapply Closed_mono; [|exact H]. intros; right; assumption.
              + right. exists p. repeat split; try assumption.
                eapply nodes_trans; [exact Hin|apply below_nodes; exact Hyb]. }
          pose proof (IHy Hyg _ Hinv1) as Y1.
          pose proof (compress_local y (ast_name y :: seen) (clean_sub y Hyg)) as (L1 & L2 & L3 & L4).
          destruct (compress_gen mk (ast_name y :: seen) y) as [y' s1]. cbn [fst snd] in *.
          assert (Hinv2 : InvS s1 par).
          { intros k Hk. apply L1 in Hk as [[<-|Hk]|Hk].
            - left. intros p z Hp Hn Hz. assert (p = y) by (apply Hsame; assumption). subst p. apply Y1. exact Hz.
            - destruct (Hinv _ Hk) as [H|H]; [left|right; exact H].
              eapply Closed_mono; [|exact H]. intros n Hn. apply L1. left. right. exact Hn.
            - apply in_map_iff in Hk as (x & <- & Hx). destruct (L4 x Hx) as (z & Hz & s & ->).
              rewrite compress_ast_name. left. intros p w Hp Hn Hw.
              assert (Hzg : In z (nodes g)) by (eapply nodes_trans; [exact Hyg|apply below_nodes; exact Hz]).
              assert (p = z) by (apply Hsame; assumption). subst p.
              apply Y1. eapply below_trans; [exact Hz|apply below_nodes; exact Hw]. }
          destruct (IHr par Hpar Hsub' s1 Hinv2) as (R1 & R2 & R3).
          destruct (compress_kids mk s1 r) as [r' s2]. cbn [fst snd] in *.
          repeat split; [|exact R2|].
          * intros z Hz. apply in_app_or in Hz as [Hz|Hz]; [|apply R1; exact Hz].
            apply R3. apply nodes_below in Hz as [->|Hz]; [apply L1; left; left; reflexivity|apply Y1; exact Hz].
          * intros n Hn. apply R3. apply L1. left. right. exact Hn.
      - intros r IHr par Hpar Hsub seen Hinv. cbn [compress_kids somes] in *.
        destruct (IHr par Hpar Hsub seen Hinv) as (R1 & R2 & R3).
        destruct (compress_kids mk seen r) as [r' s']. auto.
    Qed.

    Lemma compress_covers z : In z (below g) -> In (ast_name z) (map ast_name (live (ctop g))).
    Proof.
      intro Hz. unfold ctop.
      pose proof (proj1 closure_both g (nodes_self g) [] (fun k (H : In k []) => match H with end) z Hz) as H.
      destruct (compress_local g [] Hclean) as [L1 _]. apply L1 in H as [[]|H]. exact H.
    Qed.
  End Closure.

  Lemma collect_both :
    (forall a, forall m,
       (forall n x, lookup n (collect m a) = Some x -> (In x (live a) /\ ast_name x = n) \/ lookup n m = Some x) /\
       (forall n, (lookup n m <> None \/ In n (map ast_name (live a))) -> lookup n (collect m a) <> None)) /\
    (forall ks, forall m,
       (forall n x, lookup n (collect_kids m ks) = Some x ->
                    (In x (flat_map live1 (somes ks)) /\ ast_name x = n) \/ lookup n m = Some x) /\
       (forall n, (lookup n m <> None \/ In n (map ast_name (flat_map live1 (somes ks)))) ->
                  lookup n (collect_kids m ks) <> None)).
  Proof.
    apply ast_kids_ind.
    - intros f kids IH m. rewrite collect_eq, live_eq. apply IH.
    - intros m. cbn. split; [intros; right; assumption|intros n [H|[]]; exact H].
    - intros k r IHk IHr m. cbn [collect_kids somes flat_map]. unfold live1 at 1 3.
      destruct (is_stub k) eqn:Es; cbn [app]; [apply IHr|].
      destruct (IHr (collect (update (ast_name k) k m) k)) as [R1 R2].
      destruct (IHk (update (ast_name k) k m)) as [K1 K2].
      assert (U : forall n, lookup n (update (ast_name k) k m) = if beqb (ast_name k) n then Some k else lookup n m).
      { intro n. destruct (beqb (ast_name k) n) eqn:E.
        - apply beqb_true in E as <-. apply lookup_update_same.
        - apply lookup_update_other, beqb_false, E. }
      split.
      + intros n x H. apply R1 in H as [[H E]|H]; [left; split; [right; apply in_or_app; right; exact H|exact E]|].
        apply K1 in H as [[H E]|H]; [left; split; [right; apply in_or_app; left; exact H|exact E]|].
        rewrite U in H. destruct (beqb (ast_name k) n) eqn:E; [|right; exact H].
        apply beqb_true in E as <-. injection H as <-. left. split; [left; reflexivity|reflexivity].
      + intros n H. apply R2. cbn [map] in H. rewrite map_app in H.
        assert (Hk : ast_name k = n \/ lookup n m <> None -> lookup n (update (ast_name k) k m) <> None).
        { rewrite U. intros [<-|Hm]; [rewrite beqb_refl; discriminate|destruct (beqb (ast_name k) n); [discriminate|exact Hm]]. }
        destruct H as [H|[H|H]]; [left; apply K2; left; apply Hk; right; exact H|left; apply K2; left; apply Hk; left; exact H|].
        apply in_app_or in H as [H|H]; [left; apply K2; right; exact H|right; exact H].
    - intros r IHr m. apply IHr.
  Qed.

  (* collectThriftInclude finds every un-stubbed node, under its Filename *)
  Lemma collect_finds_all a n : In n (map ast_name (live a)) ->
    exists x, lookup n (collect [] a) = Some x /\ In x (live a) /\ ast_name x = n.
  Proof.
    intro H. destruct (proj1 collect_both a []) as [C1 C2].
    destruct (lookup n (collect [] a)) as [x|] eqn:E.
    - exists x. split; [reflexivity|]. apply C1 in E as [[H1 H2]|E]; [auto|discriminate].
    - exfalso. apply (C2 n); [right; exact H|exact E].
  Qed.

  Section Decompress.
    Variable g : ast.
    Hypothesis Hwf : wf_graph g.
    Variable m : list (bytes * ast).
    Hypothesis Hm : forall y, In y (below g) -> exists s, lookup (ast_name y) m = Some (fst (compress_gen mk s y)).

    Lemma kid_in_below a k : In a (nodes g) -> In k (below a) -> In k (below g).
    Proof.
      intros Ha Hk. apply nodes_below in Ha as [->|Ha]; [exact Hk|].
      eapply below_trans; [exact Ha|apply below_nodes; exact Hk].
    Qed.

    Lemma decompress_compress_at : forall n a, In a (nodes g) -> (height a <= n)%nat ->
      forall s, decompress n m (fst (compress_gen mk s a)) = DOk a.
    Proof.
      induction n as [|n IH]; intros [f kids] Ha Hh s; [cbn [height] in Hh; lia|].
      rewrite compress_eq.
      assert (K : forall ks seen, all_refs_kids ks = true ->
                (forall k, In k (somes ks) -> In k (below g) /\ (height k <= n)%nat) ->
                decompress_kids n m (fst (compress_kids mk seen ks)) = (ks, None)).
      { induction ks as [|[y|] r IHr]; intros seen Hr Hk; cbn [compress_kids]; [reflexivity| |discriminate].
        cbn [all_refs_kids] in Hr. apply andb_true_iff in Hr as [_ Hr].
        destruct (Hk y (or_introl eq_refl)) as [Hyb Hyh]. pose proof (below_nodes _ _ Hyb) as Hyg.
        assert (Hk' : forall k, In k (somes r) -> In k (below g) /\ (height k <= n)%nat) by (intros; apply Hk; right; assumption).
        destruct (mem (ast_name y) seen).
        - specialize (IHr seen Hr Hk'). destruct (compress_kids mk seen r) as [r' s']. cbn [fst] in *.
          cbn [decompress_kids]. unfold resolve. rewrite Hmk.
          destruct (Hm y Hyb) as [s0 ->]. rewrite (IH y Hyg Hyh s0), IHr. reflexivity.
        - pose proof (compress_ast_name y (ast_name y :: seen)) as Hn.
          pose proof (IH y Hyg Hyh (ast_name y :: seen)) as Hy.
          destruct (compress_gen mk (ast_name y :: seen) y) as [y' s1]. cbn [fst] in *.
          specialize (IHr s1 Hr Hk'). destruct (compress_kids mk s1 r) as [r' s2]. cbn [fst] in *.
          cbn [decompress_kids]. unfold resolve.
          rewrite clean_not_stub by (rewrite Hn; apply (proj2 (proj2 Hwf)); exact Hyg).
          rewrite Hy, IHr. reflexivity. }
      specialize (K kids s (all_refs_nodes g _ (proj1 Hwf) Ha)).
      destruct (compress_kids mk s kids) as [k' s']. cbn [fst] in *. rewrite decompress_eq, K; [reflexivity|].
      intros k Hk. split; [exact (kid_in_below _ k Ha (kid_below f kids k Hk))|].
      pose proof (height_kid f kids k Hk). lia.
    Qed.
  End Decompress.

  (* decompress (compress_gen mk g) = g for every well-formed graph (diamonds included), with the
     table UnmarshalRequest collects from the compressed tree itself *)
  Theorem decompress_compress_gen g fuel : wf_graph g -> (height g <= fuel)%nat ->
    decompress_top fuel (ctop g) = DOk g.
  Proof.
    intros Hwf Hf. unfold decompress_top.
    apply (decompress_compress_at g Hwf); [|apply nodes_self|exact Hf].
    destruct Hwf as (Hrefs & Hsame & Hclean). intros y Hy.
    destruct (collect_finds_all _ _ (compress_covers g Hsame Hclean y Hy)) as (c & Hl & Hc & Hn).
    destruct (compress_local g [] Hclean) as (_ & _ & _ & L4).
    destruct (L4 c Hc) as (y' & Hy' & s & ->). exists s. rewrite compress_ast_name in Hn.
    rewrite (Hsame y' y (below_nodes _ _ Hy') (below_nodes _ _ Hy) Hn) in Hl. exact Hl.
  Qed.

  (* every Filename below the root occurs un-stubbed exactly once in the compressed tree, and
     nothing else occurs un-stubbed *)
  Theorem compress_no_dup_gen g : wf_graph g ->
    NoDup (map ast_name (live (ctop g))) /\
    (forall n, In n (map ast_name (below g)) <-> In n (map ast_name (live (ctop g)))) /\
    (forall n, In n (map ast_name (below g)) ->
       count_occ (list_eq_dec Byte.byte_eq_dec) (map ast_name (live (ctop g))) n = 1%nat).
  Proof.
    intros (Hrefs & Hsame & Hclean).
    destruct (compress_local g [] Hclean) as (_ & L2 & _ & L4). fold (ctop g) in L2, L4.
    assert (Hiff : forall n, In n (map ast_name (below g)) <-> In n (map ast_name (live (ctop g)))).
    { intro n. split; intro H; apply in_map_iff in H as (z & <- & Hz).
      - apply compress_covers; assumption.
      - destruct (L4 z Hz) as (y & Hy & s & ->). rewrite compress_ast_name. apply in_map. exact Hy. }
    split; [exact L2|]. split; [exact Hiff|].
    intros n Hn. apply NoDup_count_occ'; [exact L2|apply Hiff; exact Hn].
  Qed.
End Mk.

Lemma wfind_emit_notin {A} (d : wval -> option A) key lay : forall sl,
  ~ In (snd key) (map snd lay) -> wfind d key (emit lay sl) = None.
Proof.
  induction lay as [|[t id] lay IH]; intros sl Hn; [destruct sl; reflexivity|].
  cbn [map snd In] in Hn. destruct sl as [|[w|] sl]; cbn [emit]; [reflexivity| |].
  - cbn [wfind]. rewrite IH by tauto.
    destruct (Z.eqb_spec (snd key) id) as [E|E]; [exfalso; apply Hn; left; congruence|reflexivity].
  - apply IH. tauto.
Qed.

Lemma wfind_emit {A} (d : wval -> option A) : forall lay sl i key,
  NoDup (map snd lay) -> List.length sl = List.length lay -> nth_error lay i = Some key ->
  wfind d key (emit lay sl) = match nth_error sl i with Some (Some w) => Some (d w) | _ => None end.
Proof.
  induction lay as [|[t id] lay IH]; intros sl i key Hnd Hlen Hk; [destruct i; discriminate|].
  destruct sl as [|o sl]; [discriminate|]. cbn [List.length] in Hlen. injection Hlen as Hlen.
  cbn [map snd] in Hnd. inversion Hnd as [|? ? Hnotin Hnd']; subst.
  destruct i as [|i]; cbn [nth_error] in *.
  - injection Hk as <-. destruct o as [w|]; cbn [emit].
    + cbn [wfind]. rewrite wfind_emit_notin by exact Hnotin. cbn [fst snd].
      rewrite Z.eqb_refl, ttype_eqb_refl. reflexivity.
    + apply wfind_emit_notin. exact Hnotin.
  - assert (Hne : snd key <> id).
    { intro E. apply Hnotin. rewrite <- E. apply in_map. eapply nth_error_In. exact Hk. }
    destruct o as [w|]; cbn [emit]; [|apply IH; assumption].
    cbn [wfind]. rewrite (IH sl i key Hnd' Hlen Hk).
    destruct (nth_error sl i) as [[w'|]|]; try reflexivity;
      (destruct (Z.eqb_spec (snd key) id); [contradiction|reflexivity]).
Qed.

Lemma nodupZ_NoDup l : nodupZ l = true -> NoDup l.
Proof.
  induction l as [|x l IH]; cbn [nodupZ]; intro H; constructor.
  - apply andb_true_iff in H as [H _]. intro Hin. apply negb_true_iff in H.
    assert (existsb (Z.eqb x) l = true) by (apply existsb_exists; exists x; split; [assumption|apply Z.eqb_refl]).
    congruence.
  - apply andb_true_iff in H as [_ H]. auto.
Qed.

Lemma get_emit {A} (d : wval -> option A) lay sl i :
  nodupZ (map snd lay) = true -> List.length sl = List.length lay -> (i <? List.length lay)%nat = true ->
  get d lay i (emit lay sl) = match nth i sl None with Some w => Some (d w) | None => None end.
Proof.
  intros Hnd Hlen Hi. apply Nat.ltb_lt in Hi. unfold get.
  destruct (nth_error lay i) as [key|] eqn:Ek; [|apply nth_error_None in Ek; lia].
  rewrite (nth_error_nth _ _ nokey Ek).
  rewrite (wfind_emit d lay sl i key (nodupZ_NoDup _ Hnd) Hlen Ek).
  destruct (nth_error sl i) as [o|] eqn:Es.
  - rewrite (nth_error_nth _ _ None Es). destruct o; reflexivity.
  - apply nth_error_None in Es. lia.
Qed.

Lemma mapo_map {A} (d : wval -> option A) (e : A -> wval) l :
  Forall (fun x => d (e x) = Some x) l -> mapo d (map e l) = Some l.
Proof.
  induction 1 as [|x l Hx _ IH]; [reflexivity|]. cbn [map mapo]. rewrite Hx, IH. reflexivity.
Qed.

Lemma mapo_map_all {A} (d : wval -> option A) (e : A -> wval) l :
  (forall x, d (e x) = Some x) -> mapo d (map e l) = Some l.
Proof. intro H. apply mapo_map. apply Forall_forall. intros; apply H. Qed.

Lemma d_list_structs {A} (d : wval -> option A) (e : A -> wval) l :
  (forall x, d (e x) = Some x) -> d_list d (w_structs e l) = Some l.
Proof. intro H. unfold d_list, w_structs. apply mapo_map_all. exact H. Qed.

Lemma d_list_strs l : d_list d_str (w_strs l) = Some l.
Proof. unfold d_list, w_strs. apply mapo_map_all. reflexivity. Qed.

(* Reads every field of a struct written by [emit].  The slot list and the emitted fields get a name first: each
   rewrite then abstracts a goal that mentions them once, not one copy of the struct per field. *)
Ltac gets :=
  match goal with |- context[emit ?l ?s] =>
    let sl := fresh "sl" in let fs := fresh "fs" in
    set (sl := s); set (fs := emit l sl);
    repeat match goal with |- context[@get ?A ?d l ?i fs] =>
             rewrite (get_emit d l sl i eq_refl eq_refl eq_refl : get d l i fs = _) end;
    subst fs sl
  end; cbn [nth].

Lemma cat_roundtrip c : cat_of_z (cat_z c) = Some c.
Proof. destruct c; reflexivity. Qed.
Lemma req_roundtrip r : req_of_z (req_z r) = Some r.
Proof. destruct r; reflexivity. Qed.
Lemma kind_roundtrip k : kind_of_name (sl_kind_name k) = Some k.
Proof. destruct k; reflexivity. Qed.

Lemma reference_rt r : dec_reference (enc_reference r) = Some r.
Proof. destruct r as [n i]. unfold dec_reference, enc_reference, wstruct. gets. reflexivity. Qed.

Lemma annotation_rt a : dec_annotation (enc_annotation a) = Some a.
Proof.
  destruct a as [k v]. unfold dec_annotation, enc_annotation, wstruct. gets.
  cbn [dflt d_str an_key an_values]. rewrite d_list_strs. reflexivity.
Qed.

Lemma annos_rt l : dec_annos (enc_annos l) = Some l.
Proof. apply d_list_structs. apply annotation_rt. Qed.

Lemma ty_rt : forall t, dec_ty (enc_ty t) = Some t.
Proof.
  induction t as [n k v c an cat r td IHk IHv] using ty_ind'.
  cbn [enc_ty]. unfold wstruct. cbn [dec_ty]. gets.
  cbn [dflt d_str d_cat]. rewrite annos_rt, cat_roundtrip.
  (* the four optional fields, one after the other: key type, value type, reference, typedef flag *)
  destruct k as [k|]; [rewrite (IHk k eq_refl)|].
  all: destruct v as [v|]; [rewrite (IHv v eq_refl)|].
  all: destruct r as [r|]; cbn [omap]; [rewrite reference_rt|].
  all: destruct td; cbn [omap opt d_bool]; reflexivity.
Qed.

Lemma extra_rt e : dec_extra (enc_extra e) = Some e.
Proof. destruct e as [b i n s]. unfold dec_extra, enc_extra, wstruct. gets. reflexivity. Qed.

Lemma nth_map_seq {A} (f : nat -> A) n j d : (j < n)%nat -> nth j (map f (seq 0 n)) d = f j.
Proof.
  intro H. rewrite (nth_indep _ d (f 0%nat)) by (rewrite map_length, seq_length; exact H).
  rewrite map_nth, seq_nth by exact H. reflexivity.
Qed.

(* the TypedValue union with member i set: member j reads back w when j = i, nothing otherwise *)
Lemma get_tv {A} (d : wval -> option A) i j w : (j < 6)%nat ->
  get d lay_typedvalue j (emit lay_typedvalue (map (fun j => if (i =? j)%nat then Some w else None) (seq 0 6))) =
  if (i =? j)%nat then Some (d w) else None.
Proof.
  intro Hj. rewrite get_emit by (reflexivity || (apply Nat.ltb_lt; exact Hj)).
  rewrite nth_map_seq by exact Hj. destruct (i =? j)%nat; reflexivity.
Qed.

Lemma count_tv i w : (i < 6)%nat ->
  count_some (map (fun j => match get (fun x => Some x) lay_typedvalue j
                                    (emit lay_typedvalue (map (fun j => if (i =? j)%nat then Some w else None) (seq 0 6)))
                            with Some _ => Some tt | None => None end) (seq 0 6)) = 1%nat.
Proof.
  intro Hi. rewrite (map_ext_in _ (fun j => if (i =? j)%nat then Some tt else None)).
  - do 6 (destruct i as [|i]; [reflexivity|]). lia.
  - intros j Hj. apply in_seq in Hj. rewrite get_tv by lia. destruct (i =? j)%nat; reflexivity.
Qed.

Lemma cv_rt : forall c, dec_cv (enc_cv c) = Some c.
Proof.
  induction c as [b|z|s|s e|l IH|l IH] using const_value_ind'; cbn [enc_cv]; unfold cv, wstruct; cbn [dec_cv].
  (* Type and Extra first: the reader of the union closes over them *)
  all: gets; cbn [dflt d_i32]; try (destruct e as [e|]; cbn [omap]; [rewrite extra_rt|]); cbn [opt]; gets.
  all: unfold tv, wstruct; cbn [need Z.eqb Pos.eqb]; rewrite count_tv, get_tv by lia;
       cbn [Nat.eqb negb need d_dbl d_i64 d_str].
  1: rewrite N2Z.id. 1-5: reflexivity.
  - unfold d_list. rewrite mapo_map by exact IH. reflexivity.
  - unfold d_list.
    rewrite mapo_map with (e := fun kv => WStruct (emit lay_mapconst [Some (enc_cv (fst kv)); Some (enc_cv (snd kv))])).
    + reflexivity.
    + eapply Forall_impl; [|exact IH]. intros [k v] [Hk Hv]. cbn [fst snd] in *. gets. rewrite Hk, Hv. reflexivity.
Qed.

Lemma namespace_rt n : dec_namespace (enc_namespace n) = Some n.
Proof.
  destruct n as [l n a]. unfold dec_namespace, enc_namespace, wstruct. gets.
  cbn [dflt d_str ns_language ns_name ns_annos]. rewrite annos_rt. reflexivity.
Qed.

Lemma typedef_rt t : dec_typedef (enc_typedef t) = Some t.
Proof.
  destruct t as [t a an c]. unfold dec_typedef, enc_typedef, wstruct. gets.
  cbn [dflt need d_str td_type td_alias td_annos td_comments]. rewrite ty_rt, annos_rt. reflexivity.
Qed.

Lemma enum_value_rt v : dec_enum_value (enc_enum_value v) = Some v.
Proof.
  destruct v as [n v an c]. unfold dec_enum_value, enc_enum_value, wstruct. gets.
  cbn [dflt d_str d_i64 ev_name ev_value ev_annos ev_comments]. rewrite annos_rt. reflexivity.
Qed.

Lemma enum_rt e : dec_enum (enc_enum e) = Some e.
Proof.
  destruct e as [n v an c]. unfold dec_enum, enc_enum, wstruct. gets.
  cbn [dflt d_str en_name en_values en_annos en_comments].
  rewrite annos_rt, (d_list_structs _ _ _ enum_value_rt). reflexivity.
Qed.

Lemma constant_rt c : dec_constant (enc_constant c) = Some c.
Proof.
  destruct c as [n t v an c]. unfold dec_constant, enc_constant, wstruct. gets.
  cbn [dflt need d_str co_name co_type co_value co_annos co_comments]. rewrite ty_rt, cv_rt, annos_rt. reflexivity.
Qed.

Lemma field_rt f : dec_field (enc_field f) = Some f.
Proof.
  destruct f as [i n r t d an c]. unfold dec_field, enc_field, wstruct. gets.
  cbn [dflt need d_str d_i32 d_req fd_id fd_name fd_req fd_type fd_default fd_annos fd_comments].
  rewrite ty_rt, annos_rt, req_roundtrip.
  destruct d as [d|]; cbn [omap opt]; [rewrite cv_rt|]; reflexivity.
Qed.

Lemma fields_rt l : dec_fields (enc_fields l) = Some l.
Proof. apply d_list_structs. apply field_rt. Qed.

Lemma struct_like_rt s : dec_struct_like (enc_struct_like s) = Some s.
Proof.
  destruct s as [k n f an c]. unfold dec_struct_like, enc_struct_like, wstruct. gets.
  cbn [dflt need d_str d_kind sl_category sl_name sl_fields sl_annos sl_comments].
  rewrite kind_roundtrip, fields_rt, annos_rt. reflexivity.
Qed.

Lemma function_rt f : dec_function (enc_function f) = Some f.
Proof.
  destruct f as [n o v t a th an c]. unfold dec_function, enc_function, wstruct. gets.
  cbn [dflt need d_str d_bool fn_name fn_oneway fn_void fn_type fn_args fn_throws fn_annos fn_comments].
  rewrite ty_rt, !fields_rt, annos_rt. reflexivity.
Qed.

Lemma service_rt s : dec_service (enc_service s) = Some s.
Proof.
  destruct s as [n e f an r c]. unfold dec_service, enc_service, wstruct. gets.
  cbn [dflt need d_str sv_name sv_extends sv_functions sv_annos sv_ref sv_comments].
  rewrite (d_list_structs _ _ _ function_rt), annos_rt.
  destruct r as [r|]; cbn [omap opt]; [rewrite reference_rt|]; reflexivity.
Qed.

Lemma pairs_rt l : dec_pairs (map (fun kv : bytes * category => (WStr (fst kv), WI32 (cat_z (snd kv)))) l) = Some l.
Proof.
  induction l as [|[k c] l IH]; [reflexivity|]. cbn [map dec_pairs fst snd d_str d_cat].
  rewrite cat_roundtrip, IH. reflexivity.
Qed.

Lemma name2cat_rt m : dec_name2cat (enc_name2cat m) = Some (match m with Some l => l | None => [] end).
Proof. unfold dec_name2cat, enc_name2cat. apply pairs_rt. Qed.

Lemma wt_ast_eq f kids :
  wt_ast (Ast f kids) =
  (List.length kids =? List.length (f_includes f))%nat &&
  forallb (fun i => match in_ref i with None => true | Some _ => false end) (f_includes f) && forallb wt_ast (somes kids).
Proof. rewrite <- kids_forallb. reflexivity. Qed.

Lemma enc_ast_eq f kids :
  enc_ast (Ast f kids) =
  wstruct lay_thrift
    [Some (WStr (f_filename f)); Some (WList T_STRUCT (enc_incs enc_ast (f_includes f) kids));
     Some (w_strs (f_cpp_includes f)); Some (w_structs enc_namespace (f_namespaces f));
     Some (w_structs enc_typedef (f_typedefs f)); Some (w_structs enc_constant (f_constants f));
     Some (w_structs enc_enum (f_enums f)); Some (w_structs enc_struct_like (f_structs f));
     Some (w_structs enc_struct_like (f_unions f)); Some (w_structs enc_struct_like (f_exceptions f));
     Some (w_structs enc_service (f_services f)); Some (enc_name2cat (f_name2cat f))].
Proof.
  cbn [enc_ast].
  match goal with |- context[WList T_STRUCT (?g (f_includes f) kids)] =>
    assert (E : forall ks is, g is ks = enc_incs enc_ast is ks) end.
  { induction ks as [|k r IH]; intros [|i is]; cbn [enc_incs]; try reflexivity. f_equal. apply IH. }
  rewrite E. reflexivity.
Qed.

Lemma norm_ast_eq f kids : norm_ast (Ast f kids) = Ast (norm_file f) (map (omap norm_ast) kids).
Proof. reflexivity. Qed.

Lemma incs_rt : forall ks is, List.length ks = List.length is ->
  forallb (fun i => match in_ref i with None => true | Some _ => false end) is = true ->
  (forall x, In (Some x) ks -> dec_ast (enc_ast x) = Some (norm_ast x)) ->
  exists incs, mapo (dec_include dec_ast) (enc_incs enc_ast is ks) = Some incs /\
               map fst incs = is /\ map snd incs = map (omap norm_ast) ks.
Proof.
  induction ks as [|k r IHr]; intros [|i is] Hlen Hrefs Hk; try discriminate; [exists []; auto|].
  injection Hlen as Hlen. cbn [forallb] in Hrefs. bsplit Hrefs.
  destruct (IHr is Hlen Hrefs0 (fun x Hx => Hk x (or_intror Hx))) as (incs & E & E1 & E2).
  destruct i as [p [rf|] u]; [discriminate|].
  exists ((Include p None u, omap norm_ast k) :: incs). cbn [map fst snd]. rewrite E1, E2. repeat split.
  cbn [enc_incs mapo]. rewrite E. unfold wstruct at 1, dec_include at 1. gets. cbn [dflt d_str in_path in_used].
  destruct k as [x|]; cbn [omap]; [rewrite (Hk x (or_introl eq_refl))|]; destruct u; reflexivity.
Qed.

Lemma ast_rt : forall a, wt_ast a = true -> dec_ast (enc_ast a) = Some (norm_ast a).
Proof.
  induction a as [f kids IH] using ast_ind'. intro Hwt.
  rewrite wt_ast_eq in Hwt. bsplit Hwt. apply Nat.eqb_eq in Hwt.
  destruct (incs_rt kids (f_includes f) Hwt Hwt1) as (incs & E & E1 & E2).
  { intros x Hx. apply in_somes in Hx. rewrite Forall_forall in IH. rewrite forallb_forall in Hwt0. auto. }
  rewrite enc_ast_eq, norm_ast_eq. unfold wstruct. cbn [dec_ast]. gets. cbn [dflt opt d_str].
  rewrite d_list_strs, (d_list_structs _ _ _ namespace_rt), (d_list_structs _ _ _ typedef_rt),
    (d_list_structs _ _ _ constant_rt), (d_list_structs _ _ _ enum_rt), !(d_list_structs _ _ _ struct_like_rt),
    (d_list_structs _ _ _ service_rt), name2cat_rt.
  unfold d_list. rewrite E. cbn [dflt]. rewrite E1, E2. reflexivity.
Qed.

Lemma request_rt r : wt_ast (rq_ast r) = true -> dec_request (enc_request r) = Some (norm_request r).
Proof.
  destruct r as [v g p l o rc a]. cbn [rq_ast]. intro H. unfold dec_request, enc_request, wstruct. gets.
  cbn [need d_str d_bool rq_version rq_gen_params rq_plugin_params rq_language rq_output_path rq_recursive rq_ast].
  rewrite !d_list_strs, (ast_rt a H). reflexivity.
Qed.

Theorem decompress_compress g fuel : wf_graph g -> (height g <= fuel)%nat ->
  decompress_top fuel (compress_top g) = DOk g.
Proof. apply (decompress_compress_gen stub stub_target_stub). Qed.

Theorem compress_no_dup g : wf_graph g ->
  NoDup (map ast_name (live (compress_top g))) /\
  (forall n, In n (map ast_name (below g)) <-> In n (map ast_name (live (compress_top g)))) /\
  (forall n, In n (map ast_name (below g)) ->
     count_occ (list_eq_dec Byte.byte_eq_dec) (map ast_name (live (compress_top g))) n = 1%nat).
Proof. apply (compress_no_dup_gen stub stub_target_stub). Qed.

Lemma norm_name a : ast_name (norm_ast a) = ast_name a.
Proof. destruct a as [f kids]. reflexivity. Qed.

Lemma compress_norm_both mk :
  (forall a s, compress_gen (fun n => norm_ast (mk n)) s (norm_ast a) =
               let '(a', s') := compress_gen mk s a in (norm_ast a', s')) /\
  (forall ks s, compress_kids (fun n => norm_ast (mk n)) s (map (omap norm_ast) ks) =
                let '(ks', s') := compress_kids mk s ks in (map (omap norm_ast) ks', s')).
Proof.
  apply ast_kids_ind.
  - intros f kids IH s. rewrite norm_ast_eq, !compress_eq, IH. destruct (compress_kids mk s kids). reflexivity.
  - reflexivity.
  - intros k r IHk IHr s. cbn [map omap compress_kids]. rewrite norm_name. destruct (mem (ast_name k) s).
    + rewrite IHr. destruct (compress_kids mk s r). reflexivity.
    + rewrite IHk. destruct (compress_gen mk (ast_name k :: s) k) as [k1 s1]. rewrite IHr.
      destruct (compress_kids mk s1 r). reflexivity.
  - intros r IHr s. cbn [map omap compress_kids]. rewrite IHr. destruct (compress_kids mk s r). reflexivity.
Qed.

Lemma compress_norm mk a s :
  norm_ast (fst (compress_gen mk s a)) = fst (compress_gen (fun n => norm_ast (mk n)) s (norm_ast a)).
Proof. rewrite (proj1 (compress_norm_both mk)). destruct (compress_gen mk s a). reflexivity. Qed.

Lemma nodes_norm : forall a, nodes (norm_ast a) = map norm_ast (nodes a).
Proof.
  induction a as [f kids IH] using ast_ind'. rewrite norm_ast_eq, !nodes_eq, somes_map. cbn [map]. f_equal.
  revert IH. generalize (somes kids) as l. induction 1 as [|k l Hk _ IHl]; [reflexivity|].
  cbn [map flat_map]. rewrite map_app, Hk, IHl. reflexivity.
Qed.

Lemma height_eq f kids : height (Ast f kids) = S (list_max (map height (somes kids))).
Proof.
  unfold list_max. cbn [height]. f_equal.
  induction kids as [|[k|] r IH]; cbn [somes map fold_right]; congruence.
Qed.

Lemma height_norm : forall a, height (norm_ast a) = height a.
Proof.
  induction a as [f kids IH] using ast_ind'. rewrite norm_ast_eq, !height_eq, somes_map, map_map.
  do 2 f_equal. apply map_ext_Forall. exact IH.
Qed.

Lemma refs_norm : forall a, all_refs_set (norm_ast a) = all_refs_set a.
Proof.
  induction a as [f kids IH] using ast_ind'. rewrite norm_ast_eq, !all_refs_eq. rewrite Forall_forall in IH.
  induction kids as [|[k|] r IHr]; cbn [map omap all_refs_kids somes In] in *; [reflexivity| |reflexivity].
  rewrite IH, IHr by auto. reflexivity.
Qed.

Lemma wf_graph_norm g : wf_graph g -> wf_graph (norm_ast g).
Proof.
  intros (Hr & Hs & Hc). split; [rewrite refs_norm; exact Hr|]. split.
  - intros x y Hx Hy Hn. rewrite nodes_norm in Hx, Hy.
    apply in_map_iff in Hx as (x0 & <- & Hx). apply in_map_iff in Hy as (y0 & <- & Hy).
    rewrite !norm_name in Hn. rewrite (Hs x0 y0 Hx Hy Hn). reflexivity.
  - intros x Hx. rewrite nodes_norm in Hx. apply in_map_iff in Hx as (x0 & <- & Hx).
    rewrite norm_name. apply Hc. exact Hx.
Qed.

Lemma wt_compress a s : wt_ast a = true -> wt_ast (fst (compress s a)) = true.
Proof.
  revert a s.
  apply (compress_rel stub (fun a a' => wt_ast a = true -> wt_ast a' = true)
           (fun ks ks' => List.length ks' = List.length ks /\
                          (forallb wt_ast (somes ks) = true -> forallb wt_ast (somes ks') = true))).
  - intros f ks ks' [El Hk]. rewrite !wt_ast_eq, El. intro H. bsplit H. rewrite H, H1, (Hk H0). reflexivity.
  - split; reflexivity.
  - intros r r' [El Hk]. split; [cbn [List.length]; congruence|exact Hk].
  - intros k k' r r' Hk [El Hr]. split; [cbn [List.length]; congruence|]. cbn [somes forallb]. intro H. bsplit H.
    rewrite (Hr H0), andb_true_r. destruct Hk as [->|Hk]; [reflexivity|exact (Hk H)].
Qed.

Lemma dec_marshal_request r rest :
  wfb (enc_request r) = true -> dec_struct (marshal_request r ++ rest) = Some (enc_request r, rest).
Proof. intro H. apply dec_struct_enc, wfb_wf, H. Qed.

(* what a plugin decodes is the request that was marshalled (the nil Name2Category map of a file
   comes back as an empty map: norm_request), for every request whose strings, lists and
   integers fit their wire widths *)
Theorem request_roundtrip r fuel :
  wt_ast (rq_ast r) = true -> wfb (enc_request r) = true ->
  unmarshal_request fuel (marshal_request r) = UOk (norm_request r).
Proof.
  intros Hwt Hwf. unfold unmarshal_request.
  rewrite <- (app_nil_r (marshal_request r)) at 1. rewrite (dec_marshal_request r [] Hwf), (request_rt r Hwt).
  unfold marshal_request, enc_request, wstruct. rewrite trailer_absent_on_plain. reflexivity.
Qed.

Theorem request_roundtrip_compressed r fuel :
  wf_graph (rq_ast r) -> wt_ast (rq_ast r) = true ->
  wfb (enc_request (with_ast r (compress_top (rq_ast r)))) = true ->
  (height (rq_ast r) <= fuel)%nat ->
  unmarshal_request fuel (marshal_request_compressed r) = UOk (norm_request r).
Proof.
  intros Hg Hwt Hwf Hh. unfold unmarshal_request, marshal_request_compressed.
  set (rc := with_ast r (compress_top (rq_ast r))) in *.
  rewrite trailer_roundtrip by (unfold feature_compress_include; lia).
  unfold append_trailer. rewrite (dec_marshal_request rc _ Hwf), (request_rt rc (wt_compress _ _ Hwt)).
  change (Z.land feature_compress_include feature_compress_include =? feature_compress_include) with true.
  cbn [norm_request rq_ast rc with_ast].
  unfold compress_top, compress. rewrite (compress_norm stub).
  (* the decoded stubs are [norm_ast (stub n)]: still recognised as references to n *)
  pose proof (decompress_compress_gen (fun n => norm_ast (stub n))
                (fun n => eq_trans (f_equal (strip_prefix ref_prefix) (norm_name (stub n))) (stub_target_stub n))
                (norm_ast (rq_ast r)) fuel (wf_graph_norm _ Hg)) as Hdc.
  rewrite height_norm in Hdc. unfold ctop in Hdc. rewrite (Hdc Hh).
  destruct r; reflexivity.
Qed.

Lemma len_ok_srange {A} (l : list A) : len_ok l = true -> in_srange 4 (Z.of_nat (List.length l)).
Proof. unfold len_ok. apply in_srangeb_spec. Qed.

Lemma read_str_enc s r : len_ok s = true -> read_str (enc (WStr s) ++ r) = Some (s, r).
Proof.
  intro H. pose proof (len_ok_srange s H) as Hr. apply in_srange_4 in Hr. unfold read_str. cbn [enc]. rewrite <- app_assoc.
  rewrite get_s_put by (try (apply in_srange_4; assumption); lia). unfold take_z.
  destruct (Z.ltb_spec (Z.of_nat (List.length s)) 0) as [E|_]; [lia|]. cbn [orb].
  rewrite app_length.
  destruct (Z.ltb_spec (Z.of_nat (List.length s + List.length r)) (Z.of_nat (List.length s))) as [E|_]; [lia|].
  rewrite Nat2Z.id, firstn_app, Nat.sub_diag, firstn_all, skipn_app, Nat.sub_diag, skipn_all. cbn [firstn skipn].
  rewrite app_nil_r. reflexivity.
Qed.

Lemma get1_code t r : get_be 1 (put_be 1 (code t) ++ r) = Some (code t, r).
Proof. apply get_put. apply code_in_range1. Qed.

Lemma get_s_put_2 id r : -32768 <= id < 32768 -> get_s 2 (put_be 2 id ++ r) = Some (id, r).
Proof. intro H. apply get_s_put; [lia|]. apply in_srange_2. exact H. Qed.

Lemma wsize_pos v : (1 <= wsize v)%nat.
Proof. destruct v; cbn [wsize]; try lia. destruct fs as [|[[t i] x] r]; lia. Qed.

Lemma enc_list_go_len l : (List.length l <= List.length (enc_list_go l))%nat.
Proof.
  induction l as [|x l IH]; [cbn; lia|].
  change (enc_list_go (x :: l)) with (enc x ++ enc_list_go l).
  rewrite app_length, enc_length. pose proof (wsize_pos x). cbn [List.length]. lia.
Qed.

Lemma enc_list_go_map {A} (e : A -> wval) l :
  enc_list_go (map e l) = fold_right (fun x acc => enc (e x) ++ acc) [] l.
Proof. induction l as [|x l IH]; [reflexivity|]. cbn [map]. change (enc_list_go (e x :: map e l)) with (enc (e x) ++ enc_list_go (map e l)). rewrite IH. reflexivity. Qed.

Lemma read_list_begin_enc et (l : list wval) r : len_ok l = true ->
  read_list_begin (put_be 1 (code et) ++ put_be 4 (Z.of_nat (List.length l)) ++ enc_list_go l ++ r) =
  Some (List.length l, enc_list_go l ++ r).
Proof.
  intro H. pose proof (len_ok_srange l H) as Hr. apply in_srange_4 in Hr. unfold read_list_begin.
  assert (E : put_be 1 (code et) = [byte_of_Z (code et)]).
  { cbn [put_be]. change (256 ^ Z.of_nat 0) with 1. rewrite Z.div_1_r. reflexivity. }
  rewrite E. cbn [app]. rewrite get_s_put by (try (apply in_srange_4; assumption); lia).
  destruct (Z.ltb_spec (Z.of_nat (List.length l)) 0) as [E1|_]; [lia|]. cbn [orb].
  rewrite app_length. pose proof (enc_list_go_len l).
  destruct (Z.ltb_spec (Z.of_nat (List.length (enc_list_go l) + List.length r)) (Z.of_nat (List.length l))) as [E2|_]; [lia|].
  rewrite Nat2Z.id. reflexivity.
Qed.

Lemma rg_field n g seen id s rest : len_ok s = true -> 1 <= id <= 3 ->
  read_generated (S n) g seen (put_be 1 (code T_STRING) ++ put_be 2 id ++ enc (WStr s) ++ rest) =
  read_generated n (if id =? 1 then mkgenerated s (gn_name g) (gn_ip g)
                    else if id =? 2 then mkgenerated (gn_content g) (Some s) (gn_ip g)
                    else mkgenerated (gn_content g) (gn_name g) (Some s))
                 (if id =? 1 then true else seen) rest.
Proof.
  intros H Hid. cbn [read_generated]. rewrite get1_code. change (code T_STRING =? 0) with false. cbn iota.
  rewrite get_s_put_2 by lia. assert (E : id = 1 \/ id = 2 \/ id = 3) by lia.
  destruct E as [-> | [-> | ->]]; cbn [key_is nth lay_generated fst snd code Z.eqb Pos.eqb andb];
    rewrite read_str_enc by exact H; reflexivity.
Qed.

Definition ofield (key : ttype * Z) (o : option wval) : bytes :=
  match o with Some w => put_be 1 (code (fst key)) ++ put_be 2 (snd key) ++ enc w | None => [] end.

Lemma enc_fields_emit key lay o sl :
  enc_fields_go (emit (key :: lay) (o :: sl)) = ofield key o ++ enc_fields_go (emit lay sl).
Proof.
  destruct key as [t id], o as [w|]; cbn [emit ofield fst snd app]; [|reflexivity].
  rewrite enc_fields_go_cons, <- !app_assoc. reflexivity.
Qed.

(* The readers spend one unit of fuel per field and are started with more fuel than there are bytes; a field
   has at least one byte, so "more fuel than bytes left" survives every step, and an empty slot costs nothing.
   [F] is the reader in the state before the slot, [F'] in the state after it; with the rest of the reading as
   the third premise, the slots of a struct are read one after the other, whichever of them are present. *)
Lemma slot_step {X} (F F' : nat -> bytes -> X) key o rest x :
  match o with
  | Some w => forall n, F (S n) (put_be 1 (code (fst key)) ++ put_be 2 (snd key) ++ enc w ++ rest) = F' n rest
  | None => F = F'
  end ->
  (forall n, (List.length rest < n)%nat -> F' n rest = x) ->
  forall n, (List.length (ofield key o ++ rest) < n)%nat -> F n (ofield key o ++ rest) = x.
Proof.
  intros Hs K n Hn. destruct o as [w|]; cbn [ofield] in *; [|rewrite Hs; exact (K n Hn)].
  rewrite <- !app_assoc in *. rewrite !app_length, !put_be_length in Hn.
  destruct n as [|n]; [lia|]. rewrite Hs. apply K. lia.
Qed.

Lemma generated_rt g rest : generated_ok g = true ->
  forall n, (List.length (enc (enc_generated g) ++ rest) < n)%nat ->
  read_generated n generated0 false (enc (enc_generated g) ++ rest) = Some (g, rest).
Proof.
  destruct g as [c nm ip]. unfold generated_ok, enc_generated, wstruct. cbn [gn_content gn_name gn_ip]. intro H. bsplit H.
  rewrite enc_struct_unfold. unfold lay_generated. rewrite !enc_fields_emit, <- !app_assoc.
  apply (slot_step (fun n => read_generated n _ _) (fun n => read_generated n (mkgenerated c None None) true)).
  { intro n. apply (rg_field n generated0 false 1); [exact H|lia]. }
  apply (slot_step (fun n => read_generated n _ _) (fun n => read_generated n (mkgenerated c nm None) true)).
  { destruct nm as [s|]; [|reflexivity]. intro n. apply (rg_field n (mkgenerated c None None) true 2); [exact H1|lia]. }
  apply (slot_step (fun n => read_generated n _ _) (fun n => read_generated n (mkgenerated c nm ip) true)).
  { destruct ip as [s|]; [|reflexivity]. intro n. apply (rg_field n (mkgenerated c nm None) true 3); [exact H0|lia]. }
  intros [|n] Hn; [inversion Hn|]. reflexivity.
Qed.

Lemma rr_stop n p rest : read_response (S n) p (x00 :: rest) = Some (p, rest).
Proof. reflexivity. Qed.

Lemma rr_error n p s rest : len_ok s = true ->
  read_response (S n) p (put_be 1 (code T_STRING) ++ put_be 2 1 ++ enc (WStr s) ++ rest) =
  read_response n (mkresp (Some s) (rs_contents p) (rs_warnings p)) rest.
Proof.
  intro H. cbn [read_response]. rewrite get1_code. change (code T_STRING =? 0) with false. cbn iota.
  rewrite get_s_put_2 by lia.
  change (key_is (nth 0 lay_response nokey) (code T_STRING) 1) with true. cbn iota.
  rewrite read_str_enc by exact H. reflexivity.
Qed.

Lemma rr_contents n p gs rest : len_ok gs = true -> forallb generated_ok gs = true ->
  read_response (S n) p (put_be 1 (code T_LIST) ++ put_be 2 2 ++ enc (w_structs enc_generated gs) ++ rest) =
  read_response n (mkresp (rs_error p) (Some gs) (rs_warnings p)) rest.
Proof.
  intros Hl Hg. cbn [read_response]. rewrite get1_code. change (code T_LIST =? 0) with false. cbn iota.
  rewrite get_s_put_2 by lia.
  change (key_is (nth 0 lay_response nokey) (code T_LIST) 2) with false.
  change (key_is (nth 1 lay_response nokey) (code T_LIST) 2) with true. cbn iota.
  unfold w_structs. rewrite enc_list_unfold, <- !app_assoc.
  assert (Hl' : len_ok (map enc_generated gs) = true) by (unfold len_ok in *; rewrite map_length; exact Hl).
  rewrite read_list_begin_enc by exact Hl'. rewrite map_length, enc_list_go_map.
  rewrite (rep_enc (fun b => read_generated (S (List.length b)) generated0 false b) (fun g => enc (enc_generated g)) gs rest).
  - reflexivity.
  - rewrite forallb_forall in Hg. apply Forall_forall. intros g Hin r. apply generated_rt; [apply Hg; exact Hin|apply Nat.lt_succ_diag_r].
Qed.

Lemma rr_warnings n p ws rest : len_ok ws = true -> forallb len_ok ws = true ->
  read_response (S n) p (put_be 1 (code T_LIST) ++ put_be 2 3 ++ enc (w_strs ws) ++ rest) =
  read_response n (mkresp (rs_error p) (rs_contents p) (Some ws)) rest.
Proof.
  intros Hl Hg. cbn [read_response]. rewrite get1_code. change (code T_LIST =? 0) with false. cbn iota.
  rewrite get_s_put_2 by lia.
  change (key_is (nth 0 lay_response nokey) (code T_LIST) 3) with false.
  change (key_is (nth 1 lay_response nokey) (code T_LIST) 3) with false.
  change (key_is (nth 2 lay_response nokey) (code T_LIST) 3) with true. cbn iota.
  unfold w_strs. rewrite enc_list_unfold, <- !app_assoc.
  assert (Hl' : len_ok (map WStr ws) = true) by (unfold len_ok in *; rewrite map_length; exact Hl).
  rewrite read_list_begin_enc by exact Hl'. rewrite map_length, enc_list_go_map.
  rewrite (rep_enc read_str (fun s => enc (WStr s)) ws rest).
  - reflexivity.
  - rewrite forallb_forall in Hg. apply Forall_forall. intros s Hin r. apply read_str_enc. apply Hg. exact Hin.
Qed.

Lemma read_response_enc r rest : response_ok r = true ->
  forall n, (List.length (enc (enc_response r) ++ rest) < n)%nat ->
  read_response n response0 (enc (enc_response r) ++ rest) = Some (r, rest).
Proof.
  destruct r as [e c w]. unfold response_ok, enc_response, wstruct. cbn [rs_error rs_contents rs_warnings]. intro H. bsplit H.
  rewrite enc_struct_unfold. unfold lay_response. rewrite !enc_fields_emit, <- !app_assoc.
  apply (slot_step (fun n => read_response n _) (fun n => read_response n (mkresp e None None))).
  { destruct e as [s|]; [|reflexivity]. intro n. apply (rr_error n response0). exact H. }
  apply (slot_step (fun n => read_response n _) (fun n => read_response n (mkresp e c None))).
  { destruct c as [gs|]; [|reflexivity]. intro n. cbn [oall] in H1. bsplit H1.
    apply (rr_contents n (mkresp e None None)); assumption. }
  apply (slot_step (fun n => read_response n _) (fun n => read_response n (mkresp e c w))).
  { destruct w as [ws|]; [|reflexivity]. intro n. unfold oall, strs_ok in H0. bsplit H0.
    apply (rr_warnings n (mkresp e c None)); assumption. }
  intros [|n] Hn; [inversion Hn|]. apply rr_stop.
Qed.

(* decode (encode r) = r for every response: error set or unset, files, insertion-point patches,
   warnings, each present or absent, whatever follows the encoding *)
Theorem response_roundtrip r rest : response_ok r = true ->
  unmarshal_response (marshal_response r ++ rest) = Some r.
Proof.
  intro H. unfold unmarshal_response, marshal_response.
  rewrite (read_response_enc r rest H) by apply Nat.lt_succ_diag_r. reflexivity.
Qed.

Lemma wfb_struct fs :
  wfb (WStruct fs) = forallb (fun f : wfield => ttype_eqb (wtype (snd f)) (fst (fst f)) && in_srangeb 2 (snd (fst f)) && wfb (snd f)) fs.
Proof. cbn [wfb]. induction fs as [|[[t i] x] r IH]; [reflexivity|]. cbn [forallb fst snd]. rewrite IH. reflexivity. Qed.

Lemma wfb_map kt vt l :
  wfb (WMap kt vt l) = in_srangeb 4 (Z.of_nat (List.length l)) &&
    forallb (fun kv => ttype_eqb (wtype (fst kv)) kt && ttype_eqb (wtype (snd kv)) vt && wfb (fst kv) && wfb (snd kv)) l.
Proof. cbn [wfb]. f_equal. induction l as [|[k x] r IH]; [reflexivity|]. cbn [forallb fst snd]. rewrite IH. reflexivity. Qed.

Lemma wfb_list_map {A} et (e : A -> wval) (p : A -> bool) l :
  (forall x, In x l -> p x = true -> wtype (e x) = et /\ wfb (e x) = true) ->
  len_ok l = true -> forallb p l = true -> wfb (WList et (map e l)) = true.
Proof.
  intros He Hl Hp. change (in_srangeb 4 (Z.of_nat (List.length (map e l))) &&
                           forallb (fun x => ttype_eqb (wtype x) et && wfb x) (map e l) = true).
  rewrite map_length. unfold len_ok in Hl. rewrite Hl. cbn [andb].
  rewrite forallb_forall in *. intros w Hw. apply in_map_iff in Hw as (x & <- & Hx).
  destruct (He x Hx (Hp x Hx)) as [-> ->]. rewrite ttype_eqb_refl. reflexivity.
Qed.

Lemma wfb_structs {A} (e : A -> wval) (p : A -> bool) l :
  (forall x, p x = true -> wtype (e x) = T_STRUCT /\ wfb (e x) = true) ->
  list_ok p l = true -> wfb (w_structs e l) = true.
Proof. intros He H. unfold list_ok in H. bsplit H. apply (wfb_list_map _ e p); auto. Qed.

Lemma wfb_strs l : strs_ok l = true -> wfb (w_strs l) = true.
Proof. intro H. unfold strs_ok in H. bsplit H. apply (wfb_list_map _ WStr len_ok); auto. Qed.

Definition slot_ok (t : ttype) (o : option wval) : bool := oall (fun w => ttype_eqb (wtype w) t && wfb w) o.
Fixpoint slots_ok (lay : list (ttype * Z)) (sl : slots) : bool :=
  match lay, sl with
  | (t, _) :: lay', o :: sl' => slot_ok t o && slots_ok lay' sl'
  | _, _ => true
  end.

Lemma wfb_wstruct lay sl :
  forallb (fun k => in_srangeb 2 (snd k)) lay = true -> slots_ok lay sl = true -> wfb (wstruct lay sl) = true.
Proof.
  unfold wstruct. rewrite wfb_struct. revert sl.
  induction lay as [|[t id] lay IH]; intros sl Hl Hs; [destruct sl; reflexivity|].
  cbn [forallb snd] in Hl. bsplit Hl. destruct sl as [|o sl]; [reflexivity|]. cbn [slots_ok] in Hs. bsplit Hs.
  destruct o as [w|]; cbn [emit]; [|apply IH; assumption].
  cbn [forallb fst snd]. cbn [slot_ok oall] in Hs. bsplit Hs. rewrite Hs, Hl, Hs1, (IH sl Hl0 Hs0). reflexivity.
Qed.

Lemma slots_ok_cons t id lay o sl :
  slot_ok t o = true -> slots_ok lay sl = true -> slots_ok ((t, id) :: lay) (o :: sl) = true.
Proof. intros H1 H2. cbn [slots_ok]. rewrite H1, H2. reflexivity. Qed.

Lemma slot_val t w : wtype w = t -> wfb w = true -> slot_ok t (Some w) = true.
Proof. intros <- H. cbn [slot_ok oall]. rewrite ttype_eqb_refl, H. reflexivity. Qed.

Lemma slot_opt {A} t (e : A -> wval) o :
  (forall x, o = Some x -> wtype (e x) = t /\ wfb (e x) = true) -> slot_ok t (omap e o) = true.
Proof. intro He. destruct o as [x|]; [|reflexivity]. apply slot_val; apply (He x eq_refl). Qed.

Lemma slot_opt_bool o : slot_ok T_BOOL (omap WBool o) = true.
Proof. destruct o; reflexivity. Qed.

(* a struct built through wstruct: ids of the layout in range (by computation), then slot by
   slot; what is left are the slots that need a lemma *)
Ltac slots :=
  lazymatch goal with
  | |- slots_ok (_ :: _) (Some _ :: _) = true =>
      apply slots_ok_cons;
      [apply slot_val; [try reflexivity|lazymatch goal with |- wfb (WBool _) = true => reflexivity | |- _ => try assumption end]|slots]
  | |- slots_ok (_ :: _) (_ :: _) = true => apply slots_ok_cons; [|slots]
  | |- _ => reflexivity
  end.
Ltac wfs := apply wfb_wstruct; [reflexivity|slots].

Lemma reference_wfb r : reference_ok r = true -> wtype (enc_reference r) = T_STRUCT /\ wfb (enc_reference r) = true.
Proof.
  destruct r as [n i]. unfold reference_ok, enc_reference. cbn [ref_name ref_index]. intro H. bsplit_all.
  split; [reflexivity|]. unfold lay_reference. wfs.
Qed.

Lemma annotation_wfb a : annotation_ok a = true -> wtype (enc_annotation a) = T_STRUCT /\ wfb (enc_annotation a) = true.
Proof.
  destruct a as [k v]. unfold annotation_ok, enc_annotation. cbn [an_key an_values]. intro H. bsplit_all.
  split; [reflexivity|]. unfold lay_annotation. wfs. apply wfb_strs. assumption.
Qed.

Lemma annos_wfb l : annos_ok l = true -> wfb (enc_annos l) = true.
Proof. apply wfb_structs, annotation_wfb. Qed.

Lemma cat_wfb c : wfb (WI32 (cat_z c)) = true.
Proof. destruct c; reflexivity. Qed.
Lemma req_wfb c : wfb (WI32 (req_z c)) = true.
Proof. destruct c; reflexivity. Qed.

Lemma enc_ty_wtype t : wtype (enc_ty t) = T_STRUCT.
Proof. destruct t. reflexivity. Qed.

Lemma ty_wfb : forall t, ty_ok t = true -> wfb (enc_ty t) = true.
Proof.
  induction t as [n k v c an cat r td IHk IHv] using ty_ind'. cbn [ty_ok enc_ty]. intro H.
  bsplit H. unfold lay_type. wfs.
  - apply (slot_opt _ enc_ty k). intros x ->. split; [apply enc_ty_wtype|apply (IHk x eq_refl); assumption].
  - apply (slot_opt _ enc_ty v). intros x ->. split; [apply enc_ty_wtype|apply (IHv x eq_refl); assumption].
  - apply annos_wfb; assumption.
  - apply cat_wfb.
  - apply slot_opt. intros x ->. apply reference_wfb; assumption.
  - apply slot_opt_bool.
Qed.

Lemma extra_wfb e : extra_ok e = true -> wtype (enc_extra e) = T_STRUCT /\ wfb (enc_extra e) = true.
Proof.
  destruct e as [b i n s]. unfold extra_ok, enc_extra. cbn [ex_is_enum ex_index ex_name ex_sel]. intro H. bsplit_all.
  split; [reflexivity|]. unfold lay_extra. wfs.
Qed.

Lemma enc_cv_wtype c : wtype (enc_cv c) = T_STRUCT.
Proof. destruct c; reflexivity. Qed.

Lemma tv_wfb i w : (i < 6)%nat -> ttype_eqb (wtype w) (fst (nth i lay_typedvalue nokey)) = true -> wfb w = true ->
  wfb (tv i w) = true.
Proof.
  intros Hi Ht Hw. unfold tv. apply wfb_wstruct; [reflexivity|].
  do 6 (destruct i as [|i]; [cbn in Ht |- *; rewrite Ht, Hw; reflexivity|]). lia.
Qed.

Lemma cv_shape ty typed extra : wfb typed = true -> wtype typed = T_STRUCT -> in_srangeb 4 ty = true ->
  slot_ok T_STRUCT extra = true -> wfb (cv ty typed extra) = true.
Proof. intros Ht Hty Hi He. unfold cv, lay_constvalue. wfs; assumption. Qed.

Lemma cv_wfb : forall c, cv_ok c = true -> wfb (enc_cv c) = true.
Proof.
  induction c as [b|z|s|s e|l IH|l IH] using const_value_ind'; cbn [cv_ok enc_cv]; intro H;
    (apply cv_shape; [apply tv_wfb; [lia|reflexivity|]|reflexivity|reflexivity|try reflexivity]).
  - cbn [wfb]. apply Z.ltb_lt in H. apply andb_true_iff. split; [apply Z.leb_le; lia|apply Z.ltb_lt; exact H].
  - exact H.
  - exact H.
  - bsplit H. exact H.
  - bsplit H. apply slot_opt. intros x ->. apply extra_wfb, H0.
  - rewrite Forall_forall in IH. bsplit H. apply (wfb_list_map _ enc_cv cv_ok); [|assumption|assumption].
    intros x Hx Hok. split; [apply enc_cv_wtype|exact (IH x Hx Hok)].
  - rewrite Forall_forall in IH. bsplit H.
    apply (wfb_list_map _ _ (fun kv => cv_ok (fst kv) && cv_ok (snd kv))); [|assumption|assumption].
    intros [k v] Hx Hok. cbn [fst snd] in *. bsplit Hok. destruct (IH _ Hx) as [Ik Iv]. cbn [fst snd] in *.
    split; [reflexivity|]. unfold lay_mapconst. wfs; rewrite ?enc_cv_wtype; auto.
Qed.

Lemma namespace_wfb n : namespace_ok n = true -> wtype (enc_namespace n) = T_STRUCT /\ wfb (enc_namespace n) = true.
Proof.
  destruct n as [l n a]. unfold namespace_ok, enc_namespace. cbn [ns_language ns_name ns_annos]. intro H. bsplit_all.
  split; [reflexivity|]. unfold lay_namespace. wfs. apply annos_wfb. assumption.
Qed.

Lemma typedef_wfb t : typedef_ok t = true -> wtype (enc_typedef t) = T_STRUCT /\ wfb (enc_typedef t) = true.
Proof.
  destruct t as [t a an c]. unfold typedef_ok, enc_typedef. cbn [td_type td_alias td_annos td_comments]. intro H. bsplit_all.
  split; [reflexivity|]. unfold lay_typedef. wfs; [rewrite enc_ty_wtype; reflexivity|apply ty_wfb; assumption|apply annos_wfb; assumption].
Qed.

Lemma enum_value_wfb v : enum_value_ok v = true -> wtype (enc_enum_value v) = T_STRUCT /\ wfb (enc_enum_value v) = true.
Proof.
  destruct v as [n v an c]. unfold enum_value_ok, enc_enum_value. cbn [ev_name ev_value ev_annos ev_comments]. intro H. bsplit_all.
  split; [reflexivity|]. unfold lay_enumvalue. wfs. apply annos_wfb. assumption.
Qed.

Lemma enum_wfb e : enum_ok e = true -> wtype (enc_enum e) = T_STRUCT /\ wfb (enc_enum e) = true.
Proof.
  destruct e as [n v an c]. unfold enum_ok, enc_enum. cbn [en_name en_values en_annos en_comments]. intro H.
  fold (list_ok enum_value_ok v) in H. bsplit_all.
  split; [reflexivity|]. unfold lay_enum. wfs; [apply (wfb_structs _ _ _ enum_value_wfb); assumption|apply annos_wfb; assumption].
Qed.

Lemma constant_wfb c : constant_ok c = true -> wtype (enc_constant c) = T_STRUCT /\ wfb (enc_constant c) = true.
Proof.
  destruct c as [n t v an c]. unfold constant_ok, enc_constant. cbn [co_name co_type co_value co_annos co_comments]. intro H. bsplit_all.
  split; [reflexivity|]. unfold lay_constant.
  wfs; [rewrite enc_ty_wtype; reflexivity|apply ty_wfb; assumption|rewrite enc_cv_wtype; reflexivity|apply cv_wfb; assumption|apply annos_wfb; assumption].
Qed.

Lemma field_wfb f : field_ok f = true -> wtype (enc_field f) = T_STRUCT /\ wfb (enc_field f) = true.
Proof.
  destruct f as [i n r t d an c]. unfold field_ok, enc_field. cbn [fd_id fd_name fd_req fd_type fd_default fd_annos fd_comments]. intro H.
  bsplit H. split; [reflexivity|]. unfold lay_field. wfs.
  - apply req_wfb.
  - rewrite enc_ty_wtype. reflexivity.
  - apply ty_wfb; assumption.
  - apply slot_opt. intros x ->. split; [apply enc_cv_wtype|apply cv_wfb; assumption].
  - apply annos_wfb; assumption.
Qed.

Lemma fields_wfb l : fields_ok l = true -> wfb (enc_fields l) = true.
Proof. apply wfb_structs, field_wfb. Qed.

Lemma kind_wfb k : wfb (WStr (sl_kind_name k)) = true.
Proof. destruct k; reflexivity. Qed.

Lemma struct_like_wfb s : struct_like_ok s = true -> wtype (enc_struct_like s) = T_STRUCT /\ wfb (enc_struct_like s) = true.
Proof.
  destruct s as [k n f an c]. unfold struct_like_ok, enc_struct_like. cbn [sl_category sl_name sl_fields sl_annos sl_comments]. intro H. bsplit_all.
  split; [reflexivity|]. unfold lay_structlike. wfs; [apply kind_wfb|apply fields_wfb; assumption|apply annos_wfb; assumption].
Qed.

Lemma function_wfb f : function_ok f = true -> wtype (enc_function f) = T_STRUCT /\ wfb (enc_function f) = true.
Proof.
  destruct f as [n o v t a th an c]. unfold function_ok, enc_function.
  cbn [fn_name fn_oneway fn_void fn_type fn_args fn_throws fn_annos fn_comments]. intro H. bsplit_all.
  split; [reflexivity|]. unfold lay_function.
  wfs; [rewrite enc_ty_wtype; reflexivity|apply ty_wfb; assumption|apply fields_wfb; assumption|apply fields_wfb; assumption|apply annos_wfb; assumption].
Qed.

Lemma service_wfb s : service_ok s = true -> wtype (enc_service s) = T_STRUCT /\ wfb (enc_service s) = true.
Proof.
  destruct s as [n e f an r c]. unfold service_ok, enc_service. cbn [sv_name sv_extends sv_functions sv_annos sv_ref sv_comments]. intro H.
  fold (list_ok function_ok f) in H. bsplit H. split; [reflexivity|]. unfold lay_service. wfs.
  - apply (wfb_structs _ _ _ function_wfb); assumption.
  - apply annos_wfb; assumption.
  - apply slot_opt. intros x ->. apply reference_wfb; assumption.
Qed.

Lemma name2cat_wfb m : oall (list_ok (fun kv : bytes * category => len_ok (fst kv))) m = true -> wfb (enc_name2cat m) = true.
Proof.
  unfold enc_name2cat. intro H. rewrite wfb_map, map_length.
  destruct m as [l|]; cbn [oall] in H; [|reflexivity].
  unfold list_ok in H. bsplit H. unfold len_ok in H. rewrite H. cbn [andb].
  rewrite forallb_forall in *. intros w Hw. apply in_map_iff in Hw as ([k c] & <- & Hx). cbn [fst snd wtype].
  rewrite cat_wfb, andb_true_r. exact (H0 _ Hx).
Qed.

Lemma ast_ok_eq f kids : ast_ok (Ast f kids) = file_ok f && forallb ast_ok (somes kids).
Proof. rewrite <- kids_forallb. reflexivity. Qed.

Lemma enc_ast_wtype a : wtype (enc_ast a) = T_STRUCT.
Proof. destruct a. reflexivity. Qed.

Lemma len_ok_le {A B} (a : list A) (b : list B) : (List.length a <= List.length b)%nat -> len_ok b = true -> len_ok a = true.
Proof.
  unfold len_ok. intros Hl H. apply in_srangeb_spec in H. apply in_srangeb_spec. rewrite in_srange_4 in *. lia.
Qed.

Lemma enc_incs_length enc is : forall ks, (List.length (enc_incs enc is ks) <= List.length is)%nat.
Proof. induction is as [|i is IH]; intros [|k ks]; cbn [enc_incs List.length]; try lia. specialize (IH ks). lia. Qed.

Lemma incs_wfb is : forall ks,
  forallb (fun i => len_ok (in_path i)) is = true -> forallb (fun k => wfb (enc_ast k)) (somes ks) = true ->
  forallb (fun x => ttype_eqb (wtype x) T_STRUCT && wfb x) (enc_incs enc_ast is ks) = true.
Proof.
  induction is as [|[p rf u] is IH]; intros [|k ks] Hi Hk; try reflexivity.
  cbn [forallb in_path] in Hi. bsplit Hi. cbn [enc_incs forallb in_path in_used].
  assert (Hkk : (forall x, k = Some x -> wfb (enc_ast x) = true) /\ forallb (fun k => wfb (enc_ast k)) (somes ks) = true).
  { destruct k as [x|]; cbn [somes forallb] in Hk; [bsplit Hk|]; split; try assumption; [intros ? [= <-]; assumption|discriminate]. }
  destruct Hkk as [Hx Hks]. rewrite (IH ks Hi0 Hks), andb_true_r. apply andb_true_iff. split; [reflexivity|].
  unfold lay_include. wfs.
  - apply slot_opt. intros x ->. split; [apply enc_ast_wtype|apply Hx; reflexivity].
  - apply slot_opt_bool.
Qed.

Lemma node_wfb f kids :
  file_ok f = true -> forallb (fun k => wfb (enc_ast k)) (somes kids) = true -> wfb (enc_ast (Ast f kids)) = true.
Proof.
  rewrite enc_ast_eq. intros Hf Hk. unfold file_ok in Hf. unfold list_ok at 1 in Hf. bsplit_all.
  unfold lay_thrift. wfs.
  - apply (len_ok_le _ (ref_prefix ++ f_filename f)); [rewrite app_length; lia|assumption].
  - apply andb_true_iff. split; [|apply incs_wfb; assumption].
    apply (len_ok_le _ (f_includes f)); [apply enc_incs_length|assumption].
  - apply wfb_strs; assumption.
  - apply (wfb_structs _ _ _ namespace_wfb); assumption.
  - apply (wfb_structs _ _ _ typedef_wfb); assumption.
  - apply (wfb_structs _ _ _ constant_wfb); assumption.
  - apply (wfb_structs _ _ _ enum_wfb); assumption.
  - apply (wfb_structs _ _ _ struct_like_wfb); assumption.
  - apply (wfb_structs _ _ _ struct_like_wfb); assumption.
  - apply (wfb_structs _ _ _ struct_like_wfb); assumption.
  - apply (wfb_structs _ _ _ service_wfb); assumption.
  - apply name2cat_wfb; assumption.
Qed.

Lemma ast_wfb : forall a, ast_ok a = true -> wfb (enc_ast a) = true.
Proof.
  induction a as [f kids IH] using ast_ind'. rewrite ast_ok_eq. intro H. bsplit H.
  apply node_wfb; [exact H|]. rewrite Forall_forall in IH. rewrite forallb_forall in *. auto.
Qed.

Lemma request_wfb r a : wf_request r = true -> wfb (enc_ast a) = true -> wfb (enc_request (with_ast r a)) = true.
Proof.
  unfold wf_request, enc_request, with_ast.
  cbn [rq_version rq_gen_params rq_plugin_params rq_language rq_output_path rq_recursive rq_ast]. intros H Ha. bsplit_all.
  unfold lay_request. wfs; [apply wfb_strs; assumption|apply wfb_strs; assumption|rewrite enc_ast_wtype; reflexivity].
Qed.

Lemma wf_request_ast r : wf_request r = true -> ast_ok (rq_ast r) = true.
Proof. unfold wf_request. intro H. bsplit H. exact H0. Qed.

Theorem wf_request_encodable r : wf_request r = true -> wfb (enc_request r) = true.
Proof.
  intro H. replace r with (with_ast r (rq_ast r)) at 1 by (destruct r; reflexivity).
  apply request_wfb; [exact H|apply ast_wfb, wf_request_ast, H].
Qed.

Lemma stub_wfb n : len_ok (ref_prefix ++ n) = true -> wfb (enc_ast (stub n)) = true.
Proof.
  intro H. unfold stub. rewrite enc_ast_eq. unfold empty_file.
  cbn [f_filename f_includes f_cpp_includes f_namespaces f_typedefs f_constants f_enums f_structs f_unions f_exceptions
       f_services f_name2cat enc_incs].
  unfold lay_thrift. apply wfb_wstruct; [reflexivity|]. cbn [slots_ok slot_ok oall wtype wfb].
  unfold len_ok in H. rewrite H. reflexivity.
Qed.

Lemma compress_wfb a s : ast_ok a = true -> wfb (enc_ast (fst (compress s a))) = true.
Proof.
  revert a s.
  apply (compress_rel stub (fun a a' => ast_ok a = true -> wfb (enc_ast a') = true)
           (fun ks ks' => forallb ast_ok (somes ks) = true -> forallb (fun k => wfb (enc_ast k)) (somes ks') = true)).
  - intros f ks ks' Hk H. rewrite ast_ok_eq in H. bsplit H. apply node_wfb; auto.
  - reflexivity.
  - intros r r' Hr. exact Hr.
  - intros k k' r r' Hk Hr. cbn [somes forallb]. intro H. bsplit H. rewrite (Hr H0), andb_true_r.
    destruct Hk as [->|Hk]; [|exact (Hk H)].
    (* the stub's Filename fits because file_ok leaves room for the prefix *)
    destruct k as [f kids]. rewrite ast_ok_eq in H. bsplit H. apply stub_wfb. unfold file_ok in H. bsplit H. exact H.
Qed.

Theorem wf_request_encodable_compressed r : wf_request r = true ->
  wfb (enc_request (with_ast r (compress_top (rq_ast r)))) = true.
Proof. intro H. apply request_wfb; [exact H|apply compress_wfb, wf_request_ast, H]. Qed.

Theorem request_roundtrip_wf r fuel :
  wt_ast (rq_ast r) = true -> wf_request r = true ->
  unmarshal_request fuel (marshal_request r) = UOk (norm_request r).
Proof. intros Hwt Hwf. apply request_roundtrip; [exact Hwt|apply wf_request_encodable; exact Hwf]. Qed.

Theorem request_roundtrip_compressed_wf r fuel :
  wf_graph (rq_ast r) -> wt_ast (rq_ast r) = true -> wf_request r = true -> (height (rq_ast r) <= fuel)%nat ->
  unmarshal_request fuel (marshal_request_compressed r) = UOk (norm_request r).
Proof.
  intros Hg Hwt Hwf Hh. apply request_roundtrip_compressed; [exact Hg|exact Hwt|apply wf_request_encodable_compressed; exact Hwf|exact Hh].
Qed.

Definition no_error (r : response) : Prop := rs_error r = None \/ rs_error r = Some [].

Definition shown_of (name err : bytes) (r : response) : list bytes :=
  get_list (rs_warnings r) ++ match err with [] => [] | _ => [warn_plugin_stderr name err] end.

Lemma outcome_spec name pr :
  outcome name pr =
  match pr with
  | Exited 0 out err =>
      match unmarshal_response out with
      | Some r => match rs_error r with
                  | Some (_ :: _) => Fail (shown_of name err r)
                  | _ => Proceed (shown_of name err r) (get_list (rs_contents r))
                  end
      | None => Fail []
      end
  | Exited _ out err | TimedOut out err => Fail [warn_stdout out; warn_stderr err]
  | NotStarted => Fail [warn_stdout []; warn_stderr []]
  end.
Proof.
  destruct pr as [[|p|p] out err|out err|]; try reflexivity.
  unfold outcome, execute, shown_of. cbn [Z.eqb negb].
  destruct (unmarshal_response out) as [r|]; [|reflexivity].
  destruct err; cbn [rs_error rs_warnings rs_contents]; rewrite ?app_nil_r; reflexivity.
Qed.

Theorem outcome_fail name pr :
  match pr with
  | Exited code out _ =>
      code <> 0 \/ unmarshal_response out = None \/
      (exists r c e, unmarshal_response out = Some r /\ rs_error r = Some (c :: e))
  | TimedOut _ _ | NotStarted => True
  end ->
  exists shown, outcome name pr = Fail shown.
Proof.
  rewrite outcome_spec. destruct pr as [[|p|p] out err|out err|]; intro H; try (eexists; reflexivity).
  destruct H as [H|[H|(r & c & e & Hr & He)]]; [congruence|rewrite H|rewrite Hr, He]; eexists; reflexivity.
Qed.

Lemma outcome_ok name out err r :
  unmarshal_response out = Some r -> no_error r ->
  outcome name (Exited 0 out err) = Proceed (shown_of name err r) (get_list (rs_contents r)).
Proof. intros Hr He. rewrite outcome_spec, Hr. destruct He as [-> | ->]; reflexivity. Qed.

(* thriftgo goes on with a plugin's answer exactly when the process exited with status 0, its
   stdout decodes, and the decoded Error is unset or empty; in every other case it fails *)
Theorem outcome_proceed_iff name pr :
  (exists ws cs, outcome name pr = Proceed ws cs) <->
  (exists out err r, pr = Exited 0 out err /\ unmarshal_response out = Some r /\ no_error r).
Proof.
  split.
  - intros (ws & cs & H). rewrite outcome_spec in H.
    destruct pr as [[|p|p] out err|out err|]; try discriminate.
    destruct (unmarshal_response out) as [r|] eqn:Er; [|discriminate].
    exists out, err, r. split; [reflexivity|]. split; [exact Er|]. unfold no_error.
    destruct (rs_error r) as [[|c e]|]; [right; reflexivity|discriminate|left; reflexivity].
  - intros (out & err & r & -> & Hr & He). rewrite (outcome_ok name out err r Hr He). eauto.
Qed.

Corollary outcome_fail_iff name pr :
  (exists ws, outcome name pr = Fail ws) <->
  ~ (exists out err r, pr = Exited 0 out err /\ unmarshal_response out = Some r /\ no_error r).
Proof.
  rewrite <- (outcome_proceed_iff name pr). destruct (outcome name pr) as [ws|ws cs]; split.
  - intros _ (ws' & cs & H). discriminate H.
  - eauto.
  - intros [ws' H]. discriminate H.
  - intro H. exfalso. eauto.
Qed.

(* an answer without error: every content item is handed to FileManager.Feed, in order, and
   every warning (and the plugin's stderr) is shown *)
Theorem outcome_ok_contents_reach_fm m shown name out err r rest :
  unmarshal_response out = Some r -> no_error r ->
  run_plugins m shown ((name, Exited 0 out err) :: rest) =
  match feed m (map to_gen (get_list (rs_contents r))) with
  | FileManager.Ok m' => run_plugins m' (shown ++ shown_of name err r) rest
  | _ => RFail (shown ++ shown_of name err r)
  end.
Proof.
  intros Hr He. cbn [run_plugins]. rewrite (outcome_ok name out err r Hr He). reflexivity.
Qed.

(* a failing plugin stops everything: later plugins are not run, nothing is handed on *)
Theorem run_plugins_fail m shown name pr rest ws :
  outcome name pr = Fail ws -> run_plugins m shown ((name, pr) :: rest) = RFail (shown ++ ws).
Proof. intro H. cbn [run_plugins]. rewrite H. reflexivity. Qed.

(* end to end, from the response VALUE a plugin builds: it exits 0 having written the encoding
   of r (anything may follow), r has no error: exactly r's contents are handed on, in order, and
   exactly r's warnings (then the stderr note) are shown *)
Theorem response_honoured name r rest err :
  response_ok r = true -> no_error r ->
  outcome name (Exited 0 (marshal_response r ++ rest) err) =
  Proceed (shown_of name err r) (get_list (rs_contents r)).
Proof. intros Hok He. apply outcome_ok; [apply response_roundtrip; exact Hok|exact He]. Qed.

(* ... and an answer whose Error is a non-empty text makes thriftgo fail, showing r's warnings *)
Theorem response_error_fails name r rest err c e :
  response_ok r = true -> rs_error r = Some (c :: e) ->
  exists ws, outcome name (Exited 0 (marshal_response r ++ rest) err) = Fail ws.
Proof.
  intros Hok He. apply outcome_fail. right. right. exists r, c, e. split; [apply response_roundtrip; exact Hok|exact He].
Qed.

(* the whole loop on typed answers: every plugin exits 0 with the encoding of an error-free
   response: the file manager receives every plugin's contents, plugin after plugin *)
Theorem run_plugins_all_honoured : forall (ps : list (bytes * response)) m shown m',
  Forall (fun p => response_ok (snd p) = true /\ no_error (snd p)) ps ->
  feed_all m (map snd ps) = FileManager.Ok m' ->
  run_plugins m shown (map (fun p => (fst p, Exited 0 (marshal_response (snd p)) [])) ps) =
  ROk (shown ++ List.concat (map (fun p => get_list (rs_warnings (snd p))) ps)) m'.
Proof.
  induction ps as [|[n r] ps IH]; intros m shown m' Hall Hfeed.
  - cbn in *. injection Hfeed as <-. rewrite app_nil_r. reflexivity.
  - inversion Hall as [|? ? [Hok He] Hrest]; subst. cbn [fst snd map feed_all] in *.
    rewrite <- (app_nil_r (marshal_response r)).
    rewrite outcome_ok_contents_reach_fm with (r := r) by (apply response_roundtrip || idtac; assumption).
    destruct (feed m (map to_gen (get_list (rs_contents r)))) as [m1| |]; try discriminate.
    rewrite (IH m1 _ m' Hrest Hfeed). unfold shown_of. rewrite app_nil_r. cbn [List.concat]. rewrite app_assoc. reflexivity.
Qed.

Lemma with_plugin_params_twice r a b : with_plugin_params (with_plugin_params r a) b = with_plugin_params r b.
Proof. reflexivity. Qed.

Definition sent_to (req : request) (d : desc) : bytes * request :=
  (plugin_name d, with_plugin_params req (pack (d_opts d))).

Section LoopFacts.
  Variable run : bytes -> request -> plugin_result.

  (* the requests actually sent are a prefix of "every plugin gets the compiler's request with
     the pack of its OWN options" (nothing of an earlier plugin's options survives in the shared
     request object: with_plugin_params_twice, used here by conversion under the binder of map),
     all of them when the run succeeds; the result is the plugin loop of run_plugins over the
     answers to exactly those requests *)
  Lemma generate_loop_spec : forall ds m shown req,
    let res := run_plugins m shown (map (fun d => (plugin_name d, run (plugin_name d) (snd (sent_to req d)))) ds) in
    exists tr rest,
      generate_loop run m shown req ds = (res, tr) /\ map (sent_to req) ds = tr ++ rest /\
      (forall shown' m', res = ROk shown' m' -> rest = []).
  Proof.
    induction ds as [|d ds IH]; intros m shown req; [exists [], []; repeat split|].
    cbn [generate_loop map run_plugins sent_to snd].
    set (req' := with_plugin_params req (pack (d_opts d))).
    destruct (outcome (plugin_name d) (run (plugin_name d) req')) as [ws|ws cs];
      [exists [sent_to req d], (map (sent_to req) ds); repeat split; discriminate|].
    destruct (feed m (map to_gen cs)) as [m'| |];
      try (exists [sent_to req d], (map (sent_to req) ds); repeat split; discriminate).
    destruct (IH m' (shown ++ ws) req') as (tr & rest & -> & E & Hok).
    exists (sent_to req d :: tr), rest. change (map (sent_to req') ds) with (map (sent_to req) ds) in E.
    fold (sent_to req). rewrite E. repeat split. exact Hok.
  Qed.

  Theorem generate_loop_sends_own_options ds m shown req i name q :
    nth_error (snd (generate_loop run m shown req ds)) i = Some (name, q) ->
    exists d, nth_error ds i = Some d /\ name = plugin_name d /\
              rq_plugin_params q = pack (d_opts d) /\
              rq_version q = rq_version req /\ rq_gen_params q = rq_gen_params req /\
              rq_language q = rq_language req /\ rq_output_path q = rq_output_path req /\
              rq_recursive q = rq_recursive req /\ rq_ast q = rq_ast req.
  Proof.
    destruct (generate_loop_spec ds m shown req) as (tr & rest & -> & E & _). cbn [snd]. intro H.
    rewrite <- (nth_error_app1 tr rest), <- E, nth_error_map in H by (apply nth_error_Some; congruence).
    destruct (nth_error ds i) as [d|]; [|discriminate].
    injection H as <- <-. exists d. repeat split; reflexivity.
  Qed.

  Theorem generate_loop_result ds m shown req :
    fst (generate_loop run m shown req ds) =
    run_plugins m shown (map (fun d => (plugin_name d, run (plugin_name d) (snd (sent_to req d)))) ds).
  Proof. destruct (generate_loop_spec ds m shown req) as (tr & rest & -> & _). reflexivity. Qed.

  Theorem generate_loop_all_invoked ds m shown req shown' m' :
    fst (generate_loop run m shown req ds) = ROk shown' m' ->
    snd (generate_loop run m shown req ds) = map (sent_to req) ds.
  Proof.
    destruct (generate_loop_spec ds m shown req) as (tr & rest & -> & -> & Hok). cbn [fst snd]. intro H.
    rewrite (Hok _ _ H), app_nil_r. reflexivity.
  Qed.
End LoopFacts.
