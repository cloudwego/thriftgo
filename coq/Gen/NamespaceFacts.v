(* Gen/NamespaceFacts.v — proofs about the model of pkg/namespace. *)
From Coq Require Import List Arith Bool Lia FinFun.
From Coq.Strings Require Import Byte.
From Verif Require Import Base.Bytes Gen.Namespace.
Import ListNotations.

Definition NsInv (s : ns) : Prop :=
  forall id n, lookup id (id2name s) = Some n -> lookup n (name2id s) = Some id.

Lemma NsInv_0 : NsInv ns0.
Proof. intros id n H. discriminate. Qed.

Lemma NsInv_set s name id :
  NsInv s -> (lookup name (name2id s) = None \/ lookup name (name2id s) = Some id) ->
  NsInv (ns_set s name id).
Proof.
  intros HI Hfree i n. cbn.
  destruct (list_eq_dec Byte.byte_eq_dec id i) as [->|Hne].
  - rewrite lookup_update_same. intros [= <-]. apply lookup_update_same.
  - rewrite (lookup_update_other id i) by assumption. intro H.
    pose proof (HI i n H) as Hn.
    destruct (list_eq_dec Byte.byte_eq_dec name n) as [->|Hnn].
    + destruct Hfree as [Hf|Hf]; rewrite Hf in Hn; congruence.
    + rewrite lookup_update_other by assumption. exact Hn.
Qed.

Lemma lookup_Some_In {A} k (v : A) m : lookup k m = Some v -> In k (map fst m).
Proof. intro H. apply lookup_In in H. apply in_map_iff. exists (k, v). auto. Qed.

Lemma add_loop_spec rename fuel : forall s name id res cnt,
  match add_loop rename fuel s name id res cnt with
  | Some r => (r = res \/ exists c, r = rename name (S c)) /\
              (lookup r (name2id s) = None \/ lookup r (name2id s) = Some id)
  | None => In res (map fst (name2id s)) /\
            forall c, cnt < c <= cnt + fuel -> In (rename name c) (map fst (name2id s))
  end.
Proof.
  induction fuel as [|f IH]; intros s name id res cnt; cbn [add_loop].
  - destruct (lookup res (name2id s)) as [cur|] eqn:E; [destruct (beqb cur id) eqn:Eb|].
    + apply beqb_true in Eb as ->. auto.
    + split; [eapply lookup_Some_In; exact E | intros c Hc; lia].
    + auto.
  - destruct (lookup res (name2id s)) as [cur|] eqn:E; [destruct (beqb cur id) eqn:Eb|].
    + apply beqb_true in Eb as ->. auto.
    + specialize (IH s name id (rename name (S cnt)) (S cnt)).
      destruct (add_loop rename f s name id (rename name (S cnt)) (S cnt)) as [r|].
      * destruct IH as [[->|[c ->]] F]; eauto.
      * destruct IH as [Hres Hnext]. split; [eapply lookup_Some_In; exact E|].
        intros c Hc. destruct (Nat.eq_dec c (S cnt)) as [->|Hne]; [exact Hres | apply Hnext; lia].
    + auto.
Qed.

Lemma add_inv rename s name id s' r : add rename s name id = Some (s', r) ->
  s' = ns_set s r id /\ (r = name \/ exists c, r = rename name (S c)) /\
  (lookup r (name2id s) = None \/ lookup r (name2id s) = Some id).
Proof.
  unfold add. pose proof (add_loop_spec rename (S (List.length (name2id s))) s name id name 0) as H.
  destruct (add_loop rename _ s name id name 0) as [res|]; [|discriminate].
  intros [= <- <-]. split; [reflexivity | exact H].
Qed.

Lemma step_cases rename s o s' v : step rename s o = (s', v) ->
  s' = s \/ exists r id, s' = ns_set s r id /\
                         (lookup r (name2id s) = None \/ lookup r (name2id s) = Some id).
Proof.
  destruct o as [name id|name id|id|name]; cbn [step]; try (intros [= <- _]; now left).
  - destruct (add rename s name id) as [[s1 r]|] eqn:E; intros [= <- _]; [right | now left].
    apply add_inv in E as (-> & _ & F). eauto.
  - unfold reserve. destruct (lookup name (name2id s)) eqn:E; intros [= <- _]; [now left | right].
    exists name, id. auto.
Qed.

Lemma run_ops_rel (R : ns -> ns -> Prop) rename :
  (forall s, R s s) -> (forall a b c, R a b -> R b c -> R a c) ->
  (forall s o s' v, step rename s o = (s', v) -> R s s') ->
  forall ops s s' vs, run_ops rename s ops = (s', vs) -> R s s'.
Proof.
  intros Hr Ht Hs. induction ops as [|o ops IH]; intros s s' vs; cbn [run_ops].
  - intros [= <- _]. apply Hr.
  - destruct (step rename s o) as [s1 v] eqn:E1. destruct (run_ops rename s1 ops) as [s2 vs2] eqn:E2.
    intros [= <- _]. eapply Ht; [eapply Hs; eassumption | eapply IH; eassumption].
Qed.

Lemma run_ops_inv rename ops s s' vs : NsInv s -> run_ops rename s ops = (s', vs) -> NsInv s'.
Proof.
  intros HI H. revert HI. apply (run_ops_rel (fun a b => NsInv a -> NsInv b) rename) with (4 := H); auto.
  intros a o b v E Ha. destruct (step_cases _ _ _ _ _ E) as [->|(r & id & -> & Hf)]; [exact Ha | now apply NsInv_set].
Qed.

(* Two different ids never have the same (non-empty, i.e. present) name — after ANY sequence of
   Add / Reserve / Get / ID operations, whatever the rename function is. *)
Theorem ns_injective rename ops s vs i j n :
  run_ops rename ns0 ops = (s, vs) ->
  lookup i (id2name s) = Some n -> lookup j (id2name s) = Some n -> i = j.
Proof.
  intros Hr Hi Hj. apply run_ops_inv in Hr; [|apply NsInv_0].
  pose proof (Hr i n Hi) as H1. pose proof (Hr j n Hj) as H2. congruence.
Qed.

(* A reserved name is never handed to another id later: name2id entries are never overwritten
   by a different owner. *)
Definition owners_kept (s s' : ns) : Prop :=
  forall n id, lookup n (name2id s) = Some id -> lookup n (name2id s') = Some id.

Theorem ns_owner_stable rename ops : forall s s' vs,
  run_ops rename s ops = (s', vs) -> owners_kept s s'.
Proof.
  apply (run_ops_rel owners_kept rename); [intros s n i H; exact H | intros a b c H1 H2 n i H; auto |].
  intros s o s' v E n i Hn. destruct (step_cases _ _ _ _ _ E) as [->|(r & id & -> & Hf)]; [exact Hn|]. cbn.
  destruct (list_eq_dec Byte.byte_eq_dec r n) as [->|Hne].
  - destruct Hf as [Hf|Hf]; rewrite Hf in Hn; [discriminate|]. injection Hn as <-. apply lookup_update_same.
  - rewrite lookup_update_other by assumption. exact Hn.
Qed.

Theorem reserve_spec s name id :
  (lookup name (name2id s) = None -> exists s', reserve s name id = (s', true) /\ get s' id = name /\ get_id s' name = id) /\
  (lookup name (name2id s) <> None -> reserve s name id = (s, false)).
Proof.
  unfold reserve, get, get_id. split.
  - intros ->. eexists. split; [reflexivity|]. cbn. rewrite !lookup_update_same. split; reflexivity.
  - destruct (lookup name (name2id s)); [reflexivity | congruence].
Qed.

Theorem add_spec rename s name id s' r :
  add rename s name id = Some (s', r) ->
  get s' id = r /\ get_id s' r = id /\
  ((lookup name (name2id s) = None \/ lookup name (name2id s) = Some id) -> r = name).
Proof.
  unfold add. destruct (add_loop _ _ s name id name 0) as [res|] eqn:E; [|discriminate].
  intros [= <- <-]. unfold get, get_id. cbn. rewrite !lookup_update_same.
  split; [reflexivity|]. split; [reflexivity|].
  intros Hfree. cbn [add_loop] in E.
  destruct Hfree as [Hf|Hf]; rewrite Hf in E.
  - congruence.
  - rewrite beqb_refl in E. congruence.
Qed.

Lemma underscore_inj name a b : underscore_suffix name a = underscore_suffix name b -> a = b.
Proof.
  unfold underscore_suffix. intro H. apply app_inv_head in H.
  apply (f_equal (@List.length byte)) in H. rewrite !repeat_length in H. exact H.
Qed.

(* Add with the underscore rename never runs out of fuel: the candidates name, name_, name__, ...
   are pairwise distinct, so among (number of keys + 1) of them one is free (pigeonhole). *)
Theorem add_underscore_total s name id : add underscore_suffix s name id <> None.
Proof.
  unfold add. pose proof (add_loop_spec underscore_suffix (S (List.length (name2id s))) s name id name 0) as H.
  destruct (add_loop underscore_suffix _ s name id name 0); [discriminate|]. exfalso. destruct H as [_ H].
  assert (Hincl : incl (map (underscore_suffix name) (seq 1 (S (List.length (name2id s))))) (map fst (name2id s))).
  { intros x Hx. apply in_map_iff in Hx as (c & <- & Hc). apply in_seq in Hc. apply H. lia. }
  apply NoDup_incl_length in Hincl.
  - rewrite !map_length, seq_length in Hincl. lia.
  - apply FinFun.Injective_map_NoDup; [intros a b; apply underscore_inj | apply seq_NoDup].
Qed.
