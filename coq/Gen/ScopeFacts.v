(* Gen/ScopeFacts.v — proofs about the model of the Go backend's name tables (Gen/Scope.v).
   Everything is an instance of the facts proved about pkg/namespace in Gen/NamespaceFacts.v
   (ns_owner_stable, add_inv), applied to the operation sequence that the model of
   scope_internal.go produces; the sequence is linked to [run_ops] by [ns_of_table_after]. *)
From Coq Require Import List Arith Bool.
From Coq.Strings Require Import Byte.
From Verif Require Import Base.Bytes Gen.Namespace Gen.NamespaceFacts Idl.Ast Idl.AstUtil Gen.Scope Gen.KeywordTable.
Import ListNotations.

Lemma run_ops_app rn : forall a b s,
  fst (run_ops rn s (a ++ b)) = fst (run_ops rn (fst (run_ops rn s a)) b).
Proof.
  induction a as [|o a IH]; intros b s; cbn [run_ops app]; [reflexivity|].
  destruct (step rn s o) as [s1 v]. specialize (IH b s1).
  destruct (run_ops rn s1 (a ++ b)), (run_ops rn s1 a). exact IH.
Qed.

Lemma run_ops_one rn s o : fst (run_ops rn s [o]) = fst (step rn s o).
Proof. cbn [run_ops]. destruct (step rn s o). reflexivity. Qed.

Definition chron (tr : list entry) : list (table * op) := map (fun e => (e_table e, e_op e)) (rev tr).

Lemma ops_of_app t a b : ops_of t (a ++ b) = ops_of t a ++ ops_of t b.
Proof. unfold ops_of. rewrite filter_app, map_app. reflexivity. Qed.

Lemma ns_of_table_after t tr : ns_of t tr = table_after t (chron tr).
Proof.
  unfold table_after, chron. induction tr as [|e r IH]; cbn [ns_of rev].
  - reflexivity.
  - rewrite map_app, ops_of_app, run_ops_app. rewrite <- IH. cbn [map app].
    unfold ops_of at 1. cbn [filter fst]. destruct (table_eqb (e_table e) t).
    + cbn [map snd]. apply eq_sym, run_ops_one.
    + reflexivity.
Qed.

Lemma ns_of_app t newer older :
  ns_of t (newer ++ older) =
  fst (run_ops underscore_suffix (ns_of t older) (ops_of t (chron newer))).
Proof.
  rewrite (ns_of_table_after t (newer ++ older)), (ns_of_table_after t older).
  unfold table_after, chron. rewrite rev_app_distr, map_app, ops_of_app, run_ops_app. reflexivity.
Qed.

Lemma owners_grow t newer older : owners_kept (ns_of t older) (ns_of t (newer ++ older)).
Proof.
  rewrite ns_of_app.
  destruct (run_ops underscore_suffix (ns_of t older) (ops_of t (chron newer))) as [s' vs] eqn:E.
  cbn [fst]. eapply ns_owner_stable. exact E.
Qed.

Definition entry_ok (older : list entry) (e : entry) : Prop :=
  match e_op e with
  | OAdd name id => exists s', add underscore_suffix (ns_of (e_table e) older) name id = Some (s', e_name e)
  | OReserve name id => lookup name (name2id (ns_of (e_table e) older)) = None /\ e_name e = name
  | _ => False
  end.

(* parameters and throws: the PREFERRED name handed to Add is not a Go keyword *)
Definition good_entry (e : entry) : Prop :=
  match e_kind e with
  | KParam | KThrow => match e_op e with OAdd name _ => is_keyword name = false | _ => False end
  | _ => True
  end.

Fixpoint trace_ok (tr : list entry) : Prop :=
  match tr with
  | [] => True
  | e :: older => entry_ok older e /\ good_entry e /\ trace_ok older
  end.

Lemma trace_ok_at newer e older :
  trace_ok (newer ++ e :: older) -> entry_ok older e /\ good_entry e /\ trace_ok older.
Proof. induction newer as [|x a IH]; cbn [app trace_ok]; [tauto | intros (_ & _ & H); auto]. Qed.

Section Triple.
Variable Inv : list entry -> Prop.
Variable E : scope_error -> Prop.

Definition tri {A} (m : M A) : Prop :=
  forall tr, Inv tr -> match m tr with SOk (_, tr') => Inv tr' | SErr e => E e end.

Lemma tri_ret {A} (a : A) : tri (ret a).
Proof. intros tr H. exact H. Qed.

Lemma tri_bind {A B} (m : M A) (f : A -> M B) : tri m -> (forall a, tri (f a)) -> tri (bind m f).
Proof.
  intros Hm Hf tr H. unfold bind. specialize (Hm tr H).
  destruct (m tr) as [[a tr1]|e]; [apply Hf; exact Hm | exact Hm].
Qed.

Lemma tri_seq {A} (m : M unit) (k : M A) : tri m -> tri k -> tri (seq m k).
Proof. intros Hm Hk. apply tri_bind; [exact Hm | intros _; exact Hk]. Qed.

Lemma tri_when b m : tri m -> tri (when b m).
Proof. destruct b; cbn [when]; [auto | intros _; apply tri_ret]. Qed.

Lemma tri_for_idx {A} (f : nat -> A -> M unit) : (forall i x, tri (f i x)) -> forall l i, tri (for_idx f i l).
Proof.
  intros Hf. induction l as [|x l IH]; intros i; cbn [for_idx]; [apply tri_ret | apply tri_seq; [apply Hf | apply IH]].
Qed.

Lemma tri_for_each {A} (f : A -> M unit) l : (forall x, tri (f x)) -> tri (for_each f l).
Proof. intros Hf. unfold for_each. apply tri_for_idx. intros _ x. apply Hf. Qed.

Lemma tri_add_ t k name id : tri (m_add t t k name id) -> tri (m_add_ t k name id).
Proof. intros H. unfold m_add_. apply tri_bind; [exact H | intros _; apply tri_ret]. Qed.
End Triple.

Lemma trace_ok_add t ow k name id :
  (forall r, good_entry (Entry t ow k (OAdd name id) r)) -> tri trace_ok (eq EReserve) (m_add t ow k name id).
Proof.
  intros Hg tr H. unfold m_add. pose proof (add_underscore_total (ns_of t tr) name id) as T.
  destruct (add underscore_suffix (ns_of t tr) name id) as [[s' r]|] eqn:E; [|contradiction].
  cbn [trace_ok]. split; [|split; [apply Hg | exact H]].
  unfold entry_ok. cbn [e_op e_table e_name]. exists s'. exact E.
Qed.

Lemma trace_ok_reserve t ow k name id :
  good_entry (Entry t ow k (OReserve name id) name) -> tri trace_ok (eq EReserve) (m_reserve t ow k name id).
Proof.
  intros Hg tr H. unfold m_reserve, reserve.
  destruct (lookup name (name2id (ns_of t tr))) eqn:E; cbn [snd]; [reflexivity|].
  cbn [trace_ok]. split; [|split; [exact Hg | exact H]].
  unfold entry_ok. cbn [e_op e_table e_name]. split; [exact E | reflexivity].
Qed.

Definition included (a b : list bytes) : bool := forallb (fun k => existsb (beqb k) b) a.

Lemma existsb_included a b n : included a b = true -> existsb (beqb n) a = true -> existsb (beqb n) b = true.
Proof. unfold included. rewrite forallb_forall. intros H Hn. apply H, existsb_beqb_In, Hn. Qed.

(* the keyword list of the model (go_keywords) is the table the translator read from
   generator/golang/types.go on this run (Gen/KeywordTable.v) *)
Theorem keyword_table_is_source n : is_keyword n = existsb (beqb n) src_keywords.
Proof.
  unfold is_keyword. apply Bool.eq_true_iff_eq. split; apply existsb_included; vm_compute; reflexivity.
Qed.

Lemma keyword_shape k : is_keyword k = true -> hd x00 k <> x5f /\ last k x00 <> x5f.
Proof.
  assert (F : forallb (fun k => negb (Byte.eqb (hd x00 k) x5f) && negb (Byte.eqb (last k x00) x5f))
                      go_keywords = true) by (vm_compute; reflexivity).
  unfold is_keyword. intros Hin. apply existsb_beqb_In in Hin.
  apply (proj1 (forallb_forall _ _) F) in Hin. apply andb_true_iff in Hin as [H1 H2].
  apply negb_true_iff in H1, H2.
  split; intro E; apply byte_eqb_eq in E; congruence.
Qed.

Lemma not_keyword_underscore_head n : is_keyword (x5f :: n) = false.
Proof.
  destruct (is_keyword (x5f :: n)) eqn:E; [|reflexivity].
  apply keyword_shape in E. destruct E as [E _]. cbn in E. congruence.
Qed.

Lemma last_app_repeat n c : last (n ++ repeat x5f (S c)) x00 = x5f.
Proof.
  replace (repeat x5f (S c)) with (repeat x5f c ++ [x5f]).
  - rewrite app_assoc. apply last_last.
  - clear. induction c as [|c IH]; cbn [repeat app]; [reflexivity|]. f_equal. exact IH.
Qed.

Lemma not_keyword_underscore_tail n c : is_keyword (n ++ repeat x5f (S c)) = false.
Proof.
  destruct (is_keyword (n ++ repeat x5f (S c))) eqn:E; [|reflexivity].
  apply keyword_shape in E. destruct E as [_ E]. rewrite last_app_repeat in E. congruence.
Qed.

Lemma table_eqb_refl t : table_eqb t t = true.
Proof. destruct t; cbn [table_eqb]; rewrite ?Nat.eqb_refl, ?Bool.eqb_reflx; reflexivity. Qed.

Lemma table_eqb_eq a b : table_eqb a b = true -> a = b.
Proof.
  destruct a, b; cbn [table_eqb]; try discriminate;
    rewrite ?andb_true_iff, ?Nat.eqb_eq, ?Bool.eqb_true_iff; intros H; f_equal; tauto.
Qed.

Lemma entry_ok_cases older e : entry_ok older e ->
  ns_of (e_table e) (e :: older) = ns_set (ns_of (e_table e) older) (e_name e) (e_id e) /\
  (lookup (e_name e) (name2id (ns_of (e_table e) older)) = None \/
   is_add (e_op e) = true /\ lookup (e_name e) (name2id (ns_of (e_table e) older)) = Some (e_id e)).
Proof.
  unfold entry_ok, e_id. cbn [ns_of]. rewrite table_eqb_refl.
  destruct (e_op e) as [name id|name id|id|name]; cbn [op_id step is_add]; try contradiction.
  - intros (s' & E). rewrite E. cbn [fst]. apply add_inv in E as (-> & _ & [F|F]); auto.
  - intros (E & ->). unfold reserve. rewrite E. auto.
Qed.

(* two operations on one table that ended with the same name: they were made for the same id,
   and the later one is an Add (a MustReserve never lands on a name that is already there) *)
Theorem same_name_same_id newer e2 mid e1 older :
  trace_ok (newer ++ e2 :: mid ++ e1 :: older) ->
  e_table e1 = e_table e2 -> e_name e1 = e_name e2 ->
  e_id e1 = e_id e2 /\ is_add (e_op e2) = true.
Proof.
  intros Hok Ht Hn. apply trace_ok_at in Hok as (H2 & _ & Hrest). apply trace_ok_at in Hrest as (H1 & _ & _).
  (* right after e1 its name is owned by its id, and still is when e2 is performed *)
  apply entry_ok_cases in H1 as [H1 _].
  pose proof (owners_grow (e_table e1) mid (e1 :: older) (e_name e1) (e_id e1)) as Hown.
  rewrite H1 in Hown at 1. specialize (Hown (lookup_update_same _ _ _)). rewrite Ht, Hn in Hown.
  apply entry_ok_cases in H2 as [_ [F|[A F]]]; rewrite Hown in F; [discriminate | injection F as <-; auto].
Qed.

Lemma entry_param_not_keyword older e :
  entry_ok older e -> good_entry e ->
  (kind_eqb (e_kind e) KParam || kind_eqb (e_kind e) KThrow) = true -> is_keyword (e_name e) = false.
Proof.
  unfold entry_ok, good_entry. intros Hok Hg Hk.
  assert (Ha : match e_op e with OAdd name _ => is_keyword name = false | _ => False end)
    by (destruct (e_kind e); try discriminate Hk; exact Hg).
  destruct (e_op e) as [name id| | |]; try contradiction. destruct Hok as (s' & E).
  apply add_inv in E as (_ & [->|(c & ->)] & _); [exact Ha | apply not_keyword_underscore_tail].
Qed.

Lemma rev_split5 {A} (a : list A) e1 b e2 c :
  rev (a ++ e1 :: b ++ e2 :: c) = rev c ++ e2 :: rev b ++ e1 :: rev a.
Proof.
  rewrite rev_app_distr. cbn [rev]. rewrite rev_app_distr. cbn [rev].
  repeat rewrite <- app_assoc. cbn [app]. reflexivity.
Qed.

Lemma NoDup_map_follows {A B C} (f : A -> B) (g : A -> C) l :
  (forall x y, In x l -> In y l -> g x = g y -> f x = f y) -> NoDup (map f l) -> NoDup (map g l).
Proof.
  induction l as [|x l IH]; cbn [map]; intros Hp Hn; [constructor|].
  inversion Hn as [|? ? Hnotin Hn']; subst. constructor.
  - intro Hin. apply in_map_iff in Hin as (y & Ey & Hy). apply Hnotin.
    rewrite (Hp x y (or_introl eq_refl) (or_intror Hy) (eq_sym Ey)). apply in_map, Hy.
  - apply IH; [|exact Hn']. intros a b Ha Hb. apply Hp; right; assumption.
Qed.

Theorem reserve_fails_iff t ow k name id tr :
  m_reserve t ow k name id tr = SErr EReserve <-> lookup name (name2id (ns_of t tr)) <> None.
Proof.
  unfold m_reserve, reserve. destruct (lookup name (name2id (ns_of t tr))); cbn [snd]; split; intro H; try congruence.
Qed.

Theorem error_propagates {A B} (m : M A) (g : A -> M B) tr e : m tr = SErr e -> bind m g tr = SErr e.
Proof. unfold bind. intros ->. reflexivity. Qed.

Section WithStyle.
Variable identify : bytes -> bytes.
Variable lower_first : bytes -> bytes.

Lemma param_name_not_keyword ft raw : is_keyword (param_name identify lower_first ft raw) = false.
Proof.
  unfold param_name. destruct (is_keyword (lower_first (s_identify identify ft raw))) eqn:E.
  - apply not_keyword_underscore_head.
  - exact E.
Qed.

(* [install_names] respects any [J] and [E] that the three ways of recording an entry respect: an Add
   and a MustReserve of a kind other than KStructType, and the head of buildStructLike (Add of the
   type name, then MustReserve of New<that name>) *)
Section Walk.
Variable J : list entry -> Prop.
Variable E : scope_error -> Prop.
Hypothesis J_add : forall t ow k name id, kind_eqb k KStructType = false ->
  (forall r, good_entry (Entry t ow k (OAdd name id) r)) -> tri J E (m_add t ow k name id).
Hypothesis J_reserve : forall t ow k name id, kind_eqb k KStructType = false ->
  good_entry (Entry t ow k (OReserve name id) name) -> tri J E (m_reserve t ow k name id).
Hypothesis J_head : forall A t n id id' (k : bytes -> M A), (forall sn, tri J E (k sn)) ->
  tri J E (bind (m_add TGlobals t KStructType n id) (fun sn => seq (m_reserve TGlobals t KNew (s_New ++ sn) id') (k sn))).

(* walks a program built from the combinators, by its syntax; entries of every kind but parameters
   and throws are good whatever their name, the Adds of those two kinds are left to the caller *)
Ltac tri_walk := repeat lazymatch goal with
  | |- tri _ _ (ret _) => apply tri_ret
  | |- tri _ _ (seq _ _) => apply tri_seq
  | |- tri _ _ (when _ _) => apply tri_when
  | |- tri _ _ (for_each _ _) => apply tri_for_each; intros ?; cbv beta zeta
  | |- tri _ _ (for_idx _ _ _) => apply tri_for_idx; intros ? ?; cbv beta zeta
  | |- tri _ _ (bind _ _) => apply tri_bind; [|intros ?]
  | |- tri _ _ (m_add_ _ _ _ _) => apply tri_add_
  | |- tri _ _ (m_add _ _ _ _ _) => apply J_add; [reflexivity | intros ?; exact I]
  | |- tri _ _ (m_reserve _ _ _ _ _) => apply J_reserve; [reflexivity | exact I]
  end.

Lemma walk_build_struct_like ft t vname cat fields nn :
  tri J E (build_struct_like identify ft t vname cat fields nn).
Proof.
  unfold build_struct_like.
  apply (J_head _ t (s_identify identify ft nn) vname (i_new ++ nn)
           (fun sn => seq (m_reserve TGlobals t KIds (s_ids ++ sn) (i_ids ++ nn)) _)).
  intros sn. tri_walk.
Qed.

Lemma walk_build_function ft t v : tri J E (build_function identify lower_first ft t v).
Proof.
  unfold build_function. tri_walk.
  all: apply J_add; [reflexivity | intros r; apply param_name_not_keyword].
Qed.

Lemma walk_scope_run ft f :
  J [] -> match scope_run identify lower_first ft f with SOk es => J (rev es) | SErr e => E e end.
Proof.
  intros H0. unfold scope_run.
  assert (W : tri J E (install_names identify lower_first ft f)).
  { unfold install_names, build_service, build_enum, build_typedef, build_constant.
    tri_walk; lazymatch goal with
              | |- tri _ _ (build_function _ _ _ _ _) => apply walk_build_function
              | |- _ => apply walk_build_struct_like
              end. }
  specialize (W [] H0). destruct (install_names identify lower_first ft f []) as [[u tr]|e]; [|exact W].
  rewrite rev_involutive. exact W.
Qed.
End Walk.

Lemma trace_ok_scope_run ft f :
  match scope_run identify lower_first ft f with SOk es => trace_ok (rev es) | SErr e => EReserve = e end.
Proof.
  apply walk_scope_run; [exact (fun t ow k name id _ => trace_ok_add t ow k name id)
                        | exact (fun t ow k name id _ => trace_ok_reserve t ow k name id) | | exact I].
  intros A t n id id' k Hk. apply tri_bind; [apply trace_ok_add; intros ?; exact I | intros sn].
  apply tri_seq; [apply trace_ok_reserve; exact I | apply Hk].
Qed.

Lemma scope_run_ok ft f es :
  scope_run identify lower_first ft f = SOk es -> trace_ok (rev es).
Proof. intros H. pose proof (trace_ok_scope_run ft f) as W. rewrite H in W. exact W. Qed.

Theorem scope_error_is_reserve_failure ft f e :
  scope_run identify lower_first ft f = SErr e -> e = EReserve.
Proof. intros H. pose proof (trace_ok_scope_run ft f) as W. rewrite H in W. exact (eq_sym W). Qed.

Theorem table_same_name ft f es a e1 b e2 c :
  scope_run identify lower_first ft f = SOk es ->
  es = a ++ e1 :: b ++ e2 :: c ->
  e_table e1 = e_table e2 -> e_name e1 = e_name e2 ->
  e_id e1 = e_id e2 /\ is_add (e_op e2) = true.
Proof.
  intros Hr -> Ht Hn. apply scope_run_ok in Hr. rewrite rev_split5 in Hr.
  eapply same_name_same_id; eassumption.
Qed.

Lemma same_name_in ft f es e1 e2 :
  scope_run identify lower_first ft f = SOk es -> In e1 es -> In e2 es ->
  e_table e1 = e_table e2 -> e_name e1 = e_name e2 -> e_id e1 = e_id e2.
Proof.
  intros Hr H1 H2 Ht Hn. apply in_split in H1 as (a & c & ->).
  apply in_app_or in H2 as [H2|[<-|H2]]; [|reflexivity|]; apply in_split in H2 as (p & q & ->).
  - rewrite <- app_assoc in Hr. symmetry. eapply (table_same_name ft f _ p e2 q e1 c Hr); eauto.
  - eapply (table_same_name ft f _ a e1 p e2 q Hr); eauto.
Qed.

Theorem table_distinct ft f es t :
  scope_run identify lower_first ft f = SOk es ->
  NoDup (map e_id (entries_of t es)) -> NoDup (map e_name (entries_of t es)).
Proof.
  intros Hr. apply NoDup_map_follows. intros e1 e2 H1 H2.
  apply filter_In in H1 as [H1 T1], H2 as [H2 T2]. apply table_eqb_eq in T1, T2.
  apply (same_name_in ft f es e1 e2 Hr H1 H2). congruence.
Qed.

Theorem globals_distinct ft f es :
  scope_run identify lower_first ft f = SOk es ->
  NoDup (map e_id (entries_of TGlobals es)) -> NoDup (map e_name (entries_of TGlobals es)).
Proof. intros; eapply table_distinct; eassumption. Qed.

Theorem struct_members_distinct ft f es t :
  scope_run identify lower_first ft f = SOk es ->
  (exists k, t = TStruct k) \/ (exists i j r, t = TSynth i j r) ->
  NoDup (map e_id (entries_of t es)) -> NoDup (map e_name (entries_of t es)).
Proof. intros Hr _. eapply table_distinct. exact Hr. Qed.

Theorem params_distinct_and_not_keywords ft f es i j :
  scope_run identify lower_first ft f = SOk es ->
  (NoDup (map e_id (entries_of (TFunction i j) es)) -> NoDup (map e_name (entries_of (TFunction i j) es))) /\
  (forall e, In e es -> (kind_eqb (e_kind e) KParam || kind_eqb (e_kind e) KThrow) = true -> is_keyword (e_name e) = false).
Proof.
  intros Hr. split; [eapply table_distinct; exact Hr|].
  intros e Hin Hk. apply scope_run_ok in Hr. apply in_rev in Hin.
  apply in_split in Hin. destruct Hin as (newer & older & E). rewrite E in Hr.
  apply trace_ok_at in Hr as (Hok & Hg & _).
  eapply entry_param_not_keyword; eassumption.
Qed.

Theorem reserved_name_fresh ft f es a e1 b e2 c :
  scope_run identify lower_first ft f = SOk es ->
  es = a ++ e1 :: b ++ e2 :: c -> e_table e1 = e_table e2 ->
  is_add (e_op e2) = false -> e_name e1 <> e_name e2.
Proof.
  intros Hr He Ht Hadd Hn. destruct (table_same_name ft f es a e1 b e2 c Hr He Ht Hn) as [_ H]. congruence.
Qed.

(* in an accepted run every MustReserve found its name free at the moment it was performed *)
Theorem reserve_failure_is_error ft f es a e c name id :
  scope_run identify lower_first ft f = SOk es ->
  es = a ++ e :: c -> e_op e = OReserve name id ->
  lookup name (name2id (table_after (e_table e) (map (fun x => (e_table x, e_op x)) a))) = None /\ e_name e = name.
Proof.
  intros Hr -> Hop. apply scope_run_ok in Hr. rewrite rev_app_distr in Hr. cbn [rev] in Hr.
  rewrite <- app_assoc in Hr. apply trace_ok_at in Hr as (Hok & _ & _).
  unfold entry_ok in Hok. rewrite Hop in Hok. rewrite ns_of_table_after in Hok.
  unfold chron in Hok. rewrite rev_involutive in Hok. exact Hok.
Qed.
End WithStyle.
