(* Gen/FileManagerText.v — text level specification of BuildResponse for histories without patch
   items: every output text is the submitted text of that file with exactly the insertion-point
   markers removed (strip_markers: the declarative scanner also used by the check's oracle 6).
   The case without patches of `build_one_patched`. *)
From Coq Require Import List Arith Bool.
From Coq.Strings Require Import Byte.
From Verif Require Import Base.Bytes Gen.FileManager Gen.FileManagerFacts Corr.C12 Gen.FileManagerExpand Gen.FileManagerFull.
Import ListNotations.

Theorem build_one_no_patches m name content :
  patches_of m name = [] -> build_one m (name, content) = (name, strip_markers 0 content).
Proof.
  intro Hp. rewrite build_one_patched by (rewrite Hp; reflexivity). now rewrite Hp, expand_nil.
Qed.

Definition no_patch_items (items : list gen) : bool :=
  forallb (fun g => match g_name g with None => false | Some _ => beqb (g_ip g) [] end) items.

Lemma feeds_no_patch h m m' :
  forallb no_patch_items h = true -> feeds m h = Ok m' -> patch m' = patch m.
Proof.
  intro Hnp. refine (feeds_patch_pres (fun p => p = patch m) _ _ h m m' eq_refl Hnp).
  intros x t g _ Hg [Hn|Hip]; [rewrite Hn in Hg | destruct (g_name g); rewrite ?Hip in Hg]; discriminate.
Qed.

(* For every history without patch items: the response is the list of kept files, each with its
   submitted text minus the insertion-point markers. *)
Theorem no_patch_history_texts h m :
  forallb no_patch_items h = true -> feeds fm0 h = Ok m ->
  build m = map (fun f => (fst f, strip_markers 0 (snd f))) (files m).
Proof.
  intros Hnp Hf. apply feeds_no_patch in Hf; [|exact Hnp]. cbn [patch fm0] in Hf.
  unfold build. apply map_ext. intros [n c]. apply build_one_no_patches.
  unfold patches_of. rewrite Hf. reflexivity.
Qed.
