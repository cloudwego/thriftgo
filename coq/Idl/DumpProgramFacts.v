(* Idl/DumpProgramFacts.v — property C17: the property for whole programs, about the
   files the parser actually returns for the dumped texts (whatever comments it attaches). *)
From Coq Require Import List Bool NArith.
From Coq.Strings Require Import Byte.
From Verif Require Import Base.Bytes Idl.Ast Idl.AstFacts Idl.Parse Idl.Resolve Idl.ResolveLemmas
  Idl.Dump Idl.DumpParseFacts Idl.DumpTopFacts Idl.DumpResolveFacts.
Import ListNotations.

Section Program.
  Variable fmt : N -> bytes.

  Lemma sem_view_strip_comments x : sem_view fmt (strip_comments x) = sem_view fmt x.
  Proof. exact (map_file_compose (fun t => t) cty (fun c => c) (dv fmt) (fun _ => []) (fun _ => []) false false x). Qed.

  Lemma strip_comments_relink f b : strip_comments (relink f b) = relink f (strip_comments b).
  Proof.
    apply file_ext; try reflexivity.
    cbn [relink with_includes strip_comments map_file f_includes]. rewrite map_map. apply map_ext. intros []. reflexivity.
  Qed.

  Lemma sem_view_relink f b b' : strip_comments b = strip_comments b' ->
    sem_view fmt (relink f b) = sem_view fmt (relink f b').
  Proof.
    intro H. rewrite <- (sem_view_strip_comments (relink f b)), <- (sem_view_strip_comments (relink f b')).
    rewrite !strip_comments_relink, H. reflexivity.
  Qed.

  Lemma c17_norm_relink f b : c17_norm b = c17_norm f -> c17_norm (relink f b) = c17_norm f.
  Proof.
    intro H. destruct b as [bn bi bc bns btd bcs bes bss bus bxs bsv bn2], f as [fn fi fc fns ftd fcs fes fss fus fxs fsv fn2].
    unfold c17_norm, relink, with_includes, map_file in *.
    cbn [f_filename f_includes f_cpp_includes f_namespaces f_typedefs f_constants f_enums f_structs f_unions
         f_exceptions f_services f_name2cat] in *.
    injection H as E1 E2 E3 E4 E5 E6 E7 E8 E9 E10 E11.
    rewrite E1, E3, E4, E5, E6, E7, E8, E9, E10, E11. apply file_ext; try reflexivity.
    cbn [f_includes]. rewrite !map_map. apply map_ext. intros []. reflexivity.
  Qed.

  (* the re-read program: any program whose files are what the parser returns for the dumped
     texts, each with its include statements pointing to the same files as before *)
  Definition reread (p q : program) : Prop :=
    Forall2 (fun e e' => fst e' = fst e /\
                         exists b, parse (f_filename (snd e)) (dump fmt (snd e)) = Some b /\ snd e' = relink (snd e) b) p q.

  Definition file_in_domain (f : file) : bool := dump_ok fmt f && parsed_ok fmt f.

  Lemma reread_file f b : file_in_domain f = true -> parse (f_filename f) (dump fmt f) = Some b ->
    c17_norm (relink f b) = c17_norm f /\ sem_view fmt (relink f b) = sem_view fmt (relink f (dump_view fmt f)).
  Proof.
    unfold file_in_domain, parsed_ok. rewrite !andb_true_iff. intros (Hd & Hv & _) Hb.
    destruct (dump_roundtrip fmt f Hd Hv) as (b1 & Hb1 & Hn). destruct (parse_dump fmt f Hd) as (b2 & Hb2 & Hs).
    rewrite Hb in Hb1, Hb2. injection Hb1 as <-. injection Hb2 as <-.
    split; [apply c17_norm_relink; exact Hn | apply sem_view_relink; exact Hs].
  Qed.

  Lemma reread_files (Rel : bytes * file -> bytes * file -> Prop) :
    (forall n f b, file_in_domain f = true -> parse (f_filename f) (dump fmt f) = Some b -> Rel (n, f) (n, relink f b)) ->
    forall p q, forallb (fun e => file_in_domain (snd e)) p = true -> reread p q -> Forall2 Rel p q.
  Proof.
    intros HS p q H Hq. induction Hq as [|[n f] [n' f'] r r' [Hn (b & Hb & Hf')] _ IH]; [constructor|].
    cbn [forallb fst snd] in *. apply andb_true_iff in H. destruct H as [Hf Hr]. subst n' f'.
    constructor; [apply HS; assumption | apply IH; exact Hr].
  Qed.

  Lemma reread_exists p : forallb (fun e => file_in_domain (snd e)) p = true -> exists q, reread p q.
  Proof.
    induction p as [|[n f] r IH]; intro H; [exists []; constructor|].
    cbn [forallb snd] in H. apply andb_true_iff in H. destruct H as [Hf Hr].
    destruct (IH Hr) as [q Hq]. unfold file_in_domain in Hf. apply andb_true_iff in Hf. destruct Hf as [Hd _].
    destruct (parse_dump fmt f Hd) as (b & Hb & _).
    exists ((n, relink f b) :: q). constructor; [|exact Hq]. cbn [fst snd]. split; [reflexivity|]. eauto.
  Qed.

  Lemma reread_sem_view p : forallb (fun e => file_in_domain (snd e)) p = true ->
    forall q, reread p q -> sem_view_program fmt q = sem_view_program fmt (dumped_program fmt p).
  Proof.
    intros H q Hq. unfold sem_view_program, dumped_program. rewrite map_map.
    eapply Forall2_map_eq; cycle 1. { intros x y E. exact E. }
    apply (reread_files _ (fun n f b Hf Hb => f_equal (pair n) (proj2 (reread_file f b Hf Hb))) p q H Hq).
  Qed.

  (* the property for programs, at full strength on the domain: every dumped file is accepted
     by the parser; whatever the parser returns for it equals the original on everything C17
     lists; and the re-read program passes symbol resolution whenever the original does, with the
     same result as far as resolution's view goes *)
  Theorem program_roundtrip p r :
    forallb (fun e => file_in_domain (snd e)) p = true ->
    resolve_program p = Ok r ->
    (exists q, reread p q) /\
    forall q, reread p q ->
      Forall2 (fun e e' => fst e' = fst e /\ c17_norm (snd e') = c17_norm (snd e)) p q /\
      exists r', resolve_program q = Ok r' /\
                 sem_view_program fmt r' = sem_view_program fmt (sem_view_program fmt r).
  Proof.
    intros H Hres. split; [apply reread_exists; exact H|].
    intros q Hq. split.
    - apply (reread_files _ (fun n f b Hf Hb => conj eq_refl (proj1 (reread_file f b Hf Hb))) p q H Hq).
    - assert (Hp : forallb (fun e => parsed_ok fmt (snd e)) p = true).
      { apply forallb_forall. intros e He. rewrite forallb_forall in H. specialize (H e He).
        unfold file_in_domain in H. apply andb_true_iff in H. tauto. }
      pose proof (dump_passes_semantic fmt p r Hp Hres) as Hd.
      pose proof (resolve_program_sem_view fmt q) as Cq.
      pose proof (resolve_program_sem_view fmt (dumped_program fmt p)) as Cd.
      rewrite (reread_sem_view p H q Hq) in Cq. rewrite Cd, Hd in Cq. cbn [rmap] in Cq.
      destruct (resolve_program q) as [r'|e]; [|discriminate]. cbn [rmap] in Cq. injection Cq as Cq.
      exists r'. split; [reflexivity | symmetry; exact Cq].
  Qed.
End Program.

(* the hypotheses are satisfiable: the two-file sample of Idl/DumpResolveFacts.v *)
Example program_roundtrip_sample :
  forallb (fun e => file_in_domain sem_sample_fmt (snd e)) sem_sample = true /\
  (match resolve_program sem_sample with Ok _ => true | Error _ => false end) = true.
Proof. split; vm_compute; reflexivity. Qed.
