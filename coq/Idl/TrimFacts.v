(* Idl/TrimFacts.v — proofs about the trimmer model (Idl/Trim.v) against its specification
   (Idl/TrimSpec.v).  Statements of the headline theorems are repeated in Props/C16.v.

   In the order of the file:
     1. [needed_nodes_spec]: the saturation that computes the needed set is exactly the
        inductive relation [needed].  Generic facts about [fold_res], [find_index], [indexed].
     2. The state order [le] (marks, cleared `extends`, cache only grow) through every
        marking function (Mono .. MarkAstOrder); the stages of markService, markKeptPart,
        preProcess and markAST as inversion lemmas.
     3. Minimality ([final_marks_good]): every mark the model ends with is needed (or is
        an include leading to always-kept definitions; with a method filter includes are
        exempt: known finding).
     4. Traversal: what [trim_file] keeps of a file ([trim_file_struct_likes],
        [trim_file_marked_include], [trim_file_services]) and what [reach] collects
        ([reach_entries]).
     5. Soundness ([needed_marked]): the marks are closed under the edges of the
        specification (depth-first-search argument: the nodes NEWLY marked by a call are
        closed when it returns), the always-kept roots are marked for every file
        preProcess visits, so every needed node is marked.
     6. Connectivity ([marks_connected], [kept_files_connected]): the file of every marked
        definition, and every file with constants / typedefs / enums, is reached from the
        main file over marked includes, hence survives traversal ([reach_closed],
        [path_in_output]).
     7. [wf], [wf_program_sound], and the theorems about [trim] (Section Main).
     8. The method filter, "only" half ([method_filter_only_matching]); the computations on
        the witness Idl/TrimWitness.v (what does not hold with a method filter); the "if"
        half ([marked_function_in_output], [mark_ast_new], [method_filter_complete]).
     9. No reference of the output dangles ([references_survive], [base_service_survives]);
        a file in which everything is kept is a fixed point of traversal
        ([trim_file_fixpoint]). *)
From Coq Require Import List Bool Arith NArith ZArith Lia.
From Coq.Strings Require Import Byte.
From Verif Require Import Base.Bytes Idl.Ast Idl.AstUtil Idl.AstFacts Idl.Trim Idl.TrimSpec Idl.TrimWitness.
Import ListNotations.


Lemma node_eqb_eq a b : node_eqb a b = true <-> a = b.
Proof.
  destruct a, b; cbn; try (split; [discriminate | congruence]);
    rewrite ?andb_true_iff, ?Nat.eqb_eq, ?beqb_true, ?sl_kind_eqb_eq;
    (split; [intuition congruence | intros [= -> ->] || intros [= -> -> ->]; auto]).
Qed.

Lemma node_eqb_refl a : node_eqb a a = true.
Proof. apply node_eqb_eq; reflexivity. Qed.

Lemma node_mem_In n l : node_mem n l = true <-> In n l.
Proof.
  unfold node_mem. rewrite existsb_exists. split.
  - intros [x [Hin He]]. apply node_eqb_eq in He. subst. exact Hin.
  - intros Hin. exists n. split; [exact Hin | apply node_eqb_refl].
Qed.

Lemma add_new_In l : forall acc x, In x (add_new l acc) <-> In x l \/ In x acc.
Proof.
  induction l as [|y l IH]; intros acc x; cbn.
  - tauto.
  - destruct (node_mem y acc) eqn:E.
    + rewrite IH. apply node_mem_In in E. split; [tauto|]. intros [[->|H]|H]; auto.
    + rewrite IH, in_app_iff. cbn. tauto.
Qed.

Lemma add_new_length l : forall acc, List.length acc <= List.length (add_new l acc).
Proof.
  induction l as [|y l IH]; intros acc; cbn; [lia|].
  destruct (node_mem y acc); [apply IH|].
  specialize (IH (acc ++ [y])). rewrite app_length in IH. cbn in IH. lia.
Qed.

Lemma add_new_same_length l : forall acc,
  List.length (add_new l acc) = List.length acc -> add_new l acc = acc /\ forall x, In x l -> In x acc.
Proof.
  induction l as [|y l IH]; intros acc H; cbn in *.
  - split; [reflexivity | tauto].
  - destruct (node_mem y acc) eqn:E.
    + destruct (IH _ H) as [H1 H2]. split; [exact H1|].
      intros x [->|Hx]; [apply node_mem_In; exact E | auto].
    + pose proof (add_new_length l (acc ++ [y])) as L. rewrite app_length in L. cbn in L. lia.
Qed.

Section Closure.
  Variable succ : node -> list node.

  Inductive reach_from (s : list node) : node -> Prop :=
  | rf_base n : In n s -> reach_from s n
  | rf_step n m : reach_from s n -> In m (succ n) -> reach_from s m.

  Lemma reach_from_mono s s' n : (forall x, In x s -> reach_from s' x) -> reach_from s n -> reach_from s' n.
  Proof. intros H R. induction R; [auto | eapply rf_step; eauto]. Qed.

  Lemma saturate_spec fuel : forall s s',
    saturate fuel succ s = Some s' ->
    (forall n, In n s -> In n s') /\
    (forall n m, In n s' -> In m (succ n) -> In m s') /\
    (forall n, In n s' -> reach_from s n).
  Proof.
    assert (forall s, List.length (add_new (flat_map succ s) s) =? List.length s = true ->
              (forall n, In n s -> In n s) /\ (forall n m, In n s -> In m (succ n) -> In m s) /\
              (forall n, In n s -> reach_from s n)) as Hstop.
    { intros s E. apply Nat.eqb_eq in E. apply add_new_same_length in E. destruct E as [_ E].
      split; [auto|]. split; [intros n m Hn Hm; apply E; apply in_flat_map; eauto | apply rf_base]. }
    induction fuel as [|fuel IH]; intros s s' H; cbn in H.
    - destruct (Nat.eqb _ _) eqn:E; [|discriminate]. injection H as <-. apply Hstop. exact E.
    - destruct (Nat.eqb _ _) eqn:E.
      + injection H as <-. apply Hstop. exact E.
      + apply IH in H. destruct H as [H1 [H2 H3]]. split; [|split].
        * intros n Hn. apply H1. apply add_new_In. auto.
        * exact H2.
        * intros n Hn. apply H3 in Hn. eapply reach_from_mono; [|exact Hn].
          intros x Hx. apply add_new_In in Hx. destruct Hx as [Hx|Hx]; [|apply rf_base; exact Hx].
          apply in_flat_map in Hx. destruct Hx as [y [Hy Hx]].
          eapply rf_step; [apply rf_base; exact Hy | exact Hx].
  Qed.
End Closure.

Theorem needed_nodes_spec cp c p K l :
  needed_nodes cp c p K = Some l -> forall n, In n l <-> needed cp c p K n.
Proof.
  unfold needed_nodes. intros H. apply saturate_spec in H. destruct H as [H1 [H2 H3]].
  intros n. split.
  - intros Hn. apply H3 in Hn. induction Hn as [n Hn | n m _ IH Hm].
    + apply needed_root. apply add_new_In in Hn. destruct Hn as [Hn|[]]. exact Hn.
    + eapply needed_step; eauto.
  - intros Hn. induction Hn as [n Hn | n m _ IH Hm].
    + apply H1. apply add_new_In. auto.
    + eapply H2; eauto.
Qed.


Lemma find_index_from_some {A} (f : A -> bool) l : forall k i x,
  find_index_from f l k = Some (i, x) -> k <= i /\ nth_error l (i - k) = Some x /\ f x = true.
Proof.
  induction l as [|y l IH]; intros k i x H; cbn in H; [discriminate|].
  destruct (f y) eqn:E.
  - injection H as <- <-. rewrite Nat.sub_diag. auto.
  - apply IH in H. destruct H as [H1 [H2 H3]]. split; [lia|]. split; [|exact H3].
    replace (i - k) with (S (i - S k)) by lia. exact H2.
Qed.
Lemma find_index_some {A} (f : A -> bool) l i x :
  find_index f l = Some (i, x) -> nth_error l i = Some x /\ f x = true.
Proof.
  intros H. apply find_index_from_some in H. rewrite Nat.sub_0_r in H. tauto.
Qed.

Lemma indexed_In {A} (l : list A) i x : In (i, x) (indexed l) <-> nth_error l i = Some x.
Proof.
  unfold indexed.
  assert (forall k, In (i, x) (combine (seq k (List.length l)) l) <-> k <= i /\ nth_error l (i - k) = Some x) as H.
  { induction l as [|y l IH]; intros k; cbn.
    - split; [tauto|]. intros [_ H]. destruct (i - k); discriminate.
    - rewrite IH. split.
      + intros [[= <- <-]|[H1 H2]].
        * rewrite Nat.sub_diag. auto.
        * split; [lia|]. replace (i - k) with (S (i - S k)) by lia. exact H2.
      + intros [H1 H2]. destruct (Nat.eq_dec k i) as [->|Hne].
        * rewrite Nat.sub_diag in H2. cbn in H2. injection H2 as ->. auto.
        * right. split; [lia|]. replace (i - k) with (S (i - S k)) in H2 by lia. exact H2. }
  rewrite H, Nat.sub_0_r. split; [tauto | intros; split; [lia | assumption]].
Qed.

Lemma ty_refs_sub : forall t t', In t' (ty_refs t) -> In t' (ty_subtypes t).
Proof.
  induction t using ty_ind'. intros t' H1.
  cbn [ty_refs] in H1. destruct (ty_is_plain _); [destruct H1|].
  cbn [ty_subtypes]. apply in_app_iff in H1. destruct H1 as [H1|H1].
  - right. apply in_or_app. left. destruct k as [x|]; [|destruct H1]. eapply H; eauto.
  - apply in_app_iff in H1. destruct H1 as [H1|[<-|[]]].
    + right. apply in_or_app. right. destruct v as [x|]; [|destruct H1]. eapply H0; eauto.
    + left. reflexivity.
Qed.


Lemma bind_ok {A B} (r : res A) (k : A -> res B) b :
  bind r k = Ok b -> exists a, r = Ok a /\ k a = Ok b.
Proof. destruct r; cbn; intros H; try discriminate. eauto. Qed.

Lemma fold_res_app {A S} (f : A -> S -> res S) l1 l2 s :
  fold_res f (l1 ++ l2) s = bind (fold_res f l1 s) (fold_res f l2).
Proof.
  revert s. induction l1 as [|x l1 IH]; intros s; cbn; [reflexivity|].
  destruct (f x s); cbn; auto.
Qed.

Lemma fold_res_rel {A S} (f : A -> S -> res S) (R : S -> S -> Prop) l :
  (forall s, R s s) -> (forall a b c, R a b -> R b c -> R a c) ->
  (forall x s s', In x l -> f x s = Ok s' -> R s s') ->
  forall s s', fold_res f l s = Ok s' -> R s s'.
Proof.
  intros Hr Ht. induction l as [|x l IH]; intros Hs s s' H; cbn in H.
  - injection H as <-. apply Hr.
  - apply bind_ok in H. destruct H as [s1 [H1 H2]].
    eapply Ht; [eapply Hs; [left; reflexivity | exact H1]|].
    apply IH; [|exact H2]. intros. eapply Hs; [right|]; eauto.
Qed.

Lemma fold_res_inv {A S} (f : A -> S -> res S) (P : S -> Prop) l :
  (forall x s s', In x l -> f x s = Ok s' -> P s -> P s') ->
  forall s s', fold_res f l s = Ok s' -> P s -> P s'.
Proof. intros H. apply (fold_res_rel f (fun a b => P a -> P b)); auto. Qed.

Lemma fold_res_rel_fst {A S B} (f : A -> S * B -> res (S * B)) (R : S -> S -> Prop) l :
  (forall s, R s s) -> (forall a b c, R a b -> R b c -> R a c) ->
  (forall x s s', In x l -> f x s = Ok s' -> R (fst s) (fst s')) ->
  forall s s', fold_res f l s = Ok s' -> R (fst s) (fst s').
Proof. intros Hr Ht. apply (fold_res_rel f (fun a b => R (fst a) (fst b))); eauto. Qed.

Lemma fold_res_all {A S} (f : A -> S -> res S) (R : S -> S -> Prop) (P : A -> S -> Prop) l :
  (forall s, R s s) -> (forall a b d, R a b -> R b d -> R a d) ->
  (forall x s s', In x l -> f x s = Ok s' -> R s s' /\ P x s') ->
  (forall x s s', R s s' -> P x s -> P x s') ->
  forall s s', fold_res f l s = Ok s' -> R s s' /\ forall x, In x l -> P x s'.
Proof.
  intros Hr Ht. induction l as [|y l IH]; intros Hstep Hmono s s' H; cbn [fold_res] in H.
  - injection H as <-. split; [apply Hr | intros x []].
  - apply bind_ok in H. destruct H as [s1 [H1 H2]].
    destruct (Hstep y s s1 (or_introl eq_refl) H1) as [R1 P1].
    destruct (IH (fun x a b Hin => Hstep x a b (or_intror Hin)) Hmono _ _ H2) as [R2 P2].
    split; [eapply Ht; eauto|]. intros x [<-|Hin]; [eapply Hmono; eauto | auto].
Qed.

Lemma fold_res_all2 {A B S} (f : A -> B -> S -> res S) (R : S -> S -> Prop) (P : A -> B -> S -> Prop) la lb :
  (forall s, R s s) -> (forall a b d, R a b -> R b d -> R a d) ->
  (forall x y s s', In x la -> In y lb -> f x y s = Ok s' -> R s s' /\ P x y s') ->
  (forall x y s s', R s s' -> P x y s -> P x y s') ->
  forall s s', fold_res (fun x => fold_res (f x) lb) la s = Ok s' ->
    R s s' /\ forall x, In x la -> forall y, In y lb -> P x y s'.
Proof.
  intros Hr Ht Hstep Hmono.
  apply (fold_res_all _ R (fun x s => forall y, In y lb -> P x y s) la Hr Ht).
  - intros x s s' Hx. apply (fold_res_all (f x) R (P x) lb Hr Ht).
    + intros y a b Hy. apply Hstep; assumption.
    + apply Hmono.
  - intros x s s' L H y Hy. eapply Hmono; [exact L | apply H; exact Hy].
Qed.


Lemma marked_In st n : marked st n = true <-> In n (ms_marks st).
Proof. unfold marked. apply node_mem_In. Qed.

Lemma mark_marks n st : forall m, In m (ms_marks (mark n st)) <-> m = n \/ In m (ms_marks st).
Proof.
  intros m. unfold mark. destruct (marked st n) eqn:E; cbn.
  - apply marked_In in E. split; [auto | intros [->|H]; auto].
  - split; [intros [<-|H]; auto | intros [->|H]; auto].
Qed.
Lemma mark_ext n st : ms_ext (mark n st) = ms_ext st.
Proof. unfold mark. destruct (marked st n); reflexivity. Qed.
Lemma mark_cache n st : ms_cache (mark n st) = ms_cache st.
Proof. unfold mark. destruct (marked st n); reflexivity. Qed.

Lemma marked_mark n st m : marked (mark n st) m = true <-> m = n \/ marked st m = true.
Proof. rewrite !marked_In. apply mark_marks. Qed.

Definition le (a b : mstate) : Prop :=
  (forall n, In n (ms_marks a) -> In n (ms_marks b)) /\
  (forall x, In x (ms_ext a) -> In x (ms_ext b)) /\
  (forall k v, lookup k (ms_cache a) = Some v -> lookup k (ms_cache b) = Some v).

Lemma le_refl a : le a a.
Proof. repeat split; auto. Qed.
Lemma le_trans a b c : le a b -> le b c -> le a c.
Proof. intros [A1 [A2 A3]] [B1 [B2 B3]]. repeat split; auto. Qed.
Lemma le_mark n st : le st (mark n st).
Proof.
  repeat split.
  - intros m H. apply mark_marks. auto.
  - rewrite mark_ext. auto.
  - rewrite mark_cache. auto.
Qed.
Lemma le_add_ext f i st : le st (add_ext f i st).
Proof. repeat split; cbn; auto. Qed.
Lemma le_add_cache f v st : lookup f (ms_cache st) = None -> le st (add_cache f v st).
Proof.
  intros Hn. repeat split; cbn; auto.
  intros k w H. destruct (beqb k f) eqn:E; [|exact H].
  apply beqb_true in E. subst. congruence.
Qed.
Lemma le_marked a b n : le a b -> marked a n = true -> marked b n = true.
Proof. intros [H _]. rewrite !marked_In. auto. Qed.


(* the kinds of node the method filter decides about: services and functions *)
Definition svc_fn (n : node) : bool :=
  match n with NService _ _ | NFunction _ _ _ => true | _ => false end.

Lemma mark_named_ind p (P : bytes -> ty -> mstate -> mstate -> Prop) :
  (forall n, (forall F t st st', mark_named p n F t st = Ok st' -> P F t st st') ->
     forall F t st st', mark_named_body p (mark_named p n) F t st = Ok st' -> P F t st st') ->
  forall fuel F t st st', mark_named p fuel F t st = Ok st' -> P F t st st'.
Proof. intros HS. induction fuel as [|n IH]; [discriminate | exact (HS n IH)]. Qed.

Lemma mark_function_types p fuel F si j fn st :
  mark_function p fuel F si j fn st = mark_types p fuel F (function_types fn) (mark (NFunction F si j) st).
Proof.
  unfold mark_function, function_types, mark_types, mark_types_with. rewrite fold_res_app.
  destruct (fold_res _ (map fd_type (fn_args fn)) _) as [st1| |]; cbn [bind]; [|reflexivity|reflexivity].
  rewrite fold_res_app.
  destruct (fold_res _ (map fd_type (fn_throws fn)) st1) as [st2| |]; cbn [bind]; [|reflexivity|reflexivity].
  destruct (fn_void fn); reflexivity.
Qed.

Section Mono.
  Variable p : program.
  Variable R : mstate -> mstate -> Prop.
  Hypothesis R_refl : forall a, R a a.
  Hypothesis R_trans : forall a b c, R a b -> R b c -> R a c.
  (* markType marks includes, typedefs, struct-likes and enums; markFunction a function *)
  Hypothesis R_mark : forall n st, svc_fn n = false -> R st (mark n st).
  Hypothesis R_mark_fn : forall F s j st, R st (mark (NFunction F s j) st).

  Definition mono1 (rec : bytes -> ty -> mstate -> res mstate) : Prop :=
    forall fname t st st', rec fname t st = Ok st' -> R st st'.

  Lemma mark_types_with_R rec fname ts : mono1 rec ->
    forall st st', mark_types_with rec fname ts st = Ok st' -> R st st'.
  Proof.
    intros Hrec. unfold mark_types_with.
    apply fold_res_rel; [apply R_refl | apply R_trans|].
    intros t s s' _. apply fold_res_rel; [apply R_refl | apply R_trans|].
    intros t' a b _. apply Hrec.
  Qed.

  Lemma mark_sl_with_R rec fname k i s : mono1 rec ->
    forall st st', mark_sl_with rec fname k i s st = Ok st' -> R st st'.
  Proof.
    intros Hrec st st'. unfold mark_sl_with.
    destruct (marked st _); [intros [= <-]; apply R_refl|].
    intros H. apply mark_types_with_R in H; [|exact Hrec].
    eapply R_trans; [|exact H]. apply R_mark; reflexivity.
  Qed.

  Lemma mark_typedef_with_R rec bname bf t : mono1 rec ->
    forall st st', mark_typedef_with rec bname bf t st = Ok st' -> R st st'.
  Proof.
    intros Hrec st st'. unfold mark_typedef_with.
    destruct (find_index _ _) as [[i d]|]; [|intros [= <-]; apply R_refl].
    destruct (marked st _); [intros [= <-]; apply R_refl|].
    intros H. apply mark_types_with_R in H; [|exact Hrec].
    eapply R_trans; [|exact H]. apply R_mark; reflexivity.
  Qed.

  Lemma mark_named_body_R rec : mono1 rec -> mono1 (mark_named_body p rec).
  Proof.
    intros Hrec fname t st st'. unfold mark_named_body.
    destruct (prog_file p fname) as [f|]; [|discriminate].
    intros H. apply bind_ok in H. destruct H as [[bname st1] [Hb H]].
    assert (R st st1) as L1.
    { destruct (ty_ref t) as [r|].
      - destruct (include_file p f (ref_index r)) as [[i tn]|]; [|discriminate].
        injection Hb as <- <-. apply R_mark; reflexivity.
      - injection Hb as <- <-. apply R_refl. }
    eapply R_trans; [exact L1|].
    destruct (prog_file p bname) as [bf|]; [|discriminate].
    destruct (ty_is_typedef t).
    - eapply mark_typedef_with_R; eauto.
    - destruct (category_sl_kind (ty_category t)) as [k|].
      + destruct (find_index _ _) as [[i s]|]; [|injection H as <-; apply R_refl].
        eapply mark_sl_with_R; eauto.
      + destruct (ty_category t); try (injection H as <-; apply R_refl).
        destruct (find_index _ _) as [[i e]|]; injection H as <-; [apply R_mark; reflexivity | apply R_refl].
  Qed.

  Lemma mark_named_R fuel : mono1 (mark_named p fuel).
  Proof. revert fuel. unfold mono1. apply mark_named_ind. intros n. apply mark_named_body_R. Qed.

  Lemma mark_types_R fuel fname ts st st' : mark_types p fuel fname ts st = Ok st' -> R st st'.
  Proof. apply mark_types_with_R. apply mark_named_R. Qed.
  Lemma mark_sl_R fuel fname k i s st st' : mark_sl p fuel fname k i s st = Ok st' -> R st st'.
  Proof. apply mark_sl_with_R. apply mark_named_R. Qed.

  Lemma mark_function_R fuel fname si fi fn st st' :
    mark_function p fuel fname si fi fn st = Ok st' -> R st st'.
  Proof.
    rewrite mark_function_types. intros H. eapply R_trans; [apply R_mark_fn | exact (mark_types_R _ _ _ _ _ H)].
  Qed.
End Mono.

Definition same_cache (a b : mstate) : Prop := ms_cache b = ms_cache a.
Definition same_ext (a b : mstate) : Prop := ms_ext b = ms_ext a.

Lemma same_cache_refl a : same_cache a a. Proof. reflexivity. Qed.
Lemma same_cache_trans a b c : same_cache a b -> same_cache b c -> same_cache a c.
Proof. unfold same_cache. congruence. Qed.
Lemma same_cache_mark n st : same_cache st (mark n st). Proof. apply mark_cache. Qed.
Lemma same_ext_refl a : same_ext a a. Proof. reflexivity. Qed.
Lemma same_ext_trans a b c : same_ext a b -> same_ext b c -> same_ext a c.
Proof. unfold same_ext. congruence. Qed.
Lemma same_ext_mark n st : same_ext st (mark n st). Proof. apply mark_ext. Qed.

Lemma mark_named_le p fuel fname t st st' : mark_named p fuel fname t st = Ok st' -> le st st'.
Proof. apply (mark_named_R p le le_refl le_trans (fun n a _ => le_mark n a)). Qed.
Lemma mark_types_le p fuel fname ts st st' : mark_types p fuel fname ts st = Ok st' -> le st st'.
Proof. apply (mark_types_R p le le_refl le_trans (fun n a _ => le_mark n a)). Qed.
Lemma mark_sl_le p fuel fname k i s st st' : mark_sl p fuel fname k i s st = Ok st' -> le st st'.
Proof. apply (mark_sl_R p le le_refl le_trans (fun n a _ => le_mark n a)). Qed.
Lemma mark_function_le p fuel fname si fi fn st st' : mark_function p fuel fname si fi fn st = Ok st' -> le st st'.
Proof. apply (mark_function_R p le le_refl le_trans (fun n a _ => le_mark n a) (fun F s j a => le_mark _ a)). Qed.
Lemma mark_function_cache p fuel fname si fi fn st st' :
  mark_function p fuel fname si fi fn st = Ok st' -> same_cache st st'.
Proof.
  apply (mark_function_R p same_cache same_cache_refl same_cache_trans (fun n a _ => same_cache_mark n a)
                         (fun F s j a => same_cache_mark _ a)).
Qed.

Definition same_services (a b : mstate) : Prop :=
  forall G gi, marked b (NService G gi) = true -> marked a (NService G gi) = true.
Lemma same_services_refl a : same_services a a. Proof. intros G gi H. exact H. Qed.
Lemma same_services_trans a b d : same_services a b -> same_services b d -> same_services a d.
Proof. intros H1 H2 G gi H. auto. Qed.
Lemma same_services_mark n st : (forall G gi, n <> NService G gi) -> same_services st (mark n st).
Proof.
  intros Hn G gi H. apply marked_mark in H. destruct H as [H|H]; [|exact H].
  exfalso. eapply Hn. symmetry. exact H.
Qed.
Lemma same_services_mark_ty n st : svc_fn n = false -> same_services st (mark n st).
Proof. intros H. apply same_services_mark. intros G gi ->. discriminate. Qed.
Lemma same_services_mark_fn F s j st : same_services st (mark (NFunction F s j) st).
Proof. apply same_services_mark. discriminate. Qed.
Lemma mark_function_services p fuel fname si fi fn st st' :
  mark_function p fuel fname si fi fn st = Ok st' -> same_services st st'.
Proof.
  apply (mark_function_R p same_services same_services_refl same_services_trans
                         same_services_mark_ty same_services_mark_fn).
Qed.

Lemma mark_function_marks p fuel F si j fn st st' :
  mark_function p fuel F si j fn st = Ok st' -> le st st' /\ marked st' (NFunction F si j) = true.
Proof.
  intros H. split; [exact (mark_function_le _ _ _ _ _ _ _ _ H)|].
  rewrite mark_function_types in H. apply mark_types_le in H.
  eapply le_marked; [exact H|]. apply marked_mark. auto.
Qed.


Lemma is_nil_false {A} (l : list A) : is_nil l = false <-> l <> [].
Proof. destruct l; cbn; split; congruence. Qed.

(* markService cut into its stages.  markInclude for the base service does nothing when the
   service has no reference, so the two branches of the Go code after traceExtendMethod are one *)
Definition has_ext (s : service) : bool := negb (is_nil (sv_extends s)) || negb (is_none (sv_ref s)).

Section Stages.
  Variable matches : bytes -> bytes -> bool.
  Variable c : cfg.
  Variable p : program.

  (* the loop of markService over the patterns, for one function *)
  Definition sstep fuel F si (s : service) (jf : nat * function) (pat : bytes) (st : mstate) : res mstate :=
    if selects matches pat (service_func_name c s (snd jf))
    then mark_function p fuel F si (fst jf) (snd jf) (mark (NService F si) st)
    else Ok st.

  Definition svc_own fuel F si (s : service) (jf : nat * function) (st : mstate) : res mstate :=
    if filtering c then fold_res (sstep fuel F si s jf) (patterns c p) st
    else mark_function p fuel F si (fst jf) (snd jf) st.

  (* from the state after traceExtendMethod to the result *)
  Definition svc_tail (rec : bytes -> nat -> mstate -> res mstate) F si f s (st2 st' : mstate) : Prop :=
    (st' = st2 /\ (sv_extends s = [] \/ marked st2 (NService F si) = false)) \/
    (sv_extends s <> [] /\ marked st2 (NService F si) = true /\
     exists st3 nb, mark_service_include p F f s st2 = Ok st3 /\ base_service p F f s = Ok nb /\
       match nb with Some (bn, bi, _) => rec bn bi st3 | None => Ok st3 end = Ok st').

  Lemma mark_service_body_inv rec fuel F si st st' :
    mark_service_body matches c p rec fuel F si st = Ok st' ->
    exists f s, prog_file p F = Some f /\ nth_error (f_services f) si = Some s /\
      (marked st (NService F si) = true /\ st' = st \/
       marked st (NService F si) = false /\ exists st1 st2,
         fold_res (svc_own fuel F si s) (indexed (sv_functions s))
                  (if filtering c then st else mark (NService F si) st) = Ok st1 /\
         (if filtering c && has_ext s
          then bind (trace matches c p fuel [sv_name s] F si st1) (fun r => Ok (fst r)) else Ok st1) = Ok st2 /\
         svc_tail rec F si f s st2 st').
  Proof.
    unfold mark_service_body.
    destruct (prog_file p F) as [f|] eqn:Hf; [|discriminate].
    destruct (nth_error (f_services f) si) as [s|] eqn:Hs; [|discriminate].
    intros H. exists f, s. split; [reflexivity|]. split; [exact Hs|].
    destruct (marked st (NService F si)); [injection H as <-; left; auto|].
    right. split; [reflexivity|].
    apply bind_ok in H. destruct H as [st1 [H1 H]]. apply bind_ok in H. destruct H as [st2 [H2 H]].
    exists st1, st2. split; [exact H1|]. split; [exact H2|]. unfold svc_tail.
    destruct (sv_extends s) as [|e er] eqn:Ee; cbn [is_nil negb andb] in H; [injection H as <-; auto|].
    destruct (marked st2 (NService F si)); [|injection H as <-; auto].
    right. split; [discriminate|]. split; [reflexivity|].
    destruct (sv_ref s) as [r|] eqn:Er.
    - apply bind_ok in H. destruct H as [st3 [H3 H]]. apply bind_ok in H. destruct H as [nb [Hb H]].
      exists st3, nb. auto.
    - apply bind_ok in H. destruct H as [nb [Hb H]]. exists st2, nb. split; [|auto].
      unfold mark_service_include. rewrite Er. reflexivity.
  Qed.

  (* the loop of traceExtendMethod over the own functions *)
  Definition step3 fuel F si (jf : nat * function) (father pat : bytes) (acc : mstate * bool) : res (mstate * bool) :=
    if matches pat (qualified father (fn_name (snd jf)))
    then bind (mark_function p fuel F si (fst jf) (snd jf) (mark (NService F si) (fst acc)))
              (fun st' => Ok (st', true))
    else Ok acc.

  Definition trace_own fuel (fa : list bytes) F si (s : service) (st : mstate) : res (mstate * bool) :=
    fold_res (fun jf => fold_res (fun father => fold_res (step3 fuel F si jf father) (patterns c p)) fa)
             (indexed (sv_functions s)) (st, false).

  (* the three nested loops at once, for a preorder on (state, flag) that every marking step respects *)
  Lemma trace_own_rel fuel fa F si s (R : mstate * bool -> mstate * bool -> Prop) :
    (forall a, R a a) -> (forall a b d, R a b -> R b d -> R a d) ->
    (forall j fn father pat acc st', nth_error (sv_functions s) j = Some fn -> In father fa -> In pat (patterns c p) ->
       matches pat (qualified father (fn_name fn)) = true ->
       mark_function p fuel F si j fn (mark (NService F si) (fst acc)) = Ok st' -> R acc (st', true)) ->
    forall st r, trace_own fuel fa F si s st = Ok r -> R (st, false) r.
  Proof.
    intros Rr Rt Hstep st r. unfold trace_own. apply fold_res_rel; [exact Rr | exact Rt|].
    intros [j fn] a b Hjf. apply indexed_In in Hjf. apply fold_res_rel; [exact Rr | exact Rt|].
    intros father a1 b1 Hfa. apply fold_res_rel; [exact Rr | exact Rt|].
    intros pat a2 b2 Hp. unfold step3. cbn [fst snd].
    destruct (matches _ _) eqn:Em; [|intros [= <-]; apply Rr].
    intros H. apply bind_ok in H. destruct H as [st' [H H']]. injection H' as <-. eapply Hstep; eauto.
  Qed.

  (* from the state and flag after the own loop to those after the base service *)
  Definition trace_base (rec : list bytes -> bytes -> nat -> mstate -> res (mstate * bool)) fa F si f s
             (st1 : mstate) (ret1 : bool) (st3 : mstate) (ret : bool) : Prop :=
    (sv_extends s = [] /\ st3 = st1 /\ ret = ret1) \/
    (sv_extends s <> [] /\ exists bn bi b st2 back,
       base_service p F f s = Ok (Some (bn, bi, b)) /\ rec (fa ++ [sv_name b]) bn bi st1 = Ok (st2, back) /\
       st3 = (if back then st2 else add_ext F si st2) /\ ret = back || ret1).

  (* the end: when something matched, the service and the include of its base are marked *)
  Definition trace_end F si f s (st3 : mstate) (ret : bool) (r : mstate * bool) : Prop :=
    (ret = true /\ exists st4, mark_service_include p F f s (mark (NService F si) st3) = Ok st4 /\ r = (st4, true)) \/
    (ret = false /\ r = (st3, false)).

  Lemma trace_body_inv rec fuel fa F si st r :
    trace_body matches c p rec fuel fa F si st = Ok r ->
    exists f s st1 ret1 st3 ret, prog_file p F = Some f /\ nth_error (f_services f) si = Some s /\
      trace_own fuel fa F si s st = Ok (st1, ret1) /\
      trace_base rec fa F si f s st1 ret1 st3 ret /\ trace_end F si f s st3 ret r.
  Proof.
    unfold trace_body.
    destruct (prog_file p F) as [f|] eqn:Hf; [|discriminate].
    destruct (nth_error (f_services f) si) as [s|] eqn:Hs; [|discriminate].
    intros H. apply bind_ok in H. destruct H as [[st1 ret1] [H1 H]].
    apply bind_ok in H. destruct H as [[st3 ret] [H3 H]].
    exists f, s, st1, ret1, st3, ret. split; [reflexivity|]. split; [exact Hs|]. split; [exact H1|]. split.
    - unfold trace_base. destruct (sv_extends s) as [|e er] eqn:Ee; cbn [is_nil] in H3; [injection H3 as <- <-; auto|].
      right. split; [discriminate|]. apply bind_ok in H3. destruct H3 as [nb [Hb H3]].
      destruct nb as [[[bn bi] b]|]; [|discriminate].
      apply bind_ok in H3. destruct H3 as [[st2 back] [H2 H3]]. injection H3 as <- <-.
      exists bn, bi, b, st2, back. auto.
    - unfold trace_end. destruct ret; [|injection H as <-; auto].
      apply bind_ok in H. destruct H as [st4 [H4 H]]. injection H as <-. left. split; [reflexivity|]. exists st4. auto.
  Qed.
End Stages.

Section MonoSvc.
  Variable matches : bytes -> bytes -> bool.
  Variable c : cfg.
  Variable p : program.
  Variable R : mstate -> mstate -> Prop.
  Hypothesis R_refl : forall a, R a a.
  Hypothesis R_trans : forall a b d, R a b -> R b d -> R a d.
  Hypothesis R_mark_svc : forall F i st, R st (mark (NService F i) st).
  Hypothesis R_mark_inc : forall F i st, R st (mark (NInclude F i) st).
  Hypothesis R_add_ext : forall F i st, R st (add_ext F i st).
  Hypothesis R_mark_function : forall fuel F f s si j fn st st',
    prog_file p F = Some f -> nth_error (f_services f) si = Some s -> nth_error (sv_functions s) j = Some fn ->
    mark_function p fuel F si j fn st = Ok st' -> R st st'.

  Lemma mark_service_include_R fname f s st st' :
    mark_service_include p fname f s st = Ok st' -> R st st'.
  Proof.
    unfold mark_service_include. destruct (sv_ref s) as [r|]; [|intros [= <-]; apply R_refl].
    destruct (include_file p f (ref_index r)) as [[i tn]|]; [|discriminate].
    intros [= <-]. apply R_mark_inc.
  Qed.

  Definition mono_trace_R (rec : list bytes -> bytes -> nat -> mstate -> res (mstate * bool)) : Prop :=
    forall fa fname si st r, rec fa fname si st = Ok r -> R st (fst r).

  Lemma trace_stages_R rec fuel fa F si f s st st1 ret1 st3 ret r : mono_trace_R rec ->
    prog_file p F = Some f -> nth_error (f_services f) si = Some s ->
    trace_own matches c p fuel fa F si s st = Ok (st1, ret1) ->
    trace_base p rec fa F si f s st1 ret1 st3 ret -> trace_end p F si f s st3 ret r ->
    R st st1 /\ R st1 st3 /\ R st3 (fst r).
  Proof.
    intros Hrec Hf Hs H1 B E. split; [|split].
    - apply trace_own_rel with (R := fun a b => R (fst a) (fst b)) in H1; [exact H1 | auto | eauto|].
      intros j fn father pat acc st'' Hjf _ _ _ H2. cbn [fst].
      eapply R_trans; [apply R_mark_svc|]. eapply R_mark_function; [exact Hf | exact Hs | exact Hjf | exact H2].
    - destruct B as [[_ [-> _]]|[_ [bn [bi [b [st2 [back [_ [H2 [-> _]]]]]]]]]]; [apply R_refl|].
      apply Hrec in H2. cbn in H2.
      destruct back; [exact H2 | eapply R_trans; [exact H2 | apply R_add_ext]].
    - destruct E as [[_ [st4 [H4 ->]]]|[_ ->]]; [|apply R_refl].
      apply mark_service_include_R in H4. eapply R_trans; [apply R_mark_svc | exact H4].
  Qed.

  Lemma trace_R fuel : mono_trace_R (trace matches c p fuel).
  Proof.
    induction fuel as [|n IH]; intros fa F si st r H; [discriminate|].
    cbn [trace] in H. apply trace_body_inv in H.
    destruct H as [f [s [st1 [ret1 [st3 [ret [Hf [Hs [H1 [B E]]]]]]]]]].
    destruct (trace_stages_R _ _ _ _ _ _ _ _ _ _ _ _ _ IH Hf Hs H1 B E) as [L1 [L2 L3]].
    eapply R_trans; [exact L1|]. eapply R_trans; [exact L2 | exact L3].
  Qed.

  Definition mono_svc_R (rec : bytes -> nat -> mstate -> res mstate) : Prop :=
    forall fname si st st', rec fname si st = Ok st' -> R st st'.

  Lemma svc_stages_R rec fuel F si f s st0 st1 st2 st' : mono_svc_R rec ->
    prog_file p F = Some f -> nth_error (f_services f) si = Some s ->
    fold_res (svc_own matches c p fuel F si s) (indexed (sv_functions s)) st0 = Ok st1 ->
    (if filtering c && has_ext s
     then bind (trace matches c p fuel [sv_name s] F si st1) (fun r => Ok (fst r)) else Ok st1) = Ok st2 ->
    svc_tail p rec F si f s st2 st' ->
    R st0 st1 /\ R st1 st2 /\ R st2 st'.
  Proof.
    intros Hrec Hf Hs H1 H2 T. split; [|split].
    - revert H1. apply fold_res_rel; [apply R_refl | apply R_trans|].
      intros [j fn] a b Hjf. apply indexed_In in Hjf. unfold svc_own. cbn [fst snd]. destruct (filtering c).
      + apply fold_res_rel; [apply R_refl | apply R_trans|].
        intros pat a' b' _. unfold sstep. cbn [fst snd]. destruct (selects _ _ _); [|intros [= <-]; apply R_refl].
        intros H3. eapply R_trans; [apply R_mark_svc|]. eapply R_mark_function; [exact Hf | exact Hs | exact Hjf | exact H3].
      + intros H3. eapply R_mark_function; [exact Hf | exact Hs | exact Hjf | exact H3].
    - destruct (filtering c && _); [|injection H2 as <-; apply R_refl].
      apply bind_ok in H2. destruct H2 as [r [H2 H3]]. injection H3 as <-. eapply trace_R; eauto.
    - destruct T as [[-> _]|[_ [_ [st3 [nb [H3 [Hb H]]]]]]]; [apply R_refl|].
      apply mark_service_include_R in H3. eapply R_trans; [exact H3|].
      destruct nb as [[[bn bi] b]|]; [eapply Hrec; eauto | injection H as <-; apply R_refl].
  Qed.

  Lemma mark_service_body_R rec fuel : mono_svc_R rec -> mono_svc_R (mark_service_body matches c p rec fuel).
  Proof.
    intros Hrec F si st st' H. apply mark_service_body_inv in H.
    destruct H as [f [s [Hf [Hs [[_ ->]|[_ [st1 [st2 [H1 [H2 T]]]]]]]]]]; [apply R_refl|].
    destruct (svc_stages_R _ _ _ _ _ _ _ _ _ _ Hrec Hf Hs H1 H2 T) as [L1 [L2 L3]].
    eapply R_trans; [|eapply R_trans; [exact L1|]; eapply R_trans; [exact L2 | exact L3]].
    destruct (filtering c); [apply R_refl | apply R_mark_svc].
  Qed.

  Lemma mark_service_R fuel : mono_svc_R (mark_service matches c p fuel).
  Proof.
    induction fuel as [|n IH]; cbn.
    - intros fname si st st' H. discriminate.
    - apply mark_service_body_R. exact IH.
  Qed.
End MonoSvc.

Section ServiceOrder.
  Variable matches : bytes -> bytes -> bool.
  Variable c : cfg.
  Variable p : program.

  Lemma mark_service_include_le fname f s st st' : mark_service_include p fname f s st = Ok st' -> le st st'.
  Proof. apply (mark_service_include_R p le le_refl (fun F i st0 => le_mark _ st0)). Qed.

  Lemma mark_service_include_services F f s a b : mark_service_include p F f s a = Ok b -> same_services a b.
  Proof.
    apply (mark_service_include_R p same_services same_services_refl).
    intros G i st. apply same_services_mark. discriminate.
  Qed.

  Lemma trace_le fuel fa fname si st r : trace matches c p fuel fa fname si st = Ok r -> le st (fst r).
  Proof.
    apply (trace_R matches c p le le_refl le_trans (fun F i st0 => le_mark _ st0) (fun F i st0 => le_mark _ st0) le_add_ext).
    intros; eapply mark_function_le; eauto.
  Qed.

  Lemma mark_service_le fuel fname si st st' : mark_service matches c p fuel fname si st = Ok st' -> le st st'.
  Proof.
    apply (mark_service_R matches c p le le_refl le_trans (fun F i st0 => le_mark _ st0) (fun F i st0 => le_mark _ st0) le_add_ext).
    intros; eapply mark_function_le; eauto.
  Qed.

  (* induction on the fuel of traceExtendMethod, with the stages of one call and their order *)
  Lemma trace_ind (P : list bytes -> bytes -> nat -> mstate -> mstate * bool -> Prop) :
    (forall n fa F si f s st st1 ret1 st3 ret r,
       (forall fa' G gi a b, trace matches c p n fa' G gi a = Ok b -> P fa' G gi a b) ->
       prog_file p F = Some f -> nth_error (f_services f) si = Some s ->
       trace_own matches c p (S n) fa F si s st = Ok (st1, ret1) ->
       trace_base p (trace matches c p n) fa F si f s st1 ret1 st3 ret -> trace_end p F si f s st3 ret r ->
       le st st1 -> le st1 st3 -> le st3 (fst r) -> P fa F si st r) ->
    forall fuel fa F si st r, trace matches c p fuel fa F si st = Ok r -> P fa F si st r.
  Proof.
    intros Hstep. induction fuel as [|n IH]; intros fa F si st r H; [discriminate|].
    cbn [trace] in H. apply trace_body_inv in H.
    destruct H as [f [s [st1 [ret1 [st3 [ret [Hf [Hs [H1 [B E]]]]]]]]]].
    destruct (trace_stages_R matches c p le le_refl le_trans (fun G i a => le_mark _ a) (fun G i a => le_mark _ a) le_add_ext
                (fun fl G g s0 gi j fn a b _ _ _ => mark_function_le p fl G gi j fn a b)
                _ _ _ _ _ _ _ _ _ _ _ _ _ (trace_le n) Hf Hs H1 B E) as [L1 [L2 L3]].
    eapply Hstep; eauto.
  Qed.

  (* induction on the fuel of markService, with the stages of one call and their order *)
  Lemma mark_service_ind (P : bytes -> nat -> mstate -> mstate -> Prop) :
    (forall F si st, marked st (NService F si) = true -> P F si st st) ->
    (forall n F si f s st st1 st2 st',
       (forall G gi a b, mark_service matches c p n G gi a = Ok b -> P G gi a b) ->
       prog_file p F = Some f -> nth_error (f_services f) si = Some s -> marked st (NService F si) = false ->
       fold_res (svc_own matches c p (S n) F si s) (indexed (sv_functions s))
                (if filtering c then st else mark (NService F si) st) = Ok st1 ->
       (if filtering c && has_ext s
        then bind (trace matches c p (S n) [sv_name s] F si st1) (fun r => Ok (fst r)) else Ok st1) = Ok st2 ->
       svc_tail p (mark_service matches c p n) F si f s st2 st' ->
       le st st1 -> le st1 st2 -> le st2 st' -> P F si st st') ->
    forall fuel F si st st', mark_service matches c p fuel F si st = Ok st' -> P F si st st'.
  Proof.
    intros Hmarked Hstep. induction fuel as [|n IH]; intros F si st st' H; [discriminate|].
    cbn [mark_service] in H. apply mark_service_body_inv in H.
    destruct H as [f [s [Hf [Hs [[Em ->]|[Em [st1 [st2 [H1 [H2 T]]]]]]]]]]; [apply Hmarked; exact Em|].
    destruct (svc_stages_R matches c p le le_refl le_trans (fun G i a => le_mark _ a) (fun G i a => le_mark _ a) le_add_ext
                (fun fl G g s0 gi j fn a b _ _ _ => mark_function_le p fl G gi j fn a b)
                _ _ _ _ _ _ _ _ _ _ (mark_service_le n) Hf Hs H1 H2 T) as [L1 [L2 L3]].
    eapply Hstep; eauto.
    eapply le_trans; [|exact L1]. destruct (filtering c); [apply le_refl | apply le_mark].
  Qed.
End ServiceOrder.

Lemma include_file_inv p f z j tn :
  include_file p f z = Some (j, tn) ->
  j = Z.to_nat z /\ exists inc, nth_include f z = Some inc /\ in_ref inc = Some tn /\ prog_file p tn <> None.
Proof.
  unfold include_file. destruct (nth_include f z) as [inc|]; [|discriminate].
  destruct (in_ref inc) as [tn'|] eqn:Er; [|discriminate].
  destruct (prog_file p tn') eqn:Et; [|discriminate].
  intros [= <- <-]. split; [reflexivity|]. exists inc. repeat split; auto. congruence.
Qed.

Lemma include_file_nth p f i j tn :
  include_file p f (Z.of_nat i) = Some (j, tn) ->
  j = i /\ exists inc, nth_error (f_includes f) i = Some inc /\ in_ref inc = Some tn /\ prog_file p tn <> None.
Proof.
  intros H. apply include_file_inv in H. rewrite Nat2Z.id in H. destruct H as [-> [inc [Hn H]]].
  split; [reflexivity|]. exists inc. split; [|exact H].
  unfold nth_include in Hn. destruct (Z.of_nat i <? 0)%Z; [discriminate|]. rewrite Nat2Z.id in Hn. exact Hn.
Qed.

Section KeptPart.
  Variable cp : bytes -> bool.
  Variable c : cfg.
  Variable p : program.

  (* the body of markKeptPart's loop over the struct-likes of one kind *)
  Definition on_sl (fuel : nat) (F : bytes) (k : sl_kind) (is : nat * struct_like) (acc : mstate * bool)
    : res (mstate * bool) :=
    if negb (marked (fst acc) (NStructLike F k (fst is))) && check_preserve cp c F k (snd is)
    then bind (mark_sl p fuel F k (fst is) (snd is) (fst acc)) (fun st' => Ok (st', true))
    else Ok acc.

  (* the three loops; the flag starts as "has constants, enums or typedefs" *)
  Definition preserve_phase (fuel : nat) (F : bytes) (f : file) (st : mstate) : res (mstate * bool) :=
    if c_force c then Ok (st, has_enum_const_typedef f)
    else bind (fold_res (on_sl fuel F SKStruct) (indexed (f_structs f)) (st, has_enum_const_typedef f)) (fun a1 =>
         bind (fold_res (on_sl fuel F SKUnion) (indexed (f_unions f)) a1) (fun a2 =>
         fold_res (on_sl fuel F SKException) (indexed (f_exceptions f)) a2)).

  Lemma kept_part_inv fuel F st r :
    kept_part cp c p fuel F st = Ok r ->
    (exists v, lookup F (ms_cache st) = Some v /\ r = (st, v)) \/
    (lookup F (ms_cache st) = None /\ exists f st1 st2 st3 ret, prog_file p F = Some f /\
       mark_types p fuel F (map co_type (f_constants f)) st = Ok st1 /\
       mark_types p fuel F (map td_type (f_typedefs f)) st1 = Ok st2 /\
       preserve_phase fuel F f st2 = Ok (st3, ret) /\ r = (add_cache F ret st3, ret)).
  Proof.
    unfold kept_part. destruct (lookup F (ms_cache st)) as [v|]; [intros [= <-]; left; eauto|].
    destruct (prog_file p F) as [f|]; [|discriminate]. intros H. right. split; [reflexivity|].
    apply bind_ok in H. destruct H as [st1 [H1 H]].
    apply bind_ok in H. destruct H as [st2 [H2 H]].
    apply bind_ok in H. destruct H as [[st3 ret] [H3 H]]. injection H as <-.
    exists f, st1, st2, st3, ret. split; [reflexivity|]. split; [exact H1|]. split; [exact H2|].
    split; [exact H3 | reflexivity].
  Qed.

  Lemma on_sl_inv fuel F k i s acc acc' :
    on_sl fuel F k (i, s) acc = Ok acc' ->
    acc' = acc \/
    (check_preserve cp c F k s = true /\ snd acc' = true /\ mark_sl p fuel F k i s (fst acc) = Ok (fst acc')).
  Proof.
    unfold on_sl. cbn [fst snd]. destruct (negb _ && check_preserve cp c F k s) eqn:E; [|intros [= <-]; auto].
    apply andb_true_iff in E. intros H. apply bind_ok in H. destruct H as [st' [H1 H]]. injection H as <-.
    right. cbn [fst snd]. tauto.
  Qed.

  Lemma preserve_phase_inv fuel F f (Q : mstate * bool -> Prop) st r :
    preserve_phase fuel F f st = Ok r ->
    (forall k i s acc acc', c_force c = false -> nth_error (sl_list k f) i = Some s ->
       on_sl fuel F k (i, s) acc = Ok acc' -> Q acc -> Q acc') ->
    Q (st, has_enum_const_typedef f) -> Q r.
  Proof.
    unfold preserve_phase. intros H Hstep Q0. destruct (c_force c) eqn:Ef; [injection H as <-; exact Q0|].
    apply bind_ok in H. destruct H as [a1 [H1 H]]. apply bind_ok in H. destruct H as [a2 [H2 H3]].
    assert (forall k a b, fold_res (on_sl fuel F k) (indexed (sl_list k f)) a = Ok b -> Q a -> Q b) as Hl.
    { intros k. apply fold_res_inv. intros [i s] a b Hin. apply indexed_In in Hin. eapply Hstep; eauto. }
    eapply (Hl SKException); [exact H3|]. eapply (Hl SKUnion); [exact H2|]. eapply (Hl SKStruct); [exact H1 | exact Q0].
  Qed.

  Definition pp_step (n : nat) (F : bytes) (f : file) (ii : nat * include) (acc : mstate * bool)
    : res (mstate * bool) :=
    match include_file p f (Z.of_nat (fst ii)) with
    | None => Crash
    | Some (_, tn) =>
      bind (pre_process cp c p n tn (fst acc)) (fun '(st', m) =>
      Ok (if m then (mark (NInclude F (fst ii)) st', true) else (st', snd acc)))
    end.

  Lemma pre_process_inv n F st r :
    pre_process cp c p (S n) F st = Ok r ->
    exists st1 ret f, kept_part cp c p (S n) F st = Ok (st1, ret) /\ prog_file p F = Some f /\
      fold_res (pp_step n F f) (indexed (f_includes f)) (st1, ret) = Ok r.
  Proof.
    cbn [pre_process]. intros H. apply bind_ok in H. destruct H as [[st1 ret] [H1 H]].
    destruct (prog_file p F) as [f|]; [|discriminate]. exists st1, ret, f. auto.
  Qed.

  Lemma pp_step_inv n F f i inc acc acc' :
    In (i, inc) (indexed (f_includes f)) -> pp_step n F f (i, inc) acc = Ok acc' ->
    exists tn st' m, include_file p f (Z.of_nat i) = Some (i, tn) /\ in_ref inc = Some tn /\
      pre_process cp c p n tn (fst acc) = Ok (st', m) /\
      acc' = if m then (mark (NInclude F i) st', true) else (st', snd acc).
  Proof.
    intros Hin. apply indexed_In in Hin. unfold pp_step. cbn [fst].
    destruct (include_file p f (Z.of_nat i)) as [[j tn]|] eqn:Ei; [|discriminate].
    destruct (include_file_nth _ _ _ _ _ Ei) as [-> [inc' [Hn [Hr _]]]].
    rewrite Hin in Hn. injection Hn as <-.
    intros H. apply bind_ok in H. destruct H as [[st' m] [Hp H]]. injection H as <-.
    exists tn, st', m. auto.
  Qed.

  Section Rel.
    Variable R : mstate -> mstate -> Prop.
    Hypothesis R_refl : forall a, R a a.
    Hypothesis R_trans : forall a b d, R a b -> R b d -> R a d.
    Hypothesis R_mark : forall n st, svc_fn n = false -> R st (mark n st).

    Lemma on_sl_R fuel F k is acc acc' : on_sl fuel F k is acc = Ok acc' -> R (fst acc) (fst acc').
    Proof.
      destruct is as [i s]. intros H. apply on_sl_inv in H. destruct H as [->|[_ [_ H]]]; [apply R_refl|].
      exact (mark_sl_R p R R_refl R_trans R_mark _ _ _ _ _ _ _ H).
    Qed.

    (* the marking steps of markKeptPart, before the cache entry is written *)
    Lemma kept_part_steps_R fuel F f st st1 st2 r :
      mark_types p fuel F (map co_type (f_constants f)) st = Ok st1 ->
      mark_types p fuel F (map td_type (f_typedefs f)) st1 = Ok st2 ->
      preserve_phase fuel F f st2 = Ok r -> R st (fst r).
    Proof.
      intros H1 H2 H3.
      eapply R_trans; [exact (mark_types_R p R R_refl R_trans R_mark _ _ _ _ _ H1)|].
      eapply R_trans; [exact (mark_types_R p R R_refl R_trans R_mark _ _ _ _ _ H2)|].
      apply (preserve_phase_inv _ _ _ (fun acc => R st2 (fst acc)) _ _ H3); [|apply R_refl].
      intros k i s acc acc' _ _ Hs Ha. eapply R_trans; [exact Ha | eapply on_sl_R; exact Hs].
    Qed.
  End Rel.

  Lemma kept_part_steps_cache fuel F f st st1 st2 r :
    mark_types p fuel F (map co_type (f_constants f)) st = Ok st1 ->
    mark_types p fuel F (map td_type (f_typedefs f)) st1 = Ok st2 ->
    preserve_phase fuel F f st2 = Ok r -> same_cache st (fst r).
  Proof. apply (kept_part_steps_R same_cache same_cache_refl same_cache_trans (fun n a _ => same_cache_mark n a)). Qed.

  Section Rel2.
    Variable R : mstate -> mstate -> Prop.
    Hypothesis R_refl : forall a, R a a.
    Hypothesis R_trans : forall a b d, R a b -> R b d -> R a d.
    Hypothesis R_mark : forall n st, svc_fn n = false -> R st (mark n st).
    (* markKeptPart writes a cache entry only for a file that has none *)
    Hypothesis R_cache : forall F v st, lookup F (ms_cache st) = None -> R st (add_cache F v st).

    Lemma kept_part_R fuel F st r : kept_part cp c p fuel F st = Ok r -> R st (fst r).
    Proof.
      intros H. apply kept_part_inv in H.
      destruct H as [[v [_ ->]]|[Ec [f [st1 [st2 [st3 [ret [_ [H1 [H2 [H3 ->]]]]]]]]]]]; [apply R_refl|].
      cbn [fst]. eapply R_trans; [exact (kept_part_steps_R R R_refl R_trans R_mark _ _ _ _ _ _ _ H1 H2 H3)|].
      apply R_cache. rewrite <- Ec. f_equal. exact (kept_part_steps_cache _ _ _ _ _ _ _ H1 H2 H3).
    Qed.

    Lemma pp_loop_R n F f :
      (forall G st r, pre_process cp c p n G st = Ok r -> R st (fst r)) ->
      forall a b, fold_res (pp_step n F f) (indexed (f_includes f)) a = Ok b -> R (fst a) (fst b).
    Proof.
      intros IH. apply (fold_res_rel_fst _ R _ R_refl R_trans).
      intros [i inc] a b Hin Hs. destruct (pp_step_inv _ _ _ _ _ _ _ Hin Hs) as [tn [st' [m [_ [_ [Hp ->]]]]]].
      apply IH in Hp. destruct m; cbn [fst]; [|exact Hp]. eapply R_trans; [exact Hp | apply R_mark; reflexivity].
    Qed.

    Lemma pre_process_R fuel : forall F st r, pre_process cp c p fuel F st = Ok r -> R st (fst r).
    Proof.
      induction fuel as [|n IH]; intros F st r H; [discriminate|].
      apply pre_process_inv in H. destruct H as [st1 [ret [f [H1 [_ H]]]]].
      eapply R_trans; [exact (kept_part_R _ _ _ _ H1) | exact (pp_loop_R _ _ _ IH _ _ H)].
    Qed.
  End Rel2.

  Lemma kept_part_le fuel F st r : kept_part cp c p fuel F st = Ok r -> le st (fst r).
  Proof. apply (kept_part_R le le_refl le_trans (fun n a _ => le_mark n a) le_add_cache). Qed.
  Lemma pre_process_le fuel F st r : pre_process cp c p fuel F st = Ok r -> le st (fst r).
  Proof. apply (pre_process_R le le_refl le_trans (fun n a _ => le_mark n a) le_add_cache). Qed.
  Lemma pp_loop_le n F f a b : fold_res (pp_step n F f) (indexed (f_includes f)) a = Ok b -> le (fst a) (fst b).
  Proof. apply (pp_loop_R le le_refl le_trans (fun n a _ => le_mark n a)). apply pre_process_le. Qed.

  Lemma pre_process_services fuel F st r : pre_process cp c p fuel F st = Ok r -> same_services st (fst r).
  Proof.
    apply (pre_process_R same_services same_services_refl same_services_trans same_services_mark_ty).
    intros G v a _ H gi Hm. exact Hm.
  Qed.

  Lemma kept_part_cached fuel F st st' r :
    kept_part cp c p fuel F st = Ok (st', r) -> lookup F (ms_cache st') = Some r.
  Proof.
    intros H. apply kept_part_inv in H.
    destruct H as [[v [Ec [= -> ->]]]|[_ [f [st1 [st2 [st3 [ret [_ [_ [_ [_ [= -> ->]]]]]]]]]]]]; [exact Ec|].
    cbn. rewrite beqb_refl. reflexivity.
  Qed.

  Lemma pre_process_cached fuel F st st' r :
    pre_process cp c p fuel F st = Ok (st', r) -> exists v, lookup F (ms_cache st') = Some v.
  Proof.
    destruct fuel as [|n]; [discriminate|]. intros H.
    apply pre_process_inv in H. destruct H as [st1 [ret [f [H1 [_ H]]]]].
    apply kept_part_cached in H1. apply pp_loop_le in H. destruct H as [_ [_ L]]. exists ret. apply L. exact H1.
  Qed.
End KeptPart.

Section MarkAst.
  Variable matches : bytes -> bytes -> bool.
  Variable cp : bytes -> bool.
  Variable c : cfg.
  Variable p : program.

  (* markAST: the last markKeptPart is answered by the cache, so the loop over the services of
     the main file ends in the final state *)
  Lemma mark_ast_inv fuel fin :
    mark_ast matches cp c p fuel = Ok fin ->
    exists f st1 r1, prog_main p = Some f /\ prog_file p (main_name p) = Some f /\
      pre_process cp c p fuel (main_name p) ms0 = Ok (st1, r1) /\
      fold_res (fun is : nat * service => mark_service matches c p fuel (main_name p) (fst is))
               (indexed (f_services f)) st1 = Ok fin /\
      le st1 fin.
  Proof.
    unfold mark_ast. destruct (prog_main p) as [f|] eqn:Hm; [|discriminate]. intros H.
    apply bind_ok in H. destruct H as [[st1 r1] [H1 H]].
    apply bind_ok in H. destruct H as [st2 [H2 H]].
    apply bind_ok in H. destruct H as [[st3 r3] [H3 H]]. injection H as <-. cbn [fst].
    assert (le st1 st2) as L12.
    { revert H2. apply fold_res_rel; [apply le_refl | apply le_trans|]. intros is a b _. apply mark_service_le. }
    destruct (pre_process_cached _ _ _ _ _ _ _ _ H1) as [v Hv].
    assert (st3 = st2) as ->.
    { unfold kept_part in H3. destruct L12 as [_ [_ L]]. rewrite (L _ _ Hv) in H3. congruence. }
    exists f, st1, r1. split; [reflexivity|]. split; [|auto].
    clear - Hm. unfold prog_main, main_name, prog_file in *. destruct p as [|[n g] r]; [discriminate|]. injection Hm as ->.
    cbn. rewrite beqb_refl. reflexivity.
  Qed.
End MarkAst.

Section MarkAstOrder.
  Variable matches : bytes -> bytes -> bool.
  Variable cp : bytes -> bool.
  Variable c : cfg.
  Variable p : program.

  Lemma mark_ast_le_ms0 fuel st : mark_ast matches cp c p fuel = Ok st -> le ms0 st.
  Proof.
    intros _. repeat split; cbn; intros; try tauto; discriminate.
  Qed.
End MarkAstOrder.


Section Minimal.
  Variable matches : bytes -> bytes -> bool.
  Variable cp : bytes -> bool.
  Variable c : cfg.
  Variable p : program.
  Variable K : list node.

  Notation Nd := (needed cp c p K).

  (* what may be marked: needed nodes; and includes that lead to always-kept definitions
     or (with a method filter, see the known finding) any include *)
  Definition good (n : node) : Prop :=
    Nd n \/ exists f i, n = NInclude f i /\ (no_filter c = false \/ include_leads_to_kept_part cp c p f i).
  Definition all_good (st : mstate) : Prop := forall n, In n (ms_marks st) -> good n.

  Lemma all_good_mark n st : good n -> all_good st -> all_good (mark n st).
  Proof. intros Hn Hs m Hm. apply mark_marks in Hm. destruct Hm as [->|Hm]; auto. Qed.

  Lemma good_sl_needed f k i : good (NStructLike f k i) -> Nd (NStructLike f k i).
  Proof. intros [H|[g [j [H _]]]]; [exact H | discriminate]. Qed.

  Lemma typedef_root bname bf i d :
    prog_file p bname = Some bf -> nth_error (f_typedefs bf) i = Some d -> Nd (NTypedef bname i).
  Proof.
    intros Hf Hn. apply needed_root. unfold roots. apply in_or_app. right. apply in_or_app. right.
    apply in_flat_map. exists (bname, bf). split; [apply lookup_In; exact Hf|].
    unfold file_roots. cbn [fst snd]. apply in_or_app. left.
    apply in_map_iff. exists i. split; [reflexivity|]. apply in_seq.
    split; [lia|]. cbn. apply nth_error_Some. congruence.
  Qed.

  Definition min1 (rec : bytes -> ty -> mstate -> res mstate) : Prop :=
    forall fname t st st', rec fname t st = Ok st' ->
      (forall m, In m (ty_denotes p fname t) -> good m) -> all_good st -> all_good st'.

  Lemma mark_types_with_min rec fname ts : min1 rec ->
    forall st st', mark_types_with rec fname ts st = Ok st' ->
      (forall m, In m (tys_nodes p fname ts) -> good m) -> all_good st -> all_good st'.
  Proof.
    intros Hrec st st' H Hts. revert H. unfold mark_types_with.
    apply fold_res_inv. intros t s s' Ht. apply fold_res_inv. intros t' a b Ht' Hf Ha.
    eapply Hrec; [exact Hf| |exact Ha].
    intros m Hm. apply Hts. unfold tys_nodes. apply in_flat_map. exists t. split; [exact Ht|].
    unfold ty_nodes. apply in_flat_map. exists t'. split; [apply ty_refs_sub; exact Ht' | exact Hm].
  Qed.

  Lemma mark_sl_with_min rec fname f k i s : min1 rec ->
    prog_file p fname = Some f -> nth_error (sl_list k f) i = Some s ->
    forall st st', mark_sl_with rec fname k i s st = Ok st' ->
      good (NStructLike fname k i) -> all_good st -> all_good st'.
  Proof.
    intros Hrec Hf Hn st st'. unfold mark_sl_with.
    destruct (marked st _); [intros [= <-]; auto|].
    intros H Hg Hst. eapply mark_types_with_min; [exact Hrec | exact H | | apply all_good_mark; assumption].
    intros m Hm. left. eapply needed_step; [apply good_sl_needed; exact Hg|].
    cbn [succs]. unfold succ_struct_like. rewrite Hf, Hn. exact Hm.
  Qed.

  Lemma mark_named_body_min rec : min1 rec -> min1 (mark_named_body p rec).
  Proof.
    intros Hrec fname t st st'. unfold mark_named_body.
    destruct (prog_file p fname) as [f|] eqn:Hf; [|discriminate].
    intros H Hd Hst. apply bind_ok in H. destruct H as [[bname st1] [Hb H]].
    (* what the specification says this type denotes *)
    assert (exists via, ty_target_file p fname t = Some (bname, via) /\
                        (forall m, In m via -> In m (ms_marks st1) ) /\
                        all_good st1) as [via [Ht [_ G1]]].
    { unfold ty_target_file. rewrite Hf. destruct (ty_ref t) as [r|] eqn:Er.
      - destruct (include_file p f (ref_index r)) as [[i tn]|] eqn:Ei; [|discriminate].
        injection Hb as <- <-. exists [NInclude fname i]. split; [reflexivity|]. split.
        + intros m [<-|[]]. apply mark_marks. auto.
        + apply all_good_mark; [|exact Hst]. apply Hd.
          unfold ty_denotes, ty_target_file. rewrite Hf, Er, Ei. cbn. auto.
      - injection Hb as <- <-. exists []. split; [reflexivity|]. split; [intros m []|exact Hst]. }
    assert (forall m, In m (match prog_file p bname with
                            | None => []
                            | Some bf =>
                              match ty_is_typedef t with
                              | Some _ =>
                                match find_index (fun d => beqb (td_alias d) (ty_def_name t)) (f_typedefs bf) with
                                | Some (i, _) => [NTypedef bname i]
                                | None => []
                                end
                              | None =>
                                match category_sl_kind (ty_category t) with
                                | Some k =>
                                  match find_index (fun s => ty_name_ok t (sl_name s)) (sl_list k bf) with
                                  | Some (i, _) => [NStructLike bname k i]
                                  | None => []
                                  end
                                | None =>
                                  match ty_category t with
                                  | CatEnum =>
                                    match find_index (fun e => ty_name_ok t (en_name e)) (f_enums bf) with
                                    | Some (i, _) => [NEnum bname i]
                                    | None => []
                                    end
                                  | _ => []
                                  end
                                end
                              end
                            end) -> good m) as Hd'.
    { intros m Hm. apply Hd. unfold ty_denotes. rewrite Ht. apply in_or_app. right. exact Hm. }
    clear Hd Ht.
    destruct (prog_file p bname) as [bf|] eqn:Hbf; [|discriminate].
    destruct (ty_is_typedef t).
    - (* typedef: every typedef is always kept, its target is an edge *)
      clear Hd'. unfold mark_typedef_with in H.
      destruct (find_index _ _) as [[i d]|] eqn:Efi; [|injection H as <-; exact G1].
      apply find_index_some in Efi. destruct Efi as [Hn _].
      destruct (marked st1 _); [injection H as <-; exact G1|].
      pose proof (typedef_root _ _ _ _ Hbf Hn) as Ntd.
      eapply mark_types_with_min; [exact Hrec | exact H | | apply all_good_mark; [left; exact Ntd | exact G1]].
      intros m Hm. left. eapply needed_step; [exact Ntd|].
      cbn [succs]. unfold succ_typedef. rewrite Hbf, Hn.
      unfold tys_nodes in Hm. cbn in Hm. rewrite app_nil_r in Hm. exact Hm.
    - destruct (category_sl_kind (ty_category t)) as [k|].
      + destruct (find_index _ _) as [[i s]|] eqn:Efi; [|injection H as <-; exact G1].
        apply find_index_some in Efi. destruct Efi as [Hn _].
        eapply mark_sl_with_min; [exact Hrec | exact Hbf | exact Hn | exact H | | exact G1].
        apply Hd'. left. reflexivity.
      + destruct (ty_category t); try (injection H as <-; exact G1).
        destruct (find_index _ _) as [[i e]|]; injection H as <-; [|exact G1].
        apply all_good_mark; [|exact G1]. apply Hd'. left. reflexivity.
  Qed.

  Lemma mark_named_min fuel : min1 (mark_named p fuel).
  Proof. revert fuel. unfold min1. refine (mark_named_ind p _ _). intros n. apply mark_named_body_min. Qed.

  Lemma mark_types_min fuel fname ts st st' :
    mark_types p fuel fname ts st = Ok st' ->
    (forall m, In m (tys_nodes p fname ts) -> good m) -> all_good st -> all_good st'.
  Proof. apply mark_types_with_min. apply mark_named_min. Qed.

  Lemma mark_sl_min fuel fname f k i s st st' :
    prog_file p fname = Some f -> nth_error (sl_list k f) i = Some s ->
    mark_sl p fuel fname k i s st = Ok st' ->
    good (NStructLike fname k i) -> all_good st -> all_good st'.
  Proof. intros Hf Hn. eapply mark_sl_with_min; eauto. apply mark_named_min. Qed.
  Lemma check_preserve_preserved fname k s : check_preserve cp c fname k s = preserved cp c fname k s.
  Proof.
    unfold check_preserve, preserved. destruct (c_force c); cbn; [reflexivity|].
    destruct (existsb _ (c_preserved_structs c)); cbn; [reflexivity|].
    destruct (negb (c_no_comment c) && cp (sl_comments s)); reflexivity.
  Qed.

  Definition has_kept (F : bytes) : Prop :=
    exists f, prog_file p F = Some f /\ file_has_kept_part cp c (F, f) = true.
  Definition cache_good (st : mstate) : Prop :=
    forall F, lookup F (ms_cache st) = Some true -> has_kept F.

  Lemma preserved_root F f k i s :
    prog_file p F = Some f -> nth_error (sl_list k f) i = Some s -> preserved cp c F k s = true ->
    Nd (NStructLike F k i).
  Proof.
    intros Hf Hn Hp. apply needed_root. unfold roots. apply in_or_app. right. apply in_or_app. right.
    apply in_flat_map. exists (F, f). split; [apply lookup_In; exact Hf|].
    unfold file_roots. cbn [fst snd]. apply in_or_app. right. apply in_or_app. right. apply in_or_app. right.
    apply in_flat_map. exists k. split; [destruct k; cbn; auto|].
    apply in_map_iff. exists (i, s). split; [reflexivity|].
    apply filter_In. split; [apply indexed_In; exact Hn | exact Hp].
  Qed.

  Lemma preserved_has_kept F f k i s :
    prog_file p F = Some f -> nth_error (sl_list k f) i = Some s -> preserved cp c F k s = true -> has_kept F.
  Proof.
    intros Hf Hn Hp. exists f. split; [exact Hf|]. unfold file_has_kept_part. apply orb_true_iff. right.
    apply existsb_exists. exists k. split; [destruct k; cbn; auto|].
    apply existsb_exists. exists s. split; [eapply nth_error_In; eauto | exact Hp].
  Qed.

  Lemma kept_part_min fuel F st st' ret :
    kept_part cp c p fuel F st = Ok (st', ret) ->
    all_good st -> cache_good st ->
    all_good st' /\ cache_good st' /\ (ret = true -> has_kept F).
  Proof.
    intros H Hst Hc. apply kept_part_inv in H.
    destruct H as [[v [Ec [= -> ->]]]|[_ [f [st1 [st2 [st3 [r3 [Hf [H1 [H2 [H3 [= -> ->]]]]]]]]]]]].
    { repeat split; auto. intros ->. apply Hc. exact Ec. }
    pose proof (kept_part_steps_cache _ _ _ _ _ _ _ _ _ _ H1 H2 H3) as Ecache. cbn [fst] in Ecache.
    (* constants *)
    assert (all_good st1) as G1.
    { eapply mark_types_min; [exact H1| |exact Hst].
      intros m Hm. left. apply needed_root. unfold roots. apply in_or_app. right. apply in_or_app. right.
      apply in_flat_map. exists (F, f). split; [apply lookup_In; exact Hf|].
      unfold file_roots. cbn [fst snd]. apply in_or_app. right. apply in_or_app. right. apply in_or_app. left. exact Hm. }
    (* typedefs *)
    assert (all_good st2) as G2.
    { eapply mark_types_min; [exact H2| |exact G1].
      intros m Hm. unfold tys_nodes in Hm. apply in_flat_map in Hm. destruct Hm as [t [Ht Hm]].
      apply in_map_iff in Ht. destruct Ht as [d [<- Hd]].
      apply In_nth_error in Hd. destruct Hd as [i Hi].
      left. eapply needed_step; [eapply typedef_root; eauto|].
      cbn [succs]. unfold succ_typedef. rewrite Hf, Hi. exact Hm. }
    (* preserved struct-likes *)
    assert (all_good st3 /\ (r3 = true -> has_kept F)) as [G3 R3].
    { apply (preserve_phase_inv _ _ _ _ _ _ (fun acc => all_good (fst acc) /\ (snd acc = true -> has_kept F)) _ _ H3).
      - intros k i s acc acc' _ Hi Hs Ha. apply on_sl_inv in Hs. destruct Hs as [->|[E [-> Hm]]]; [exact Ha|].
        rewrite check_preserve_preserved in E. split; [|intros _; eapply preserved_has_kept; eauto].
        eapply mark_sl_min; [exact Hf | exact Hi | exact Hm | left; eapply preserved_root; eauto | apply Ha].
      - split; [exact G2|]. cbn. intros E. exists f. split; [exact Hf|].
        unfold file_has_kept_part. cbn [snd]. rewrite E. reflexivity. }
    split; [exact G3|]. split; [|exact R3].
    intros G. cbn. destruct (beqb G F) eqn:E.
    - intros [= ->]. apply beqb_true in E. subst. auto.
    - rewrite Ecache. apply Hc.
  Qed.

  (* preProcess: an include is marked only when the files below it hold a kept part *)
  Lemma pre_process_min fuel : forall F st st' r,
    pre_process cp c p fuel F st = Ok (st', r) ->
    all_good st -> cache_good st ->
    all_good st' /\ cache_good st' /\ (r = true -> exists G, below p F G /\ has_kept G).
  Proof.
    induction fuel as [|n IH]; intros F st st' r H Hst Hc; [discriminate|].
    apply pre_process_inv in H. destruct H as [st1 [ret [f [H1 [Hf H]]]]].
    apply kept_part_min in H1; [|exact Hst | exact Hc]. destruct H1 as [G1 [C1 R1]].
    refine (fold_res_inv _ (fun a => all_good (fst a) /\ cache_good (fst a) /\
                                     (snd a = true -> exists G, below p F G /\ has_kept G)) _ _ _ _ H _).
    - intros [i inc] a b Hin Hs [Ga [Ca Ra]].
      destruct (pp_step_inv _ _ _ _ _ _ _ _ _ _ Hin Hs) as [tn [s' [m [Ei [Hr' [Hp ->]]]]]].
      destruct (IH _ _ _ _ Hp Ga Ca) as [G' [C' R']].
      destruct m; cbn [fst snd]; [|auto].
      destruct (R' eq_refl) as [G [HbG HkG]]. apply indexed_In in Hin.
      split; [|split].
      + apply all_good_mark; [|exact G']. right. exists F, i. split; [reflexivity|]. right.
        destruct HkG as [g [Hg Hk]]. exists f, tn, G, g. auto.
      + intros X. rewrite mark_cache. apply C'.
      + intros _. exists G. split; [|exact HkG].
        eapply below_step; [exact Hf | eapply nth_error_In; exact Hin | exact Hr' | exact HbG].
    - cbn [fst snd]. split; [exact G1|]. split; [exact C1|].
      intros E. exists F. split; [apply below_refl | apply R1; exact E].
  Qed.

  Variable fin : mstate.

  Lemma tys_nodes_app fname a b : tys_nodes p fname (a ++ b) = tys_nodes p fname a ++ tys_nodes p fname b.
  Proof. unfold tys_nodes. apply flat_map_app. Qed.

  Lemma mark_function_min fuel fname f s si fi fn st st' :
    prog_file p fname = Some f -> nth_error (f_services f) si = Some s -> nth_error (sv_functions s) fi = Some fn ->
    mark_function p fuel fname si fi fn st = Ok st' ->
    Nd (NFunction fname si fi) -> all_good st -> all_good st'.
  Proof.
    intros Hf Hs Hfn H Hg Hst. rewrite mark_function_types in H.
    eapply mark_types_min; [exact H| |apply all_good_mark; [left; exact Hg | exact Hst]].
    intros m Hm. left. eapply needed_step; [exact Hg|]. cbn [succs]. unfold succ_function.
    rewrite Hf, Hs, Hfn. exact Hm.
  Qed.

  Section Filtered.
    Hypothesis Hfilter : no_filter c = false.
    (* the kept services and methods are those the run ends up with *)
    Hypothesis HK : forall n, In n (ms_marks fin) -> svc_fn n = true -> In n K.

    Lemma K_needed n st : le st fin -> In n (ms_marks st) -> svc_fn n = true -> Nd n.
    Proof.
      intros [L _] Hn Hs. apply needed_root. unfold roots. apply in_or_app. left.
      apply HK; auto.
    Qed.

    Lemma include_good_filtered f i : good (NInclude f i).
    Proof. right. exists f, i. auto. Qed.

    Lemma mark_service_include_min fname f s st st' :
      mark_service_include p fname f s st = Ok st' -> all_good st -> all_good st'.
    Proof.
      unfold mark_service_include. destruct (sv_ref s) as [r|]; [|intros [= <-]; auto].
      destruct (include_file p f (ref_index r)) as [[i tn]|]; [|discriminate].
      intros [= <-] Hst. apply all_good_mark; [apply include_good_filtered | exact Hst].
    Qed.

    Lemma trace_min fuel fa F si st r :
      trace matches c p fuel fa F si st = Ok r -> le (fst r) fin -> all_good st -> all_good (fst r).
    Proof.
      revert fuel fa F si st r.
      apply (trace_ind matches c p (fun fa F si st r => le (fst r) fin -> all_good st -> all_good (fst r))).
      intros n fa F si f s st st1 ret1 st3 ret r Hrec Hf Hs H1 B E _ L1 L3 Hfin Hst.
      assert (le st3 fin) as F3 by (eapply le_trans; eauto).
      assert (le st1 fin) as F1 by (eapply le_trans; eauto).
      (* 1. the loop over own functions *)
      assert (all_good st1) as G1.
      { (* the invariant carries the bound: what is marked on the way is among the final marks *)
        apply trace_own_rel with
          (R := fun a b => (le (fst a) fin -> all_good (fst a)) -> le (fst b) fin -> all_good (fst b)) in H1;
          [exact (H1 (fun _ => Hst) F1) | auto | auto|].
        intros j fn father pat acc st'' Hjf _ _ _ H2 Ha Hb. cbn [fst] in *.
        destruct (mark_function_marks _ _ _ _ _ _ _ _ H2) as [Lf Mf].
        assert (all_good (fst acc)) as Ga.
        { apply Ha. eapply le_trans; [apply le_mark|]. eapply le_trans; [exact Lf | exact Hb]. }
        assert (Nd (NService F si)) as Ns.
        { eapply K_needed; [exact Hb| |reflexivity]. apply Lf. apply mark_marks. auto. }
        assert (Nd (NFunction F si j)) as Nf.
        { eapply K_needed; [exact Hb| |reflexivity]. apply marked_In. exact Mf. }
        eapply mark_function_min; [exact Hf | exact Hs | exact Hjf | exact H2 | exact Nf|].
        apply all_good_mark; [left; exact Ns | exact Ga]. }
      (* 2. the base service *)
      assert (all_good st3) as G3.
      { destruct B as [[_ [-> _]]|[_ [bn [bi [b [st2 [back [_ [H2 [-> _]]]]]]]]]]; [exact G1|].
        assert (le st2 fin) as F2.
        { eapply le_trans; [|exact F3]. destruct back; [apply le_refl | apply le_add_ext]. }
        pose proof (Hrec _ _ _ _ _ H2 F2 G1) as G2. cbn in G2.
        destruct back; [exact G2|]. intros m Hm. apply G2. exact Hm. }
      destruct E as [[_ [st4 [H4 ->]]]|[_ ->]]; [|exact G3]. cbn [fst] in *.
      eapply mark_service_include_min; [exact H4|].
      apply all_good_mark; [|exact G3]. left.
      eapply K_needed; [exact Hfin| |reflexivity].
      apply mark_service_include_le in H4. apply H4. apply mark_marks. auto.
    Qed.
  End Filtered.
  Hypothesis HK : no_filter c = false -> forall n, In n (ms_marks fin) -> svc_fn n = true -> In n K.

  Lemma filtering_no_filter : filtering c = negb (no_filter c).
  Proof. reflexivity. Qed.

  (* the model and the specification look the base service up in the same way *)
  Lemma base_service_spec fname f s bn bi b :
    prog_file p fname = Some f -> sv_extends s <> [] ->
    base_service p fname f s = Ok (Some (bn, bi, b)) ->
    exists via, base_of p fname s = Some (NService bn bi, via) /\
                (forall r, sv_ref s = Some r -> exists i tn, include_file p f (ref_index r) = Some (i, tn) /\ via = [NInclude fname i]) /\
                (sv_ref s = None -> via = []).
  Proof.
    intros Hf Hne. unfold base_service, base_of. rewrite Hf.
    destruct (sv_extends s) as [|e0 er] eqn:Ee; [congruence|]. rewrite <- Ee.
    destruct (sv_ref s) as [r|].
    - destruct (include_file p f (ref_index r)) as [[i tn]|] eqn:Ei; [|discriminate].
      destruct (prog_file p tn) as [tf|]; [|discriminate].
      destruct (find_index _ _) as [[j x]|]; [|discriminate].
      intros [= <- <- <-]. eexists. split; [reflexivity|]. split; [|discriminate].
      intros r' [= <-]. rewrite Ei. do 2 eexists. split; reflexivity.
    - destruct (find_index _ _) as [[j x]|]; [|discriminate].
      intros [= <- <- <-]. eexists. split; [reflexivity|]. split; [intros r' Hr; discriminate | reflexivity].
  Qed.

  Lemma base_service_none fname f s :
    prog_file p fname = Some f -> sv_extends s <> [] ->
    base_service p fname f s = Ok None -> base_of p fname s = None.
  Proof.
    intros Hf Hne. unfold base_service, base_of. rewrite Hf.
    destruct (sv_extends s) as [|e0 er] eqn:Ee; [congruence|]. rewrite <- Ee.
    destruct (sv_ref s) as [r|].
    - destruct (include_file p f (ref_index r)) as [[i tn]|]; [|discriminate].
      destruct (prog_file p tn) as [tf|]; [|discriminate].
      destruct (find_index _ _) as [[j x]|]; [discriminate | reflexivity].
    - destruct (find_index _ _) as [[j x]|]; [discriminate | reflexivity].
  Qed.

  Hypothesis Hbase : forall fname f s, prog_file p fname = Some f -> In s (f_services f) ->
    sv_extends s <> [] -> base_of p fname s <> None.

  Lemma mark_service_min fuel F si st st' :
    mark_service matches c p fuel F si st = Ok st' -> le st' fin ->
    (no_filter c = true -> Nd (NService F si)) -> all_good st -> all_good st'.
  Proof.
    revert fuel F si st st'.
    apply (mark_service_ind matches c p (fun F si st st' => le st' fin ->
             (no_filter c = true -> Nd (NService F si)) -> all_good st -> all_good st')); [auto|].
    intros n F si f s st st1 st2 st' Hrec Hf Hs _ H1 H2 T L1 L2 L3 Hfin Hnd Hst.
    assert (le st2 fin) as F2 by (eapply le_trans; eauto).
    assert (le st1 fin) as F1 by (eapply le_trans; eauto).
    unfold svc_own in H1.
    destruct (no_filter c) eqn:Enf.
    - (* no filter *)
      assert (filtering c = false) as Ef by (rewrite filtering_no_filter, Enf; reflexivity).
      rewrite Ef in *. cbn [andb] in H2. injection H2 as <-.
      specialize (Hnd eq_refl).
      assert (all_good st1) as G1.
      { refine (fold_res_inv _ all_good _ _ _ _ H1 _); [|apply all_good_mark; [left; exact Hnd | exact Hst]].
        intros [j fn] a b Hj Hf1 Ha. apply indexed_In in Hj.
        eapply mark_function_min; [exact Hf | exact Hs | exact Hj | exact Hf1 | | exact Ha].
        eapply needed_step; [exact Hnd|]. cbn [succs]. unfold succ_service. rewrite Hf, Hs, Enf.
        apply in_or_app. left. apply in_map_iff. exists j. split; [reflexivity|].
        apply in_seq. split; [lia|]. cbn. apply nth_error_Some. cbn in Hj. congruence. }
      destruct T as [[-> _]|[Ene [_ [st3 [nb [H3 [Hb H]]]]]]]; [exact G1|].
      assert (In s (f_services f)) as Hin by (eapply nth_error_In; eauto).
      destruct nb as [[[bn bi] b]|]; [|exfalso; apply (Hbase _ _ _ Hf Hin Ene); eapply base_service_none; eauto].
      destruct (base_service_spec _ _ _ _ _ _ Hf Ene Hb) as [via [Hbo' [Hvia _]]].
      assert (forall m, In m (NService bn bi :: via) -> Nd m) as Hsucc.
      { intros m Hm. eapply needed_step; [exact Hnd|]. cbn [succs]. unfold succ_service. rewrite Hf, Hs, Enf, Hbo'.
        apply in_or_app. right. exact Hm. }
      eapply Hrec; [exact H | exact Hfin | intros _; apply Hsucc; left; reflexivity|].
      unfold mark_service_include in H3. destruct (sv_ref s) as [r|]; [|injection H3 as <-; exact G1].
      destruct (Hvia _ eq_refl) as [i [tn [Hi ->]]]. rewrite Hi in H3. injection H3 as <-.
      apply all_good_mark; [|exact G1]. left. apply Hsucc. right. left. reflexivity.
    - (* with a method filter *)
      assert (filtering c = true) as Ef by (rewrite filtering_no_filter, Enf; reflexivity).
      rewrite Ef in *. specialize (HK eq_refl).
      assert (all_good st1) as G1.
      { refine (fold_res_inv _ (fun a => le a fin -> all_good a) _ _ _ _ H1 (fun _ => Hst) F1).
        intros [j fn] a b Hjf. apply indexed_In in Hjf.
        apply (fold_res_inv _ (fun a => le a fin -> all_good a)).
        intros pat a' b' _. unfold sstep. cbn [fst snd]. destruct (selects _ _ _); [|intros [= <-]; auto].
        intros Y2 Ha Hb. destruct (mark_function_marks _ _ _ _ _ _ _ _ Y2) as [Lf Mf].
        assert (all_good a') as Ga.
        { apply Ha. eapply le_trans; [apply le_mark|]. eapply le_trans; [exact Lf | exact Hb]. }
        assert (Nd (NService F si)) as Ns.
        { eapply K_needed; [exact HK | exact Hb| |reflexivity]. apply Lf. apply mark_marks. auto. }
        assert (Nd (NFunction F si j)) as Nf.
        { eapply K_needed; [exact HK | exact Hb| |reflexivity]. apply marked_In. exact Mf. }
        eapply mark_function_min; [exact Hf | exact Hs | exact Hjf | exact Y2 | exact Nf|].
        apply all_good_mark; [left; exact Ns | exact Ga]. }
      assert (all_good st2) as G2.
      { destruct (true && _).
        - apply bind_ok in H2. destruct H2 as [r [H2 H3]]. injection H3 as <-.
          eapply trace_min; [exact Enf | exact HK | exact H2 | exact F2 | exact G1].
        - injection H2 as <-. exact G1. }
      destruct T as [[-> _]|[_ [_ [st3 [nb [H3 [Hb H]]]]]]]; [exact G2|].
      assert (all_good st3) as G3 by (eapply mark_service_include_min; eauto).
      destruct nb as [[[bn bi] b]|]; [|injection H as <-; exact G3].
      eapply Hrec; [exact H | exact Hfin | congruence | exact G3].
  Qed.
End Minimal.


Section MinimalFinal.
  Variable matches : bytes -> bytes -> bool.
  Variable cp : bytes -> bool.
  Variable c : cfg.
  Variable p : program.

  (* the kept services and methods: given by the run when there is a method filter *)
  Definition kept_methods (fin : mstate) : list node :=
    if no_filter c then [] else filter svc_fn (ms_marks fin).

  Definition extends_resolved : Prop :=
    forall fname f s, prog_file p fname = Some f -> In s (f_services f) ->
      sv_extends s <> [] -> base_of p fname s <> None.

  Theorem final_marks_good fuel fin :
    extends_resolved ->
    mark_ast matches cp c p fuel = Ok fin ->
    all_good cp c p (kept_methods fin) fin.
  Proof.
    intros Hbase H. destruct (mark_ast_inv _ _ _ _ _ _ H) as [f [st1 [r1 [Hm [Hf [H1 [H2 _]]]]]]].
    rename fin into st2.
    set (K := kept_methods st2).
    assert (no_filter c = false -> forall n, In n (ms_marks st2) -> svc_fn n = true -> In n K) as HK.
    { intros E n Hn Hs. unfold K, kept_methods. rewrite E. apply filter_In. auto. }
    apply pre_process_min with (K := K) in H1.
    2:{ intros n []. }
    2:{ intros F HF. discriminate. }
    destruct H1 as [G1 _].
    refine (fold_res_inv _ (fun a => le a st2 -> all_good cp c p K a) _ _ _ _ H2 (fun _ => G1) (le_refl _)).
    intros [i s] a b Hin Hs Ha Hfin. cbn [fst] in Hs.
    eapply mark_service_min; [exact HK | exact Hbase | exact Hs | exact Hfin | |
                              apply Ha; eapply le_trans; [eapply mark_service_le; exact Hs | exact Hfin]].
      intros E. apply needed_root. unfold roots. rewrite E. apply in_or_app. right. apply in_or_app. left.
      unfold main_service_roots, prog_main, main_name in *. destruct p as [|[n g] rest]; [discriminate|]. injection Hm as ->.
      apply in_map_iff. exists i. split; [reflexivity|].
      apply indexed_In in Hin. apply in_seq. split; [lia|]. cbn. apply nth_error_Some. congruence.
  Qed.
End MinimalFinal.


Lemma filter_res_spec {A} (f : A -> res bool) : forall l r,
  filter_res f l = Ok r -> forall x, In x r <-> In x l /\ f x = Ok true.
Proof.
  induction l as [|y l IH]; intros r H x; cbn in H.
  - injection H as <-. cbn. tauto.
  - apply bind_ok in H. destruct H as [b [Hb H]].
    apply bind_ok in H. destruct H as [r' [Hr H]]. injection H as <-.
    specialize (IH _ Hr x). destruct b; cbn; rewrite IH; split.
    + intros [<-|[H1 H2]]; auto.
    + intros [[<-|H1] H2]; auto.
    + intros [H1 H2]; auto.
    + intros [[<-|H1] H2]; [congruence | auto].
Qed.

Section Traversal.
  Variable matches : bytes -> bytes -> bool.
  Variable cp : bytes -> bool.
  Variable c : cfg.
  Variable p : program.


  Lemma trim_file_struct_likes st F f tf k s :
    trim_file cp c p st F f = Ok tf -> In s (sl_list k tf) ->
    exists i, nth_error (sl_list k f) i = Some s /\ keep_sl cp c st F k (i, s) = true.
  Proof.
    unfold trim_file. intros H. apply bind_ok in H. destruct H as [incs [_ H]]. injection H as <-.
    destruct k; cbn [sl_list f_structs f_unions f_exceptions]; intros Hs;
      apply in_map_iff in Hs; destruct Hs as [[i s'] [<- Hs]]; apply filter_In in Hs; destruct Hs as [Hi Hk];
      apply indexed_In in Hi; exists i; auto.
  Qed.

  Lemma trim_file_struct_likes_conv st F f tf k i s :
    trim_file cp c p st F f = Ok tf -> nth_error (sl_list k f) i = Some s -> keep_sl cp c st F k (i, s) = true ->
    In s (sl_list k tf).
  Proof.
    unfold trim_file. intros H. apply bind_ok in H. destruct H as [incs [_ H]]. injection H as <-.
    intros Hn Hk.
    destruct k; cbn [sl_list f_structs f_unions f_exceptions] in *;
      apply in_map_iff; exists (i, s); (split; [reflexivity|]); apply filter_In; (split; [apply indexed_In; exact Hn | exact Hk]).
  Qed.

  Lemma trim_file_includes st F f tf inc :
    trim_file cp c p st F f = Ok tf -> In inc (f_includes tf) ->
    exists i inc0, nth_error (f_includes f) i = Some inc0 /\
                   inc = Include (in_path inc0) (in_ref inc0) None /\
                   keep_include p st F (i, inc0) = Ok true.
  Proof.
    unfold trim_file. intros H. apply bind_ok in H. destruct H as [incs [Hi H]]. injection H as <-.
    cbn [f_includes]. intros Hin. apply in_map_iff in Hin. destruct Hin as [[i inc0] [<- Hin]].
    eapply filter_res_spec in Hi. apply Hi in Hin. destruct Hin as [Hin Hk].
    apply indexed_In in Hin. exists i, inc0. auto.
  Qed.

  Lemma trim_file_includes_conv st F f tf i inc0 :
    trim_file cp c p st F f = Ok tf -> nth_error (f_includes f) i = Some inc0 ->
    keep_include p st F (i, inc0) = Ok true ->
    In (Include (in_path inc0) (in_ref inc0) None) (f_includes tf).
  Proof.
    unfold trim_file. intros H. apply bind_ok in H. destruct H as [incs [Hi H]]. injection H as <-.
    cbn [f_includes]. intros Hn Hk. apply in_map_iff. exists (i, inc0). split; [reflexivity|].
    eapply filter_res_spec in Hi. apply Hi. split; [apply indexed_In; exact Hn | exact Hk].
  Qed.

  Lemma trim_file_marked_include st F f tf i tn :
    trim_file cp c p st F f = Ok tf -> include_file p f (Z.of_nat i) = Some (i, tn) ->
    marked st (NInclude F i) = true ->
    exists inc0, nth_error (f_includes f) i = Some inc0 /\ in_ref inc0 = Some tn /\
                 In (Include (in_path inc0) (in_ref inc0) None) (f_includes tf).
  Proof.
    intros Htf Hi Mk. destruct (include_file_nth _ _ _ _ _ Hi) as [_ [inc0 [Hn [Hr0 Ht0]]]].
    exists inc0. split; [exact Hn|]. split; [exact Hr0|].
    eapply trim_file_includes_conv; [exact Htf | exact Hn|].
    unfold keep_include, include_target. cbn [fst snd]. rewrite Hr0.
    destruct (prog_file p tn); [|congruence]. rewrite Mk. reflexivity.
  Qed.

  Lemma trim_file_always_kept st F f tf :
    trim_file cp c p st F f = Ok tf ->
    f_constants tf = f_constants f /\ f_typedefs tf = f_typedefs f /\ f_enums tf = f_enums f /\
    f_namespaces tf = f_namespaces f /\ f_cpp_includes tf = f_cpp_includes f /\ f_filename tf = f_filename f.
  Proof.
    unfold trim_file. intros H. apply bind_ok in H. destruct H as [incs [_ H]]. injection H as <-.
    cbn. auto 10.
  Qed.

  Lemma trim_file_services st F f tf sv :
    trim_file cp c p st F f = Ok tf ->
    In sv (f_services tf) <->
    exists i s0, nth_error (f_services f) i = Some s0 /\ marked st (NService F i) = true /\
                 sv = trim_service c st F (i, s0).
  Proof.
    unfold trim_file. intros H. apply bind_ok in H. destruct H as [incs [_ H]]. injection H as <-.
    cbn [f_services]. rewrite in_map_iff. split.
    - intros [[i s0] [<- Hin]]. apply filter_In in Hin. destruct Hin as [Hi Mk]. apply indexed_In in Hi.
      exists i, s0. auto.
    - intros [i [s0 [Hi [Mk ->]]]]. exists (i, s0). split; [reflexivity|].
      apply filter_In. split; [apply indexed_In; exact Hi | exact Mk].
  Qed.

  Lemma trim_service_name st F is : sv_name (trim_service c st F is) = sv_name (snd is).
  Proof. unfold trim_service. destruct (in_ext st F (fst is)); reflexivity. Qed.

  Lemma trim_service_functions st F i s0 fn :
    In fn (sv_functions (trim_service c st F (i, s0))) <->
    exists j, nth_error (sv_functions s0) j = Some fn /\ (filtering c = true -> marked st (NFunction F i j) = true).
  Proof.
    assert (sv_functions (trim_service c st F (i, s0)) =
            if filtering c
            then map snd (filter (fun jf => marked st (NFunction F i (fst jf))) (indexed (sv_functions s0)))
            else sv_functions s0) as ->
      by (unfold trim_service; cbn [fst snd]; destruct (in_ext st F i); reflexivity).
    destruct (filtering c).
    - rewrite in_map_iff. split.
      + intros [[j fn'] [E Hj]]. cbn in E. subst fn'. apply filter_In in Hj. destruct Hj as [Hj Mf].
        apply indexed_In in Hj. exists j. auto.
      + intros [j [Hj Mf]]. exists (j, fn). split; [reflexivity|].
        apply filter_In. split; [apply indexed_In; exact Hj | apply Mf; reflexivity].
    - split.
      + intros H. apply In_nth_error in H. destruct H as [j Hj]. exists j. split; [exact Hj | discriminate].
      + intros [j [Hj _]]. eapply nth_error_In; eauto.
  Qed.


  Definition trim_file_of (full : bool) := if full then trim_file_resolved cp c p else trim_file cp c p.

  Definition entry_ok (full : bool) (st : mstate) (e : bytes * file) : Prop :=
    exists g, prog_file p (fst e) = Some g /\ trim_file_of full st (fst e) g = Ok (snd e).

  Lemma reach_entries full fuel st : forall F acc acc',
    reach cp c p full fuel st F acc = Ok acc' ->
    (forall e, In e acc -> entry_ok full st e) -> forall e, In e acc' -> entry_ok full st e.
  Proof.
    induction fuel as [|n IH]; intros F acc acc' H Hacc; cbn [reach] in H.
    - destruct (existsb _ acc); [injection H as <-; exact Hacc | discriminate].
    - destruct (existsb _ acc); [injection H as <-; exact Hacc|].
      destruct (prog_file p F) as [f|] eqn:Hf; [|discriminate].
      apply bind_ok in H. destruct H as [tf [Ht H]].
      refine (fold_res_inv _ (fun a => forall e, In e a -> entry_ok full st e) _ _ _ _ H _).
      + intros inc a b _ H1 Ha. destruct (in_ref inc) as [tn|]; [|discriminate]. eapply IH; eauto.
      + intros e He. apply in_app_iff in He. destruct He as [He|[<-|[]]]; [auto|].
        exists f. split; [exact Hf|]. unfold trim_file_of. destruct full; exact Ht.
  Qed.

  Lemma reach_grows full fuel st : forall F acc acc',
    reach cp c p full fuel st F acc = Ok acc' -> (forall e, In e acc -> In e acc') /\ In F (map fst acc').
  Proof.
    induction fuel as [|n IH]; intros F acc acc' H; cbn [reach] in H.
    - destruct (existsb _ acc) eqn:E; [injection H as <-|discriminate].
      split; [auto|]. apply existsb_exists in E. destruct E as [e [He Hb]]. apply beqb_true in Hb. subst.
      apply in_map. exact He.
    - destruct (existsb _ acc) eqn:E.
      { injection H as <-. split; [auto|]. apply existsb_exists in E. destruct E as [e [He Hb]].
        apply beqb_true in Hb. subst. apply in_map. exact He. }
      destruct (prog_file p F) as [f|] eqn:Hf; [|discriminate].
      apply bind_ok in H. destruct H as [tf [Ht H]].
      assert (forall e, In e (acc ++ [(F, tf)]) -> In e acc') as Hl.
      { revert H. apply (fold_res_rel _ (fun a b => forall e, In e a -> In e b)); [auto | auto|].
        intros inc a b _ H1. destruct (in_ref inc) as [tn|]; [|discriminate]. apply IH in H1. apply H1. }
      split.
      + intros e He. apply Hl. apply in_or_app. left. exact He.
      + apply in_map_iff. exists (F, tf). split; [reflexivity|]. apply Hl. apply in_or_app. right. left. reflexivity.
  Qed.
End Traversal.


Lemma sl_list_struct_likes k f s : In s (sl_list k f) -> In s (struct_likes f).
Proof. unfold struct_likes. destruct k; cbn; intros H; rewrite !in_app_iff; auto. Qed.

Lemma top_type_field f k s fd : In s (sl_list k f) -> In fd (sl_fields s) -> In (fd_type fd) (file_top_types f).
Proof.
  intros Hs Hfd. unfold file_top_types. apply in_or_app. right. apply in_or_app. right. apply in_or_app. left.
  apply in_map. apply in_flat_map'. exists s. split; [apply sl_list_struct_likes in Hs; exact Hs | exact Hfd].
Qed.
Lemma top_type_typedef f d : In d (f_typedefs f) -> In (td_type d) (file_top_types f).
Proof. intros H. unfold file_top_types. apply in_or_app. left. apply in_map. exact H. Qed.
Lemma top_type_constant f d : In d (f_constants f) -> In (co_type d) (file_top_types f).
Proof. intros H. unfold file_top_types. apply in_or_app. right. apply in_or_app. left. apply in_map. exact H. Qed.
Lemma top_type_function f s fn t : In s (f_services f) -> In fn (sv_functions s) -> In t (function_types fn) ->
  In t (file_top_types f).
Proof.
  intros Hs Hfn Ht. unfold file_top_types. apply in_or_app. right. apply in_or_app. right. apply in_or_app. right.
  apply in_flat_map'. exists s. split; [exact Hs|]. apply in_flat_map'. exists fn. split; [exact Hfn|].
  unfold function_types in Ht. unfold function_fields. rewrite map_app.
  apply in_app_iff in Ht. destruct Ht as [Ht|Ht]; [right; apply in_or_app; auto|].
  apply in_app_iff in Ht. destruct Ht as [Ht|Ht]; [right; apply in_or_app; auto|].
  destruct (fn_void fn); [destruct Ht|]. destruct Ht as [<-|[]]. left. reflexivity.
Qed.

(* nodes whose survival depends on a mark: typedefs and enums are never deleted *)
Definition needs_mark (n : node) : bool :=
  match n with NTypedef _ _ | NEnum _ _ => false | _ => true end.

Lemma marked_false_mark st n m : marked (mark n st) m = true -> marked st m = false -> m = n.
Proof. intros H1 H2. apply marked_mark in H1. destruct H1 as [->|H1]; [reflexivity | congruence]. Qed.

Section Sound.
  Variable matches : bytes -> bytes -> bool.
  Variable cp : bytes -> bool.
  Variable c : cfg.
  Variable p : program.

  Definition types_wf : Prop :=
    forall F f, prog_file p F = Some f -> forall t, In t (file_top_types f) ->
      forall t', In t' (ty_subtypes t) -> ty_wf t' = true.

  Lemma plain_denotes_nothing F t : ty_wf t = true -> ty_is_plain t = true -> ty_denotes p F t = [].
  Proof.
    intros Hw Hp. unfold ty_wf in Hw. rewrite Hp in Hw. cbn in Hw.
    destruct (negb (is_none (ty_key t)) || negb (is_none (ty_value t)) || negb (is_none (ty_ref t))) eqn:E; [discriminate|].
    apply orb_false_iff in E. destruct E as [_ E]. apply negb_false_iff in E.
    unfold ty_is_plain in Hp. apply andb_true_iff in Hp. destruct Hp as [Hc Ht].
    unfold ty_denotes, ty_target_file. destruct (ty_ref t); [discriminate|]. cbn.
    destruct (prog_file p F); [|reflexivity].
    destruct (ty_is_typedef t); [discriminate|].
    destruct (ty_category t); cbn in Hc |- *; try reflexivity; discriminate.
  Qed.

  (* the types markType looks at are all the sub-types that denote anything *)
  Lemma subtypes_refs F : forall t, (forall t', In t' (ty_subtypes t) -> ty_wf t' = true) ->
    forall t', In t' (ty_subtypes t) -> ty_denotes p F t' <> [] -> In t' (ty_refs t).
  Proof.
    induction t using ty_ind'. intros Hw t' Hin Hd.
    cbn [ty_refs]. destruct (ty_is_plain (Ty n k v c0 an cat r t)) eqn:Ep.
    - exfalso.
      assert (ty_wf (Ty n k v c0 an cat r t) = true) as W by (apply Hw; cbn; auto).
      pose proof W as W'. unfold ty_wf in W'. rewrite Ep in W'. cbn [ty_key ty_value ty_ref] in W'.
      destruct k; [discriminate|]. destruct v; [discriminate|]. cbn in Hin.
      destruct Hin as [<-|[]]. apply Hd. apply plain_denotes_nothing; assumption.
    - cbn [ty_subtypes] in Hin, Hw. destruct Hin as [<-|Hin].
      + apply in_or_app. right. apply in_or_app. right. left. reflexivity.
      + apply in_app_iff in Hin. destruct Hin as [Hin|Hin].
        * apply in_or_app. left. destruct k as [x|]; [|destruct Hin].
          eapply H; [reflexivity | | exact Hin | exact Hd].
          intros y Hy. apply Hw. right. apply in_or_app. left. exact Hy.
        * apply in_or_app. right. apply in_or_app. left. destruct v as [x|]; [|destruct Hin].
          eapply H0; [reflexivity | | exact Hin | exact Hd].
          intros y Hy. apply Hw. right. apply in_or_app. right. exact Hy.
  Qed.


  Definition edges_closed_at (st : mstate) (n : node) : Prop :=
    match n with
    | NStructLike F k i =>
      forall f s, prog_file p F = Some f -> nth_error (sl_list k f) i = Some s ->
        forall m, In m (tys_nodes p F (map fd_type (sl_fields s))) -> needs_mark m = true -> marked st m = true
    | NFunction F si j =>
      forall f s fn, prog_file p F = Some f -> nth_error (f_services f) si = Some s ->
        nth_error (sv_functions s) j = Some fn ->
        forall m, In m (tys_nodes p F (function_types fn)) -> needs_mark m = true -> marked st m = true
    | _ => True
    end.

  Lemma edges_closed_at_le a b n : le a b -> edges_closed_at a n -> edges_closed_at b n.
  Proof.
    intros L. destruct n; cbn; auto.
    - intros H f s fn Hf Hs Hfn m Hm Hn. eapply le_marked; [exact L|]. eapply H; eauto.
    - intros H f s Hf Hs m Hm Hn. eapply le_marked; [exact L|]. eapply H; eauto.
  Qed.

  Definition closed (st : mstate) : Prop := forall n, marked st n = true -> edges_closed_at st n.

  Definition new_closed (a b : mstate) : Prop :=
    forall n, marked b n = true -> marked a n = false -> edges_closed_at b n.

  Lemma new_closed_refl a : new_closed a a.
  Proof. intros n H1 H2. congruence. Qed.
  Lemma new_closed_trans a b d : le b d -> new_closed a b -> new_closed b d -> new_closed a d.
  Proof.
    intros L H1 H2 n Hd Ha. destruct (marked b n) eqn:Eb.
    - eapply edges_closed_at_le; [exact L|]. apply H1; assumption.
    - apply H2; assumption.
  Qed.

  Lemma closed_new a b : le a b -> closed a -> new_closed a b -> closed b.
  Proof.
    intros L Ha Hn n Hb. destruct (marked a n) eqn:Ea.
    - eapply edges_closed_at_le; [exact L|]. apply Ha. exact Ea.
    - apply Hn; assumption.
  Qed.

  Definition dfs1 (rec : bytes -> ty -> mstate -> res mstate) : Prop :=
    forall F t st st', rec F t st = Ok st' ->
      le st st' /\
      (forall m, In m (ty_denotes p F t) -> needs_mark m = true -> marked st' m = true) /\
      new_closed st st'.

  (* one type with all its sub-types: wf gives that ty_refs covers the denoting ones *)
  Lemma fold_refs_dfs rec F : dfs1 rec -> forall l st st',
    fold_res (rec F) l st = Ok st' ->
    le st st' /\
    (forall t', In t' l -> forall m, In m (ty_denotes p F t') -> needs_mark m = true -> marked st' m = true) /\
    new_closed st st'.
  Proof.
    intros Hrec. induction l as [|t l IH]; intros st st' H; cbn [fold_res] in H.
    - injection H as <-. split; [apply le_refl|]. split; [intros t' []|apply new_closed_refl].
    - apply bind_ok in H. destruct H as [s1 [H1 H2]].
      apply Hrec in H1. destruct H1 as [L1 [D1 N1]].
      apply IH in H2. destruct H2 as [L2 [D2 N2]].
      split; [eapply le_trans; eauto|]. split.
      + intros t' [<-|Hin] m Hm Hn; [eapply le_marked; [exact L2|]; eapply D1; eauto | eapply D2; eauto].
      + eapply new_closed_trans; eauto.
  Qed.

  Lemma mark_types_with_dfs rec F : dfs1 rec -> forall ts,
    (forall t, In t ts -> forall t', In t' (ty_subtypes t) -> ty_wf t' = true) ->
    forall st st', mark_types_with rec F ts st = Ok st' ->
    le st st' /\
    (forall m, In m (tys_nodes p F ts) -> needs_mark m = true -> marked st' m = true) /\
    new_closed st st'.
  Proof.
    intros Hrec. unfold mark_types_with. induction ts as [|t ts IH]; intros Hw st st' H; cbn [fold_res] in H.
    - injection H as <-. split; [apply le_refl|]. split; [intros m []|apply new_closed_refl].
    - apply bind_ok in H. destruct H as [s1 [H1 H2]].
      apply (fold_refs_dfs _ _ Hrec) in H1. destruct H1 as [L1 [D1 N1]].
      apply IH in H2; [|intros; eapply Hw; eauto; right; assumption]. destruct H2 as [L2 [D2 N2]].
      split; [eapply le_trans; eauto|]. split.
      + intros m Hm Hn. unfold tys_nodes in Hm. cbn [flat_map] in Hm. apply in_app_iff in Hm.
        destruct Hm as [Hm|Hm]; [|apply D2; assumption].
        eapply le_marked; [exact L2|].
        unfold ty_nodes in Hm. apply in_flat_map in Hm. destruct Hm as [t' [Ht' Hm]].
        eapply D1; [|exact Hm | exact Hn].
        eapply subtypes_refs; [intros; eapply Hw; [left; reflexivity | eassumption] | exact Ht'|].
        intros E. rewrite E in Hm. destruct Hm.
      + eapply new_closed_trans; eauto.
  Qed.

  Hypothesis Hwf : types_wf.

  Lemma mark_sl_with_dfs rec F f k i s : dfs1 rec ->
    prog_file p F = Some f -> nth_error (sl_list k f) i = Some s ->
    forall st st', mark_sl_with rec F k i s st = Ok st' ->
      le st st' /\ marked st' (NStructLike F k i) = true /\ new_closed st st'.
  Proof.
    intros Hrec Hf Hn st st'. unfold mark_sl_with.
    destruct (marked st (NStructLike F k i)) eqn:Em.
    { intros [= <-]. split; [apply le_refl|]. split; [exact Em | apply new_closed_refl]. }
    intros H. eapply mark_types_with_dfs in H; [|exact Hrec|].
    2:{ intros t Ht t' Ht'. apply in_map_iff in Ht. destruct Ht as [fd [<- Hfd]].
        eapply Hwf; [exact Hf | eapply top_type_field; [eapply nth_error_In; exact Hn | exact Hfd] | exact Ht']. }
    destruct H as [L [D N]].
    split; [eapply le_trans; [apply le_mark | exact L]|].
    split; [eapply le_marked; [exact L|]; apply marked_mark; auto|].
    intros n Hb Ha. destruct (marked (mark (NStructLike F k i) st) n) eqn:E.
    - apply marked_false_mark in E; [|exact Ha]. subst n. cbn.
      intros f' s' Hf' Hn' m Hm Hnm. rewrite Hf in Hf'. injection Hf' as <-. rewrite Hn in Hn'. injection Hn' as <-.
      apply D; assumption.
    - apply N; assumption.
  Qed.

  Lemma mark_typedef_with_dfs rec bn bf t : dfs1 rec -> prog_file p bn = Some bf ->
    forall st st', mark_typedef_with rec bn bf t st = Ok st' -> le st st' /\ new_closed st st'.
  Proof.
    intros Hrec Hbf st st'. unfold mark_typedef_with.
    destruct (find_index _ _) as [[i d]|] eqn:Efi; [|intros [= <-]; split; [apply le_refl | apply new_closed_refl]].
    destruct (marked st (NTypedef bn i)) eqn:Em; [intros [= <-]; split; [apply le_refl | apply new_closed_refl]|].
    apply find_index_some in Efi. destruct Efi as [Hn _].
    intros H. eapply mark_types_with_dfs in H; [|exact Hrec|].
    2:{ intros t0 [<-|[]] t' Ht'. eapply Hwf; [exact Hbf | apply top_type_typedef; eapply nth_error_In; exact Hn | exact Ht']. }
    destruct H as [L [_ N]].
    split; [eapply le_trans; [apply le_mark | exact L]|].
    intros n Hb Ha. destruct (marked (mark (NTypedef bn i) st) n) eqn:E.
    - apply marked_false_mark in E; [|exact Ha]. subst n. exact I.
    - apply N; assumption.
  Qed.

  Lemma new_closed_mark_other st n : (forall F k i, n <> NStructLike F k i) -> (forall F s j, n <> NFunction F s j) ->
    new_closed st (mark n st).
  Proof.
    intros H1 H2 m Hb Ha. apply marked_false_mark in Hb; [|exact Ha]. subst m.
    destruct n; cbn; auto; [exfalso; eapply H2 | exfalso; eapply H1]; reflexivity.
  Qed.

  Lemma mark_named_body_dfs rec : dfs1 rec -> dfs1 (mark_named_body p rec).
  Proof.
    intros Hrec F t st st'. unfold mark_named_body.
    destruct (prog_file p F) as [f|] eqn:Hf; [|discriminate].
    intros H. apply bind_ok in H. destruct H as [[bn st1] [Hb H]].
    assert (exists via, ty_target_file p F t = Some (bn, via) /\ le st st1 /\ new_closed st st1 /\
                        forall m, In m via -> marked st1 m = true) as [via [Ht [L1 [N1 V1]]]].
    { unfold ty_target_file. rewrite Hf. destruct (ty_ref t) as [r|].
      - destruct (include_file p f (ref_index r)) as [[i tn]|]; [|discriminate].
        injection Hb as <- <-. exists [NInclude F i]. split; [reflexivity|]. split; [apply le_mark|].
        split; [apply new_closed_mark_other; discriminate|].
        intros m [<-|[]]. apply marked_mark. auto.
      - injection Hb as <- <-. exists []. split; [reflexivity|]. split; [apply le_refl|].
        split; [apply new_closed_refl | intros m []]. }
    destruct (prog_file p bn) as [bf|] eqn:Hbf; [|discriminate].
    unfold ty_denotes. rewrite Ht, Hbf.
    destruct (ty_is_typedef t).
    - eapply mark_typedef_with_dfs in H; [|exact Hrec | exact Hbf]. destruct H as [L2 N2].
      split; [eapply le_trans; eauto|]. split; [|eapply new_closed_trans; eauto].
      intros m Hm Hn. apply in_app_iff in Hm. destruct Hm as [Hm|Hm].
      + eapply le_marked; [exact L2|]. apply V1. exact Hm.
      + destruct (find_index _ _) as [[i d]|]; [|destruct Hm]. destruct Hm as [<-|[]]. discriminate.
    - destruct (category_sl_kind (ty_category t)) as [k|].
      + destruct (find_index _ _) as [[i s]|] eqn:Efi.
        * apply find_index_some in Efi. destruct Efi as [Hn _].
          eapply mark_sl_with_dfs in H; [|exact Hrec | exact Hbf | exact Hn]. destruct H as [L2 [M2 N2]].
          split; [eapply le_trans; eauto|]. split; [|eapply new_closed_trans; eauto].
          intros m Hm Hnm. apply in_app_iff in Hm. destruct Hm as [Hm|[<-|[]]]; [|exact M2].
          eapply le_marked; [exact L2|]. apply V1. exact Hm.
        * injection H as <-. split; [exact L1|]. split; [|exact N1].
          intros m Hm Hnm. rewrite app_nil_r in Hm. apply V1. exact Hm.
      + assert (forall st2, le st1 st2 ->
                  forall m, In m (via ++ match ty_category t with
                                         | CatEnum => match find_index (fun e => ty_name_ok t (en_name e)) (f_enums bf) with
                                                      | Some (i, _) => [NEnum bn i]
                                                      | None => []
                                                      end
                                         | _ => []
                                         end) -> needs_mark m = true -> marked st2 m = true) as Hv.
        { intros st2 L2 m Hm Hnm. apply in_app_iff in Hm. destruct Hm as [Hm|Hm].
          - eapply le_marked; [exact L2|]. apply V1. exact Hm.
          - destruct (ty_category t); try destruct Hm.
            destruct (find_index _ _) as [[i e]|]; [|destruct Hm]. destruct Hm as [<-|[]]. discriminate. }
        destruct (ty_category t) eqn:Ec; try (injection H as <-; split; [exact L1|]; split; [apply Hv; apply le_refl | exact N1]).
        destruct (find_index _ _) as [[i e]|]; injection H as <-.
        * split; [eapply le_trans; [exact L1 | apply le_mark]|]. split.
          -- apply Hv; apply le_mark.
          -- eapply new_closed_trans; [apply le_mark | exact N1 | apply new_closed_mark_other; discriminate].
        * split; [exact L1|]. split; [apply Hv; apply le_refl | exact N1].
  Qed.

  Lemma mark_named_dfs fuel : dfs1 (mark_named p fuel).
  Proof. revert fuel. unfold dfs1. apply mark_named_ind. intros n. apply mark_named_body_dfs. Qed.

  Lemma mark_types_dfs fuel F ts st st' :
    (forall t, In t ts -> forall t', In t' (ty_subtypes t) -> ty_wf t' = true) ->
    mark_types p fuel F ts st = Ok st' ->
    le st st' /\
    (forall m, In m (tys_nodes p F ts) -> needs_mark m = true -> marked st' m = true) /\
    new_closed st st'.
  Proof. intros Hw. apply mark_types_with_dfs; [apply mark_named_dfs | exact Hw]. Qed.

  Lemma mark_sl_dfs fuel F f k i s st st' :
    prog_file p F = Some f -> nth_error (sl_list k f) i = Some s ->
    mark_sl p fuel F k i s st = Ok st' ->
    le st st' /\ marked st' (NStructLike F k i) = true /\ new_closed st st'.
  Proof. intros Hf Hn. eapply mark_sl_with_dfs; eauto. apply mark_named_dfs. Qed.

  Lemma mark_function_dfs fuel F f s si j fn st st' :
    prog_file p F = Some f -> nth_error (f_services f) si = Some s -> nth_error (sv_functions s) j = Some fn ->
    mark_function p fuel F si j fn st = Ok st' ->
    le st st' /\ marked st' (NFunction F si j) = true /\ new_closed st st' /\
    edges_closed_at st' (NFunction F si j).
  Proof.
    intros Hf Hs Hfn H. rewrite mark_function_types in H. apply mark_types_dfs in H.
    2:{ intros t Ht t' Ht'. eapply Hwf; [exact Hf | | exact Ht'].
        eapply top_type_function; [eapply nth_error_In; exact Hs | eapply nth_error_In; exact Hfn | exact Ht]. }
    destruct H as [L [D N]].
    assert (edges_closed_at st' (NFunction F si j)) as Cf.
    { cbn. intros f' s' fn' Hf' Hs' Hfn' m Hm Hnm.
      rewrite Hf in Hf'. injection Hf' as <-. rewrite Hs in Hs'. injection Hs' as <-. rewrite Hfn in Hfn'. injection Hfn' as <-.
      apply D; assumption. }
    split; [eapply le_trans; [apply le_mark | exact L]|].
    split; [eapply le_marked; [exact L|]; apply marked_mark; auto|].
    split; [|exact Cf].
    intros n Hb Ha. destruct (marked (mark (NFunction F si j) st) n) eqn:E.
    - apply marked_false_mark in E; [|exact Ha]. subst n. exact Cf.
    - apply N; assumption.
  Qed.

  Definition roots_marked (st : mstate) (F : bytes) : Prop :=
    forall f, prog_file p F = Some f ->
      (forall m, In m (tys_nodes p F (map co_type (f_constants f))) -> needs_mark m = true -> marked st m = true) /\
      (forall m, In m (tys_nodes p F (map td_type (f_typedefs f))) -> needs_mark m = true -> marked st m = true) /\
      (forall k i s, nth_error (sl_list k f) i = Some s -> preserved cp c F k s = true ->
                     marked st (NStructLike F k i) = true).
  Definition roots_done (st : mstate) : Prop :=
    forall F v, lookup F (ms_cache st) = Some v -> roots_marked st F.

  Lemma roots_marked_le a b F : le a b -> roots_marked a F -> roots_marked b F.
  Proof.
    intros L H f Hf. destruct (H f Hf) as [H1 [H2 H3]]. repeat split.
    - intros m Hm Hn. eapply le_marked; [exact L|]. apply H1; assumption.
    - intros m Hm Hn. eapply le_marked; [exact L|]. apply H2; assumption.
    - intros k i s Hs Hp. eapply le_marked; [exact L|]. eapply H3; eauto.
  Qed.

  Definition inv (st : mstate) : Prop := closed st /\ roots_done st.

  Lemma preserve_loop fuel F f st st3 r3 : prog_file p F = Some f ->
    preserve_phase cp c p fuel F f st = Ok (st3, r3) ->
    le st st3 /\ new_closed st st3 /\
    (forall k i s, nth_error (sl_list k f) i = Some s -> preserved cp c F k s = true ->
                   marked st3 (NStructLike F k i) = true).
  Proof.
    intros Hf H. unfold preserve_phase in H. destruct (c_force c) eqn:Ef.
    { injection H as <- <-. split; [apply le_refl|]. split; [apply new_closed_refl|].
      intros k i s _ Hp. unfold preserved in Hp. rewrite Ef in Hp. discriminate. }
    set (Rn := fun a b : mstate * bool => le (fst a) (fst b) /\ new_closed (fst a) (fst b)).
    assert (forall k a b, fold_res (on_sl cp c p fuel F k) (indexed (sl_list k f)) a = Ok b ->
              Rn a b /\ forall is, In is (indexed (sl_list k f)) -> preserved cp c F k (snd is) = true ->
                                     marked (fst b) (NStructLike F k (fst is)) = true) as Hl.
    { intros k. apply fold_res_all.
      - intros a. split; [apply le_refl | apply new_closed_refl].
      - intros a b d [L1 N1] [L2 N2]. split; [eapply le_trans; eauto | eapply new_closed_trans; eauto].
      - intros [i s] a b Hi Hs. apply indexed_In in Hi. rewrite <- check_preserve_preserved.
        unfold on_sl in Hs. cbn [fst snd] in *.
        destruct (marked (fst a) (NStructLike F k i)) eqn:Em; cbn [negb andb] in Hs.
        + injection Hs as <-. split; [split; [apply le_refl | apply new_closed_refl] | auto].
        + destruct (check_preserve cp c F k s).
          * apply bind_ok in Hs. destruct Hs as [s' [Hm Hr]]. injection Hr as <-. cbn [fst].
            eapply mark_sl_dfs in Hm; eauto. destruct Hm as [L [Mk N]]. split; [split; assumption | intros _; exact Mk].
          * injection Hs as <-. split; [split; [apply le_refl | apply new_closed_refl] | discriminate].
      - intros is a b [L _] Hp E. eapply le_marked; [exact L | auto]. }
    apply bind_ok in H. destruct H as [a1 [Ha1 H]]. apply bind_ok in H. destruct H as [a2 [Ha2 H3]].
    apply (Hl SKStruct) in Ha1. apply (Hl SKUnion) in Ha2. apply (Hl SKException) in H3.
    destruct Ha1 as [[La Na] Pa]. destruct Ha2 as [[Lb Nb] Pb]. destruct H3 as [[Lc Nc] Pc]. cbn [fst snd] in *.
    split; [eapply le_trans; [exact La|]; eapply le_trans; eauto|].
    split; [eapply new_closed_trans with (b := fst a1); [eapply le_trans; eauto | exact Na|];
            eapply new_closed_trans with (b := fst a2); eauto|].
    intros k i s Hn Hp. apply indexed_In in Hn. destruct k.
    - eapply le_marked; [eapply le_trans; [exact Lb | exact Lc]|]. exact (Pa (i, s) Hn Hp).
    - eapply le_marked; [exact Lc|]. exact (Pb (i, s) Hn Hp).
    - exact (Pc (i, s) Hn Hp).
  Qed.

  Lemma kept_part_sound fuel F st st' r :
    kept_part cp c p fuel F st = Ok (st', r) -> inv st -> inv st' /\ le st st'.
  Proof.
    intros H Hinv. pose proof (kept_part_le _ _ _ _ _ _ _ H) as L. cbn in L. split; [|exact L].
    apply kept_part_inv in H.
    destruct H as [[v [_ [= -> ->]]]|[_ [f [st1 [st2 [st3 [r3 [Hf [H1 [H2 [H3 [= -> ->]]]]]]]]]]]]; [exact Hinv|].
    pose proof (kept_part_steps_cache _ _ _ _ _ _ _ _ _ _ H1 H2 H3) as Ecache. cbn [fst] in Ecache.
    destruct Hinv as [Hc Hr].
    apply mark_types_dfs in H1.
    2:{ intros t Ht t' Ht'. apply in_map_iff in Ht. destruct Ht as [d [<- Hd]].
        eapply Hwf; [exact Hf | apply top_type_constant; exact Hd | exact Ht']. }
    apply mark_types_dfs in H2.
    2:{ intros t Ht t' Ht'. apply in_map_iff in Ht. destruct Ht as [d [<- Hd]].
        eapply Hwf; [exact Hf | apply top_type_typedef; exact Hd | exact Ht']. }
    destruct H1 as [L1 [D1 N1]]. destruct H2 as [L2 [D2 N2]].
    destruct (preserve_loop _ _ _ _ _ _ Hf H3) as [L3 [N3 P3]].
    assert (le st st3) as L03 by (eapply le_trans; [exact L1|]; eapply le_trans; eauto).
    assert (closed st3) as C3.
    { eapply closed_new; [exact L03 | exact Hc|].
      eapply new_closed_trans with (b := st1); [eapply le_trans; eauto | exact N1|].
      eapply new_closed_trans with (b := st2); eauto. }
    split.
    - (* closed: the cache entry changes no mark *)
      intros n Hn. specialize (C3 n Hn). destruct n; cbn in *; auto.
    - intros G v. cbn [add_cache ms_cache lookup]. destruct (beqb G F) eqn:E.
      + apply beqb_true in E. subst G. intros _ f' Hf'. rewrite Hf in Hf'. injection Hf' as <-.
        repeat split.
        * intros m Hm Hn. change (marked st3 m = true).
          eapply le_marked; [eapply le_trans; [exact L2 | exact L3]|]. apply D1; assumption.
        * intros m Hm Hn. change (marked st3 m = true). eapply le_marked; [exact L3|]. apply D2; assumption.
        * intros k i s Hs Hp. change (marked st3 (NStructLike F k i) = true). eapply P3; eauto.
      + intros HG.
        rewrite Ecache in HG. apply Hr in HG.
        assert (roots_marked st3 G) as R by (eapply roots_marked_le; [exact L03 | exact HG]).
        intros g Hg. destruct (R g Hg) as [R1 [R2 R3]]. repeat split; auto.
  Qed.
  Definition le_new_closed (a b : mstate) : Prop := le a b /\ new_closed a b /\ ms_cache b = ms_cache a.

  Lemma le_new_closed_refl a : le_new_closed a a.
  Proof. split; [apply le_refl|]. split; [apply new_closed_refl | reflexivity]. Qed.
  Lemma le_new_closed_trans a b d : le_new_closed a b -> le_new_closed b d -> le_new_closed a d.
  Proof.
    intros [L1 [N1 C1]] [L2 [N2 C2]]. split; [eapply le_trans; eauto|].
    split; [eapply new_closed_trans; eauto | congruence].
  Qed.
  Lemma le_new_closed_mark_other n st : (forall F k i, n <> NStructLike F k i) -> (forall F s j, n <> NFunction F s j) ->
    le_new_closed st (mark n st).
  Proof.
    intros H1 H2. split; [apply le_mark|]. split; [apply new_closed_mark_other; assumption | apply mark_cache].
  Qed.
  Lemma le_new_closed_add_ext F i st : le_new_closed st (add_ext F i st).
  Proof.
    split; [apply le_add_ext|]. split; [|reflexivity].
    intros n Hb Ha. unfold marked in *. cbn in *. congruence.
  Qed.
  Lemma le_new_closed_mark_function fuel F f s si j fn st st' :
    prog_file p F = Some f -> nth_error (f_services f) si = Some s -> nth_error (sv_functions s) j = Some fn ->
    mark_function p fuel F si j fn st = Ok st' -> le_new_closed st st'.
  Proof.
    intros Hf Hs Hfn H. pose proof (mark_function_cache _ _ _ _ _ _ _ _ H) as C.
    eapply mark_function_dfs in H; eauto. destruct H as [L [_ [N _]]].
    split; [exact L|]. split; [exact N | exact C].
  Qed.

  Lemma inv_le_new_closed a b : inv a -> le_new_closed a b -> inv b.
  Proof.
    intros [Hc Hr] [L [N C]]. split; [eapply closed_new; eauto|].
    intros F v HF. rewrite C in HF. eapply roots_marked_le; [exact L|]. eapply Hr; eauto.
  Qed.

  Lemma mark_service_Rc fuel F si st st' :
    mark_service matches c p fuel F si st = Ok st' -> le_new_closed st st'.
  Proof.
    apply (mark_service_R matches c p le_new_closed le_new_closed_refl le_new_closed_trans).
    - intros. apply le_new_closed_mark_other; discriminate.
    - intros. apply le_new_closed_mark_other; discriminate.
    - apply le_new_closed_add_ext.
    - intros fuel' F' f s si' j fn a b. apply le_new_closed_mark_function.
  Qed.


  Definition cached (st : mstate) (G : bytes) : Prop := exists v, lookup G (ms_cache st) = Some v.

  Lemma cached_le a b G : le a b -> cached a G -> cached b G.
  Proof. intros [_ [_ L]] [v Hv]. exists v. apply L. exact Hv. Qed.

  Lemma inv_mark_include st F i : inv st -> inv (mark (NInclude F i) st).
  Proof. intros H. eapply inv_le_new_closed; [exact H|]. apply le_new_closed_mark_other; discriminate. Qed.

  Lemma pre_process_visits fuel : forall F st r,
    pre_process cp c p fuel F st = Ok r -> forall G, below p F G -> cached (fst r) G.
  Proof.
    induction fuel as [|n IH]; intros F st r H; [discriminate|].
    apply pre_process_inv in H. destruct H as [st1 [ret [f [H1 [Hf H]]]]].
    apply kept_part_cached in H1.
    set (P := fun (ii : nat * include) (acc : mstate * bool) =>
                forall tn G, in_ref (snd ii) = Some tn -> below p tn G -> cached (fst acc) G).
    destruct (fold_res_all (pp_step cp c p n F f) (fun a b => le (fst a) (fst b)) P (indexed (f_includes f))
                (fun a => le_refl _) (fun a b d => le_trans _ _ _)) with (3 := H)
      as [Lb Vb].
    - intros [i inc] a b Hin Hs. destruct (pp_step_inv _ _ _ _ _ _ _ _ _ _ Hin Hs) as [tn [s' [m [_ [Hr [Hp ->]]]]]].
      pose proof (pre_process_le _ _ _ _ _ _ _ Hp) as L'. cbn [fst] in L'.
      assert (le s' (fst (if m then (mark (NInclude F i) s', true) else (s', snd a)))) as La
        by (destruct m; cbn [fst]; [apply le_mark | apply le_refl]).
      split; [eapply le_trans; eauto|]. intros tn' G Hr' HG. cbn [snd] in Hr'. rewrite Hr in Hr'. injection Hr' as <-.
      eapply cached_le; [exact La | exact (IH _ _ _ Hp G HG)].
    - intros ii a b L Hp tn G Hr HG. eapply cached_le; [exact L | eapply Hp; eauto].
    - cbn [fst] in Lb. intros G HG. inversion HG as [|F0 f0 inc G0 H0 Hf0 Hinc Hr0 Hb0]; subst.
      + eapply cached_le; [exact Lb|]. exists ret. exact H1.
      + rewrite Hf in Hf0. injection Hf0 as <-. apply In_nth_error in Hinc. destruct Hinc as [i Hi].
        exact (Vb (i, inc) (proj2 (indexed_In _ _ _) Hi) _ _ Hr0 Hb0).
  Qed.

  Lemma pre_process_sound fuel : forall F st r,
    pre_process cp c p fuel F st = Ok r -> inv st -> inv (fst r).
  Proof.
    induction fuel as [|n IH]; intros F st r H Hinv; [discriminate|].
    apply pre_process_inv in H. destruct H as [st1 [ret [f [H1 [_ H]]]]].
    apply kept_part_sound in H1; [|exact Hinv]. destruct H1 as [I1 _].
    refine (fold_res_inv _ (fun a => inv (fst a)) _ _ _ _ H I1).
    intros [i inc] a b Hin Hs Ha. destruct (pp_step_inv _ _ _ _ _ _ _ _ _ _ Hin Hs) as [tn [s' [m [_ [_ [Hp ->]]]]]].
    apply IH in Hp; [|exact Ha]. destruct m; cbn [fst]; [apply inv_mark_include|]; exact Hp.
  Qed.
End Sound.


Section SoundServices.
  Variable matches : bytes -> bytes -> bool.
  Variable cp : bytes -> bool.
  Variable c : cfg.
  Variable p : program.
  Hypothesis Hnf : filtering c = false.

  Definition svc_closed_at (st : mstate) (F : bytes) (si : nat) : Prop :=
    forall f s, prog_file p F = Some f -> nth_error (f_services f) si = Some s ->
      (forall j fn, nth_error (sv_functions s) j = Some fn -> marked st (NFunction F si j) = true) /\
      (forall b via, base_of p F s = Some (b, via) -> marked st b = true /\ forall m, In m via -> marked st m = true).

  Lemma svc_closed_at_le a b F si : le a b -> svc_closed_at a F si -> svc_closed_at b F si.
  Proof.
    intros L H f s Hf Hs. destruct (H f s Hf Hs) as [H1 H2]. split.
    - intros j fn Hj. eapply le_marked; [exact L|]. eauto.
    - intros b0 via Hb. destruct (H2 _ _ Hb) as [H3 H4]. split; [eapply le_marked; eauto|].
      intros m Hm. eapply le_marked; [exact L|]. auto.
  Qed.

  Lemma functions_loop fuel F s si a b :
    fold_res (fun (jf : nat * function) (st0 : mstate) => mark_function p fuel F si (fst jf) (snd jf) st0)
             (indexed (sv_functions s)) a = Ok b ->
    le a b /\ same_services a b /\
    (forall j fn, nth_error (sv_functions s) j = Some fn -> marked b (NFunction F si j) = true).
  Proof.
    intros H.
    destruct (fold_res_all (fun (jf : nat * function) st0 => mark_function p fuel F si (fst jf) (snd jf) st0)
                (fun x y => le x y /\ same_services x y) (fun jf y => marked y (NFunction F si (fst jf)) = true)
                (indexed (sv_functions s))) with (5 := H) as [[L S] M].
    - intros x. split; [apply le_refl | apply same_services_refl].
    - intros x y z [L1 S1] [L2 S2]. split; [eapply le_trans; eauto | eapply same_services_trans; eauto].
    - intros jf x y _ Hm. destruct (mark_function_marks _ _ _ _ _ _ _ _ Hm) as [L M].
      split; [split; [exact L | eapply mark_function_services; eauto] | exact M].
    - intros jf x y [L _] Hp. eapply le_marked; eauto.
    - split; [exact L|]. split; [exact S|]. intros j fn Hj. exact (M (j, fn) (proj2 (indexed_In _ _ _) Hj)).
  Qed.

  Lemma mark_service_svc fuel F si st st' :
    mark_service matches c p fuel F si st = Ok st' ->
    le st st' /\ marked st' (NService F si) = true /\
    (forall G gi, marked st' (NService G gi) = true -> marked st (NService G gi) = false -> svc_closed_at st' G gi).
  Proof.
    revert fuel F si st st'.
    apply (mark_service_ind matches c p (fun F si st st' => le st st' /\ marked st' (NService F si) = true /\
             (forall G gi, marked st' (NService G gi) = true -> marked st (NService G gi) = false ->
                svc_closed_at st' G gi))).
    { intros F si st Em. split; [apply le_refl|]. split; [exact Em|]. intros G gi H1 H2. congruence. }
    intros n F si f s st st1 st2 st' Hrec Hf Hs Em H1 H2 T L1 _ L3.
    unfold svc_own in H1. rewrite Hnf in H1, H2. cbn [andb] in H2. injection H2 as <-.
    apply functions_loop in H1. destruct H1 as [L01 [S1 Fn1]].
    assert (marked st1 (NService F si) = true) as Ms1.
    { eapply le_marked; [exact L01|]. apply marked_mark. auto. }
    (* services marked so far: only (F, si) is new *)
    assert (forall G gi, marked st1 (NService G gi) = true -> marked st (NService G gi) = false ->
                         G = F /\ gi = si) as New1.
    { intros G gi H1' H0. apply S1 in H1'. apply marked_mark in H1'. destruct H1' as [[= -> ->]|H1']; [auto | congruence]. }
    split; [eapply le_trans; eauto|]. split; [eapply le_marked; eauto|].
    destruct T as [[-> E]|[Ene [_ [st3 [nb [H3 [Hb H]]]]]]].
    - intros G gi Hg H0. destruct (New1 _ _ Hg H0) as [-> ->].
      intros f' s' Hf' Hs'. rewrite Hf in Hf'. injection Hf' as <-. rewrite Hs in Hs'. injection Hs' as <-.
      split; [exact Fn1|]. intros b0 via0 Hb0. unfold base_of in Hb0.
      destruct E as [E|E]; [rewrite E in Hb0; discriminate | congruence].
    - pose proof (mark_service_include_le _ _ _ _ _ _ H3) as L23.
      pose proof (mark_service_include_services _ _ _ _ _ _ H3) as S3.
      destruct nb as [[[bn bi] b]|].
      + apply Hrec in H. destruct H as [L4 [M4 N4]].
        destruct (base_service_spec _ _ _ _ _ _ _ Hf Ene Hb) as [via [Hbo [Hvia Hnil]]].
        intros G gi Hg H0. destruct (marked st3 (NService G gi)) eqn:E3; [|apply N4; assumption].
        apply S3 in E3. destruct (New1 _ _ E3 H0) as [-> ->].
        intros f' s' Hf' Hs'. rewrite Hf in Hf'. injection Hf' as <-. rewrite Hs in Hs'. injection Hs' as <-.
        split.
        * intros j fn Hj. eapply le_marked; [exact L4|]. eapply le_marked; [exact L23|]. eauto.
        * intros b0 via0 Hb0. rewrite Hbo in Hb0. injection Hb0 as <- <-. split; [exact M4|].
          intros m Hm. eapply le_marked; [exact L4|].
          unfold mark_service_include in H3. destruct (sv_ref s) as [r|] eqn:Er.
          -- destruct (Hvia _ eq_refl) as [i [tn [Hi ->]]]. rewrite Hi in H3. injection H3 as <-.
             destruct Hm as [<-|[]]. apply marked_mark. auto.
          -- rewrite (Hnil eq_refl) in Hm. destruct Hm.
      + injection H as <-.
        intros G gi Hg H0. apply S3 in Hg. destruct (New1 _ _ Hg H0) as [-> ->].
        intros f' s' Hf' Hs'. rewrite Hf in Hf'. injection Hf' as <-. rewrite Hs in Hs'. injection Hs' as <-.
        split.
        * intros j fn Hj. eapply le_marked; [exact L23|]. eauto.
        * intros b0 via0 Hb0. rewrite (base_service_none _ _ _ _ Hf Ene Hb) in Hb0. discriminate.
  Qed.
End SoundServices.

Section SoundFinal.
  Variable matches : bytes -> bytes -> bool.
  Variable cp : bytes -> bool.
  Variable c : cfg.
  Variable p : program.
  Hypothesis Hwf : types_wf p.
  Hypothesis Hnd : NoDup (map fst p).
  Hypothesis Hbelow : forall F f, prog_file p F = Some f -> below p (main_name p) F.

  Definition services_closed (st : mstate) : Prop :=
    filtering c = false -> forall G gi, marked st (NService G gi) = true -> svc_closed_at p st G gi.

  Record final_ok (fin : mstate) : Prop := {
    fo_inv : inv cp c p fin;
    fo_cached : forall F f, prog_file p F = Some f -> cached fin F;
    fo_services : services_closed fin;
    fo_main : filtering c = false -> forall f i, prog_main p = Some f -> i < List.length (f_services f) ->
              marked fin (NService (main_name p) i) = true }.

  Lemma inv_ms0 : inv cp c p ms0.
  Proof. split; [intros n H; discriminate | intros F v H; discriminate]. Qed.

  Theorem mark_ast_final fuel fin : mark_ast matches cp c p fuel = Ok fin -> final_ok fin.
  Proof.
    intros H. destruct (mark_ast_inv _ _ _ _ _ _ H) as [f [st1 [r1 [Hm [_ [H1 [H2 L12]]]]]]].
    pose proof (pre_process_visits cp c p _ _ _ _ H1) as V1. cbn [fst] in V1.
    pose proof (pre_process_sound cp c p Hwf _ _ _ _ H1 inv_ms0) as I1. cbn [fst] in I1.
    (* the loop over the services of the main file: the services it newly marks are closed *)
    set (R := fun a b : mstate => le_new_closed p a b /\
                (filtering c = false -> forall G gi, marked b (NService G gi) = true ->
                   marked a (NService G gi) = false -> svc_closed_at p b G gi)).
    destruct (fold_res_all (fun is : nat * service => mark_service matches c p fuel (main_name p) (fst is)) R
                (fun is b => filtering c = false -> marked b (NService (main_name p) (fst is)) = true)
                (indexed (f_services f))) with (5 := H2) as [[R2 N2] M2].
    - intros a. split; [apply le_new_closed_refl | intros _ G gi E1 E0; congruence].
    - intros a b d [Ra Na] [Rb Nb]. split; [eapply le_new_closed_trans; eauto|]. intros Hnf G gi Hd Ha.
      destruct (marked b (NService G gi)) eqn:E; [|apply Nb; assumption].
      eapply svc_closed_at_le; [apply Rb | apply Na; assumption].
    - intros [i s] a b _ Hs. cbn [fst] in *. split; [split; [eapply mark_service_Rc; eauto|]|]; intros Hnf;
        destruct (mark_service_svc matches c p Hnf fuel _ _ _ _ Hs) as [_ [Mk N]]; assumption.
    - intros is a b [[L _] _] Hp Hnf. eapply le_marked; [exact L | auto].
    - split.
      + eapply inv_le_new_closed; eauto.
      + intros F f' HF. eapply cached_le; [exact L12|]. apply V1. eapply Hbelow; eauto.
      + intros Hnf G gi Hg. apply N2; [exact Hnf | exact Hg|].
        (* no service is marked before the loop *)
        destruct (marked st1 (NService G gi)) eqn:E; [|reflexivity].
        apply (pre_process_services _ _ _ _ _ _ _ H1) in E. discriminate.
      + intros Hnf f' i Hf' Hi. rewrite Hm in Hf'. injection Hf' as <-.
        destruct (nth_error (f_services f) i) as [s|] eqn:Es; [|apply nth_error_None in Es; lia].
        exact (M2 (i, s) (proj2 (indexed_In _ _ _) Es) Hnf).
  Qed.
  Lemma base_of_via F s b via : base_of p F s = Some (b, via) -> forall m, In m via -> exists G i, m = NInclude G i.
  Proof.
    unfold base_of. destruct (sv_extends s); [discriminate|].
    destruct (prog_file p F) as [f|]; [|discriminate].
    destruct (sv_ref s) as [r|].
    - destruct (include_file p f (ref_index r)) as [[ii tn]|]; [|discriminate].
      destruct (prog_file p tn); [|discriminate].
      destruct (find_index _ _) as [[i x]|]; [|discriminate].
      intros [= <- <-] m [<-|[]]. eauto.
    - destruct (find_index _ _) as [[i x]|]; [|discriminate]. intros [= <- <-] m [].
  Qed.

  Theorem needed_marked fuel fin :
    mark_ast matches cp c p fuel = Ok fin ->
    forall n, needed cp c p (kept_methods c fin) n -> needs_mark n = true ->
      marked fin n = true \/ (no_filter c = false /\ exists F i, n = NInclude F i).
  Proof.
    intros Hm. pose proof (mark_ast_final fuel fin Hm) as [[Hcl Hrd] Hca Hsv Hmain].
    assert (forall F f, prog_file p F = Some f -> roots_marked cp c p fin F) as Hroots.
    { intros F f HF. destruct (Hca _ _ HF) as [v Hv]. eapply Hrd; eauto. }
    induction 1 as [n Hn | n m Hn IH Hm']; intros Hnm.
    - (* roots *)
      unfold roots in Hn. apply in_app_iff in Hn. destruct Hn as [Hn|Hn].
      { unfold kept_methods in Hn. destruct (no_filter c); [destruct Hn|].
        apply filter_In in Hn. left. apply marked_In. tauto. }
      apply in_app_iff in Hn. destruct Hn as [Hn|Hn].
      { destruct (no_filter c) eqn:Enf; [|destruct Hn]. left.
        unfold main_service_roots in Hn. destruct p as [|[mn mf] rest] eqn:Ep; [destruct Hn|].
        apply in_map_iff in Hn. destruct Hn as [i [<- Hi]]. apply in_seq in Hi.
        apply (Hmain (f_equal negb Enf) mf i); [reflexivity | cbn in Hi; lia]. }
      apply in_flat_map in Hn. destruct Hn as [[F f] [HF Hn]].
      pose proof (lookup_NoDup_In _ _ _ Hnd HF) as HF'. destruct (Hroots _ _ HF' f HF') as [R1 [R2 R3]].
      unfold file_roots in Hn. cbn [fst snd] in Hn.
      apply in_app_iff in Hn. destruct Hn as [Hn|Hn].
      { apply in_map_iff in Hn. destruct Hn as [i [<- _]]. discriminate. }
      apply in_app_iff in Hn. destruct Hn as [Hn|Hn].
      { apply in_map_iff in Hn. destruct Hn as [i [<- _]]. discriminate. }
      apply in_app_iff in Hn. destruct Hn as [Hn|Hn]; [left; apply R1; assumption|].
      apply in_flat_map in Hn. destruct Hn as [k [_ Hn]]. apply in_map_iff in Hn. destruct Hn as [[i s] [<- Hn]].
      apply filter_In in Hn. destruct Hn as [Hi Hp]. apply indexed_In in Hi. left. eapply R3; eauto.
    - (* edges *)
      destruct n as [F si|F si j|F k i|F i|F i|F i]; cbn [succs] in Hm'.
      + (* service *)
        unfold succ_service in Hm'.
        destruct (prog_file p F) as [f|] eqn:HF; [|destruct Hm'].
        destruct (nth_error (f_services f) si) as [s|] eqn:Hs; [|destruct Hm'].
        destruct (no_filter c) eqn:Enf.
        * destruct (IH eq_refl) as [Mk|[E _]]; [|discriminate]. left.
          destruct (Hsv (f_equal negb Enf) _ _ Mk _ _ HF Hs) as [Hfn Hb].
          apply in_app_iff in Hm'. destruct Hm' as [Hm'|Hm'].
          -- apply in_map_iff in Hm'. destruct Hm' as [j [<- Hj]]. apply in_seq in Hj.
             destruct (nth_error (sv_functions s) j) as [fn|] eqn:Ej; [eapply Hfn; eauto|].
             apply nth_error_None in Ej. cbn in Hj. lia.
          -- destruct (base_of p F s) as [[b via]|] eqn:Eb; [|destruct Hm'].
             destruct (Hb _ _ eq_refl) as [Mb Mv]. destruct Hm' as [<-|Hm']; auto.
        * right. split; [reflexivity|].
          destruct (base_of p F s) as [[b via]|] eqn:Eb; [|destruct Hm'].
          destruct (existsb _ _); [|destruct Hm']. eapply base_of_via; eauto.
      + (* function *)
        destruct (IH eq_refl) as [Mk|[_ [G [i E]]]]; [|discriminate]. left.
        specialize (Hcl _ Mk). cbn in Hcl. unfold succ_function in Hm'.
        destruct (prog_file p F) as [f|] eqn:HF; [|destruct Hm'].
        destruct (nth_error (f_services f) si) as [s|] eqn:Hs; [|destruct Hm'].
        destruct (nth_error (sv_functions s) j) as [fn|] eqn:Hj; [|destruct Hm'].
        eapply Hcl; eauto.
      + (* struct-like *)
        destruct (IH eq_refl) as [Mk|[_ [G [j E]]]]; [|discriminate]. left.
        specialize (Hcl _ Mk). cbn in Hcl. unfold succ_struct_like in Hm'.
        destruct (prog_file p F) as [f|] eqn:HF; [|destruct Hm'].
        destruct (nth_error (sl_list k f) i) as [s|] eqn:Hs; [|destruct Hm'].
        eapply Hcl; eauto.
      + destruct Hm'.
      + (* typedef: always kept, its target is a root of the marking *)
        left. unfold succ_typedef in Hm'.
        destruct (prog_file p F) as [f|] eqn:HF; [|destruct Hm'].
        destruct (nth_error (f_typedefs f) i) as [d|] eqn:Hd; [|destruct Hm'].
        destruct (Hroots _ _ HF f HF) as [_ [R2 _]]. apply R2; [|exact Hnm].
        unfold tys_nodes. apply in_flat_map. exists (td_type d). split; [|exact Hm'].
        apply in_map. eapply nth_error_In; eauto.
      + destruct Hm'.
  Qed.
End SoundFinal.


Definition node_file (n : node) : bytes :=
  match n with
  | NService f _ | NFunction f _ _ | NStructLike f _ _ | NEnum f _ | NTypedef f _ | NInclude f _ => f
  end.
Definition def_kind (n : node) : bool := match n with NInclude _ _ => false | _ => true end.

Section Paths.
  Variable p : program.

  Inductive pathm (st : mstate) : bytes -> bytes -> Prop :=
  | pm_refl F : pathm st F F
  | pm_step G g i tn F :
      prog_file p G = Some g -> include_file p g (Z.of_nat i) = Some (i, tn) ->
      marked st (NInclude G i) = true -> pathm st tn F -> pathm st G F.

  Lemma pathm_le a b G F : le a b -> pathm a G F -> pathm b G F.
  Proof. intros L H. induction H; [apply pm_refl | eapply pm_step; eauto; eapply le_marked; eauto]. Qed.
  Lemma pathm_trans st A B C : pathm st A B -> pathm st B C -> pathm st A C.
  Proof. intros H1 H2. induction H1; [exact H2 | eapply pm_step; eauto]. Qed.

  Definition newpath (a b : mstate) (F : bytes) : Prop :=
    forall x, def_kind x = true -> marked b x = true -> marked a x = false -> pathm b F (node_file x).

  Lemma newpath_refl a F : newpath a a F.
  Proof. intros x _ H1 H2. congruence. Qed.
  Lemma newpath_trans a b d F : le b d -> newpath a b F -> newpath b d F -> newpath a d F.
  Proof.
    intros L H1 H2 x Hk Hd Ha. destruct (marked b x) eqn:Eb.
    - eapply pathm_le; [exact L|]. apply H1; assumption.
    - apply H2; assumption.
  Qed.
  (* the state order together with [newpath]: a preorder, so loops go through [fold_res_rel] *)
  Definition le_newpath (F : bytes) (a b : mstate) : Prop := le a b /\ newpath a b F.
  Lemma le_newpath_refl F a : le_newpath F a a.
  Proof. split; [apply le_refl | apply newpath_refl]. Qed.
  Lemma le_newpath_trans F a b d : le_newpath F a b -> le_newpath F b d -> le_newpath F a d.
  Proof. intros [L1 N1] [L2 N2]. split; [eapply le_trans; eauto | eapply newpath_trans; eauto]. Qed.

  Lemma newpath_mark_here a n F : node_file n = F -> newpath a (mark n a) F.
  Proof.
    intros <- x Hk Hb Ha. apply marked_false_mark in Hb; [|exact Ha]. subst x. apply pm_refl.
  Qed.
  Lemma newpath_mark_include a G i F : newpath a (mark (NInclude G i) a) F.
  Proof.
    intros x Hk Hb Ha. apply marked_false_mark in Hb; [|exact Ha]. subst x. discriminate.
  Qed.
  Lemma newpath_via a b F g i tn : le a b ->
    prog_file p F = Some g -> include_file p g (Z.of_nat i) = Some (i, tn) -> marked b (NInclude F i) = true ->
    newpath a b tn -> newpath a b F.
  Proof.
    intros L Hg Hi Hm H x Hk Hb Ha. eapply pm_step; eauto.
  Qed.

  Definition reach1 (rec : bytes -> ty -> mstate -> res mstate) : Prop :=
    forall F t st st', rec F t st = Ok st' -> newpath st st' F.

  Lemma mark_types_with_reach rec F ts : reach1 rec -> (forall F t st st', rec F t st = Ok st' -> le st st') ->
    forall st st', mark_types_with rec F ts st = Ok st' -> newpath st st' F.
  Proof.
    intros Hrec Hmono st st' H. assert (le_newpath F st st') as [_ N]; [|exact N].
    revert st st' H. unfold mark_types_with. apply fold_res_rel; [apply le_newpath_refl | apply le_newpath_trans|].
    intros t a b _. apply fold_res_rel; [apply le_newpath_refl | apply le_newpath_trans|].
    intros t' a' b' _ Hf. split; [eapply Hmono; eauto | eapply Hrec; eauto].
  Qed.

  Lemma include_file_of_nat g z i tn : include_file p g z = Some (i, tn) -> include_file p g (Z.of_nat i) = Some (i, tn).
  Proof.
    intros H. pose proof H as H'. apply include_file_inv in H'. destruct H' as [-> [inc [Hn _]]].
    unfold nth_include in Hn. destruct (z <? 0)%Z eqn:Ez; [discriminate|].
    apply Z.ltb_ge in Ez. rewrite Z2Nat.id by exact Ez. exact H.
  Qed.

  Lemma mark_named_body_reach rec : reach1 rec -> (forall F t st st', rec F t st = Ok st' -> le st st') ->
    reach1 (mark_named_body p rec).
  Proof.
    intros Hrec Hmono F t st st'. unfold mark_named_body.
    destruct (prog_file p F) as [f|] eqn:Hf; [|discriminate].
    intros H. apply bind_ok in H. destruct H as [[bn st1] [Hb H]].
    (* the file the type points into is reached over a marked include *)
    assert (le st st1 /\ newpath st st1 F /\ (forall b, le st1 b -> pathm b F bn)) as [L1 [N1 P1]].
    { destruct (ty_ref t) as [r|].
      - destruct (include_file p f (ref_index r)) as [[i tn]|] eqn:Ei; [|discriminate].
        injection Hb as <- <-. split; [apply le_mark|]. split; [apply newpath_mark_include|].
        intros b Lb. eapply pm_step; [exact Hf | eapply include_file_of_nat; exact Ei | | apply pm_refl].
        eapply le_marked; [exact Lb|]. apply marked_mark. auto.
      - injection Hb as <- <-. split; [apply le_refl|]. split; [apply newpath_refl|]. intros; apply pm_refl. }
    destruct (prog_file p bn) as [bf|] eqn:Hbf; [|discriminate].
    assert (forall st2, le st1 st2 -> newpath st1 st2 bn -> newpath st st2 F) as Hfin.
    { intros st2 L2 N2. eapply newpath_trans; [exact L2 | exact N1|].
      intros x Hk Hb2 Ha. eapply pathm_trans; [apply P1; exact L2 | apply N2; assumption]. }
    destruct (ty_is_typedef t).
    - unfold mark_typedef_with in H.
      destruct (find_index _ _) as [[i d]|]; [|injection H as <-; apply Hfin; [apply le_refl | apply newpath_refl]].
      destruct (marked st1 (NTypedef bn i)) eqn:Em; [injection H as <-; apply Hfin; [apply le_refl | apply newpath_refl]|].
      pose proof (mark_types_with_R le le_refl le_trans rec bn [td_type d] Hmono _ _ H) as L2.
      apply mark_types_with_reach in H; [|exact Hrec | exact Hmono].
      apply Hfin; [eapply le_trans; [apply le_mark | exact L2]|].
      eapply newpath_trans; [exact L2 | apply newpath_mark_here; reflexivity | exact H].
    - destruct (category_sl_kind (ty_category t)) as [k|].
      + destruct (find_index _ _) as [[i s]|]; [|injection H as <-; apply Hfin; [apply le_refl | apply newpath_refl]].
        unfold mark_sl_with in H.
        destruct (marked st1 (NStructLike bn k i)); [injection H as <-; apply Hfin; [apply le_refl | apply newpath_refl]|].
        pose proof (mark_types_with_R le le_refl le_trans rec bn _ Hmono _ _ H) as L2.
        apply mark_types_with_reach in H; [|exact Hrec | exact Hmono].
        apply Hfin; [eapply le_trans; [apply le_mark | exact L2]|].
        eapply newpath_trans; [exact L2 | apply newpath_mark_here; reflexivity | exact H].
      + destruct (ty_category t); try (injection H as <-; apply Hfin; [apply le_refl | apply newpath_refl]).
        destruct (find_index _ _) as [[i e]|]; injection H as <-.
        * apply Hfin; [apply le_mark | apply newpath_mark_here; reflexivity].
        * apply Hfin; [apply le_refl | apply newpath_refl].
  Qed.

  Lemma mark_named_reach fuel : reach1 (mark_named p fuel).
  Proof.
    revert fuel. unfold reach1. apply mark_named_ind. intros n IH. apply mark_named_body_reach; [exact IH | apply mark_named_le].
  Qed.

  Lemma mark_types_reach fuel F ts st st' : mark_types p fuel F ts st = Ok st' -> newpath st st' F.
  Proof. apply mark_types_with_reach; [apply mark_named_reach | apply mark_named_le]. Qed.

  Lemma mark_sl_reach fuel F k i s st st' : mark_sl p fuel F k i s st = Ok st' -> newpath st st' F.
  Proof.
    unfold mark_sl, mark_sl_with. destruct (marked st _); [intros [= <-]; apply newpath_refl|].
    intros H. pose proof (mark_types_le _ _ _ _ _ _ H) as L. apply mark_types_reach in H.
    eapply newpath_trans; [exact L | apply newpath_mark_here; reflexivity | exact H].
  Qed.

  Lemma mark_function_reach fuel F si j fn st st' : mark_function p fuel F si j fn st = Ok st' -> newpath st st' F.
  Proof.
    rewrite mark_function_types. intros H. pose proof (mark_types_le _ _ _ _ _ _ H) as L. apply mark_types_reach in H.
    eapply newpath_trans; [exact L | apply newpath_mark_here; reflexivity | exact H].
  Qed.
End Paths.


Section PathsMarking.
  Variable matches : bytes -> bytes -> bool.
  Variable cp : bytes -> bool.
  Variable c : cfg.
  Variable p : program.

  Notation pathm := (pathm p).
  Notation newpath := (newpath p).

  Definition nonew (a b : mstate) : Prop := forall x, def_kind x = true -> marked b x = true -> marked a x = true.
  Lemma nonew_refl a : nonew a a. Proof. intros x _ H. exact H. Qed.
  Lemma nonew_trans a b d : nonew a b -> nonew b d -> nonew a d.
  Proof. intros H1 H2 x Hk Hd. auto. Qed.
  Lemma nonew_newpath a b F : nonew a b -> newpath a b F.
  Proof. intros H x Hk Hb Ha. rewrite (H x Hk Hb) in Ha. discriminate. Qed.
  Lemma nonew_mark_include a G i : nonew a (mark (NInclude G i) a).
  Proof. intros x Hk H. apply marked_mark in H. destruct H as [->|H]; [discriminate | exact H]. Qed.
  Lemma nonew_add_ext a F i : nonew a (add_ext F i a).
  Proof. intros x _ H. exact H. Qed.

  Lemma base_service_file F f s bn bi b :
    base_service p F f s = Ok (Some (bn, bi, b)) ->
    match sv_ref s with
    | None => bn = F
    | Some r => exists i, include_file p f (ref_index r) = Some (i, bn)
    end.
  Proof.
    unfold base_service. destruct (sv_ref s) as [r|].
    - destruct (include_file p f (ref_index r)) as [[i tn]|]; [|discriminate].
      destruct (prog_file p tn); [|discriminate].
      destruct (find_index _ _) as [[j x]|]; [|discriminate]. intros [= <- <- <-]. eauto.
    - destruct (find_index _ _) as [[j x]|]; [|discriminate]. intros [= <- <- <-]. reflexivity.
  Qed.

  Lemma mark_service_include_path F f s a b bn bi bs :
    prog_file p F = Some f -> mark_service_include p F f s a = Ok b ->
    base_service p F f s = Ok (Some (bn, bi, bs)) ->
    le a b /\ nonew a b /\ forall d, le b d -> pathm d F bn.
  Proof.
    intros Hf H Hb. apply base_service_file in Hb. unfold mark_service_include in H.
    destruct (sv_ref s) as [r|].
    - destruct Hb as [i Hi]. rewrite Hi in H. injection H as <-.
      split; [apply le_mark|]. split; [apply nonew_mark_include|].
      intros d Ld. eapply pm_step; [exact Hf | eapply include_file_of_nat; exact Hi | | apply pm_refl].
      eapply le_marked; [exact Ld|]. apply marked_mark. auto.
    - injection H as <-. subst bn. split; [apply le_refl|]. split; [apply nonew_refl|]. intros; apply pm_refl.
  Qed.

  Lemma mark_service_include_nonew F f s a b : mark_service_include p F f s a = Ok b -> le a b /\ nonew a b.
  Proof.
    apply (mark_service_include_R p (fun a b => le a b /\ nonew a b)).
    - intros st. split; [apply le_refl | apply nonew_refl].
    - intros G i st. split; [apply le_mark | apply nonew_mark_include].
  Qed.

  (* loops over an accumulator with a flag that records whether anything was marked *)
  Definition flag_records (F : bytes) (acc r : mstate * bool) : Prop :=
    le (fst acc) (fst r) /\ newpath (fst acc) (fst r) F /\
    (snd r = false -> nonew (fst acc) (fst r) /\ snd acc = false).

  Lemma flag_records_refl F a : flag_records F a a.
  Proof. split; [apply le_refl|]. split; [apply newpath_refl|]. intros E. split; [apply nonew_refl | exact E]. Qed.
  Lemma flag_records_trans F a b d : flag_records F a b -> flag_records F b d -> flag_records F a d.
  Proof.
    intros [La [Na Za]] [Lb [Nb Zb]].
    split; [eapply le_trans; eauto|]. split; [eapply newpath_trans; eauto|].
    intros E. destruct (Zb E) as [Zb1 Zb2]. destruct (Za Zb2) as [Za1 Za2].
    split; [eapply nonew_trans; eauto | exact Za2].
  Qed.

  Lemma trace_post fuel fa F si st r : trace matches c p fuel fa F si st = Ok r ->
    le st (fst r) /\ newpath st (fst r) F /\ (snd r = false -> nonew st (fst r)).
  Proof.
    revert fuel fa F si st r.
    apply (trace_ind matches c p (fun fa F si st r =>
             le st (fst r) /\ newpath st (fst r) F /\ (snd r = false -> nonew st (fst r)))).
    intros n fa F si f s st st1 ret1 st3 ret r Hrec Hf Hs H1 B E L1 L13 L3r.
    assert (le st1 (fst r)) as L1r by (eapply le_trans; eauto).
    split; [eapply le_trans; eauto|].
    (* the loop over own functions *)
    assert (flag_records F (st, false) (st1, ret1)) as [_ [N1 Z1]].
    { revert H1. apply trace_own_rel; [apply flag_records_refl | apply flag_records_trans|].
      intros j fn father pat acc s' _ _ _ _ Hm. unfold flag_records. cbn [fst snd].
      pose proof (mark_function_le _ _ _ _ _ _ _ _ Hm) as Lm. apply mark_function_reach in Hm.
      split; [eapply le_trans; [apply le_mark | exact Lm]|].
      split; [eapply newpath_trans; [exact Lm | apply newpath_mark_here; reflexivity | exact Hm] | discriminate]. }
    cbn [fst snd] in N1, Z1.
    destruct B as [[_ [-> ->]]|[_ [bn [bi [bs [st2 [back [Hb [H2 [-> ->]]]]]]]]]].
    - destruct E as [[-> [st4 [H4 ->]]]|[-> ->]]; cbn [fst snd] in *.
      + apply mark_service_include_nonew in H4. destruct H4 as [_ Z4].
        split; [|discriminate].
        intros x Hk Hx H0. destruct (marked st1 x) eqn:E1.
        * eapply pathm_le; [exact L1r|]. apply N1; assumption.
        * apply Z4 in Hx; [|exact Hk]. apply marked_false_mark in Hx; [|exact E1]. subst x. apply pm_refl.
      + split; [exact N1|]. intros _. apply Z1. reflexivity.
    - apply Hrec in H2. destruct H2 as [L2 [N2 Z2]]. cbn [fst snd] in L2, N2, Z2.
      destruct back; cbn [orb] in E.
      + (* something matched below: the service and its include are marked *)
        destruct E as [[_ [st4 [H4 ->]]]|[[=] _]]. cbn [fst snd] in *.
        eapply mark_service_include_path in H4; [|exact Hf | exact Hb]. destruct H4 as [_ [Z4 P4]].
        split; [|discriminate].
        intros x Hk Hx H0. destruct (marked st1 x) eqn:E1.
        * eapply pathm_le with (a := st1); [exact L1r | apply N1; assumption].
        * destruct (marked st2 x) eqn:E2.
          -- eapply pathm_trans; [apply P4; apply le_refl|]. eapply pathm_le; [exact L3r|]. apply N2; assumption.
          -- apply Z4 in Hx; [|exact Hk]. apply marked_false_mark in Hx; [|exact E2]. subst x. apply pm_refl.
      + (* nothing matched below: `extends` will be cleared *)
        specialize (Z2 eq_refl).
        destruct E as [[-> [st4 [H4 ->]]]|[-> ->]]; cbn [fst snd] in *.
        * apply mark_service_include_nonew in H4. destruct H4 as [_ Z4].
          split; [|discriminate].
          intros x Hk Hx H0. destruct (marked st1 x) eqn:E1.
          -- eapply pathm_le with (a := st1); [exact L1r | apply N1; assumption].
          -- apply Z4 in Hx; [|exact Hk]. apply marked_mark in Hx. destruct Hx as [->|Hx]; [apply pm_refl|].
             exfalso. change (marked st2 x = true) in Hx. apply Z2 in Hx; [congruence | exact Hk].
        * assert (nonew st (add_ext F si st2)) as Zn.
          { eapply nonew_trans; [apply Z1; reflexivity|]. eapply nonew_trans; [exact Z2 | apply nonew_add_ext]. }
          split; [apply nonew_newpath; exact Zn | intros _; exact Zn].
  Qed.

  Lemma mark_service_post fuel F si st st' :
    mark_service matches c p fuel F si st = Ok st' -> le st st' /\ newpath st st' F.
  Proof.
    revert fuel F si st st'. apply (mark_service_ind matches c p (fun F si st st' => le st st' /\ newpath st st' F)).
    { intros F si st _. split; [apply le_refl | apply newpath_refl]. }
    intros n F si f s st st1 st2 st' Hrec Hf Hs _ H1 H2 T L1 L2 L3.
    set (st0 := if filtering c then st else mark (NService F si) st) in *.
    assert (le st st0 /\ newpath st st0 F) as [L0 N0].
    { unfold st0. destruct (filtering c); [split; [apply le_refl | apply newpath_refl]|].
      split; [apply le_mark | apply newpath_mark_here; reflexivity]. }
    assert (le_newpath p F st0 st1) as [L01 N1].
    { revert H1. apply fold_res_rel; [apply le_newpath_refl | apply le_newpath_trans|]. intros [j fn] a a1 _. unfold svc_own. cbn [fst snd].
      assert (forall x y, mark_function p (S n) F si j fn x = Ok y -> le_newpath p F x y) as Hmf.
      { intros x y Hx. split; [eapply mark_function_le | eapply mark_function_reach]; eauto. }
      destruct (filtering c); [|apply Hmf].
      apply fold_res_rel; [apply le_newpath_refl | apply le_newpath_trans|].
      intros pat x y _. unfold sstep. cbn [fst snd]. destruct (selects _ _ _); [|intros [= <-]; apply le_newpath_refl].
      intros Hy. eapply le_newpath_trans; [|apply Hmf; exact Hy]. split; [apply le_mark | apply newpath_mark_here; reflexivity]. }
    assert (newpath st1 st2 F) as N2.
    { destruct (filtering c && _).
      - apply bind_ok in H2. destruct H2 as [[s2 r2] [H2 H3]]. injection H3 as <-.
        apply trace_post in H2. tauto.
      - injection H2 as <-. apply newpath_refl. }
    assert (le st st2 /\ newpath st st2 F) as [L02 N02].
    { split; [eapply le_trans; [exact L1 | exact L2]|].
      eapply newpath_trans with (b := st0); [eapply le_trans; [exact L01 | exact L2] | exact N0|].
      eapply newpath_trans; [exact L2 | exact N1 | exact N2]. }
    destruct T as [[-> _]|[_ [_ [st3 [nb [H3 [Hb H]]]]]]]; [auto|].
    split; [eapply le_trans; eauto|].
    destruct (mark_service_include_nonew _ _ _ _ _ H3) as [L23 Z3].
    destruct nb as [[[bn bi] bs]|].
    - eapply mark_service_include_path in H3; [|exact Hf | exact Hb]. destruct H3 as [_ [_ P3]].
      apply Hrec in H. destruct H as [L4 N4].
      intros x Hk Hx H0. destruct (marked st2 x) eqn:E2.
      + eapply pathm_le with (a := st2); [exact L3 | apply N02; assumption].
      + destruct (marked st3 x) eqn:E3; [apply Z3 in E3; [congruence | exact Hk]|].
        eapply pathm_trans; [apply P3; exact L4|]. apply N4; assumption.
    - injection H as <-. eapply newpath_trans; [exact L23 | exact N02 | apply nonew_newpath; exact Z3].
  Qed.
  Lemma pathm_same_marks a b G F : (forall x, marked b x = marked a x) -> pathm a G F -> pathm b G F.
  Proof.
    intros E H. induction H; [apply pm_refl|]. eapply pm_step; eauto; try (rewrite E; assumption).
  Qed.


  Lemma mark_types_nil fuel F st : mark_types p fuel F [] st = Ok st.
  Proof. reflexivity. Qed.

  Lemma kept_part_post fuel F st st' r :
    kept_part cp c p fuel F st = Ok (st', r) ->
    le st st' /\ newpath st st' F /\ (r = false -> nonew st st').
  Proof.
    intros H. pose proof (kept_part_le _ _ _ _ _ _ _ H) as L. cbn [fst] in L. split; [exact L|].
    apply kept_part_inv in H.
    destruct H as [[v [_ [= -> ->]]]|[_ [f [st1 [st2 [st3 [r3 [Hf [H1 [H2 [H3 [= -> ->]]]]]]]]]]]].
    { split; [apply newpath_refl | intros _; apply nonew_refl]. }
    pose proof (mark_types_le _ _ _ _ _ _ H1) as L1. pose proof (mark_types_le _ _ _ _ _ _ H2) as L2.
    assert (flag_records F (st2, has_enum_const_typedef f) (st3, r3)) as X.
    { apply (preserve_phase_inv _ _ _ _ _ _ (flag_records F (st2, has_enum_const_typedef f)) _ _ H3); [|apply flag_records_refl].
      intros k i s acc acc' _ _ Hs Ha. eapply flag_records_trans; [exact Ha|].
      apply on_sl_inv in Hs. destruct Hs as [->|[_ [E Hm]]]; [apply flag_records_refl|].
      split; [eapply mark_sl_le; eauto|]. split; [eapply mark_sl_reach; eauto | rewrite E; discriminate]. }
    destruct X as [L3 [N3 Z3]]. cbn [fst snd] in *.
    assert (forall x, marked (add_cache F r3 st3) x = marked st3 x) as Hsame by reflexivity.
    split.
    - intros x Hk Hx H0. rewrite Hsame in Hx.
      assert (pathm st3 F (node_file x)) as P; [|eapply pathm_same_marks; [exact Hsame | exact P]].
      apply mark_types_reach in H1. apply mark_types_reach in H2.
      assert (newpath st st3 F) as N; [|apply N; assumption].
      eapply newpath_trans with (b := st1); [eapply le_trans; eauto | exact H1|].
      eapply newpath_trans with (b := st2); eauto.
    - intros E. destruct (Z3 E) as [Z3a Z3b].
      intros x Hk Hx. rewrite Hsame in Hx. apply Z3a in Hx; [|exact Hk].
      (* no constants and no typedefs: nothing was marked for them *)
      unfold has_enum_const_typedef in Z3b. apply negb_false_iff in Z3b.
      apply andb_true_iff in Z3b. destruct Z3b as [Z3b Z3c]. apply andb_true_iff in Z3b. destruct Z3b as [Zc Ze].
      destruct (f_constants f); [|discriminate]. destruct (f_typedefs f); [|discriminate].
      cbn in H1, H2. injection H1 as <-. injection H2 as <-. exact Hx.
  Qed.
  Definition cache_true (st : mstate) (G : bytes) : Prop := lookup G (ms_cache st) = Some true.

  Lemma cache_true_le a b G : le a b -> cache_true a G -> cache_true b G.
  Proof. intros [_ [_ L]] H. apply L. exact H. Qed.

  Lemma cached_true_back a b G : le a b -> cached a G -> cache_true b G -> cache_true a G.
  Proof.
    intros [_ [_ L]] [v Hv] Hb. unfold cache_true in *. rewrite (L _ _ Hv) in Hb. injection Hb as ->. exact Hv.
  Qed.

  (* preProcess: new marks are anchored at files whose kept part is recorded as true,
     and every such file below F is reached from F over marked includes *)
  Definition anchored_new (a b : mstate) (F : bytes) : Prop :=
    forall x, def_kind x = true -> marked b x = true -> marked a x = false ->
      exists G, below p F G /\ cache_true b G /\ pathm b G (node_file x).

  Lemma anchored_new_le a b d F : le b d -> anchored_new a b F -> anchored_new b d F -> anchored_new a d F.
  Proof.
    intros L H1 H2 x Hk Hd Ha. destruct (marked b x) eqn:Eb.
    - destruct (H1 x Hk Eb Ha) as [G [HG [HC HP]]]. exists G. split; [exact HG|].
      split; [eapply cache_true_le; eauto | eapply pathm_le; eauto].
    - apply H2; assumption.
  Qed.

  Lemma pre_process_post fuel : forall F st st' r,
    pre_process cp c p fuel F st = Ok (st', r) ->
    le st st' /\ anchored_new st st' F /\
    (forall G, below p F G -> cache_true st' G -> r = true /\ pathm st' F G).
  Proof.
    induction fuel as [|n IH]; intros F st st' r H; [discriminate|].
    apply pre_process_inv in H. destruct H as [st1 [ret [f [H1 [Hf H]]]]].
    pose proof (kept_part_cached _ _ _ _ _ _ _ _ H1) as Hc1.
    apply kept_part_post in H1. destruct H1 as [L1 [N1 Z1]].
    set (R := fun a b : mstate * bool =>
                le (fst a) (fst b) /\ anchored_new (fst a) (fst b) F /\ (snd a = true -> snd b = true)).
    set (P := fun (ii : nat * include) (acc : mstate * bool) =>
                forall tn G, in_ref (snd ii) = Some tn -> below p tn G ->
                  cached (fst acc) G /\ (cache_true (fst acc) G -> snd acc = true /\ pathm (fst acc) F G)).
    destruct (fold_res_all (pp_step cp c p n F f) R P (indexed (f_includes f))) with (5 := H) as [[Lb [Ab Fb]] Cb].
    - intros a. split; [apply le_refl|]. split; [intros x _ E1 E2; congruence | auto].
    - intros a b d [La [Aa Fa]] [Lb [Ab Fb]]. split; [eapply le_trans; eauto|].
      split; [eapply anchored_new_le; eauto | auto].
    - intros [i inc] a b Hin Hs. destruct (pp_step_inv _ _ _ _ _ _ _ _ _ _ Hin Hs) as [tn [s' [m [Ei [Hr0 [Hp ->]]]]]].
      apply indexed_In in Hin.
      pose proof (pre_process_visits cp c p _ _ _ _ Hp) as V'. cbn [fst] in V'.
      destruct (IH _ _ _ _ Hp) as [L' [A' C']].
      assert (forall G, below p tn G -> below p F G) as Bdown.
      { intros G HG. eapply below_step; [exact Hf | eapply nth_error_In; exact Hin | exact Hr0 | exact HG]. }
      destruct m; cbn [fst snd].
      + (* something below is kept: the include is marked *)
        split; [split; [eapply le_trans; [exact L' | apply le_mark]|]; split; [|auto]|].
        * intros x Hk Hx H0. apply marked_mark in Hx. destruct Hx as [->|Hx]; [discriminate|].
          destruct (A' x Hk Hx H0) as [G [HG [HC HP]]]. exists G. split; [apply Bdown; exact HG|].
          split; [eapply cache_true_le; [apply le_mark | exact HC] | eapply pathm_le; [apply le_mark | exact HP]].
        * intros tn' G Hr' HG. cbn [fst snd] in *. rewrite Hr0 in Hr'. injection Hr' as <-.
          split; [eapply cached_le; [apply le_mark | apply V'; exact HG]|]. intros HC.
          split; [reflexivity|]. unfold cache_true in HC. rewrite mark_cache in HC.
          destruct (C' _ HG HC) as [_ P'].
          eapply pm_step; [exact Hf | exact Ei | apply marked_mark; auto | eapply pathm_le; [apply le_mark | exact P']].
      + split; [split; [exact L'|]; split; [|auto]|].
        * intros x Hk Hx H0. destruct (A' x Hk Hx H0) as [G [HG HCP]]. exists G. split; [apply Bdown; exact HG | exact HCP].
        * intros tn' G Hr' HG. cbn [fst snd] in *. rewrite Hr0 in Hr'. injection Hr' as <-. split; [apply V'; exact HG|]. intros HC.
          destruct (C' _ HG HC) as [E _]. discriminate.
    - intros ii a b [L [_ Fl]] Hp tn G Hr HG. destruct (Hp tn G Hr HG) as [Hcd Hct].
      split; [eapply cached_le; eauto|]. intros HC.
      destruct (Hct (cached_true_back _ _ _ L Hcd HC)) as [E Pth]. split; [auto | eapply pathm_le; eauto].
    - cbn [fst snd] in *. split; [eapply le_trans; eauto|]. split.
      + intros x Hk Hx H0. destruct (marked st1 x) eqn:E1; [|apply Ab; assumption].
        (* marked by markKeptPart of F itself: then its result is true *)
        destruct ret; [|apply Z1 in E1; [congruence | reflexivity | exact Hk]].
        exists F. split; [apply below_refl|]. split; [eapply cache_true_le; [exact Lb | exact Hc1]|].
        eapply pathm_le; [exact Lb|]. apply N1; assumption.
      + intros G HG HC. inversion HG as [|F0 f0 inc G0 H0 Hf0 Hinc Hr0 Hb0]; subst.
        * split; [|apply pm_refl]. apply Fb.
          unfold cache_true in HC. destruct Lb as [_ [_ Lc]]. rewrite (Lc _ _ Hc1) in HC. congruence.
        * rewrite Hf in Hf0. injection Hf0 as <-. apply In_nth_error in Hinc. destruct Hinc as [i Hi].
          apply (Cb (i, inc) (proj2 (indexed_In _ _ _) Hi) _ _ Hr0 Hb0). exact HC.
  Qed.

  Theorem marks_connected fuel fin :
    mark_ast matches cp c p fuel = Ok fin ->
    forall x, def_kind x = true -> marked fin x = true -> pathm fin (main_name p) (node_file x).
  Proof.
    intros H. destruct (mark_ast_inv _ _ _ _ _ _ H) as [f [st1 [r1 [_ [_ [H1 [H2 L12]]]]]]].
    assert (le_newpath p (main_name p) st1 fin) as [_ N12].
    { revert H2. apply fold_res_rel; [apply le_newpath_refl | apply le_newpath_trans|].
      intros is a b _ Hx. exact (mark_service_post _ _ _ _ _ Hx). }
    apply pre_process_post in H1. destruct H1 as [_ [A1 C1]].
    intros x Hk Hx. destruct (marked st1 x) eqn:E1.
    - destruct (A1 x Hk E1 eq_refl) as [G [HG [HC HP]]].
      destruct (C1 _ HG HC) as [_ P1].
      eapply pathm_le; [exact L12|]. eapply pathm_trans; eauto.
    - apply N12; assumption.
  Qed.
End PathsMarking.


Section Output.
  Variable matches : bytes -> bytes -> bool.
  Variable cp : bytes -> bool.
  Variable c : cfg.
  Variable p : program.


  Definition closed_entry (acc : program) (e : bytes * file) : Prop :=
    forall inc tn, In inc (f_includes (snd e)) -> in_ref inc = Some tn -> In tn (map fst acc).

  Lemma closed_entry_mono a b e : (forall x, In x a -> In x b) -> closed_entry a e -> closed_entry b e.
  Proof.
    intros Hs H inc tn Hi Hr. specialize (H inc tn Hi Hr). apply in_map_iff in H. destruct H as [x [<- Hx]].
    apply in_map. auto.
  Qed.

  Lemma reach_closed full fuel st : forall F acc acc',
    reach cp c p full fuel st F acc = Ok acc' ->
    forall e, In e acc' -> In e acc \/ closed_entry acc' e.
  Proof.
    induction fuel as [|n IH]; intros F acc acc' H; cbn [reach] in H.
    - destruct (existsb _ acc); [injection H as <-; auto | discriminate].
    - destruct (existsb _ acc); [injection H as <-; auto|].
      destruct (prog_file p F) as [f|] eqn:Hf; [|discriminate].
      apply bind_ok in H. destruct H as [tf [Ht H]].
      assert (forall l a b, fold_res (fun (inc : include) acc0 =>
                 match in_ref inc with Some tn => reach cp c p full n st tn acc0 | None => Crash end) l a = Ok b ->
               (forall e, In e a -> In e b) /\
               (forall e, In e b -> In e a \/ closed_entry b e) /\
               (forall inc tn, In inc l -> in_ref inc = Some tn -> In tn (map fst b))) as Hl.
      { induction l as [|inc l IHl]; intros a b Hfo; cbn [fold_res] in Hfo.
        - injection Hfo as <-. split; [auto|]. split; [auto | intros inc tn []].
        - apply bind_ok in Hfo. destruct Hfo as [a1 [H1 H2]].
          destruct (in_ref inc) as [tn|] eqn:Er; [|discriminate].
          pose proof (reach_grows _ _ _ _ _ _ _ _ _ H1) as [G1 K1].
          pose proof (IH _ _ _ H1) as C1.
          destruct (IHl _ _ H2) as [G2 [C2 T2]].
          split; [auto|]. split.
          + intros e He. destruct (C2 e He) as [He1|Hc]; [|auto].
            destruct (C1 e He1) as [He0|Hc]; [auto|]. right. eapply closed_entry_mono; [exact G2 | exact Hc].
          + intros inc' tn' [<-|Hin] Hr'.
            * rewrite Er in Hr'. injection Hr' as <-. apply in_map_iff in K1. destruct K1 as [x [<- Hx]].
              apply in_map. auto.
            * eapply T2; eauto. }
      destruct (Hl _ _ _ H) as [G [Cl T]].
      intros e He. destruct (Cl e He) as [He0|Hc]; [|auto].
      apply in_app_iff in He0. destruct He0 as [He0|[<-|[]]]; [auto|].
      right. intros inc tn Hi Hr. eapply T; eauto.
  Qed.


  Lemma path_in_output fuel fin q :
    reach cp c p false fuel fin (main_name p) [] = Ok q ->
    forall G F, pathm p fin G F -> In G (map fst q) -> In F (map fst q).
  Proof.
    intros Hr G F Hp. induction Hp as [F | G g i tn F Hg Hi Hm _ IH]; [auto|].
    intros HG. apply IH. apply in_map_iff in HG. destruct HG as [[G' tg] [HG' He]]. cbn in HG'. subst G'.
    pose proof (reach_entries _ _ _ _ _ _ _ _ _ Hr (fun e (H : In e []) => match H with end) _ He) as [g' [Hg' Ht]].
    cbn [fst snd] in *. rewrite Hg in Hg'. injection Hg' as <-. unfold trim_file_of in Ht.
    destruct (reach_closed _ _ _ _ _ _ Hr _ He) as [[]|Hc].
    destruct (trim_file_marked_include _ _ _ _ _ _ _ _ _ Ht Hi Hm) as [inc0 [_ [Hr0 Hin]]].
    exact (Hc _ _ Hin Hr0).
  Qed.

  Lemma main_in_output full fuel fin q :
    reach cp c p full fuel fin (main_name p) [] = Ok q -> In (main_name p) (map fst q).
  Proof. intros H. apply reach_grows in H. tauto. Qed.


  Lemma trim_with_trimmed compiles full fuel q :
    trim_with matches compiles cp c p full fuel = Trimmed q ->
    exists fin, mark_ast matches cp c p fuel = Ok fin /\ reach cp c p full fuel fin (main_name p) [] = Ok q.
  Proof.
    unfold trim_with. destruct (_ && _); [discriminate|].
    destruct (mark_ast matches cp c p fuel) as [fin| |] eqn:Em; try discriminate.
    destruct (reach cp c p full fuel fin (main_name p) []) as [q'| |] eqn:Er; try discriminate.
    intros [= <-]. exists fin. split; [reflexivity | exact Er].
  Qed.
  Definition cache_cet (st : mstate) : Prop :=
    forall F v f, lookup F (ms_cache st) = Some v -> prog_file p F = Some f ->
      has_enum_const_typedef f = true -> v = true.

  Lemma kept_part_cet fuel F st st' r :
    kept_part cp c p fuel F st = Ok (st', r) -> cache_cet st -> cache_cet st'.
  Proof.
    intros H Hc. apply kept_part_inv in H.
    destruct H as [[v [_ [= -> ->]]]|[_ [f [st1 [st2 [st3 [r3 [Hf [H1 [H2 [H3 [= -> ->]]]]]]]]]]]]; [exact Hc|].
    pose proof (kept_part_steps_cache _ _ _ _ _ _ _ _ _ _ H1 H2 H3) as Ecache. cbn [fst] in Ecache.
    assert (has_enum_const_typedef f = true -> r3 = true) as Hr.
    { intros E. apply (preserve_phase_inv _ _ _ _ _ _ (fun acc => snd acc = true) _ _ H3); [|exact E].
      intros k i s acc acc' _ _ Hs Ha. apply on_sl_inv in Hs. destruct Hs as [->|[_ [E' _]]]; assumption. }
    intros G v g. cbn [add_cache ms_cache lookup]. destruct (beqb G F) eqn:E.
    - apply beqb_true in E. subst G. intros [= <-] Hg Hcet. rewrite Hf in Hg. injection Hg as <-. auto.
    - rewrite Ecache. apply Hc.
  Qed.

  Lemma pre_process_cet fuel : forall F st r,
    pre_process cp c p fuel F st = Ok r -> cache_cet st -> cache_cet (fst r).
  Proof.
    induction fuel as [|n IH]; intros F st r H Hc; [discriminate|].
    apply pre_process_inv in H. destruct H as [st1 [ret [f [H1 [_ H]]]]].
    apply kept_part_cet in H1; [|exact Hc].
    refine (fold_res_inv _ (fun a => cache_cet (fst a)) _ _ _ _ H H1).
    intros [i inc] a b Hin Hs Ha. destruct (pp_step_inv _ _ _ _ _ _ _ _ _ _ Hin Hs) as [tn [s' [m [_ [_ [Hp ->]]]]]].
    apply IH in Hp; [|exact Ha]. cbn [fst] in Hp. destruct m; cbn [fst]; [|exact Hp].
    intros G v g. rewrite mark_cache. apply Hp.
  Qed.

  (* after markAST: the files with always-kept definitions are reached from the main file *)
  Theorem kept_files_connected fuel fin :
    mark_ast matches cp c p fuel = Ok fin ->
    forall F f, below p (main_name p) F -> prog_file p F = Some f -> has_enum_const_typedef f = true ->
      pathm p fin (main_name p) F.
  Proof.
    intros H F f HB HF Hcet. destruct (mark_ast_inv _ _ _ _ _ _ H) as [mf [st1 [r1 [_ [_ [H1 [_ L12]]]]]]].
    assert (cache_cet st1) as Hc.
    { change st1 with (fst (st1, r1)). eapply pre_process_cet; [exact H1|]. intros G v' g HG. discriminate. }
    assert (cached st1 F) as [w Hw].
    { change st1 with (fst (st1, r1)). eapply pre_process_visits; [exact H1 | exact HB]. }
    assert (w = true) as -> by (eapply Hc; eauto).
    apply (pre_process_post cp c p) in H1. destruct H1 as [_ [_ C1]].
    eapply pathm_le; [exact L12|]. apply C1; [exact HB | exact Hw].
  Qed.
End Output.


Lemma nodup_length_le {A} (d : forall x y : A, {x = y} + {x <> y}) l : List.length (nodup d l) <= List.length l.
Proof. induction l as [|x l IH]; cbn; [lia|]. destruct (in_dec d x l); cbn; lia. Qed.

Lemma nodup_length_NoDup {A} (d : forall x y : A, {x = y} + {x <> y}) l :
  List.length (nodup d l) = List.length l -> NoDup l.
Proof.
  induction l as [|x l IH]; cbn; intros H; [constructor|].
  destruct (in_dec d x l) as [Hi|Hi].
  - pose proof (nodup_length_le d l). lia.
  - cbn in H. constructor; [exact Hi | apply IH; lia].
Qed.

Section WF.
  Variable cp : bytes -> bool.
  Variable c : cfg.
  Variable p : program.

  Lemma files_below_sound fuel : forall F acc G,
    In G (files_below p fuel F acc) -> In G acc \/ below p F G.
  Proof.
    induction fuel as [|n IH]; intros F acc G H; cbn [files_below] in H.
    - destruct (existsb _ acc); auto.
    - destruct (existsb _ acc); [auto|].
      destruct (prog_file p F) as [f|] eqn:Hf; [|auto].
      assert (forall l, (forall inc, In inc l -> In inc (f_includes f)) ->
                forall a, In G (fold_left (fun acc0 inc => match in_ref inc with
                                                           | Some tn => files_below p n tn acc0
                                                           | None => acc0
                                                           end) l a) -> In G a \/ below p F G) as Hl.
      { induction l as [|inc l IHl]; intros Hsub a Hin; cbn [fold_left] in Hin; [auto|].
        apply IHl in Hin; [|intros; apply Hsub; right; assumption]. destruct Hin as [Hin|Hin]; [|auto].
        destruct (in_ref inc) as [tn|] eqn:Er; [|auto].
        apply IH in Hin. destruct Hin as [Hin|Hin]; [auto|]. right.
        eapply below_step; [exact Hf | apply Hsub; left; reflexivity | exact Er | exact Hin]. }
      apply Hl in H; [|auto]. destruct H as [[<-|H]|H]; auto. right. apply below_refl.
  Qed.

  Record wf : Prop := {
    wf_types : types_wf p;
    wf_keys : NoDup (map fst p);
    wf_below : forall F f, prog_file p F = Some f -> below p (main_name p) F;
    wf_extends : extends_resolved p }.

  Theorem wf_program_sound : wf_program p = true -> wf.
  Proof.
    unfold wf_program. rewrite !andb_true_iff. intros [[[[Hne Hfiles] _] Hnd] Hbel].
    rewrite forallb_forall in Hfiles.
    assert (forall F f, prog_file p F = Some f -> file_wf p (F, f) = true) as Hfile.
    { intros F f HF. apply Hfiles. apply lookup_In. exact HF. }
    split.
    - intros F f HF t Ht t' Ht'. specialize (Hfile _ _ HF). unfold file_wf in Hfile. cbn [snd] in Hfile.
      rewrite !andb_true_iff in Hfile. destruct Hfile as [[[[Hty _] _] _] _].
      rewrite forallb_forall in Hty. apply Hty. unfold file_types. apply in_flat_map'. eauto.
    - apply Nat.eqb_eq in Hnd. eapply nodup_length_NoDup. rewrite map_length. exact Hnd.
    - intros F f HF. rewrite forallb_forall in Hbel. apply lookup_In in HF. specialize (Hbel _ HF).
      cbn [fst] in Hbel. apply existsb_exists in Hbel. destruct Hbel as [G [HG E]]. apply beqb_true in E. subst G.
      apply files_below_sound in HG. destruct HG as [[]|HG]. unfold main_name. exact HG.
    - intros F f s HF Hs Hne'. specialize (Hfile _ _ HF). unfold file_wf in Hfile. cbn [fst snd] in Hfile.
      rewrite !andb_true_iff in Hfile. destruct Hfile as [_ Hb]. rewrite forallb_forall in Hb.
      specialize (Hb _ Hs). apply orb_true_iff in Hb. destruct Hb as [Hb|Hb].
      + destruct (sv_extends s); [congruence | discriminate].
      + intros E. rewrite E in Hb. discriminate.
  Qed.
End WF.


Section Main.
  Variable matches : bytes -> bytes -> bool.
  Variable compiles : bytes -> bool.
  Variable cp : bytes -> bool.
  Variable c : cfg.
  Variable p : program.
  Hypothesis Hwf : wf p.

  Notation trim := (trim matches compiles cp c p).

  Definition marks_of (fin : mstate) : Prop := mark_ast matches cp c p (prog_size p) = Ok fin.

  Lemma trim_trimmed q : trim = Trimmed q ->
    exists fin, marks_of fin /\ reach cp c p false (prog_size p) fin (main_name p) [] = Ok q.
  Proof. apply trim_with_trimmed. Qed.

  Lemma output_entry fin q F qf :
    reach cp c p false (prog_size p) fin (main_name p) [] = Ok q -> In (F, qf) q ->
    exists pf, prog_file p F = Some pf /\ trim_file cp c p fin F pf = Ok qf.
  Proof.
    intros Hr He.
    exact (reach_entries _ _ _ _ _ _ _ _ _ Hr (fun e (H : In e []) => match H with end) _ He).
  Qed.

  Lemma file_in_output fin q F :
    marks_of fin -> reach cp c p false (prog_size p) fin (main_name p) [] = Ok q ->
    pathm p fin (main_name p) F -> exists qf, In (F, qf) q.
  Proof.
    intros Hm Hr Hp.
    assert (In F (map fst q)) as H.
    { eapply path_in_output; [exact Hr | exact Hp | eapply main_in_output; exact Hr]. }
    apply in_map_iff in H. destruct H as [[F' qf] [E H]]. cbn in E. subst. eauto.
  Qed.


  (* a needed struct-like is in the output, in its file, unchanged *)
  Theorem trim_sound_struct_like q fin F k i pf s :
    trim = Trimmed q -> marks_of fin ->
    needed cp c p (kept_methods c fin) (NStructLike F k i) ->
    prog_file p F = Some pf -> nth_error (sl_list k pf) i = Some s ->
    exists qf, In (F, qf) q /\ In s (sl_list k qf).
  Proof.
    intros Ht Hm Hn HF Hs. destruct Hwf as [W1 W2 W3 W4].
    destruct (trim_trimmed _ Ht) as [fin' [Hm' Hr]].
    unfold marks_of in *. rewrite Hm in Hm'. injection Hm' as <-.
    destruct (needed_marked matches cp c p W1 W2 W3 _ _ Hm (NStructLike F k i) Hn eq_refl) as [Mk|[_ [G [j E]]]]; [|discriminate].
    pose proof (marks_connected matches cp c p _ _ Hm (NStructLike F k i) eq_refl Mk) as Hp. cbn [node_file] in Hp.
    destruct (file_in_output _ _ _ Hm Hr Hp) as [qf Hq]. exists qf. split; [exact Hq|].
    destruct (output_entry _ _ _ _ Hr Hq) as [pf' [HF' Htf]]. rewrite HF in HF'. injection HF' as <-.
    eapply trim_file_struct_likes_conv; [exact Htf | exact Hs|].
    unfold keep_sl. cbn [fst]. rewrite Mk. reflexivity.
  Qed.


  Theorem trim_keeps_consts_typedefs_enums q F pf :
    trim = Trimmed q -> prog_file p F = Some pf -> has_enum_const_typedef pf = true ->
    exists qf, In (F, qf) q /\
      f_constants qf = f_constants pf /\ f_typedefs qf = f_typedefs pf /\ f_enums qf = f_enums pf.
  Proof.
    intros Ht HF Hc. destruct Hwf as [W1 W2 W3 W4].
    destruct (trim_trimmed _ Ht) as [fin [Hm Hr]].
    pose proof (kept_files_connected matches cp c p _ _ Hm _ _ (W3 _ _ HF) HF Hc) as Hp.
    destruct (file_in_output _ _ _ Hm Hr Hp) as [qf Hq]. exists qf. split; [exact Hq|].
    destruct (output_entry _ _ _ _ Hr Hq) as [pf' [HF' Htf]]. rewrite HF in HF'. injection HF' as <-.
    apply trim_file_always_kept in Htf. tauto.
  Qed.

  (* every file of the output keeps all its constants, typedefs and enums *)
  Theorem trim_output_file_keeps_all q F qf :
    trim = Trimmed q -> In (F, qf) q ->
    exists pf, prog_file p F = Some pf /\
      f_constants qf = f_constants pf /\ f_typedefs qf = f_typedefs pf /\ f_enums qf = f_enums pf /\
      f_namespaces qf = f_namespaces pf /\ f_filename qf = f_filename pf.
  Proof.
    intros Ht Hq. destruct (trim_trimmed _ Ht) as [fin [Hm Hr]].
    destruct (output_entry _ _ _ _ Hr Hq) as [pf [HF Htf]]. exists pf. split; [exact HF|].
    apply trim_file_always_kept in Htf. tauto.
  Qed.


  Theorem trim_minimal_struct_like q fin F qf k s :
    trim = Trimmed q -> marks_of fin -> In (F, qf) q -> In s (sl_list k qf) ->
    exists pf i, prog_file p F = Some pf /\ nth_error (sl_list k pf) i = Some s /\
                 needed cp c p (kept_methods c fin) (NStructLike F k i).
  Proof.
    intros Ht Hm Hq Hs. destruct Hwf as [W1 W2 W3 W4].
    destruct (trim_trimmed _ Ht) as [fin' [Hm' Hr]].
    unfold marks_of in *. rewrite Hm in Hm'. injection Hm' as <-.
    destruct (output_entry _ _ _ _ Hr Hq) as [pf [HF Htf]].
    destruct (trim_file_struct_likes _ _ _ _ _ _ _ _ _ Htf Hs) as [i [Hi Hk]].
    exists pf, i. split; [exact HF|]. split; [exact Hi|].
    unfold keep_sl in Hk. cbn [fst snd] in Hk. apply orb_true_iff in Hk. destruct Hk as [Hk|Hk].
    - apply marked_In in Hk. apply (final_marks_good matches cp c p _ _ W4 Hm) in Hk.
      eapply good_sl_needed; eauto.
    - rewrite check_preserve_preserved in Hk. eapply preserved_root; eauto.
  Qed.

  Theorem trim_minimal_include q fin F qf inc :
    trim = Trimmed q -> marks_of fin -> no_filter c = true -> In (F, qf) q -> In inc (f_includes qf) ->
    exists pf i inc0, prog_file p F = Some pf /\ nth_error (f_includes pf) i = Some inc0 /\
                      in_path inc = in_path inc0 /\ in_ref inc = in_ref inc0 /\
                      include_needed cp c p (kept_methods c fin) F i.
  Proof.
    intros Ht Hm Hnf Hq Hi. destruct Hwf as [W1 W2 W3 W4].
    destruct (trim_trimmed _ Ht) as [fin' [Hm' Hr]].
    unfold marks_of in *. rewrite Hm in Hm'. injection Hm' as <-.
    destruct (output_entry _ _ _ _ Hr Hq) as [pf [HF Htf]].
    destruct (trim_file_includes _ _ _ _ _ _ _ _ Htf Hi) as [i [inc0 [Hn [-> Hk]]]].
    exists pf, i, inc0. split; [exact HF|]. split; [exact Hn|]. split; [reflexivity|]. split; [reflexivity|].
    unfold keep_include in Hk. cbn [fst snd] in Hk.
    destruct (include_target p inc0) as [tf|] eqn:Et; [|discriminate]. injection Hk as Hk.
    assert (exists tn, in_ref inc0 = Some tn /\ prog_file p tn = Some tf /\
                       include_file p pf (Z.of_nat i) = Some (i, tn)) as [tn [Hr0 [Htn Hif]]].
    { unfold include_target in Et. destruct (in_ref inc0) as [tn|] eqn:Er; [|discriminate].
      exists tn. split; [reflexivity|]. split; [exact Et|].
      unfold include_file, nth_include. destruct (Z.of_nat i <? 0)%Z eqn:Ez; [apply Z.ltb_lt in Ez; lia|].
      rewrite Nat2Z.id, Hn, Er, Et. reflexivity. }
    apply orb_true_iff in Hk. destruct Hk as [Hk|Hk].
    - apply marked_In in Hk. apply (final_marks_good matches cp c p _ _ W4 Hm) in Hk.
      destruct Hk as [Hk|[G [j [[= <- <-] [E|Hk]]]]]; [left; exact Hk | congruence | right; exact Hk].
    - right. exists pf, tn, tn, tf. split; [exact HF|]. split; [exact Hif|]. split; [apply below_refl|].
      split; [exact Htn|]. unfold file_has_kept_part. cbn [snd]. rewrite Hk. reflexivity.
  Qed.


  Theorem trim_schema_preserved q F qf :
    trim = Trimmed q -> In (F, qf) q ->
    exists pf, prog_file p F = Some pf /\
      (forall k s, In s (sl_list k qf) -> In s (sl_list k pf)) /\
      f_typedefs qf = f_typedefs pf /\ f_enums qf = f_enums pf /\ f_constants qf = f_constants pf /\
      (forall sv, In sv (f_services qf) -> exists sv0, In sv0 (f_services pf) /\ sv_name sv = sv_name sv0 /\
                  forall fn, In fn (sv_functions sv) -> In fn (sv_functions sv0)).
  Proof.
    intros Ht Hq. destruct (trim_trimmed _ Ht) as [fin [Hm Hr]].
    destruct (output_entry _ _ _ _ Hr Hq) as [pf [HF Htf]]. exists pf. split; [exact HF|].
    split.
    { intros k s Hs. destruct (trim_file_struct_likes _ _ _ _ _ _ _ _ _ Htf Hs) as [i [Hi _]].
      eapply nth_error_In; eauto. }
    pose proof (trim_file_always_kept _ _ _ _ _ _ _ Htf) as [E1 [E2 [E3 _]]].
    split; [exact E2|]. split; [exact E3|]. split; [exact E1|].
    intros sv Hsv. apply (trim_file_services cp c p _ _ _ _ _ Htf) in Hsv. destruct Hsv as [i [s0 [Hi [_ ->]]]].
    exists s0. split; [eapply nth_error_In; eauto|]. split; [apply trim_service_name|].
    intros fn Hfn. apply trim_service_functions in Hfn. destruct Hfn as [j [Hj _]]. eapply nth_error_In; eauto.
  Qed.
End Main.


Lemma selects_matches matches pat name : selects matches pat name = true -> matches pat name = true.
Proof. unfold selects. intros H. apply andb_true_iff in H. tauto. Qed.

Section Filter.
  Variable matches : bytes -> bytes -> bool.
  Variable compiles : bytes -> bool.
  Variable cp : bytes -> bool.
  Variable c : cfg.
  Variable p : program.

  Definition service_at (F : bytes) (si : nat) (s : service) : Prop :=
    exists f, prog_file p F = Some f /\ nth_error (f_services f) si = Some s.

  (* [derives (G, gi) (F, si)]: service (F, si) is reached from (G, gi) through `extends` *)
  Inductive derives : bytes * nat -> bytes * nat -> Prop :=
  | d_refl x : derives x x
  | d_step G gi gs G' gi' via y :
      service_at G gi gs -> base_of p G gs = Some (NService G' gi', via) -> derives (G', gi') y ->
      derives (G, gi) y.

  Lemma derives_snoc x G gi gs G' gi' via :
    derives x (G, gi) -> service_at G gi gs -> base_of p G gs = Some (NService G' gi', via) ->
    derives x (G', gi').
  Proof.
    intros H Hs Hb. remember (G, gi) as y eqn:Ey. revert G gi gs Hs Hb Ey.
    induction H as [x | A ai as_ A' ai' via' y Hs' Hb' _ IH]; intros G gi gs Hs Hb Ey; subst.
    - eapply d_step; [exact Hs | exact Hb | apply d_refl].
    - eapply d_step; [exact Hs' | exact Hb'|]. eapply IH; eauto.
  Qed.

  Lemma base_service_at F f s bn bi b :
    prog_file p F = Some f -> base_service p F f s = Ok (Some (bn, bi, b)) -> service_at bn bi b.
  Proof.
    intros Hf. unfold base_service. destruct (sv_ref s) as [rf|].
    - destruct (include_file p f (ref_index rf)) as [[ii tn]|]; [|discriminate].
      destruct (prog_file p tn) as [tf|] eqn:Htf; [|discriminate].
      destruct (find_index _ _) as [[jj x]|] eqn:Efi; [|discriminate]. intros [= <- <- <-].
      apply find_index_some in Efi. exists tf. split; [exact Htf | exact (proj1 Efi)].
    - destruct (find_index _ _) as [[jj x]|] eqn:Efi; [|discriminate]. intros [= <- <- <-].
      apply find_index_some in Efi. exists f. split; [exact Hf | exact (proj1 Efi)].
  Qed.

  (* why a method was kept: some pattern matches its name qualified with the name of its
     own service or of a service that (transitively) extends it; for its own service
     the Go name is used when match_go_name is on *)
  Definition fn_selected (F : bytes) (si : nat) (s : service) (fn : function) : Prop :=
    exists pat, In pat (patterns c p) /\
      exists G gi gs, service_at G gi gs /\ derives (G, gi) (F, si) /\
        (matches pat (qualified (sv_name gs) (fn_name fn)) = true \/
         (G = F /\ gi = si /\ matches pat (service_func_name c s fn) = true)).

  Definition fn_ok (st : mstate) : Prop :=
    forall F si j, marked st (NFunction F si j) = true ->
      exists s fn, service_at F si s /\ nth_error (sv_functions s) j = Some fn /\ fn_selected F si s fn.

  Definition same_functions (a b : mstate) : Prop :=
    forall F s j, marked b (NFunction F s j) = true -> marked a (NFunction F s j) = true.
  Lemma same_functions_refl a : same_functions a a. Proof. intros F s j H. exact H. Qed.
  Lemma same_functions_trans a b d : same_functions a b -> same_functions b d -> same_functions a d.
  Proof. intros H1 H2 F s j H. auto. Qed.
  Lemma same_functions_mark n st : (forall F s j, n <> NFunction F s j) -> same_functions st (mark n st).
  Proof.
    intros Hn F s j H. apply marked_mark in H. destruct H as [H|H]; [|exact H].
    exfalso. eapply Hn. symmetry. exact H.
  Qed.
  Lemma same_functions_mark_ty n st : svc_fn n = false -> same_functions st (mark n st).
  Proof. intros H. apply same_functions_mark. intros F s j ->. discriminate. Qed.
  Lemma mark_types_functions fuel F ts st st' : mark_types p fuel F ts st = Ok st' -> same_functions st st'.
  Proof. apply (mark_types_R p same_functions same_functions_refl same_functions_trans same_functions_mark_ty). Qed.

  Lemma fn_ok_same a b : same_functions a b -> fn_ok a -> fn_ok b.
  Proof. intros H Ha F si j Hm. apply Ha. apply H. exact Hm. Qed.

  (* markFunction marks exactly one function *)
  Lemma mark_function_fn_ok fuel F f s si j fn st st' :
    prog_file p F = Some f -> nth_error (f_services f) si = Some s -> nth_error (sv_functions s) j = Some fn ->
    mark_function p fuel F si j fn st = Ok st' -> fn_selected F si s fn -> fn_ok st -> fn_ok st'.
  Proof.
    intros Hf Hs Hj H Hsel Hst. rewrite mark_function_types in H. apply mark_types_functions in H.
    intros F' si' j' Hm. apply H in Hm. apply marked_mark in Hm. destruct Hm as [[= -> -> ->]|Hm]; [|auto].
    exists s, fn. split; [exists f; auto|]. auto.
  Qed.

  Lemma fn_ok_mark_other n st : (forall F s j, n <> NFunction F s j) -> fn_ok st -> fn_ok (mark n st).
  Proof. intros Hn. apply fn_ok_same. apply same_functions_mark. exact Hn. Qed.

  Lemma mark_service_include_fn_ok F f s a b : mark_service_include p F f s a = Ok b -> fn_ok a -> fn_ok b.
  Proof.
    apply (mark_service_include_R p (fun a b => fn_ok a -> fn_ok b)); [auto|].
    intros G i st. apply fn_ok_mark_other. discriminate.
  Qed.

  Definition fathers_ok (fa : list bytes) (F : bytes) (si : nat) : Prop :=
    forall father, In father fa -> exists G gi gs, service_at G gi gs /\ sv_name gs = father /\ derives (G, gi) (F, si).

  Lemma trace_fn fuel fa F si st r :
    trace matches c p fuel fa F si st = Ok r -> fathers_ok fa F si -> fn_ok st -> fn_ok (fst r).
  Proof.
    revert fuel fa F si st r.
    apply (trace_ind matches c p (fun fa F si st r => fathers_ok fa F si -> fn_ok st -> fn_ok (fst r))).
    intros n fa F si f s st st1 ret1 st3 ret r Hrec Hf Hs H1 B E _ _ _ Hfa Hst.
    assert (fn_ok st1) as G1.
    { apply trace_own_rel with (R := fun a b => fn_ok (fst a) -> fn_ok (fst b)) in H1; [exact (H1 Hst) | auto | auto|].
      intros j fn father pat acc s' Hj Hfa' Hp Em Hz Ha. cbn [fst] in *.
      eapply mark_function_fn_ok; [exact Hf | exact Hs | exact Hj | exact Hz | | apply fn_ok_mark_other; [discriminate | exact Ha]].
      exists pat. split; [exact Hp|].
      destruct (Hfa father Hfa') as [G [gi [gs [Hg [En Hd]]]]].
      exists G, gi, gs. split; [exact Hg|]. split; [exact Hd|]. left. rewrite En. exact Em. }
    assert (fn_ok st3) as G3.
    { destruct B as [[_ [-> _]]|[Hne [bn [bi [b [st2 [back [Hb [H2 [-> _]]]]]]]]]]; [exact G1|].
      destruct (base_service_spec _ _ _ _ _ _ _ Hf Hne Hb) as [via [Hbo _]].
      pose proof (base_service_at _ _ _ _ _ _ Hf Hb) as Hsb.
      assert (fathers_ok (fa ++ [sv_name b]) bn bi) as Hfa'.
      { intros father Hin. apply in_app_iff in Hin. destruct Hin as [Hin|[<-|[]]].
        - destruct (Hfa _ Hin) as [G [gi [gs [Hg [En Hd]]]]]. exists G, gi, gs. split; [exact Hg|]. split; [exact En|].
          eapply derives_snoc; [exact Hd | exists f; eauto | exact Hbo].
        - exists bn, bi, b. split; [exact Hsb|]. split; [reflexivity | apply d_refl]. }
      pose proof (Hrec _ _ _ _ _ H2 Hfa' G1) as G2. cbn [fst] in G2.
      destruct back; [exact G2|]. intros F' si' j' Hm. apply G2. exact Hm. }
    destruct E as [[_ [st4 [H4 ->]]]|[_ ->]]; [|exact G3]. cbn [fst].
    eapply mark_service_include_fn_ok; [exact H4|]. apply fn_ok_mark_other; [discriminate | exact G3].
  Qed.

  Hypothesis Hfilter : filtering c = true.

  Lemma mark_service_fn fuel F si st st' : mark_service matches c p fuel F si st = Ok st' -> fn_ok st -> fn_ok st'.
  Proof.
    revert fuel F si st st'. apply (mark_service_ind matches c p (fun F si st st' => fn_ok st -> fn_ok st')); [auto|].
    intros n F si f s st st1 st2 st' Hrec Hf Hs _ H1 H2 T _ _ _ Hst.
    unfold svc_own in H1. rewrite Hfilter in H1, H2.
    assert (service_at F si s) as Hsa by (exists f; auto).
    assert (fn_ok st1) as G1.
    { refine (fold_res_inv _ fn_ok _ _ _ _ H1 Hst).
      intros [j fn] a b Hj. apply indexed_In in Hj. apply (fold_res_inv _ fn_ok).
      intros pat a1 b1 Hp Hz Ha. unfold sstep in Hz. cbn [fst snd] in Hz.
      destruct (selects matches pat (service_func_name c s fn)) eqn:Em; [|injection Hz as <-; exact Ha].
      eapply mark_function_fn_ok; [exact Hf | exact Hs | exact Hj | exact Hz | | apply fn_ok_mark_other; [discriminate | exact Ha]].
      exists pat. split; [exact Hp|].
      exists F, si, s. split; [exact Hsa|]. split; [apply d_refl|]. right.
      split; [reflexivity|]. split; [reflexivity|]. apply selects_matches. exact Em. }
    assert (fn_ok st2) as G2.
    { destruct (true && _).
      - apply bind_ok in H2. destruct H2 as [r [H2 H3]]. injection H3 as <-.
        eapply trace_fn; [exact H2 | | exact G1].
        intros father [<-|[]]. exists F, si, s. split; [exact Hsa|]. split; [reflexivity | apply d_refl].
      - injection H2 as <-. exact G1. }
    destruct T as [[-> _]|[_ [_ [st3 [nb [H3 [Hb H]]]]]]]; [exact G2|].
    apply mark_service_include_fn_ok in H3; [|exact G2].
    destruct nb as [[[bn bi] b]|]; [eapply Hrec; eauto | injection H as <-; exact H3].
  Qed.

  Lemma pre_process_functions fuel F st r : pre_process cp c p fuel F st = Ok r -> same_functions st (fst r).
  Proof.
    apply (pre_process_R cp c p same_functions same_functions_refl same_functions_trans same_functions_mark_ty).
    intros G v a _ H s j Hm. exact Hm.
  Qed.

  Theorem final_functions_selected fuel fin : mark_ast matches cp c p fuel = Ok fin -> fn_ok fin.
  Proof.
    intros H. destruct (mark_ast_inv _ _ _ _ _ _ H) as [f [st1 [r1 [_ [_ [H1 [H2 _]]]]]]].
    apply pre_process_functions in H1. cbn [fst] in H1.
    refine (fold_res_inv _ fn_ok _ _ _ _ H2 _).
    - intros is a b _ Hx. eapply mark_service_fn; eauto.
    - eapply fn_ok_same; [exact H1|]. intros F si j Hm'. discriminate.
  Qed.

  (* with a method filter only matching methods remain *)
  Theorem method_filter_only_matching q F qf sv fn :
    trim matches compiles cp c p = Trimmed q -> In (F, qf) q -> In sv (f_services qf) -> In fn (sv_functions sv) ->
    exists si s0, service_at F si s0 /\ sv_name sv = sv_name s0 /\ In fn (sv_functions s0) /\
                  fn_selected F si s0 fn.
  Proof.
    intros Ht Hq Hsv Hfn. destruct (trim_trimmed _ _ _ _ _ _ Ht) as [fin [Hm Hr]].
    destruct (output_entry _ _ _ _ _ _ _ Hr Hq) as [pf [HF Htf]].
    pose proof (final_functions_selected _ _ Hm) as Hok.
    apply (trim_file_services cp c p _ _ _ _ _ Htf) in Hsv. destruct Hsv as [i [s0 [Hin [_ ->]]]].
    apply trim_service_functions in Hfn. destruct Hfn as [j [Hj Hmk]]. specialize (Hmk Hfilter).
    exists i, s0. split; [exists pf; auto|]. split; [apply trim_service_name|]. split; [eapply nth_error_In; eauto|].
    destruct (Hok _ _ _ Hmk) as [s1 [fn1 [[f1 [Hf1 Hs1]] [Hj1 Hsel]]]].
    rewrite HF in Hf1. injection Hf1 as <-. rewrite Hin in Hs1. injection Hs1 as <-.
    rewrite Hj in Hj1. injection Hj1 as <-. exact Hsel.
  Qed.
End Filter.


Definition w_compiles (_ : bytes) : bool := true.
Definition w_preserves (_ : bytes) : bool := false.

Definition w_first : outcome := trim_resolved w_matches w_compiles w_preserves w_cfg w_program.
Definition w_second : outcome :=
  match w_first with
  | Trimmed q => trim_resolved w_matches w_compiles w_preserves w_cfg q
  | other => other
  end.

Definition outcome_program (o : outcome) : program := match o with Trimmed q => q | _ => [] end.

Lemma w_program_wf : wf_program w_program = true.
Proof. vm_compute. reflexivity. Qed.

(* trimming the trimmed program again changes it: `extends` of S was cleared by the first
   run, so the second run applies markService's stricter rule (fooBar goes) and drops the
   include the first run left behind.  The statement records that the two outputs differ
   and have 2 resp. 1 files. *)
Theorem trim_not_idempotent_with_filter :
  exists q q2, w_first = Trimmed q /\ w_second = Trimmed q2 /\ program_eqb q q2 = false /\
               List.length q = 2 /\ List.length q2 = 1.
Proof.
  exists (outcome_program w_first), (outcome_program w_second).
  split; [vm_compute; reflexivity|]. split; [vm_compute; reflexivity|].
  split; [vm_compute; reflexivity|]. split; vm_compute; reflexivity.
Qed.

(* the include of a.thrift survives the first run although nothing needs it *)
Definition w_q : program :=
  Eval vm_compute in outcome_program (trim w_matches w_compiles w_preserves w_cfg w_program).
Definition w_fin : mstate :=
  Eval vm_compute in match mark_ast w_matches w_preserves w_cfg w_program (prog_size w_program) with
                     | Ok s => s
                     | _ => ms0
                     end.
Definition w_qf : file := Eval vm_compute in match w_q with (_, f) :: _ => f | [] => empty_file [] end.
Definition w_inc : include :=
  Eval vm_compute in match f_includes w_qf with i :: _ => i | [] => Include [] None None end.

Theorem trim_include_not_minimal_with_filter :
  trim w_matches w_compiles w_preserves w_cfg w_program = Trimmed w_q /\
  mark_ast w_matches w_preserves w_cfg w_program (prog_size w_program) = Ok w_fin /\
  In (main_name w_program, w_qf) w_q /\ In w_inc (f_includes w_qf) /\
  (exists pf, prog_file w_program (main_name w_program) = Some pf /\
              nth_error (f_includes pf) 0 = Some (Include (in_path w_inc) (in_ref w_inc) (Some true))) /\
  ~ include_needed w_preserves w_cfg w_program (kept_methods w_cfg w_fin) (main_name w_program) 0.
Proof.
  split; [vm_compute; reflexivity|]. split; [vm_compute; reflexivity|].
  split; [vm_compute; auto|]. split; [vm_compute; auto|].
  split; [eexists; split; vm_compute; reflexivity|].
  intros [Hn|Hl].
  - (* not needed: the computed closure does not contain it *)
    destruct (needed_nodes w_preserves w_cfg w_program (kept_methods w_cfg w_fin)) as [l|] eqn:El;
      [|vm_compute in El; discriminate].
    apply (needed_nodes_spec _ _ _ _ _ El) in Hn.
    vm_compute in El. injection El as <-.
    cbn in Hn. repeat (destruct Hn as [Hn|Hn]; [discriminate|]). exact Hn.
  - (* the file behind it has no constant, typedef, enum or preserved struct-like *)
    destruct Hl as [f [tn [G [gf [Hf [Hi [Hb [Hg Hk]]]]]]]].
    vm_compute in Hf. injection Hf as <-. vm_compute in Hi. injection Hi as <-.
    inversion Hb as [|F0 f0 inc0 G0 H0 Hf0 Hinc Hr0 Hb0]; subst.
    + vm_compute in Hg. injection Hg as <-. vm_compute in Hk. discriminate.
    + vm_compute in Hf0. injection Hf0 as <-. destruct Hinc.
Qed.


Section FilterComplete.
  Variable matches : bytes -> bytes -> bool.
  Variable compiles : bytes -> bool.
  Variable cp : bytes -> bool.
  Variable c : cfg.
  Variable p : program.

  Definition fn_at (T : bytes * nat) (j : nat) (ts : service) (g : function) : Prop :=
    service_at p (fst T) (snd T) ts /\ nth_error (sv_functions ts) j = Some g.

  Definition both_marked (st : mstate) (T : bytes * nat) (j : nat) : Prop :=
    marked st (NService (fst T) (snd T)) = true /\ marked st (NFunction (fst T) (snd T) j) = true.

  Lemma both_marked_le a b T j : le a b -> both_marked a T j -> both_marked b T j.
  Proof. intros L [H1 H2]. split; eapply le_marked; eauto. Qed.

  (* every function of every service reached from X through `extends` that matches under
     one of the names in [fa] is marked *)
  Definition trace_complete (st : mstate) (fa : list bytes) (X : bytes * nat) : Prop :=
    forall T j ts g father pat, derives p X T -> fn_at T j ts g -> In father fa -> In pat (patterns c p) ->
      matches pat (qualified father (fn_name g)) = true -> both_marked st T j.

  Lemma trace_complete_le a b fa X : le a b -> trace_complete a fa X -> trace_complete b fa X.
  Proof. intros L H T j ts g father pat Hd Hf Hi Hp Hm. eapply both_marked_le; eauto. Qed.

  Lemma service_at_fun F si s s' : service_at p F si s -> service_at p F si s' -> s = s'.
  Proof. intros [f [H1 H2]] [f' [H1' H2']]. congruence. Qed.

  Lemma derives_inv F si s T : derives p (F, si) T -> service_at p F si s ->
    T = (F, si) \/ exists b1 b2 via, base_of p F s = Some (NService b1 b2, via) /\ derives p (b1, b2) T.
  Proof.
    intros H Hs. inversion H as [x|G gi gs G' gi' via y Hs' Hb Hd]; subst; [left; reflexivity|].
    right. rewrite (service_at_fun _ _ _ _ Hs Hs'). eauto.
  Qed.

  Definition le_fst (a b : mstate * bool) : Prop := le (fst a) (fst b).

  Lemma le_fst_refl a : le_fst a a. Proof. apply le_refl. Qed.
  Lemma le_fst_trans a b d : le_fst a b -> le_fst b d -> le_fst a d. Proof. apply le_trans. Qed.

  Lemma mark_function_both fuel F si j fn st st' :
    mark_function p fuel F si j fn (mark (NService F si) st) = Ok st' -> le st st' /\ both_marked st' (F, si) j.
  Proof.
    intros H. apply mark_function_marks in H. destruct H as [L M].
    split; [eapply le_trans; [apply le_mark | exact L]|].
    split; [eapply le_marked; [exact L|]; apply marked_mark; auto | exact M].
  Qed.

  Lemma own_loop_patterns fuel F si jf father pats a b :
    fold_res (step3 matches p fuel F si jf father) pats a = Ok b ->
    le_fst a b /\ forall pat, In pat pats -> matches pat (qualified father (fn_name (snd jf))) = true ->
                                          both_marked (fst b) (F, si) (fst jf).
  Proof.
    apply (fold_res_all (step3 matches p fuel F si jf father) le_fst
             (fun pat acc => matches pat (qualified father (fn_name (snd jf))) = true ->
                             both_marked (fst acc) (F, si) (fst jf)) pats le_fst_refl le_fst_trans).
    - intros pat a2 b2 _ Hp. unfold step3 in Hp.
      destruct (matches pat (qualified father (fn_name (snd jf)))) eqn:Em.
      + apply bind_ok in Hp. destruct Hp as [s' [Hm Hr]]. injection Hr as <-.
        apply mark_function_both in Hm. split; [exact (proj1 Hm) | intros _; exact (proj2 Hm)].
      + injection Hp as <-. split; [apply le_refl | discriminate].
    - intros pat a2 b2 L Hb Hm. eapply both_marked_le; [exact L | exact (Hb Hm)].
  Qed.

  Lemma trace_own_loop fuel fa F si s st st1 ret1 :
    trace_own matches c p fuel fa F si s st = Ok (st1, ret1) ->
    forall j g father pat, nth_error (sv_functions s) j = Some g -> In father fa -> In pat (patterns c p) ->
      matches pat (qualified father (fn_name g)) = true -> both_marked st1 (F, si) j.
  Proof.
    intros H.
    apply (fold_res_all2 _ le_fst
             (fun jf father acc => forall pat, In pat (patterns c p) ->
                 matches pat (qualified father (fn_name (snd jf))) = true -> both_marked (fst acc) (F, si) (fst jf))
             _ _ le_fst_refl le_fst_trans) in H.
    - destruct H as [_ H]. intros j g father pat Hj Hf Hp Hm.
      exact (H (j, g) (proj2 (indexed_In _ _ _) Hj) father Hf pat Hp Hm).
    - intros jf father a2 b2 _ _. apply own_loop_patterns.
    - intros jf father a2 b2 L Hb pat Hp Hm. eapply both_marked_le; [exact L | exact (Hb pat Hp Hm)].
  Qed.

  Lemma trace_cpost fuel fa F si st r :
    trace matches c p fuel fa F si st = Ok r -> trace_complete (fst r) fa (F, si).
  Proof.
    revert fuel fa F si st r. apply (trace_ind matches c p (fun fa F si st r => trace_complete (fst r) fa (F, si))).
    intros n fa F si f s st st1 ret1 st3 ret r Hrec Hf Hs H1 B _ _ L13 L3r.
    pose proof (trace_own_loop _ _ _ _ _ _ _ _ H1) as Own.
    assert (service_at p F si s) as Hsa by (exists f; auto).
    eapply trace_complete_le; [exact L3r|].
    intros T j ts g father pat Hd [Hts Hj] Hfa Hp Hm.
    destruct B as [[Enil [-> _]]|[Hne [bn [bi [b [st2 [back [Hb [H2 [-> _]]]]]]]]]].
    - destruct (derives_inv _ _ _ _ Hd Hsa) as [->|[b1 [b2 [via [Hb _]]]]].
      + cbn [fst snd] in Hts. rewrite (service_at_fun _ _ _ _ Hts Hsa) in Hj. eapply Own; eauto.
      + unfold base_of in Hb. rewrite Enil in Hb. discriminate.
    - destruct (base_service_spec _ _ _ _ _ _ _ Hf Hne Hb) as [via [Hbo _]].
      pose proof (trace_le _ _ _ _ _ _ _ _ _ H2) as L2. cbn [fst] in L2.
      apply Hrec in H2. cbn [fst] in H2.
      destruct (derives_inv _ _ _ _ Hd Hsa) as [->|[b1 [b2 [via' [Hb' Hd']]]]].
      + cbn [fst snd] in Hts. rewrite (service_at_fun _ _ _ _ Hts Hsa) in Hj.
        eapply both_marked_le; [exact L13|]. eapply Own; eauto.
      + eapply both_marked_le; [destruct back; [apply le_refl | apply le_add_ext]|].
        rewrite Hbo in Hb'. injection Hb' as <- <- _.
        eapply H2; [exact Hd' | split; eauto | apply in_or_app; left; exact Hfa | exact Hp | exact Hm].
  Qed.

  Hypothesis Hfilter : filtering c = true.
  Hypothesis Hgo : c_go_name c = false.

  Definition own_selects (st : mstate) (F : bytes) (si : nat) (s : service) : Prop :=
    forall j g pat, nth_error (sv_functions s) j = Some g -> In pat (patterns c p) ->
      selects matches pat (service_func_name c s g) = true -> both_marked st (F, si) j.

  Definition complete (st : mstate) (F : bytes) (si : nat) (s : service) : Prop :=
    own_selects st F si s /\ (has_ext s = true -> trace_complete st [sv_name s] (F, si)).

  Lemma complete_le a b F si s : le a b -> complete a F si s -> complete b F si s.
  Proof.
    intros L [H1 H2]. split.
    - intros j g pat Hj Hp Hs. eapply both_marked_le; [exact L | eapply H1; eauto].
    - intros He. eapply trace_complete_le; [exact L | auto].
  Qed.

  Lemma func_name_raw s g : service_func_name c s g = qualified (sv_name s) (fn_name g).
  Proof. unfold service_func_name. rewrite Hgo. reflexivity. Qed.

  Lemma complete_of_trace st fa F si s :
    service_at p F si s -> In (sv_name s) fa -> trace_complete st fa (F, si) -> complete st F si s.
  Proof.
    intros Hs Hin Ht. split.
    - intros j g pat Hj Hp Hsel. rewrite func_name_raw in Hsel. apply selects_matches in Hsel.
      eapply (Ht (F, si) j s g (sv_name s) pat); [apply d_refl | split; [exact Hs | exact Hj] | exact Hin | exact Hp | exact Hsel].
    - intros _ T j ts g father pat Hd Hf [<-|[]] Hp Hm. eapply Ht; eauto.
  Qed.

  Definition only_svc (F : bytes) (si : nat) (a b : mstate) : Prop :=
    forall G gi, marked b (NService G gi) = true -> marked a (NService G gi) = true \/ (G = F /\ gi = si).
  Lemma only_svc_refl F si a : only_svc F si a a. Proof. intros G gi H. auto. Qed.
  Lemma only_svc_trans F si a b d : only_svc F si a b -> only_svc F si b d -> only_svc F si a d.
  Proof. intros H1 H2 G gi H. apply H2 in H. destruct H as [H|H]; auto. Qed.
  Lemma only_svc_same F si a b : same_services a b -> only_svc F si a b.
  Proof. intros H G gi Hm. left. apply H. exact Hm. Qed.
  Lemma only_svc_mark F si a : only_svc F si a (mark (NService F si) a).
  Proof. intros G gi H. apply marked_mark in H. destruct H as [[= -> ->]|H]; auto. Qed.

  Lemma trace_loop_only fuel fa F si s st r :
    trace_own matches c p fuel fa F si s st = Ok r -> only_svc F si st (fst r).
  Proof.
    apply trace_own_rel with (R := fun a b => only_svc F si (fst a) (fst b));
      [intros; apply only_svc_refl | intros ? ? ?; apply only_svc_trans|].
    intros j fn father pat acc s' _ _ _ _ Hm. cbn [fst].
    apply mark_function_services in Hm.
    eapply only_svc_trans; [apply only_svc_mark | apply only_svc_same; exact Hm].
  Qed.

  Lemma trace_end_only F si f s st3 ret r : trace_end p F si f s st3 ret r -> only_svc F si st3 (fst r).
  Proof.
    intros [[_ [st4 [H4 ->]]]|[_ ->]]; [|apply only_svc_refl].
    eapply only_svc_trans; [apply only_svc_mark | apply only_svc_same; eapply mark_service_include_services; exact H4].
  Qed.

  (* one call marks no service but (F, si) outside the recursive call st1 -> st2 *)
  Lemma only_svc_new F si st st1 st2 st3 st' G gi :
    only_svc F si st st1 -> marked st3 (NService G gi) = marked st2 (NService G gi) -> only_svc F si st3 st' ->
    marked st' (NService G gi) = true -> marked st (NService G gi) = false ->
    (G = F /\ gi = si) \/ (marked st2 (NService G gi) = true /\ marked st1 (NService G gi) = false).
  Proof.
    intros O1 E23 O3 Hm H0. destruct (O3 _ _ Hm) as [M3|E]; [|left; exact E].
    destruct (marked st1 (NService G gi)) eqn:M1; [|right; split; congruence].
    destruct (O1 _ _ M1) as [M0|E]; [congruence | left; exact E].
  Qed.

  Lemma trace_npost fuel fa F si s st r :
    trace matches c p fuel fa F si st = Ok r -> service_at p F si s -> In (sv_name s) fa ->
    forall G gi gs, service_at p G gi gs -> marked (fst r) (NService G gi) = true ->
      marked st (NService G gi) = false -> complete (fst r) G gi gs.
  Proof.
    intros H. generalize (trace_cpost _ _ _ _ _ _ H). revert s. revert fuel fa F si st r H.
    apply (trace_ind matches c p (fun fa F si st r => forall s, trace_complete (fst r) fa (F, si) ->
             service_at p F si s -> In (sv_name s) fa ->
             forall G gi gs, service_at p G gi gs -> marked (fst r) (NService G gi) = true ->
               marked st (NService G gi) = false -> complete (fst r) G gi gs)).
    intros n fa F si f s' st st1 ret1 st3 ret r Hrec Hf Hs H1 B E _ _ L3 s Hcomp Hsa Hin G gi gs Hg Hm H0.
    apply trace_loop_only in H1. cbn [fst] in H1. apply trace_end_only in E.
    assert (G = F /\ gi = si -> complete (fst r) G gi gs) as Hown.
    { intros [-> ->]. rewrite (service_at_fun _ _ _ _ Hg Hsa). eapply complete_of_trace; eauto. }
    destruct B as [[_ [-> _]]|[_ [bn [bi [b [st2 [back [Hb [H2 [-> _]]]]]]]]]].
    - destruct (only_svc_new _ _ _ _ _ _ _ _ _ H1 eq_refl E Hm H0) as [EG|[M2 M1]]; [exact (Hown EG) | congruence].
    - assert (marked (if back then st2 else add_ext F si st2) (NService G gi) = marked st2 (NService G gi)) as E23
        by (destruct back; reflexivity).
      destruct (only_svc_new _ _ _ _ _ _ _ _ _ H1 E23 E Hm H0) as [EG|[M2 M1]]; [exact (Hown EG)|].
      (* newly marked by the call for the base service, which has its name among the fathers *)
      eapply complete_le; [eapply le_trans; [|exact L3]; destruct back; [apply le_refl | apply le_add_ext]|].
      eapply (Hrec _ _ _ _ _ H2 b (trace_cpost _ _ _ _ _ _ H2)).
      + eapply base_service_at; eauto.
      + apply in_or_app. right. left. reflexivity.
      + exact Hg.
      + exact M2.
      + exact M1.
  Qed.

  Lemma svc_own_loop fuel F si s a b :
    fold_res (fun jf st0 => fold_res (sstep matches c p fuel F si s jf) (patterns c p) st0) (indexed (sv_functions s)) a = Ok b ->
    only_svc F si a b /\ own_selects b F si s.
  Proof.
    intros H. split.
    - revert H. apply fold_res_rel; [apply only_svc_refl | apply only_svc_trans|].
      intros jf a1 b1 _. apply fold_res_rel; [apply only_svc_refl | apply only_svc_trans|].
      intros pat a2 b2 _. unfold sstep. destruct (selects _ _ _); [|intros [= <-]; apply only_svc_refl].
      intros Hm. apply mark_function_services in Hm.
      eapply only_svc_trans; [apply only_svc_mark | apply only_svc_same; exact Hm].
    - apply (fold_res_all2 (sstep matches c p fuel F si s) le
               (fun jf pat st => selects matches pat (service_func_name c s (snd jf)) = true -> both_marked st (F, si) (fst jf))
               _ _ le_refl le_trans) in H.
      + destruct H as [_ H]. intros j g pat Hj Hp Hs. exact (H (j, g) (proj2 (indexed_In _ _ _) Hj) pat Hp Hs).
      + intros jf pat a2 b2 _ _ Hp. unfold sstep in Hp.
        destruct (selects matches pat (service_func_name c s (snd jf))) eqn:Es.
        * apply mark_function_both in Hp. split; [exact (proj1 Hp) | intros _; exact (proj2 Hp)].
        * injection Hp as <-. split; [apply le_refl | discriminate].
      + intros jf pat a2 b2 L Hb Hs. eapply both_marked_le; [exact L | exact (Hb Hs)].
  Qed.

  Section NewServices.
  (* a property of a service in a state, kept by further marking, that the call of
     traceExtendMethod in markService ([st1]: the state after the loop over the own functions)
     establishes for the service itself and for the services it newly marks: then every
     service newly marked by markService, and in the end by markAST, has it *)
  Variable P : mstate -> bytes -> nat -> service -> Prop.
  Hypothesis P_le : forall a b F si s, le a b -> P a F si s -> P b F si s.
  Hypothesis P_trace : forall fuel F si s st1 st2,
    service_at p F si s -> own_selects st1 F si s ->
    (if has_ext s then bind (trace matches c p fuel [sv_name s] F si st1) (fun r => Ok (fst r)) else Ok st1) = Ok st2 ->
    P st2 F si s /\
    (forall G gi gs, service_at p G gi gs -> marked st2 (NService G gi) = true ->
       marked st1 (NService G gi) = false -> P st2 G gi gs).

  Lemma mark_service_new fuel F si s st st' :
    mark_service matches c p fuel F si st = Ok st' -> service_at p F si s ->
    (marked st (NService F si) = false -> P st' F si s) /\
    (forall G gi gs, service_at p G gi gs -> marked st' (NService G gi) = true ->
       marked st (NService G gi) = false -> P st' G gi gs).
  Proof.
    intros H. revert s. revert fuel F si st st' H.
    apply (mark_service_ind matches c p (fun F si st st' => forall s, service_at p F si s ->
             (marked st (NService F si) = false -> P st' F si s) /\
             (forall G gi gs, service_at p G gi gs -> marked st' (NService G gi) = true ->
                marked st (NService G gi) = false -> P st' G gi gs))).
    { intros F si st Em s _. split; [congruence|]. intros G gi gs _ H1 H0. congruence. }
    intros n F si f s0 st st1 st2 st' Hrec Hf Hs Em H1 H2 T _ _ L3 s Hsa.
    assert (s0 = s) as -> by (destruct Hsa as [f' [Hf' Hs']]; congruence).
    unfold svc_own in H1. rewrite Hfilter in H1, H2. cbn [andb] in H2.
    apply svc_own_loop in H1. destruct H1 as [O1 Own1].
    destruct (P_trace (S n) F si s st1 st2 Hsa Own1 H2) as [C2 N2].
    (* the rest only marks through the recursive call *)
    assert (forall G gi gs, service_at p G gi gs -> marked st' (NService G gi) = true ->
              marked st2 (NService G gi) = false -> P st' G gi gs) as N3.
    { destruct T as [[-> _]|[_ [_ [st3 [nb [H3 [Hb H]]]]]]]; [intros; congruence|].
      pose proof (mark_service_include_services _ _ _ _ _ _ H3) as S3.
      destruct nb as [[[bn bi] b]|].
      - destruct (Hrec _ _ _ _ H b (base_service_at p _ _ _ _ _ _ Hf Hb)) as [_ N4].
        intros G gi gs Hg Hm H0. apply N4; [exact Hg | exact Hm|].
        destruct (marked st3 (NService G gi)) eqn:E; [|reflexivity]. apply S3 in E. congruence.
      - injection H as <-. intros G gi gs _ Hm H0. apply S3 in Hm. congruence. }
    split.
    - intros _. eapply P_le; [exact L3 | exact C2].
    - intros G gi gs Hg Hm H0.
      destruct (marked st2 (NService G gi)) eqn:E2; [|apply N3; assumption].
      eapply P_le; [exact L3|].
      destruct (marked st1 (NService G gi)) eqn:E1; [|apply N2; assumption].
      destruct (O1 _ _ E1) as [M|[-> ->]]; [congruence|].
      rewrite (service_at_fun _ _ _ _ Hg Hsa). exact C2.
  Qed.

  (* after markAST every marked service has the property, and so has every service of the main file *)
  Theorem mark_ast_new fuel fin :
    mark_ast matches cp c p fuel = Ok fin ->
    (forall G gi gs, service_at p G gi gs -> marked fin (NService G gi) = true -> P fin G gi gs) /\
    (forall f i s, prog_main p = Some f -> nth_error (f_services f) i = Some s -> P fin (main_name p) i s).
  Proof.
    intros H. destruct (mark_ast_inv _ _ _ _ _ _ H) as [f [st1 [r1 [Hm [Hf [H1 [H2 _]]]]]]].
    (* the services newly marked by the loop have the property; a main service has it after its
       turn unless it was marked before *)
    set (R := fun a b : mstate => le a b /\
                forall G gi gs, service_at p G gi gs -> marked b (NService G gi) = true ->
                  marked a (NService G gi) = false -> P b G gi gs).
    destruct (fold_res_all (fun is : nat * service => mark_service matches c p fuel (main_name p) (fst is)) R
                (fun is b => marked b (NService (main_name p) (fst is)) = true \/
                             P b (main_name p) (fst is) (snd is))
                (indexed (f_services f))) with (5 := H2) as [[_ N2] C2].
    - intros a. split; [apply le_refl | intros; congruence].
    - intros a b d [La Na] [Lb Nb]. split; [eapply le_trans; eauto|]. intros G gi gs Hg Hd Ha.
      destruct (marked b (NService G gi)) eqn:E; [eapply P_le; [exact Lb | apply Na; auto] | apply Nb; auto].
    - intros [j sj] a b Hin Hx. apply indexed_In in Hin. cbn [fst snd] in *.
      pose proof (mark_service_le matches c p fuel _ _ _ _ Hx) as La.
      destruct (mark_service_new _ _ _ _ _ _ Hx (ex_intro _ f (conj Hf Hin))) as [C1 N1].
      split; [split; [exact La | exact N1]|].
      destruct (marked a (NService (main_name p) j)) eqn:E; [left; eapply le_marked; eauto | right; apply C1; reflexivity].
    - intros is a b [L _] [Hp|Hp]; [left; eapply le_marked; eauto | right; eapply P_le; eauto].
    - assert (forall G gi gs, service_at p G gi gs -> marked fin (NService G gi) = true -> P fin G gi gs) as Hall.
      { intros G gi gs Hg Hmk. apply N2; [exact Hg | exact Hmk|].
        destruct (marked st1 (NService G gi)) eqn:E; [|reflexivity].
        apply (pre_process_services _ _ _ _ _ _ _ H1) in E. discriminate. }
      split; [exact Hall|]. intros f' i s Hm' Hi. rewrite Hm in Hm'. injection Hm' as <-.
      destruct (C2 (i, s) (proj2 (indexed_In _ _ _) Hi)) as [Hmk|Hc]; [apply Hall; [exists f; auto | exact Hmk] | exact Hc].
  Qed.
  End NewServices.

  Lemma complete_trace fuel F si s st1 st2 :
    service_at p F si s -> own_selects st1 F si s ->
    (if has_ext s then bind (trace matches c p fuel [sv_name s] F si st1) (fun r => Ok (fst r)) else Ok st1) = Ok st2 ->
    complete st2 F si s /\
    (forall G gi gs, service_at p G gi gs -> marked st2 (NService G gi) = true ->
       marked st1 (NService G gi) = false -> complete st2 G gi gs).
  Proof.
    intros Hsa Own1 H2. destruct (has_ext s) eqn:Ee.
    - apply bind_ok in H2. destruct H2 as [[s2 r2] [H2 H3]]. injection H3 as <-. cbn [fst].
      pose proof (trace_le matches c p fuel _ _ _ _ _ H2) as L. cbn [fst] in L.
      split.
      + split; [intros j g pat Hj Hp Hsel; eapply both_marked_le; [exact L | eapply Own1; eauto]|].
        intros _. apply (trace_cpost _ _ _ _ _ _ H2).
      + intros G gi gs Hg Hm H0.
        exact (trace_npost fuel _ _ _ s _ _ H2 Hsa (or_introl eq_refl) G gi gs Hg Hm H0).
    - injection H2 as <-. split; [split; [exact Own1 | intros E; rewrite Ee in E; discriminate E]|].
      intros G gi gs _ Hm H0. congruence.
  Qed.

  (* method_filter, the "if" half: after markAST every service of the main file is complete:
     each of its methods selected by markService's rule is marked, and when it extends another
     service every method of every service reached through `extends` that matches a pattern
     under the main service's name is marked (with its service) *)
  Theorem method_filter_complete fuel fin f i s :
    mark_ast matches cp c p fuel = Ok fin -> prog_main p = Some f -> nth_error (f_services f) i = Some s ->
    complete fin (main_name p) i s.
  Proof.
    intros H Hm Hi.
    exact (proj2 (mark_ast_new complete complete_le complete_trace _ _ H) _ _ _ Hm Hi).
  Qed.

  (* ... and what is marked in this way is in the trimmed program *)
  Theorem marked_function_in_output q fin T j ts g :
    trim matches compiles cp c p = Trimmed q -> marks_of matches cp c p fin ->
    both_marked fin T j -> fn_at T j ts g ->
    exists qf sv, In (fst T, qf) q /\ In sv (f_services qf) /\ sv_name sv = sv_name ts /\ In g (sv_functions sv).
  Proof.
    intros Ht Hm [Ms Mf] [[f [Hf Hs]] Hj].
    destruct (trim_trimmed _ _ _ _ _ _ Ht) as [fin' [Hm' Hr]].
    unfold marks_of in *. rewrite Hm in Hm'. injection Hm' as <-.
    pose proof (marks_connected matches cp c p _ _ Hm (NService (fst T) (snd T)) eq_refl Ms) as Hp. cbn [node_file] in Hp.
    destruct (file_in_output matches cp c p _ _ _ Hm Hr Hp) as [qf Hq].
    destruct (output_entry _ _ _ _ _ _ _ Hr Hq) as [pf [HF Htf]]. rewrite Hf in HF. injection HF as <-.
    exists qf, (trim_service c fin (fst T) (snd T, ts)). split; [exact Hq|].
    split; [apply (trim_file_services cp c p _ _ _ _ _ Htf); exists (snd T), ts; auto|].
    split; [apply trim_service_name|]. apply trim_service_functions. exists j. auto.
  Qed.
End FilterComplete.


Section Survive.
  Variable matches : bytes -> bytes -> bool.
  Variable compiles : bytes -> bool.
  Variable cp : bytes -> bool.
  Variable c : cfg.
  Variable p : program.
  Hypothesis Hwf : wf p.

  Definition node_survives (q : program) (m : node) : Prop :=
    match m with
    | NStructLike G k i => exists pg s gq, prog_file p G = Some pg /\ nth_error (sl_list k pg) i = Some s /\
                                           In (G, gq) q /\ In s (sl_list k gq)
    | NEnum G i => exists pg e gq, prog_file p G = Some pg /\ nth_error (f_enums pg) i = Some e /\
                                   In (G, gq) q /\ In e (f_enums gq)
    | NTypedef G i => exists pg d gq, prog_file p G = Some pg /\ nth_error (f_typedefs pg) i = Some d /\
                                      In (G, gq) q /\ In d (f_typedefs gq)
    | NInclude G i => exists pg inc0 gq, prog_file p G = Some pg /\ nth_error (f_includes pg) i = Some inc0 /\
                                         In (G, gq) q /\ In (Include (in_path inc0) (in_ref inc0) None) (f_includes gq)
    | NService G i => exists pg s gq sv, prog_file p G = Some pg /\ nth_error (f_services pg) i = Some s /\
                                         In (G, gq) q /\ In sv (f_services gq) /\ sv_name sv = sv_name s
    | NFunction _ _ _ => True
    end.

  Variable q : program.
  Variable fin : mstate.
  Hypothesis Hm : mark_ast matches cp c p (prog_size p) = Ok fin.
  Hypothesis Hr : reach cp c p false (prog_size p) fin (main_name p) [] = Ok q.

  Lemma entry F qf : In (F, qf) q -> exists pf, prog_file p F = Some pf /\ trim_file cp c p fin F pf = Ok qf.
  Proof. apply output_entry. exact Hr. Qed.

  Lemma include_kept F qf pf j tn :
    In (F, qf) q -> prog_file p F = Some pf -> include_file p pf (Z.of_nat j) = Some (j, tn) ->
    marked fin (NInclude F j) = true ->
    node_survives q (NInclude F j) /\ exists gq, In (tn, gq) q.
  Proof.
    intros Hq Hpf Hi Mk. destruct (entry _ _ Hq) as [pf' [Hpf' Htf]]. rewrite Hpf in Hpf'. injection Hpf' as <-.
    destruct (trim_file_marked_include _ _ _ _ _ _ _ _ _ Htf Hi Mk) as [inc0 [Hn [Hr0 Hin]]].
    split; [exists pf, inc0, qf; auto|].
    destruct (reach_closed _ _ _ _ _ _ _ _ _ Hr _ Hq) as [[]|Hc].
    specialize (Hc _ tn Hin Hr0). apply in_map_iff in Hc. destruct Hc as [[tn' gq] [E Hc]]. cbn in E. subst. eauto.
  Qed.

  Lemma denotes_survive F qf t :
    In (F, qf) q ->
    (forall m, In m (ty_denotes p F t) -> needs_mark m = true -> marked fin m = true) ->
    forall m, In m (ty_denotes p F t) -> node_survives q m.
  Proof.
    intros Hq Hmk. destruct (entry _ _ Hq) as [pf [Hpf Htf]].
    unfold ty_denotes in *. destruct (ty_target_file p F t) as [[bn via]|] eqn:Et; [|intros m []].
    (* the file the type points into is in the output *)
    assert ((forall m, In m via -> node_survives q m) /\ exists gq, In (bn, gq) q) as [Hvia [gq Hgq]].
    { unfold ty_target_file in Et. destruct (ty_ref t) as [r|].
      - rewrite Hpf in Et. destruct (include_file p pf (ref_index r)) as [[j tn]|] eqn:Ei; [|discriminate].
        injection Et as <- <-.
        destruct (include_kept _ _ _ _ _ Hq Hpf (include_file_of_nat _ _ _ _ _ Ei)) as [S1 S2].
        { apply Hmk; [left; reflexivity | reflexivity]. }
        split; [intros m [<-|[]]; exact S1 | exact S2].
      - injection Et as <- <-. split; [intros m [] | eauto]. }
    intros m Hin. apply in_app_iff in Hin. destruct Hin as [Hin|Hin]; [auto|].
    destruct (entry _ _ Hgq) as [pg [Hpg Htg]]. rewrite Hpg in Hin, Hmk.
    pose proof (trim_file_always_kept _ _ _ _ _ _ _ Htg) as [_ [Etd [Een _]]].
    destruct (ty_is_typedef t).
    - destruct (find_index _ _) as [[i d]|] eqn:Efi; [|destruct Hin]. destruct Hin as [<-|[]].
      apply find_index_some in Efi. destruct Efi as [Hn _].
      exists pg, d, gq. rewrite Etd. repeat split; auto. eapply nth_error_In; eauto.
    - destruct (category_sl_kind (ty_category t)) as [k|].
      + destruct (find_index _ _) as [[i s]|] eqn:Efi; [|destruct Hin]. destruct Hin as [<-|[]].
        apply find_index_some in Efi. destruct Efi as [Hn _].
        exists pg, s, gq. repeat split; auto.
        eapply trim_file_struct_likes_conv; [exact Htg | exact Hn|].
        unfold keep_sl. cbn [fst]. rewrite Hmk; [reflexivity | apply in_or_app; right; left; reflexivity | reflexivity].
      + destruct (ty_category t); try destruct Hin.
        destruct (find_index _ _) as [[i e]|] eqn:Efi; [|destruct Hin]. destruct Hin as [<-|[]].
        apply find_index_some in Efi. destruct Efi as [Hn _].
        exists pg, e, gq. rewrite Een. repeat split; auto. eapply nth_error_In; eauto.
  Qed.

  Lemma tys_nodes_survive F qf ts :
    In (F, qf) q ->
    (forall m, In m (tys_nodes p F ts) -> needs_mark m = true -> marked fin m = true) ->
    forall m, In m (tys_nodes p F ts) -> node_survives q m.
  Proof.
    intros Hq Hmk m Hin. unfold tys_nodes in Hin. apply in_flat_map in Hin. destruct Hin as [t [Ht Hin]].
    unfold ty_nodes in Hin. apply in_flat_map in Hin. destruct Hin as [t' [Ht' Hin]].
    eapply denotes_survive; [exact Hq | | exact Hin].
    intros m' Hm' Hn. apply Hmk; [|exact Hn].
    unfold tys_nodes. apply in_flat_map. exists t. split; [exact Ht|].
    unfold ty_nodes. apply in_flat_map. exists t'. auto.
  Qed.

  Lemma final_ok_fin : final_ok cp c p fin.
  Proof. destruct Hwf as [W1 W2 W3 W4]. eapply mark_ast_final; eauto. Qed.

  Lemma fin_roots F pf : prog_file p F = Some pf -> roots_marked cp c p fin F.
  Proof.
    intros HF. destruct final_ok_fin as [[_ Hrd] Hca _ _]. destruct (Hca _ _ HF) as [v Hv]. eapply Hrd; eauto.
  Qed.

  Lemma output_struct_like F pf qf k s :
    prog_file p F = Some pf -> trim_file cp c p fin F pf = Ok qf -> In s (sl_list k qf) ->
    exists i, nth_error (sl_list k pf) i = Some s /\ marked fin (NStructLike F k i) = true.
  Proof.
    intros Hpf Htf Hs. destruct (trim_file_struct_likes _ _ _ _ _ _ _ _ _ Htf Hs) as [i [Hi Hk]].
    exists i. split; [exact Hi|].
    unfold keep_sl in Hk. cbn [fst snd] in Hk. apply orb_true_iff in Hk. destruct Hk as [Hk|Hk]; [exact Hk|].
    rewrite check_preserve_preserved in Hk. destruct (fin_roots _ _ Hpf pf Hpf) as [_ [_ R3]]. eapply R3; eauto.
  Qed.

  Lemma output_function F pf qf sv fn :
    prog_file p F = Some pf -> trim_file cp c p fin F pf = Ok qf -> In sv (f_services qf) -> In fn (sv_functions sv) ->
    exists i s0 j, nth_error (f_services pf) i = Some s0 /\ nth_error (sv_functions s0) j = Some fn /\
                   marked fin (NFunction F i j) = true.
  Proof.
    intros Hpf Htf Hsv Hfn. apply (trim_file_services cp c p _ _ _ _ _ Htf) in Hsv. destruct Hsv as [i [s0 [Hi [Mks ->]]]].
    apply trim_service_functions in Hfn. destruct Hfn as [j [Hj Mf]]. exists i, s0, j. split; [exact Hi|]. split; [exact Hj|].
    destruct (filtering c) eqn:Ef; [auto|]. destruct final_ok_fin as [_ _ Hsv _].
    destruct (Hsv Ef _ _ Mks _ _ Hpf Hi) as [Hall _]. eapply Hall; eauto.
  Qed.

  (* every type reference of every definition left in the output denotes a definition (and
     goes through an include) that is left in the output *)
  Theorem references_survive F qf :
    In (F, qf) q ->
    (forall k s m, In s (sl_list k qf) -> In m (tys_nodes p F (map fd_type (sl_fields s))) -> node_survives q m) /\
    (forall m, In m (tys_nodes p F (map td_type (f_typedefs qf))) -> node_survives q m) /\
    (forall m, In m (tys_nodes p F (map co_type (f_constants qf))) -> node_survives q m) /\
    (forall sv fn m, In sv (f_services qf) -> In fn (sv_functions sv) ->
                     In m (tys_nodes p F (function_types fn)) -> node_survives q m).
  Proof.
    intros Hq. destruct (entry _ _ Hq) as [pf [Hpf Htf]].
    destruct final_ok_fin as [[Hcl _] _ _ _].
    destruct (fin_roots _ _ Hpf pf Hpf) as [R1 [R2 _]].
    pose proof (trim_file_always_kept _ _ _ _ _ _ _ Htf) as [Eco [Etd _]].
    split; [|split; [|split]].
    - intros k s m Hs Hin. destruct (output_struct_like _ _ _ _ _ Hpf Htf Hs) as [i [Hi Mk]].
      eapply tys_nodes_survive; [exact Hq | | exact Hin].
      intros m' Hm' Hn. specialize (Hcl _ Mk). cbn in Hcl. eapply Hcl; eauto.
    - rewrite Etd. intros m Hin. eapply tys_nodes_survive; [exact Hq | exact R2 | exact Hin].
    - rewrite Eco. intros m Hin. eapply tys_nodes_survive; [exact Hq | exact R1 | exact Hin].
    - intros sv fn m Hsvin Hfn Hin. destruct (output_function _ _ _ _ _ Hpf Htf Hsvin Hfn) as [i [s0 [j [Hi [Hj Mf]]]]].
      eapply tys_nodes_survive; [exact Hq | | exact Hin].
      intros m' Hm' Hn. specialize (Hcl _ Mf). cbn in Hcl. eapply Hcl; eauto.
  Qed.

  (* without a filter the base service of a kept service, and the include it is written
     through, are left in the output *)
  Theorem base_service_survives F qf i s0 b via :
    filtering c = false -> In (F, qf) q ->
    service_at p F i s0 -> marked fin (NService F i) = true -> base_of p F s0 = Some (b, via) ->
    node_survives q b /\ forall m, In m via -> node_survives q m.
  Proof.
    intros Hnf Hq [pf [Hpf Hi]] Mk Hb. destruct final_ok_fin as [_ _ Hsv _].
    destruct (Hsv Hnf _ _ Mk _ _ Hpf Hi) as [_ Hbase]. destruct (Hbase _ _ Hb) as [Mb Mv].
    unfold base_of in Hb. destruct (sv_extends s0); [discriminate|]. rewrite Hpf in Hb.
    assert (forall G gi gq x, In (G, gq) q -> service_at p G gi x -> marked fin (NService G gi) = true ->
              node_survives q (NService G gi)) as Hsvc.
    { intros G gi gq x Hgq [pg [Hpg Hx]] Mg. destruct (entry _ _ Hgq) as [pg' [Hpg' Htg]].
      rewrite Hpg in Hpg'. injection Hpg' as <-.
      exists pg, x, gq, (trim_service c fin G (gi, x)). repeat split; auto.
      - apply (trim_file_services cp c p _ _ _ _ _ Htg). exists gi, x. auto.
      - apply trim_service_name. }
    destruct (sv_ref s0) as [r|].
    - destruct (include_file p pf (ref_index r)) as [[j tn]|] eqn:Ei; [|discriminate].
      destruct (prog_file p tn) as [tf|] eqn:Htf; [|discriminate].
      destruct (find_index _ _) as [[gi x]|] eqn:Efi; [|discriminate]. injection Hb as <- <-.
      apply find_index_some in Efi. destruct Efi as [Hx _].
      destruct (include_kept _ _ _ _ _ Hq Hpf (include_file_of_nat _ _ _ _ _ Ei)) as [S1 [gq Hgq]].
      { apply Mv. left. reflexivity. }
      split; [|intros m [<-|[]]; exact S1].
      eapply Hsvc; [exact Hgq | exists tf; eauto | exact Mb].
    - destruct (find_index _ _) as [[gi x]|] eqn:Efi; [|discriminate]. injection Hb as <- <-.
      apply find_index_some in Efi. destruct Efi as [Hx _].
      split; [|intros m []]. eapply Hsvc; [exact Hq | exists pf; eauto | exact Mb].
  Qed.
End Survive.

(* the proved half of idempotence: a file in which everything is kept is a fixed point of
   traversal *)

Lemma map_snd_indexed {A} (l : list A) : map snd (indexed l) = l.
Proof.
  unfold indexed. generalize 0. induction l as [|x l IH]; intros n; cbn; [reflexivity|]. f_equal. apply IH.
Qed.

Lemma filter_all {A} (f : A -> bool) l : (forall x, In x l -> f x = true) -> filter f l = l.
Proof.
  induction l as [|x l IH]; intros H; cbn; [reflexivity|].
  rewrite (H x (or_introl eq_refl)). f_equal. apply IH. intros y Hy. apply H. right. exact Hy.
Qed.

Lemma filter_res_all {A} (f : A -> res bool) l : (forall x, In x l -> f x = Ok true) -> filter_res f l = Ok l.
Proof.
  induction l as [|x l IH]; intros H; cbn; [reflexivity|].
  rewrite (H x (or_introl eq_refl)). cbn. rewrite IH; [reflexivity|]. intros y Hy. apply H. right. exact Hy.
Qed.

Section FixedPoint.
  Variable cp : bytes -> bool.
  Variable c : cfg.
  Variable p : program.

  (* traversal's only effect on such a file: Include.Used and Name2Category are reset *)
  Definition reset_file (f : file) : file :=
    File (f_filename f) (map (fun inc => Include (in_path inc) (in_ref inc) None) (f_includes f))
         (f_cpp_includes f) (f_namespaces f) (f_typedefs f) (f_constants f) (f_enums f)
         (f_structs f) (f_unions f) (f_exceptions f) (f_services f) None.

  Definition everything_kept (st : mstate) (F : bytes) (f : file) : Prop :=
    (forall ii, In ii (indexed (f_includes f)) -> keep_include p st F ii = Ok true) /\
    (forall k is, In is (indexed (sl_list k f)) -> keep_sl cp c st F k is = true) /\
    (forall i s, In (i, s) (indexed (f_services f)) ->
       marked st (NService F i) = true /\ in_ext st F i = false /\
       forall jf, In jf (indexed (sv_functions s)) -> marked st (NFunction F i (fst jf)) = true).

  Theorem trim_file_fixpoint st F f : everything_kept st F f -> trim_file cp c p st F f = Ok (reset_file f).
  Proof.
    intros [Hi [Hs Hv]]. unfold trim_file, reset_file.
    rewrite (filter_res_all _ _ Hi). cbn [bind].
    pose proof (Hs SKStruct) as H1. pose proof (Hs SKUnion) as H2. pose proof (Hs SKException) as H3.
    cbn [sl_list] in H1, H2, H3.
    rewrite (filter_all _ _ H1), (filter_all _ _ H2), (filter_all _ _ H3). rewrite !map_snd_indexed.
    rewrite filter_all by (intros [i s] Hin; apply (Hv i s Hin)).
    do 2 f_equal.
    - rewrite <- (map_snd_indexed (f_includes f)) at 2. rewrite map_map. reflexivity.
    - rewrite <- (map_snd_indexed (f_services f)) at 2. apply map_ext_in.
      intros [i s] Hin. destruct (Hv i s Hin) as [_ [He Hf]]. unfold trim_service. cbn [fst snd]. rewrite He.
      assert ((if filtering c
               then map snd (filter (fun jf => marked st (NFunction F i (fst jf))) (indexed (sv_functions s)))
               else sv_functions s) = sv_functions s) as ->.
      { destruct (filtering c); [|reflexivity]. rewrite (filter_all _ _ Hf). apply map_snd_indexed. }
      destruct s; reflexivity.
  Qed.
End FixedPoint.
