(* Idl/AcceptSound.v — property C04, the theorems.  An accepted program violates no
   AST-level rule of the catalogue, in any file reachable through include statements
   (the per-file facts are in Idl/AcceptBackend.v); getEnum terminates on acyclic typedef
   graphs (and only there); the command-line stage; witnesses: inputs that violate a
   rule and are accepted. *)
From Coq Require Import List Bool Arith Lia ZArith.
From Coq.Strings Require Import Byte String.
From Verif Require Import Base.Bytes Idl.Ast Idl.AstUtil Idl.AstFacts Idl.Resolve Idl.ResolveSpec Idl.ResolveTd
     Idl.ResolveLemmas Idl.ResolveInv Idl.ResolveProg Idl.ResolveDeref Idl.ResolveFacts Idl.ResolveFuel
     Idl.ResolvableSpec Idl.ResolveComplete
     Idl.Check Idl.Rules Idl.RulesKinds Idl.CheckFacts Idl.Accept Idl.AcceptBackend.
Import ListNotations.
Local Open Scope resolve_scope.

Lemma some_type_name_ok st p fn f : st <> NsOk ->
  (forall o, In o (file_occs f) -> type_name_status p fn f (ty_name o) = NsOk) -> some_type_name st p fn f = false.
Proof.
  intros Hst H. unfold some_type_name. apply existsb_false. intros o Ho. rewrite (H o Ho).
  destruct st; [congruence | reflexivity | reflexivity].
Qed.

Record file_ok (p : program) (fn : bytes) (f : file) : Prop := {
  fo_clean : file_clean f;
  fo_global : dup_global f = false;
  fo_undefined : some_type_name NsUndefined p fn f = false;
  fo_nontype : some_type_name NsNotAType p fn f = false;
  fo_base : unknown_base_service p fn f = false;
  fo_tdcycle : typedef_cycle p fn f = false;
  fo_consts : plain_names p = true -> undefined_const p fn f = false /\ ambiguous_const p fn f = false }.

Theorem accepted_file_ok p b : accepts p b = AOk ->
  forall fn f, reach p fn -> prog_file p fn = Some f -> file_ok p fn f.
Proof.
  intros Ha fn f Hr Pf. destruct (accepts_front p b Ha) as (r & order & Hfe & _).
  destruct (front_end_ok p r order Hfe) as (_ & Hord & Hck & Hrs).
  destruct (resolve_program_run p r Hrs) as (done & Hinv & Htr & Hall & _).
  destruct (Hall fn Hr) as (f' & L). destruct (stepped_at p done fn f f' Htr Pf L) as (d1 & I1 & T1 & R1).
  destruct (file_types_ok p d1 fn f f' I1 Pf T1 R1) as (Hty & Hbase).
  destruct (Hinv fn f' L) as (g & Pg & Gd). assert (g = f) by congruence. subst g.
  constructor.
  - exact (proj1 (check_order_ok p order Hord) Hck fn f Hr Pf).
  - exact (nodup_dup_global f (gd_nodup _ _ _ _ _ Gd)).
  - apply some_type_name_ok; [discriminate | exact Hty].
  - apply some_type_name_ok; [discriminate | exact Hty].
  - exact Hbase.
  - exact (good_no_typedef_cycle p done fn f f' Pf Gd).
  - intros Hpl. exact (file_consts_ok p d1 fn f f' I1 Hpl Pf T1 R1).
Qed.

Lemma fold_closure_incl r k : (forall visited fn, incl visited (scope_closure k r visited fn)) ->
  forall refs v, incl v (fold_left (scope_closure k r) refs v).
Proof.
  intros H. induction refs as [|h refs IHr]; intros v; cbn [fold_left]; [apply incl_refl|].
  eapply incl_tran; [apply H | apply IHr].
Qed.

Lemma scope_closure_incl r : forall fuel visited fn, incl visited (scope_closure fuel r visited fn).
Proof.
  induction fuel as [|k IH]; intros visited fn; cbn [scope_closure]; [apply incl_refl|].
  destruct (memb fn visited); [apply incl_refl|]. destruct (prog_file r fn) as [g|]; [|apply incl_refl].
  intros x Hx. apply (fold_closure_incl r k IH). right. exact Hx.
Qed.

Lemma scope_closure_self r k fn g : prog_file r fn = Some g -> In fn (scope_closure (S k) r [] fn).
Proof.
  intros Pr. cbn [scope_closure memb existsb]. rewrite Pr.
  apply (fold_closure_incl r k (scope_closure_incl r k)). left. reflexivity.
Qed.

(* with -r every reachable file gets a Scope; without, at least the main file *)
Lemma scope_files_in p r order b fn f f' :
  dfs_order p = Some order -> resolve_program p = Ok r -> reach p fn -> prog_file p fn = Some f ->
  prog_file r fn = Some f' -> (be_recursive b = true \/ exists rest, p = (fn, f) :: rest) ->
  In fn (scope_files r order b).
Proof.
  intros Hord Hrs Hr Pf Pr Hpos.
  assert (Ho : In fn order) by (apply (dfs_order_spec p order Hord); split; [exact Hr | congruence]).
  unfold scope_files. destruct (be_recursive b); [exact Ho|]. destruct Hpos as [Hrec|(rest & Ep)]; [discriminate|].
  destruct r as [|[m mf] rest'] eqn:Er; [discriminate|].
  assert (m = fn) by (unfold resolve_program in Hrs; rewrite Ep in Hrs; inv_bind Hrs; cbn [map fst] in Hrs; congruence).
  subst m. rewrite <- Er in *. eapply scope_closure_self; eauto.
Qed.

(* the shape of every "the main file ..." predicate: the main file is reachable *)
Lemma main_file_false p (bad : bytes -> file -> bool) :
  (forall fn f rest, p = (fn, f) :: rest -> reach p fn -> prog_file p fn = Some f -> bad fn f = false) ->
  main_file p bad = false.
Proof.
  intros H. unfold main_file. destruct p as [|[m mf] rest] eqn:Ep; [reflexivity|]. rewrite <- Ep in *.
  apply (H m mf rest Ep); [eapply reach_main; exact Ep|].
  rewrite Ep. unfold prog_file. cbn [lookup]. rewrite beqb_refl. reflexivity.
Qed.

Theorem accepted_file_kinds p b : accepts p b = AOk ->
  forall fn f, reach p fn -> prog_file p fn = Some f ->
  (be_recursive b = true \/ exists rest, p = (fn, f) :: rest) ->
  kind_mismatch p fn f = false /\ struct_literal_bad_key p fn f = false.
Proof.
  intros Ha fn f Hr Pf Hpos. destruct (accepts_front p b Ha) as (r & order & Hfe & Hbk).
  destruct (front_end_ok p r order Hfe) as (_ & Hord & _ & Hrs).
  destruct (resolve_program_run p r Hrs) as (done & Hinv & Htr & Hall & Hres).
  destruct (Hall fn Hr) as (f' & L). destruct (stepped_at p done fn f f' Htr Pf L) as (d1 & I1 & T1 & R1).
  assert (Pr : prog_file r fn = Some f') by (rewrite Hres, L; reflexivity).
  pose proof (first_err_none _ _ Hbk fn (scope_files_in p r order b fn f f' Hord Hrs Hr Pf Pr Hpos)) as Hc.
  exact (check_scope_kinds p d1 fn f f' Pf R1 r Pr Hc).
Qed.

(* the rules acceptance excludes for every program, every position, both backends *)
Definition always_excluded (r : rule) : bool :=
  match r with
  | IncludeCycle | DupGlobal | DupField | DupFieldId | DupFunction | DupEnumName | DupEnumNumber
  | EnumOutOfInt32 | UndefinedType | NonTypeAsType | TypedefCycle | OnewayReturns | OnewayThrows
  | UnknownBaseService | SecondUnionDefault => true
  | _ => false
  end.

Theorem accepts_sound p b : accepts p b = AOk -> forall r, always_excluded r = true -> violates r p = false.
Proof.
  intros Ha r Hr. destruct r; try discriminate Hr; cbn [violates].
  { destruct (accepts_front p b Ha) as (r' & order & Hfe & _).
    exact (circle_detect_complete p (proj1 (front_end_ok p r' order Hfe))). }
  (* every other rule is "some reachable file has ...", and its per-file predicate is a field of
     [file_ok]: DupGlobal [G], UndefinedType [U], NonTypeAsType [N], UnknownBaseService [B], TypedefCycle [T];
     the remaining nine are conjuncts of [file_clean] ([C]) *)
  all: apply some_file_false; intros fn f R Pf; destruct (accepted_file_ok p b Ha fn f R Pf) as [C G U N B T _].
  all: unfold file_clean in C; tauto.
Qed.

(* identifiers: for programs whose definition names are plain identifiers *)
Theorem accepts_sound_consts p b : accepts p b = AOk -> plain_names p = true ->
  violates UndefinedConst p = false /\ violates AmbiguousConst p = false.
Proof.
  intros Ha Hpl. pose proof (accepted_file_ok p b Ha) as Hok. cbn [violates].
  split; apply some_file_false; intros fn f R Pf; destruct (fo_consts _ _ _ (Hok fn f R Pf) Hpl); assumption.
Qed.

(* kinds of values: with -r every reachable file; without, the main file *)
Theorem accepts_sound_kinds p b : accepts p b = AOk -> be_recursive b = true ->
  violates ConstKindMismatch p = false /\ violates StructLiteralBadKey p = false.
Proof.
  intros Ha Hrec. cbn [violates].
  split; apply some_file_false; intros fn f R Pf;
    destruct (accepted_file_kinds p b Ha fn f R Pf (or_introl Hrec)); assumption.
Qed.

Theorem accepts_sound_kinds_main p b : accepts p b = AOk ->
  main_file p (kind_mismatch p) = false /\ main_file p (struct_literal_bad_key p) = false.
Proof.
  intros Ha. split; apply main_file_false; intros fn f rest Ep R Pf;
    apply (accepted_file_kinds p b Ha fn f R Pf (or_intror (ex_intro _ rest Ep))).
Qed.

Corollary diagnosed p b r : always_excluded r = true -> violates r p = true -> accepts p b <> AOk.
Proof. intros Hr Hv Ha. rewrite (accepts_sound p b Ha r Hr) in Hv. discriminate. Qed.

(* The kind errors of constant and default values for every way the declared type can
   be written (Idl/RulesKinds.v).  The resolved image of a type has the category of what
   its name denotes (C05: resolve_category), semantic.Deref arrives at the denoted
   struct-like with the fuel the model uses (C05: deref_spec_fuel), and resolution changes
   neither the shape of types nor anything of a value but the bindings of identifiers; so
   [kind_check] on the resolved program rejects whatever [spec_kind] flags on the parsed one. *)

Fixpoint ty_sim (t t2 : ty) {struct t} : Prop :=
  match t with
  | Ty n k v _ _ _ _ _ =>
    ty_name t2 = n /\
    match builtin_category n with
    | Some CatMap =>
      match k, ty_key t2 with Some x, Some y => ty_sim x y | _, _ => False end /\
      match v, ty_value t2 with Some x, Some y => ty_sim x y | _, _ => False end
    | Some CatList | Some CatSet =>
      match v, ty_value t2 with Some x, Some y => ty_sim x y | _, _ => False end
    | _ => True
    end
  end.

Lemma fix_ty_inv d g st n k v cpp an c r td t2 :
  fix_ty d g st (Ty n k v cpp an c r td) = Ok t2 ->
  ty_name t2 = n /\
  match k with Some x => exists y, ty_key t2 = Some y /\ fix_ty d g st x = Ok y | None => ty_key t2 = None end /\
  match v with Some x => exists y, ty_value t2 = Some y /\ fix_ty d g st x = Ok y | None => ty_value t2 = None end.
Proof.
  cbn [fix_ty]. intros H. inv_bind H. rename x into k', x0 into v'.
  assert (Hk : match k with Some x => exists y, k' = Some y /\ fix_ty d g st x = Ok y | None => k' = None end).
  { destruct k as [x|]; [inv_bind E; injection E as <-; eauto | injection E as <-; reflexivity]. }
  assert (Hv : match v with Some x => exists y, v' = Some y /\ fix_ty d g st x = Ok y | None => v' = None end).
  { destruct v as [x|]; [inv_bind E0; injection E0 as <-; eauto | injection E0 as <-; reflexivity]. }
  assert (Hform : exists c', t2 = Ty n k' v' cpp an c' r td).
  { destruct (is_typedef_cat c); [|injection H as <-; eauto].
    destruct (match r with Some rf => ext_typedef_cat d g rf | None => te_lookup st n end) as [c'|]; [|discriminate].
    destruct (is_typedef_cat c'); [discriminate|]. injection H as <-. eauto. }
  destruct Hform as (c' & ->). cbn [ty_name ty_key ty_value]. auto.
Qed.

Lemma kept_sim d g st : forall t t1 t2, resolve_ty d g t = Ok t1 -> fix_ty d g st t1 = Ok t2 -> ty_sim t t2.
Proof.
  induction t as [n k v cpp an cat r td IHk IHv] using ty_ind'. intros t1 t2 H1 H2.
  cbn [resolve_ty] in H1. cbn [ty_sim]. destruct (builtin_category n) as [c|] eqn:Bn.
  - destruct c;
      try (injection H1 as <-; destruct (fix_ty_inv _ _ _ _ _ _ _ _ _ _ _ _ H2) as (Hn & _); split; [exact Hn | exact I]).
    + (* map *)
      destruct k as [kt|]; [|discriminate]. destruct v as [vt|]; [|cbn [bind] in H1; inv_bind H1; discriminate].
      inv_bind H1. injection H1 as <-. destruct (fix_ty_inv _ _ _ _ _ _ _ _ _ _ _ _ H2) as (Hn & (y1 & Hk2 & Fk) & (y2 & Hv2 & Fv)).
      split; [exact Hn|]. rewrite Hk2, Hv2. split; [exact (IHk kt eq_refl _ _ E Fk) | exact (IHv vt eq_refl _ _ E0 Fv)].
    + destruct v as [vt|]; [|discriminate]. inv_bind H1. injection H1 as <-.
      destruct (fix_ty_inv _ _ _ _ _ _ _ _ _ _ _ _ H2) as (Hn & _ & (y2 & Hv2 & Fv)).
      split; [exact Hn|]. rewrite Hv2. exact (IHv vt eq_refl _ _ E Fv).
    + destruct v as [vt|]; [|discriminate]. inv_bind H1. injection H1 as <-.
      destruct (fix_ty_inv _ _ _ _ _ _ _ _ _ _ _ _ H2) as (Hn & _ & (y2 & Hv2 & Fv)).
      split; [exact Hn|]. rewrite Hv2. exact (IHv vt eq_refl _ _ E Fv).
  - assert (Hf : exists c r' td', t1 = Ty n k v cpp an c r' td').
    { destruct (split_type n) as [|a [|m [|? ?]]]; try discriminate.
      - destruct (lookup a (n2c_of g)) as [c|]; [|discriminate]. destruct (is_type_cat c); [|discriminate]. injection H1 as <-. eauto.
      - destruct (find_include d is_type_cat a m (f_includes g) 0) as [[idx c]|]; [|discriminate]. injection H1 as <-. eauto. }
    destruct Hf as (c & r' & td' & ->). destruct (fix_ty_inv _ _ _ _ _ _ _ _ _ _ _ _ H2) as (Hn & _). split; [exact Hn | exact I].
Qed.

(* [l2] is the resolved form of [l] ([strip] forgets what resolution adds): where the
   specification finds its first defect in [l], the backend has stopped in [l2] *)
Lemma first_defect_err {A B} (h : A -> option kdefect) (chk : A -> option const_error) (strip : A -> B) l l2 d :
  map strip l2 = map strip l -> first_defect h l = Some d ->
  (forall x x2 d', strip x2 = strip x -> h x = Some d' -> chk x2 <> None) ->
  first_err chk l2 <> None.
Proof.
  intros Hmap Hs Hstep. revert l Hmap Hs. induction l2 as [|x2 l2 IH]; intros [|x l] Hmap Hs; try discriminate.
  cbn [map] in Hmap. injection Hmap as Ex Hmap. cbn [first_defect] in Hs. cbn [first_err].
  destruct (h x) as [d'|] eqn:Hx.
  - pose proof (Hstep x x2 d' Ex Hx). destruct (chk x2); [discriminate | contradiction].
  - destruct (chk x2); [discriminate | exact (IH l Hmap Hs)].
Qed.

Lemma kind_check_enum_form k r g t2 v2 v :
  ty_category t2 = CatEnum -> shape v2 = shape v ->
  match v with CInt _ | CIdent _ _ => False | _ => True end -> kind_check (S k) r g t2 v2 <> None.
Proof.
  intros Hc Hs Hv. cbn [kind_check]. rewrite Hc.
  destruct v as [b|z|s|s e|l|l]; try contradiction;
    destruct v2 as [b2|z2|s2|s2 e2|l2|l2]; cbn [shape] in Hs; try discriminate Hs; intros X; discriminate X.
Qed.

Lemma denotes_reaches p :
  (forall fn a d, def_denotes p fn a d -> forall gn m k, d = TStruct gn m k -> reaches p fn gn) /\
  (forall fn n d, name_denotes p fn n d -> forall gn m k, d = TStruct gn m k -> reaches p fn gn).
Proof.
  apply denotes_mutind.
  - intros fn n vs H gn m k E. discriminate E.
  - intros fn n k H gn m k' E. injection E as <- _ _. apply r_refl.
  - intros fn n tgt d H _ IH gn m k E. exact (IH gn m k E).
  - intros fn n c H gn m k E. discriminate E.
  - intros fn n a d Hb Hs _ IH gn m k E. exact (IH gn m k E).
  - intros fn f n pre m i gn0 d Hb Hs Hf Hi _ IH gn m' k E.
    destruct (spec_include_nth _ _ _ _ _ _ _ _ Hi) as (_ & Hn & _). rewrite Nat.sub_0_r in Hn.
    unfold file_incs in Hn. rewrite nth_error_map in Hn. destruct (nth_error (f_includes f) i) as [x|] eqn:Nx; [|discriminate].
    cbn [option_map] in Hn. injection Hn as _ Hrx.
    eapply r_step; [|exact (IH gn m' k E)]. exists f, x. split; [exact Hf|]. split; [exact (nth_error_In _ _ Nx) | exact Hrx].
Qed.

Lemma done_reaches p done : inv p done -> forall a b, reaches p a b -> lookup a done <> None -> lookup b done <> None.
Proof.
  intros Hinv a b Hr. induction Hr as [a|a b c Hs _ IH]; intros Ha; [exact Ha|]. apply IH.
  destruct (lookup a done) as [g'|] eqn:La; [|congruence]. destruct (Hinv a g' La) as (g & Pg & Gd).
  destruct Hs as (f & i & Pf & Hi & Hri). assert (f = g) by congruence. subst f.
  destruct (gd_targets _ _ _ _ _ Gd i Hi) as (hn & Hrn & Hl). congruence.
Qed.

Definition fd_sim (fd fd2 : field) : Prop := fd_name fd2 = fd_name fd /\ ty_sim (fd_type fd) (fd_type fd2).
Definition sl_sim (s s2 : struct_like) : Prop := sl_name s2 = sl_name s /\ Forall2 fd_sim (sl_fields s) (sl_fields s2).

Lemma file_sims d1 f f' : resolve_file_in d1 f = Ok f' ->
  Forall2 sl_sim (struct_likes f) (struct_likes f') /\
  forall tv, In tv (typed_values f) ->
    exists tv2, In tv2 (backend_values f') /\ ty_sim (fst tv) (fst tv2) /\ cv_strip (snd tv2) = cv_strip (snd tv).
Proof.
  intros Hres. destruct (resolve_file_in_kept d1 f f' Hres) as (n2c & tds1 & st & _ & _ & K). cbv zeta in K.
  set (g := with_typedefs (with_name2cat f (Some n2c)) tds1) in *.
  assert (Hts : forall t t2, ty_kept d1 g st t t2 -> ty_sim t t2)
    by (intros t t2 (t1 & A & B); exact (kept_sim d1 g st t t1 t2 A B)).
  split.
  - eapply Forall2_impl'; [|exact (proj1 K)]. intros s s2 (Hn & Hfs). split; [exact Hn|].
    eapply Forall2_impl'; [|exact Hfs]. intros fd fd2 (Hfn & Hft & _). split; [exact Hfn | exact (Hts _ _ Hft)].
  - intros tv Hin. destruct (values_kept _ _ _ _ _ _ K tv Hin) as (tv2 & Hi2 & (Kt & Kv)). exists tv2.
    split; [exact Hi2|]. split; [exact (Hts _ _ Kt) | exact (resolve_cv_strip _ _ _ _ _ Kv)].
Qed.

Lemma struct_field_top g s2 fd2 : In s2 (struct_likes g) -> In fd2 (sl_fields s2) -> In (fd_type fd2) (file_top_occs g).
Proof.
  intros Hs Hf. unfold file_top_occs. apply in_or_app. right. apply in_or_app. right. apply in_or_app. left.
  apply in_map. apply in_flat_map'. eauto.
Qed.

Lemma backend_values_top g tv2 : In tv2 (backend_values g) -> In (fst tv2) (file_top_occs g).
Proof.
  unfold backend_values. intros H. apply in_app_or in H. destruct H as [H|H].
  - apply in_flat_map in H. destruct H as (fd & Hfd & Htv). destruct (fd_default fd) as [v|]; [|destruct Htv].
    destruct Htv as [<-|[]]. cbn [fst]. unfold file_fields in Hfd. apply in_app_or in Hfd. destruct Hfd as [Hfd|Hfd].
    + apply in_flat_map' in Hfd. destruct Hfd as (s & Hs & Hf). exact (struct_field_top g s fd Hs Hf).
    + apply in_flat_map' in Hfd. destruct Hfd as (sv & Hsv & Hf). unfold service_fields in Hf.
      apply in_flat_map' in Hf. destruct Hf as (fu & Hfu & Hf).
      unfold file_top_occs. apply in_or_app. right. apply in_or_app. right. apply in_or_app. right.
      apply in_flat_map'. exists sv. split; [exact Hsv|]. apply in_flat_map'. exists fu. split; [exact Hfu|].
      unfold function_top_types. apply in_or_app. right. apply in_map. exact Hf.
  - apply in_map_iff in H. destruct H as (c & <- & Hc). cbn [fst]. unfold file_top_occs.
    apply in_or_app. right. apply in_or_app. left. apply in_map. exact Hc.
Qed.

Lemma occs_value t2 e2 c : builtin_category (ty_name t2) = Some c -> is_container_category c = true ->
  ty_value t2 = Some e2 -> incl (ty_occs e2) (ty_occs t2).
Proof.
  destruct t2 as [n k v cpp an c0 r td]. cbn [ty_name ty_value]. intros Hb Hc -> x Hx. rewrite ty_occs_unfold. right.
  rewrite Hb. destruct c; try discriminate Hc; cbn [opt_occs]; first [exact Hx | apply in_or_app; right; exact Hx].
Qed.

Lemma occs_key t2 e2 : builtin_category (ty_name t2) = Some CatMap -> ty_key t2 = Some e2 -> incl (ty_occs e2) (ty_occs t2).
Proof.
  destruct t2 as [n k v cpp an c r td]. cbn [ty_name ty_key]. intros Hb -> x Hx. rewrite ty_occs_unfold. right.
  rewrite Hb. cbn [opt_occs]. apply in_or_app. left. exact Hx.
Qed.

Lemma denote_builtin p fn n c : builtin_category n = Some c -> denote (denote_fuel p) p fn n = Some (TBuiltin c).
Proof. intros H. unfold denote_fuel. rewrite Nat.add_comm. cbn [plus denote]. rewrite H. reflexivity. Qed.

Section Deep.
  Variables (p r done : program).
  Hypothesis Hp : parsed_program p = true.
  Hypothesis Hr : resolve_program p = Ok r.
  Hypothesis Hinv : inv p done.
  Hypothesis Htr : files_are p (stepped p) done.
  Hypothesis Hres : forall fn f', lookup fn done = Some f' -> prog_file r fn = Some f'.

  Definition image (fn : bytes) (f f' : file) : Prop := prog_file p fn = Some f /\ lookup fn done = Some f'.

  Lemma image_res fn f f' : image fn f f' ->
    prog_file r fn = Some f' /\ f_name2cat f' <> None /\ exists d1, resolve_file_in d1 f = Ok f'.
  Proof.
    intros (Pf & L). split; [exact (Hres fn f' L)|]. destruct (Hinv fn f' L) as (g & Pg & Gd). split; [exact (gd_resolved _ _ _ _ _ Gd)|].
    destruct (stepped_at p done fn f f' Htr Pf L) as (d1 & _ & _ & R1). eauto.
  Qed.

  (* [n] is the fuel of [kind_check]; running out of it is [Some EBackendFuel], a rejection
     too, which is why the conclusion holds at every [n], 0 included *)
  Lemma kind_deep : forall k fn f f' t t2 v v2 n dft,
    image fn f f' -> ty_sim t t2 -> incl (ty_occs t2) (file_occs f') -> cv_strip v2 = cv_strip v ->
    spec_kind k p fn t v = Some dft -> kind_check n r f' t2 v2 <> None.
  Proof.
    induction k as [|k IH]; intros fn f f' t t2 v v2 n dft Himg Hsim Hincl Hstrip Hs; [discriminate|].
    destruct n as [|m]; [cbn [kind_check]; discriminate|].
    destruct (image_res fn f f' Himg) as (Pr & Hn2c & _).
    assert (Hocc : In t2 (file_occs f')) by (apply Hincl, ty_occs_head).
    destruct (resolve_category p r Hp Hr fn f' t2 Pr Hn2c Hocc) as (d0 & Hd0 & Hcat).
    destruct t as [nm kk vv cpp an cat rr td]. cbn [ty_sim] in Hsim. destruct Hsim as (Hname & Hch).
    cbn [spec_kind ty_name ty_key ty_value] in Hs. rewrite Hname in Hd0.
    assert (Hshape : shape v2 = shape v) by (apply strip_shape; exact Hstrip).
    assert (Hscal : forall c, ty_category t2 = c -> (if scalar_holds c v then None else Some DMismatch) = Some dft ->
              kind_check (S m) r f' t2 v2 <> None).
    { intros c Hc Hs'. destruct (scalar_holds c v) eqn:Sh; [discriminate|]. exact (kind_check_scalar m r f' t2 v2 c v Hc Hshape Sh). }
    destruct (builtin_category nm) as [c|] eqn:Bn.
    - pose proof (name_denotes_fun p fn nm d0 Hd0 (TBuiltin c) (nd_builtin p fn nm c Bn)) as ->. cbn [kind] in Hcat.
      pose proof (denote_builtin p fn nm c Bn) as Hdb. rewrite Hdb in Hs.
      destruct c; try exact (Hscal _ Hcat Hs).
      { (* map *)
        destruct v as [b|z|s0|s0 e0|l0|l]; try discriminate Hs.
        destruct kk as [kt|]; [|discriminate]. destruct vv as [vt|]; [|discriminate]. destruct Hch as (Hk & Hv).
        destruct (ty_key t2) as [kt2|] eqn:Tk; [|contradiction]. destruct (ty_value t2) as [vt2|] eqn:Tv; [|contradiction].
        destruct v2 as [b2|z2|s2'|s2' e2|l2'|l2]; cbn [cv_strip] in Hstrip; try discriminate Hstrip. injection Hstrip as Hmap.
        assert (Bn2 : builtin_category (ty_name t2) = Some CatMap) by (rewrite Hname; exact Bn).
        cbn [kind_check]. rewrite Hcat. destruct l2 as [|y l2]; [destruct l; [discriminate Hs | discriminate Hmap]|]. rewrite Tk, Tv.
        apply (first_defect_err _ _ _ _ _ _ Hmap Hs). intros kv kv2 d' Ekv Hkv. injection Ekv as Ek Ev.
        destruct (spec_kind k p fn kt (fst kv)) as [dk|] eqn:Sk.
        * pose proof (IH fn f f' kt kt2 (fst kv) (fst kv2) m dk Himg Hk
                        (fun o Ho => Hincl o (occs_key t2 kt2 Bn2 Tk o Ho)) Ek Sk) as Hne.
          destruct (kind_check m r f' kt2 (fst kv2)); [discriminate | contradiction].
        * destruct (kind_check m r f' kt2 (fst kv2)); [discriminate|].
          exact (IH fn f f' vt vt2 (snd kv) (snd kv2) m d' Himg Hv
                    (fun o Ho => Hincl o (occs_value t2 vt2 _ Bn2 eq_refl Tv o Ho)) Ev Hkv). }
      (* list, set: one branch of kind_check and of spec_kind *)
      (* the value is a list, the types have element types [et] and [e2] *)
      all: destruct v as [b|z|s0|s0 e0|l|l0]; try discriminate Hs; destruct vv as [et|]; [|discriminate].
      all: destruct (ty_value t2) as [e2|] eqn:Tv; [|contradiction].
      all: destruct v2 as [b2|z2|s2'|s2' e2'|l2|l2']; cbn [cv_strip] in Hstrip; try discriminate Hstrip; injection Hstrip as Hmap.
      all: cbn [kind_check]; rewrite Hcat, Tv; apply (first_defect_err _ _ _ _ _ _ Hmap Hs); rewrite <- Hname in Bn.
      all: intros x x2 d' Ex Hx.
      all: exact (IH fn f f' et e2 x x2 m d' Himg Hch (fun o Ho => Hincl o (occs_value t2 e2 _ Bn eq_refl Tv o Ho)) Ex Hx).
    - destruct (denote (denote_fuel p) p fn nm) as [dd|] eqn:Hdd; [|discriminate].
      pose proof (denote_sound p _ _ _ _ Hdd) as Hdn. pose proof (name_denotes_fun p fn nm d0 Hd0 dd Hdn) as <-.
      destruct d0 as [c|efn en|gn name ks]; cbn [kind] in Hcat.
      + exact (Hscal c Hcat Hs).
      + apply (kind_check_enum_form m r f' t2 v2 v Hcat Hshape). destruct v; try exact I; discriminate.
      + assert (Hsl : is_struct_like_category (ty_category t2) = true) by (rewrite Hcat; destruct ks; reflexivity).
        destruct v as [b|z|s0|s0 e0|l0|l]; try discriminate Hs;
          try (apply (kind_check_struct_form m r f' t2 v2 _ Hsl Hshape); exact I).
        destruct (prog_file p gn) as [g|] eqn:Pg; [|discriminate]. destruct (find_struct_like g name) as [s|] eqn:Fs; [|discriminate].
        (* Deref arrives at the struct-like *)
        destruct (deref_spec_fuel p r Hp Hr fn f' t2 Pr Hn2c Hocc) as (d1 & Hd1 & (h' & x & Hrun & _ & _ & _ & Hrest)).
        rewrite Hname in Hd1. pose proof (name_denotes_fun p fn nm _ Hdn d1 Hd1) as <-. destruct Hrest as (Ph & Hxn).
        pose proof (Hrun (deref_fuel r) (le_n _)) as Hderef.
        (* its file is a resolved image *)
        assert (Hreach : reaches p fn gn) by exact (proj2 (denotes_reaches p) fn nm _ Hdn gn name ks eq_refl).
        assert (Lg : lookup gn done <> None).
        { apply (done_reaches p done Hinv fn gn Hreach). destruct Himg as (_ & L). congruence. }
        destruct (lookup gn done) as [h0|] eqn:Lh; [|congruence]. assert (h0 = h') by (pose proof (Hres gn h0 Lh); congruence). subst h0.
        assert (Himg' : image gn g h') by (split; assumption).
        destruct (image_res gn g h' Himg') as (_ & _ & d1' & Rg). destruct (file_sims d1' g h' Rg) as (Ksl & _).
        unfold find_struct_like in Fs.
        destruct (find_by_rel sl_name sl_sim _ _ Ksl (fun a b HR => proj1 HR) name s Fs) as (s2 & Fs2 & (_ & Hfs)).
        (* the value *)
        destruct v2 as [b2|z2|s2'|s2' e2|l2'|l2]; cbn [cv_strip] in Hstrip; try discriminate Hstrip. injection Hstrip as Hmap.
        assert (Hentries : first_err (fun kv2 => match fst kv2 with
                                                 | CLiteral n0 => match find_field s2 n0 with
                                                                  | Some fd2 => kind_check m r h' (fd_type fd2) (snd kv2)
                                                                  | None => Some EUnknownField
                                                                  end
                                                 | _ => Some EBadKey
                                                 end) l2 <> None).
        { apply (first_defect_err _ _ _ _ _ _ Hmap Hs). intros kv kv2 d' Ekv Hkv. injection Ekv as Ek Ev.
          destruct (fst kv) as [b1|z1|n1|s1 e1|l1|l1] eqn:Ekey;
            destruct (fst kv2) as [b3|z3|n3|s3 e3|l3|l3]; cbn [cv_strip] in Ek; try discriminate Ek; try discriminate.
          injection Ek as ->. destruct (find_field s n1) as [fd|] eqn:Ff.
          - unfold find_field in Ff.
            destruct (find_by_rel fd_name fd_sim _ _ Hfs (fun a b HR => proj1 HR) n1 fd Ff) as (fd2 & Ff2 & (_ & Hts)).
            unfold find_field. rewrite Ff2.
            apply (IH gn g h' (fd_type fd) (fd_type fd2) (snd kv) (snd kv2) m d' Himg' Hts); [|exact Ev | exact Hkv].
            apply In_top_occs_file_occs. destruct (find_by_In _ _ _ _ Fs2) as (Hs2 & _). destruct (find_by_In _ _ _ _ Ff2) as (Hf2 & _).
            exact (struct_field_top h' s2 fd2 Hs2 Hf2).
          - unfold find_field in *. rewrite (proj2 (find_by_rel_none fd_name fd_sim _ _ Hfs (fun a b HR => proj1 HR) n1) Ff). discriminate. }
        cbn [kind_check]. unfold find_struct_like.
        destruct ks; cbn [sl_kind_category] in Hcat; rewrite Hcat, Hderef, Hxn, Fs2; exact Hentries.
  Qed.
End Deep.

Theorem accepted_file_kinds_deep p b : parsed_program p = true -> accepts p b = AOk ->
  forall fn f, reach p fn -> prog_file p fn = Some f ->
  (be_recursive b = true \/ exists rest, p = (fn, f) :: rest) ->
  forall d, value_defect d p fn f = false.
Proof.
  intros Hp Ha fn f Hr Pf Hpos d. destruct (accepts_front p b Ha) as (r & order & Hfe & Hbk).
  destruct (front_end_ok p r order Hfe) as (_ & Hord & _ & Hrs).
  destruct (resolve_program_run p r Hrs) as (done & Hinv & Htr & Hall & Hres0).
  assert (Hres : forall gn g', lookup gn done = Some g' -> prog_file r gn = Some g')
    by (intros gn g' Lg; rewrite Hres0, Lg; reflexivity).
  destruct (Hall fn Hr) as (f' & L). pose proof (Hres fn f' L) as Pr.
  pose proof (first_err_none _ _ Hbk fn (scope_files_in p r order b fn f f' Hord Hrs Hr Pf Pr Hpos)) as Hc.
  unfold check_scope in Hc. rewrite Pr in Hc. pose proof (first_err_none _ _ Hc) as Hvals. cbv beta in Hvals.
  assert (Himg : image p done fn f f') by (split; assumption).
  destruct (image_res p r done Hinv Htr Hres fn f f' Himg) as (_ & _ & d1 & R1).
  destruct (file_sims d1 f f' R1) as (_ & Hpair).
  unfold value_defect. apply existsb_false. intros tv Htv.
  destruct (spec_kind (S (cv_depth (snd tv))) p fn (fst tv) (snd tv)) as [d'|] eqn:Sk; [|reflexivity]. exfalso.
  destruct (Hpair tv Htv) as (tv2 & Hi2 & Hts & Hst).
  refine (kind_deep p r done Hp Hrs Hinv Htr Hres _ fn f f' (fst tv) (fst tv2) (snd tv) (snd tv2) _ d' Himg Hts _ Hst Sk (Hvals tv2 Hi2)).
  apply In_top_occs_file_occs. exact (backend_values_top f' tv2 Hi2).
Qed.

(* with -r: every position of the include graph *)
Theorem accepts_sound_kinds_deep p b : parsed_program p = true -> accepts p b = AOk -> be_recursive b = true ->
  violates_deep ConstKindMismatch p = false /\ violates_deep StructLiteralBadKey p = false.
Proof.
  intros Hp Ha Hrec. cbn [violates_deep].
  split; apply some_file_false; intros fn f R Pf; exact (accepted_file_kinds_deep p b Hp Ha fn f R Pf (or_introl Hrec) _).
Qed.

(* without -r: the main file *)
Theorem accepts_sound_kinds_deep_main p b : parsed_program p = true -> accepts p b = AOk ->
  forall d, main_file p (value_defect d p) = false.
Proof.
  intros Hp Ha d. apply main_file_false. intros fn f rest Ep R Pf.
  exact (accepted_file_kinds_deep p b Hp Ha fn f R Pf (or_intror (ex_intro _ rest Ep)) d).
Qed.

(* the hops getEnum makes from (file, name): through the Reference of the typedef's
   type into an include, and to the local name of that type *)
Inductive ge_step (done : program) : file * bytes -> file * bytes -> Prop :=
| ge_ref g name x r h :
    lookup name (n2c_of g) = Some CatTypedef -> find_typedef g name = Some x ->
    ty_ref (td_type x) = Some r -> reference_target done g r = Some h ->
    ge_step done (g, name) (h, ref_name r)
| ge_local g name x :
    lookup name (n2c_of g) = Some CatTypedef -> find_typedef g name = Some x ->
    ge_step done (g, name) (g, ty_name (td_type x)).

(* no infinite chain of hops from the names of [g]: what ResolveTypedefs establishes —
   but only AFTER the constants have been resolved *)
Definition chain_ends (done : program) (g : file) (name : bytes) : Prop :=
  Acc (fun b a => ge_step done a b) (g, name).
Definition typedef_acyclic (done : program) (g : file) : Prop := forall name, chain_ends done g name.

Theorem get_enum_terminates_from done g name : chain_ends done g name ->
  exists n, forall m, n <= m -> get_enum m done g name <> Error ErrOutOfFuel.
Proof.
  unfold chain_ends. intros A.
  remember (g, name) as node eqn:En. revert g name En.
  induction A as [node _ IH]. intros g name ->.
  destruct (lookup name (n2c_of g)) as [c|] eqn:Lk.
  2:{ exists 1. intros m Hm. destruct m as [|k]; [lia|]. cbn [get_enum]. rewrite Lk. discriminate. }
  destruct (category_eqb c CatTypedef) eqn:Ec.
  2:{ exists 1. intros m Hm. destruct m as [|k]; [lia|]. cbn [get_enum]. rewrite Lk.
      destruct c; try discriminate; try discriminate Ec. destruct (find_enum g name); discriminate. }
  assert (c = CatTypedef) by (destruct c; try discriminate Ec; reflexivity). subst c. clear Ec.
  destruct (find_typedef g name) as [x|] eqn:Ft.
  2:{ exists 1. intros m Hm. destruct m as [|k]; [lia|]. cbn [get_enum]. rewrite Lk, Ft. discriminate. }
  destruct (IH (g, ty_name (td_type x)) (ge_local done g name x Lk Ft) g _ eq_refl) as (n2 & H2).
  assert (H1 : exists n1, forall k, n1 <= k ->
            forall r, ty_ref (td_type x) = Some r -> forall h, reference_target done g r = Some h ->
            get_enum k done h (ref_name r) <> Error ErrOutOfFuel).
  { destruct (ty_ref (td_type x)) as [r|] eqn:Tr; [|exists 0; intros k _ r' E; discriminate E].
    destruct (reference_target done g r) as [h|] eqn:Rt.
    - destruct (IH (h, ref_name r) (ge_ref done g name x r h Lk Ft Tr Rt) h _ eq_refl) as (n1 & Hn1).
      exists n1. intros k Hk r' [= <-] h' E'. assert (h' = h) by congruence. subst h'. apply Hn1. exact Hk.
    - exists 0. intros k _ r' [= <-] h' E'. congruence. }
  destruct H1 as (n1 & H1). exists (S (Nat.max n1 n2)). intros m Hm. destruct m as [|k]; [lia|].
  cbn [get_enum]. rewrite Lk, Ft. specialize (H1 k ltac:(lia)). specialize (H2 k ltac:(lia)).
  destruct (ty_ref (td_type x)) as [r|].
  - destruct (reference_target done g r) as [h|] eqn:Rt; [|discriminate].
    specialize (H1 r eq_refl h Rt). destruct (get_enum k done h (ref_name r)) as [e|err]; cbn [bind].
    + destruct e as [[en z]|]; [discriminate | exact H2].
    + intros [= E]. subst err. contradiction.
  - cbn [bind]. exact H2.
Qed.

Theorem get_enum_terminates done g : typedef_acyclic done g ->
  forall name, exists n, forall m, n <= m -> get_enum m done g name <> Error ErrOutOfFuel.
Proof. intros H name. exact (get_enum_terminates_from done g name (H name)). Qed.

(* where the hypothesis fails — typedef B A  typedef A B, names registered, typedef
   types through ResolveType — no amount of fuel is enough: the image of the stack
   overflow of the unrepaired getEnum (the repaired one answers "not an enum") *)
Definition cyc_ty (n : string) : ty := Ty (B n) None None [] [] CatTypedef None (Some true).
Definition cyc_file : file :=
  File (B "b.thrift") [] [] []
       [Typedef (cyc_ty "B") (B "A") [] []; Typedef (cyc_ty "A") (B "B") [] []]
       [Constant (B "c") (ty_named (B "i32")) (CIdent (B "A.x") None) [] []] [] [] [] [] []
       (Some [(B "A", CatTypedef); (B "B", CatTypedef); (B "c", CatConstant)]).

Theorem get_enum_cycle_diverges : forall n,
  get_enum n [] cyc_file (B "A") = Error ErrOutOfFuel /\ get_enum n [] cyc_file (B "B") = Error ErrOutOfFuel.
Proof.
  induction n as [|n (IHa & IHb)]; [split; reflexivity|]. split.
  - change (get_enum (S n) [] cyc_file (B "A")) with
      (r1 <- Ok None ;; match r1 with Some x1 => Ok (Some x1) | None => get_enum n [] cyc_file (B "B") end).
    cbn [bind]. exact IHb.
  - change (get_enum (S n) [] cyc_file (B "B")) with
      (r1 <- Ok None ;; match r1 with Some x1 => Ok (Some x1) | None => get_enum n [] cyc_file (B "A") end).
    cbn [bind]. exact IHa.
Qed.

Corollary cyc_not_acyclic : ~ typedef_acyclic [] cyc_file.
Proof.
  intros H. destruct (get_enum_terminates [] cyc_file H (B "A")) as (n & Hn).
  exact (Hn n (le_n n) (proj1 (get_enum_cycle_diverges n))).
Qed.

(* the hypothesis is satisfiable: typedef E T1  typedef T1 T2  enum E { A } *)
Definition chain_ty (n : string) (c : category) : ty := Ty (B n) None None [] [] c None (Some true).
Definition chain_file : file :=
  File (B "c.thrift") [] [] []
       [Typedef (Ty (B "E") None None [] [] CatEnum None None) (B "T1") [] []; Typedef (chain_ty "T1" CatTypedef) (B "T2") [] []]
       [] [Enum (B "E") [EnumValue (B "A") 0 [] []] [] []] [] [] [] []
       (Some [(B "E", CatEnum); (B "T1", CatTypedef); (B "T2", CatTypedef)]).

Lemma chain_file_acyclic : typedef_acyclic [] chain_file.
Proof.
  assert (HE : chain_ends [] chain_file (B "E")).
  { constructor. intros y H. inversion H; subst; match goal with L : lookup _ _ = Some CatTypedef |- _ => vm_compute in L; discriminate L end. }
  assert (Hstep : forall name y, ge_step [] (chain_file, name) y ->
            (name = B "T1" /\ y = (chain_file, B "E")) \/ (name = B "T2" /\ y = (chain_file, B "T1"))).
  { intros name y H. inversion H; subst.
    - match goal with F : find_typedef _ _ = Some ?x, R : ty_ref (td_type ?x) = Some _ |- _ =>
        unfold find_typedef in F; cbn [find_by chain_file f_typedefs td_alias] in F;
        destruct (beqb (B "T1") name); [injection F as <-; discriminate R|];
        destruct (beqb (B "T2") name); [injection F as <-; discriminate R | discriminate F] end.
    - match goal with F : find_typedef _ _ = Some ?x |- _ =>
        unfold find_typedef in F; cbn [find_by chain_file f_typedefs td_alias] in F;
        destruct (beqb (B "T1") name) eqn:E1; [injection F as <-; apply beqb_true in E1; left; split; [symmetry; exact E1 | reflexivity]|];
        destruct (beqb (B "T2") name) eqn:E2; [injection F as <-; apply beqb_true in E2; right; split; [symmetry; exact E2 | reflexivity] | discriminate F] end. }
  assert (H1 : chain_ends [] chain_file (B "T1")).
  { constructor. intros y H. destruct (Hstep _ _ H) as [(_ & ->)|(E & _)]; [exact HE | discriminate E]. }
  intros name. constructor. intros y H. destruct (Hstep _ _ H) as [(_ & ->)|(_ & ->)]; [exact HE | exact H1].
Qed.

Lemma gen_langs_bad r order rec : forall langs w,
  forallb (fun l => match lang_of l with Some _ => true | None => false end) langs = false ->
  exit0 (gen_langs r order rec langs w) = false.
Proof.
  induction langs as [|l langs IH]; intros w H; cbn [forallb] in H; [discriminate|]. cbn [gen_langs].
  destruct (lang_of l) as [lg|]; [|reflexivity]. cbn [andb] in H.
  destruct (backend_stage r order (Backend lg rec)); [reflexivity | apply IH; exact H].
Qed.

(* an invalid command line never ends in exit status 0 *)
Theorem bad_cmdline_rejected c p : cmdline_valid c = false -> exit0 (run_cmdline c p) = false.
Proof.
  unfold cmdline_valid, run_cmdline. intros H.
  destruct (cl_flags_ok c && (cl_idl_args c =? 1)) eqn:E1; cbn [negb]; [|reflexivity]. cbn [andb] in H.
  destruct (front_end p) as [r order|why]; [|reflexivity].
  destruct (cl_specs_ok c); cbn [negb andb] in *; [|reflexivity].
  destruct (cl_langs c) as [|l langs] eqn:El; [reflexivity|]. cbn [is_nil negb andb] in H.
  apply gen_langs_bad. exact H.
Qed.

(* an invalid program produces nothing, whatever the command line *)
Theorem rejected_program_no_output c p why : front_end p = FrontRej why ->
  run_cmdline c p = Outcome false false.
Proof.
  unfold run_cmdline. intros ->. destruct (negb (cl_flags_ok c && (cl_idl_args c =? 1))); reflexivity.
Qed.

(* with ONE -g, a run that does not exit 0 has written nothing *)
Theorem single_language_no_partial_output c p l :
  cl_langs c = [l] -> exit0 (run_cmdline c p) = false -> wrote (run_cmdline c p) = false.
Proof.
  unfold run_cmdline. intros El.
  destruct (negb (cl_flags_ok c && (cl_idl_args c =? 1))); [reflexivity|].
  destruct (front_end p) as [r order|why]; [|reflexivity].
  destruct (negb (cl_specs_ok c)); [reflexivity|]. rewrite El. cbn [gen_langs].
  destruct (lang_of l) as [lg|]; [|reflexivity].
  destruct (backend_stage r order (Backend lg (cl_recursive c))); [reflexivity | discriminate].
Qed.

Definition i32 : ty := ty_named (B "i32").
Definition wit_inc : file :=
  File (B "inc_bad.thrift") [] [] [] []
       [Constant (B "x") i32 (CLiteral (B "s")) [] []] []
       [StructLike SKStruct (B "T") [Field 1 (B "a") ReqDefault i32 None [] []] [] []] [] [] [] None.
Definition wit_main : file :=
  File (B "main.thrift") [Include (B "inc_bad.thrift") (Some (B "inc_bad.thrift")) None] [] [] [] [] []
       [StructLike SKStruct (B "S") [Field 1 (B "t") ReqDefault i32 None [] []] [] []] [] [] [] None.
(* main.thrift: include "inc_bad.thrift"  struct S { 1: i32 t }
   inc_bad.thrift: const i32 x = "s"  struct T { 1: i32 a } *)
Definition wit_unused_include : program := [(B "main.thrift", wit_main); (B "inc_bad.thrift", wit_inc)].

(* without -r the constant checks only reach the files a Go scope is built for: a
   kind error in an include nothing refers through is not diagnosed *)
Theorem diagnosed_ConstKindMismatch_refuted :
  exists p b, be_recursive b = false /\ violates ConstKindMismatch p = true /\ accepts p b = AOk.
Proof. exists wit_unused_include, (Backend LGo false). vm_compute. auto. Qed.

(* thriftgo -g go -g java: the go files are on disk when the second language fails *)
Definition wit_cmdline : cmdline := Cmdline true 1 true [B "go"; B "java"] false.
Definition wit_valid : program :=
  [(B "ok.thrift", File (B "ok.thrift") [] [] [] [] [] []
      [StructLike SKStruct (B "S") [Field 1 (B "a") ReqDefault i32 None [] []] [] []] [] [] [] None)].

Theorem bad_cmdline_no_output_refuted :
  exists c p, cmdline_valid c = false /\ run_cmdline c p = Outcome false true.
Proof. exists wit_cmdline, wit_valid. vm_compute. auto. Qed.
