(* Idl/ReflectFacts.v — proofs about the model of the reflection descriptors (Idl/Reflect.v): the wire round
   trip of the descriptor structs; descriptor_of against what the IDL states (project_a, project_d); the lookups;
   the Go type table; GetAllMethods along an extends chain; descriptors equal up to the order of map entries. *)
From Coq Require Import List Bool ZArith Lia Permutation RelationClasses.
From Coq.Strings Require Import Byte String.
From Verif Require Import Base.Bytes Base.BE Wire.TType Wire.WVal Wire.CodecFacts Wire.Schema Wire.SchemaDescriptor
  Idl.Ast Idl.AstUtil Idl.AstFacts Idl.Reflect.
Import ListNotations.
Local Open Scope Z_scope.
Local Open Scope list_scope.

Lemma nodupb_NoDup l : nodupb l = true <-> NoDup l.
Proof.
  induction l as [|x l IH]; cbn [nodupb].
  - split; [constructor|reflexivity].
  - rewrite andb_true_iff, negb_true_iff, IH. split.
    + intros [Hx Hl]. constructor; [|exact Hl]. intro Hin. apply existsb_beqb_In in Hin. congruence.
    + intro H. inversion H as [|? ? Hx Hl]; subst. split; [|exact Hl].
      destruct (existsb (beqb x) l) eqn:E; [|reflexivity]. apply existsb_beqb_In in E. contradiction.
Qed.

(* Go map assignment on an association list *)
Lemma update_notin {A} k (v : A) m : ~ In k (map fst m) -> update k v m = m ++ [(k, v)].
Proof.
  induction m as [|[k' v'] m IH]; cbn [update map fst In app]; intro H; [reflexivity|].
  destruct (beqb k k') eqn:E; [apply beqb_true in E; subst; exfalso; apply H; left; reflexivity|].
  rewrite IH by tauto. reflexivity.
Qed.

Lemma fold_update_app {A B} (key : A -> bytes) (val : A -> B) (l : list A) : forall acc,
  NoDup (map fst acc ++ map key l) ->
  fold_left (fun m x => update (key x) (val x) m) l acc = acc ++ map (fun x => (key x, val x)) l.
Proof.
  induction l as [|x l IH]; intros acc H; cbn [fold_left map]; [rewrite app_nil_r; reflexivity|].
  cbn [map] in H.
  assert (Hx : ~ In (key x) (map fst acc)).
  { intro Hin. apply NoDup_remove_2 in H. apply H. apply in_or_app. left. exact Hin. }
  rewrite update_notin by exact Hx. rewrite IH.
  - rewrite <- app_assoc. reflexivity.
  - rewrite map_app. cbn [map fst]. rewrite <- app_assoc. cbn [app].
    apply NoDup_remove_1 in H as H1. apply NoDup_remove_2 in H as H2.
    apply (Permutation_NoDup (l := key x :: map fst acc ++ map key l)).
    + apply Permutation_middle.
    + constructor; assumption.
Qed.

Lemma fold_update_map {A B} (key : A -> bytes) (val : A -> B) (l : list A) :
  NoDup (map key l) ->
  fold_left (fun m x => update (key x) (val x) m) l [] = map (fun x => (key x, val x)) l.
Proof. intro H. rewrite fold_update_app by exact H. reflexivity. Qed.

Lemma build_smap_id {A} (m : smap A) : smap_ok m = true -> build_smap m = m.
Proof.
  intro H. apply nodupb_NoDup in H. unfold build_smap.
  rewrite (fold_update_map fst snd m H). rewrite <- (map_id m) at 2. apply map_ext. intros [k v]. reflexivity.
Qed.

Ltac bsplit := repeat match goal with H : _ && _ = true |- _ => apply andb_true_iff in H; destruct H end.

Lemma tdesc_ind' (P : tdesc -> Prop) :
  (forall p n k v ex, (forall x, k = Some x -> P x) -> (forall x, v = Some x -> P x) -> P (TDesc p n k v ex)) ->
  forall t, P t.
Proof.
  intro H. fix IH 1. intros [p n k v ex]. apply H.
  - destruct k as [y|]; intros x E; [injection E as <-; apply IH|discriminate].
  - destruct v as [y|]; intros x E; [injection E as <-; apply IH|discriminate].
Qed.

Lemma cvdesc_ind' (P : cvdesc -> Prop) :
  (forall ty dbl int str b l m id ex,
      (forall l', l = Some l' -> Forall P l') ->
      (forall m', m = Some m' -> Forall (fun kv => P (fst kv) /\ P (snd kv)) m') ->
      P (CVD ty dbl int str b l m id ex)) ->
  forall c, P c.
Proof.
  intro H. fix IH 1. intros [ty dbl int str b l m id ex]. apply H.
  - destruct l as [l0|]; intros l' E; [injection E as <-|discriminate].
    induction l0 as [|x r IHr]; constructor; [apply IH|exact IHr].
  - destruct m as [m0|]; intros m' E; [injection E as <-|discriminate].
    induction m0 as [|[k v] r IHr]; constructor; [split; apply IH|exact IHr].
Qed.

(* field ids are pairwise distinct in every struct of the regenerated schema *)
Definition lay_ids (lay : list (ttype * Z * req)) : list Z := map (fun x => snd (fst x)) lay.
Definition all_layouts := [lay_type; lay_const; lay_cv; lay_typedef; lay_enum; lay_enumvalue; lay_field;
                           lay_struct; lay_method; lay_service; lay_file].
Lemma layouts_nodup : forallb (fun lay => nodupZ (lay_ids lay)) all_layouts = true.
Proof. vm_compute. reflexivity. Qed.

(* the requiredness the decoders assume (need = required, opt / dflt = optional), field by field *)
Definition lay_reqs (lay : list (ttype * Z * req)) : list req := map snd lay.
Lemma layouts_reqs :
  lay_reqs lay_type = [Required; Required; Optional; Optional; Optional] /\
  lay_reqs lay_const = [Required; Required; Required; Required; Required; Required; Optional] /\
  lay_reqs lay_cv = [Required; Required; Required; Required; Required; Optional; Optional; Required; Optional] /\
  lay_reqs lay_typedef = [Required; Required; Required; Required; Required; Optional] /\
  lay_reqs lay_enum = [Required; Required; Required; Required; Required; Optional] /\
  lay_reqs lay_enumvalue = [Required; Required; Required; Required; Required; Optional] /\
  lay_reqs lay_field = [Required; Required; Required; Required; Required; Optional; Required; Required; Optional] /\
  lay_reqs lay_struct = [Required; Required; Required; Required; Required; Optional] /\
  lay_reqs lay_method = [Required; Required; Optional; Required; Required; Required; Required; Required; Optional] /\
  lay_reqs lay_service = [Required; Required; Required; Required; Required; Optional; Optional] /\
  lay_reqs lay_file = [Required; Required; Required; Required; Required; Required; Required; Required; Required; Required; Optional].
Proof. vm_compute. repeat split. Qed.

(* the wire types the encoders assume *)
Definition lay_types (lay : list (ttype * Z * req)) : list ttype := map (fun x => fst (fst x)) lay.
Lemma layouts_types :
  lay_types lay_type = [T_STRING; T_STRING; T_STRUCT; T_STRUCT; T_MAP] /\
  lay_types lay_const = [T_STRING; T_STRING; T_STRUCT; T_STRUCT; T_MAP; T_STRING; T_MAP] /\
  lay_types lay_cv = [T_I32; T_DOUBLE; T_I64; T_STRING; T_BOOL; T_LIST; T_MAP; T_STRING; T_MAP] /\
  lay_types lay_typedef = [T_STRING; T_STRUCT; T_STRING; T_MAP; T_STRING; T_MAP] /\
  lay_types lay_enum = [T_STRING; T_STRING; T_LIST; T_MAP; T_STRING; T_MAP] /\
  lay_types lay_enumvalue = [T_STRING; T_STRING; T_I64; T_MAP; T_STRING; T_MAP] /\
  lay_types lay_field = [T_STRING; T_STRING; T_STRUCT; T_STRING; T_I32; T_STRUCT; T_MAP; T_STRING; T_MAP] /\
  lay_types lay_struct = [T_STRING; T_STRING; T_LIST; T_MAP; T_STRING; T_MAP] /\
  lay_types lay_method = [T_STRING; T_STRING; T_STRUCT; T_LIST; T_MAP; T_STRING; T_LIST; T_BOOL; T_MAP] /\
  lay_types lay_service = [T_STRING; T_STRING; T_LIST; T_MAP; T_STRING; T_MAP; T_STRING] /\
  lay_types lay_file = [T_STRING; T_MAP; T_MAP; T_LIST; T_LIST; T_LIST; T_LIST; T_LIST; T_LIST; T_LIST; T_MAP].
Proof. vm_compute. repeat split. Qed.

Lemma cvt_numbers :
  omap e_values (Schema.find_enum schema_descriptor (B "descriptor.ConstValueType")) =
  Some [(B "DOUBLE", CVT_DOUBLE); (B "INT", CVT_INT); (B "STRING", CVT_STRING); (B "BOOL", CVT_BOOL);
        (B "LIST", CVT_LIST); (B "MAP", CVT_MAP); (B "IDENTIFIER", CVT_IDENTIFIER)].
Proof. vm_compute. reflexivity. Qed.

Lemma wfind_emit_notin {A} (d : wval -> option A) key lay : forall sl,
  ~ In (snd key) (lay_ids lay) -> wfind d key (emit lay sl) = None.
Proof.
  induction lay as [|[[t id] r] lay IH]; intros sl Hn; [destruct sl; reflexivity|].
  cbn [lay_ids map snd fst In] in Hn. destruct sl as [|[w z] sl]; cbn [emit]; [reflexivity|].
  destruct (req_eqb r Optional && z).
  - apply IH. unfold lay_ids. tauto.
  - cbn [wfind]. rewrite IH by (unfold lay_ids; tauto).
    destruct (Z.eqb_spec (snd key) id) as [E|E]; [exfalso; apply Hn; left; congruence|reflexivity].
Qed.

Lemma wfind_emit {A} (d : wval -> option A) : forall lay sl i t id r,
  NoDup (lay_ids lay) -> List.length sl = List.length lay -> nth_error lay i = Some (t, id, r) ->
  wfind d (t, id) (emit lay sl) =
  match nth_error sl i with
  | Some (w, z) => if req_eqb r Optional && z then None else Some (d w)
  | None => None
  end.
Proof.
  induction lay as [|[[t0 id0] r0] lay IH]; intros sl i t id r Hnd Hlen Hk; [destruct i; discriminate|].
  destruct sl as [|[w z] sl]; [discriminate|]. cbn [List.length] in Hlen. injection Hlen as Hlen.
  cbn [lay_ids map snd fst] in Hnd. inversion Hnd as [|? ? Hnotin Hnd']; subst.
  destruct i as [|i]; cbn [nth_error] in *.
  - injection Hk as -> -> ->. cbn [emit]. destruct (req_eqb r Optional && z).
    + apply wfind_emit_notin. exact Hnotin.
    + cbn [wfind]. rewrite wfind_emit_notin by exact Hnotin. cbn [fst snd].
      rewrite Z.eqb_refl, ttype_eqb_refl. reflexivity.
  - assert (Hne : id <> id0).
    { intro E. apply Hnotin. subst id0. apply (in_map (fun x : ttype * Z * req => snd (fst x)) lay (t, id, r)). eapply nth_error_In. exact Hk. }
    cbn [emit]. destruct (req_eqb r0 Optional && z); [apply IH; assumption|].
    cbn [wfind]. rewrite (IH sl i t id r Hnd' Hlen Hk). cbn [fst snd].
    destruct (nth_error sl i) as [[w' z']|]; [destruct (req_eqb r Optional && z')|]; try reflexivity;
      (destruct (Z.eqb_spec id id0); [contradiction|reflexivity]).
Qed.

Lemma nodupZ_NoDup l : nodupZ l = true -> NoDup l.
Proof.
  induction l as [|x l IH]; cbn [nodupZ]; intro H; constructor.
  - apply andb_true_iff in H as [H _]. intro Hin. apply negb_true_iff in H.
    assert (existsb (Z.eqb x) l = true) by (apply existsb_exists; exists x; split; [assumption|apply Z.eqb_refl]).
    congruence.
  - apply andb_true_iff in H as [_ H]. auto.
Qed.

Definition noslot : slot := (WBool false, true).

Lemma get_emit {A} (d : wval -> option A) lay sl i :
  nodupZ (lay_ids lay) = true -> List.length sl = List.length lay -> (i <? List.length lay)%nat = true ->
  get d lay i (emit lay sl) =
  (if req_eqb (snd (nth i lay nokey)) Optional && snd (nth i sl noslot) then None else Some (d (fst (nth i sl noslot)))).
Proof.
  intros Hnd Hlen Hi. apply Nat.ltb_lt in Hi. unfold get.
  destruct (nth_error lay i) as [[[t id] r]|] eqn:Ek; [|apply nth_error_None in Ek; lia].
  rewrite (nth_error_nth _ _ nokey Ek). cbn [fst snd].
  rewrite (wfind_emit d lay sl i t id r (nodupZ_NoDup _ Hnd) Hlen Ek).
  destruct (nth_error sl i) as [[w z]|] eqn:Es.
  - rewrite (nth_error_nth _ _ noslot Es). reflexivity.
  - apply nth_error_None in Es. lia.
Qed.

Lemma mapo_map {A} (d : wval -> option A) (e : A -> wval) l :
  Forall (fun x => d (e x) = Some x) l -> mapo d (map e l) = Some l.
Proof.
  induction 1 as [|x l Hx _ IH]; [reflexivity|]. cbn [map mapo]. rewrite Hx, IH. reflexivity.
Qed.

Lemma d_list_strs l : d_list d_str (w_strs l) = Some l.
Proof. unfold d_list, w_strs. apply mapo_map. apply Forall_forall. reflexivity. Qed.

Lemma d_pairs_map {A} (d : wval -> option A) (e : A -> wval) (m : smap A) :
  Forall (fun kv => d (e (snd kv)) = Some (snd kv)) m ->
  d_pairs d (map (fun kv => (WStr (fst kv), e (snd kv))) m) = Some m.
Proof.
  induction 1 as [|[k v] m Hx _ IH]; [reflexivity|]. cbn [map d_pairs fst snd d_str] in *. rewrite Hx, IH. reflexivity.
Qed.

Lemma d_smap_w_smap {A} (d : wval -> option A) (e : A -> wval) vt (m : smap A) :
  smap_ok m = true -> Forall (fun kv => d (e (snd kv)) = Some (snd kv)) m ->
  d_smap d (w_smap vt e m) = Some m.
Proof.
  intros Hok H. unfold d_smap, w_smap. rewrite (d_pairs_map d e m H). cbn [omap]. rewrite build_smap_id by exact Hok. reflexivity.
Qed.

Lemma d_strmap m : smap_ok m = true -> d_extra (w_smap T_STRING WStr m) = Some m.
Proof. intro H. apply d_smap_w_smap; [exact H|]. apply Forall_forall. reflexivity. Qed.

Lemma d_annos_rt a : smap_ok a = true -> d_annos (w_smap T_LIST w_strs a) = Some a.
Proof. intro H. apply d_smap_w_smap; [exact H|]. apply Forall_forall. intros x _. apply d_list_strs. Qed.

(* Reads every field of a struct written by [emit] with get_emit.  The slot list and the emitted fields get a
   name first: each rewrite then abstracts a goal that mentions them once, not nine copies of the struct.
   The three [eq_refl] are the premises of get_emit, closed computations on the layout: its ids are distinct,
   there is a slot for every field, the index is in range. *)
Ltac gets :=
  match goal with |- context[emit ?l ?s] =>
    let sl := fresh "sl" in let fs := fresh "fs" in
    set (sl := s); set (fs := emit l sl);
    repeat match goal with |- context[@get ?A ?d l ?i fs] =>
             rewrite (get_emit d l sl i eq_refl eq_refl eq_refl : get d l i fs = _) end;
    subst fs sl
  end;
  cbn [nth fst snd req_eqb andb nz s_annos s_strmap need opt dflt d_str d_bool d_i32 d_i64 d_dbl
       lay_type lay_const lay_cv lay_typedef lay_enum lay_enumvalue lay_field lay_struct lay_method lay_service lay_file].

(* An optional slot: nil is the zero value w0, is not written and comes back as nil.  [s_opt e], [s_extra] and the
   list and map slots of enc_cvdesc are this slot by conversion. *)
Definition s_optw {A} (w0 : wval) (e : A -> wval) (o : option A) : slot :=
  match o with Some a => (e a, false) | None => (w0, true) end.

Lemma optw_slot_rt {A} (d : wval -> option A) w0 (e : A -> wval) (ok : A -> bool) (o : option A) :
  (forall x, o = Some x -> ok x = true -> d (e x) = Some x) ->
  match o with Some x => ok x | None => true end = true ->
  opt (if snd (s_optw w0 e o) then None else Some (d (fst (s_optw w0 e o)))) = Some o.
Proof.
  intros H Ho. destruct o as [x|]; cbn [s_optw fst snd opt]; [rewrite (H x eq_refl Ho)|]; reflexivity.
Qed.

Lemma opt_slot_rt {A} (d : wval -> option A) (e : A -> wval) (ok : A -> bool) (o : option A) :
  (forall x, o = Some x -> ok x = true -> d (e x) = Some x) ->
  match o with Some x => ok x | None => true end = true ->
  opt (if snd (s_opt e o) then None else Some (d (fst (s_opt e o)))) = Some o.
Proof. exact (optw_slot_rt d _ e ok o). Qed.

Lemma extra_slot_rt ex :
  extra_ok ex = true ->
  opt (if snd (s_extra ex) then None else Some (d_extra (fst (s_extra ex)))) = Some ex.
Proof. exact (optw_slot_rt d_extra _ (w_smap T_STRING WStr) smap_ok ex (fun m _ => d_strmap m)). Qed.

Lemma enc_tdesc_eqn p n k v ex :
  enc_tdesc (TDesc p n k v ex) = wstruct lay_type [nz (WStr p); nz (WStr n); s_opt enc_tdesc k; s_opt enc_tdesc v; s_extra ex].
Proof. reflexivity. Qed.

Lemma tdesc_rt : forall t, tdesc_ok t = true -> dec_tdesc (enc_tdesc t) = Some t.
Proof.
  induction t as [p n k v ex IHk IHv] using tdesc_ind'. cbn [tdesc_ok]. intro H.
  apply andb_true_iff in H as [H Hex]. apply andb_true_iff in H as [Hk Hv].
  rewrite enc_tdesc_eqn. unfold wstruct. cbn [dec_tdesc]. gets.
  rewrite (opt_slot_rt dec_tdesc enc_tdesc tdesc_ok k IHk Hk), (opt_slot_rt dec_tdesc enc_tdesc tdesc_ok v IHv Hv),
    (extra_slot_rt ex Hex).
  reflexivity.
Qed.

(* The fixpoints over cvdesc, const_value and cvx walk their lists with a local [fix]: over a list that is
   [map] (or [forallb]) by conversion; over a list of pairs it is [map (both f)].  One equation per fixpoint
   says so, and the proofs rewrite with it. *)
Definition both {A B} (f : A -> B) (kv : A * A) : B * B := (f (fst kv), f (snd kv)).

Lemma fix_map_pair {A B} (f : A -> B) l :
  (fix go (l : list (A * A)) : list (B * B) := match l with [] => [] | (k, v) :: r => (f k, f v) :: go r end) l = map (both f) l.
Proof. induction l as [|[k v] r IH]; [reflexivity|]. cbn [map]. rewrite <- IH. reflexivity. Qed.

Definition w_pairs {A} (e : A -> wval) (m : list (A * A)) : wval := WMap T_STRUCT T_STRUCT (map (both e) m).

Lemma enc_cvdesc_eqn ty dbl int str b l m id ex :
  enc_cvdesc (CVD ty dbl int str b l m id ex) =
  wstruct lay_cv [nz (WI32 (wrap32 ty)); nz (WDouble dbl); nz (WI64 int); nz (WStr str); nz (WBool b);
                  s_optw (WList T_STRUCT []) (w_structs enc_cvdesc) l; s_optw (WMap T_STRUCT T_STRUCT []) (w_pairs enc_cvdesc) m;
                  nz (WStr id); s_extra ex].
Proof. cbn [enc_cvdesc]. destruct m; [unfold s_optw, w_pairs; rewrite <- (fix_map_pair enc_cvdesc)|]; reflexivity. Qed.

Lemma cvdesc_ok_eqn ty dbl int str b l m id ex :
  cvdesc_ok (CVD ty dbl int str b l m id ex) =
  in_srangeb 4 ty && match l with Some l => forallb cvdesc_ok l | None => true end &&
  match m with Some m => forallb (fun kv => cvdesc_ok (fst kv) && cvdesc_ok (snd kv)) m | None => true end && extra_ok ex.
Proof.
  cbn [cvdesc_ok]. do 2 f_equal. destruct m as [m|]; [|reflexivity].
  induction m as [|[k v] r IH]; [reflexivity|]. cbn [forallb fst snd]. rewrite <- IH. reflexivity.
Qed.

Lemma d_list_ok_in {A} (d : wval -> option A) (e : A -> wval) (ok : A -> bool) l :
  Forall (fun x => ok x = true -> d (e x) = Some x) l -> forallb ok l = true -> d_list d (w_structs e l) = Some l.
Proof.
  intros H Hl. unfold d_list, w_structs. apply mapo_map. rewrite forallb_forall in Hl. rewrite Forall_forall in *. auto.
Qed.

Lemma d_list_ok {A} (d : wval -> option A) (e : A -> wval) (ok : A -> bool) l :
  (forall x, ok x = true -> d (e x) = Some x) -> forallb ok l = true -> d_list d (w_structs e l) = Some l.
Proof. intro H. apply d_list_ok_in. apply Forall_forall. intros x _. apply H. Qed.

Lemma dec_cv_pairs_rt m :
  Forall (fun kv : cvdesc * cvdesc => (cvdesc_ok (fst kv) = true -> dec_cvdesc (enc_cvdesc (fst kv)) = Some (fst kv)) /\
                                      (cvdesc_ok (snd kv) = true -> dec_cvdesc (enc_cvdesc (snd kv)) = Some (snd kv))) m ->
  forallb (fun kv => cvdesc_ok (fst kv) && cvdesc_ok (snd kv)) m = true ->
  (fix go (l1 : list (wval * wval)) : option (list (cvdesc * cvdesc)) :=
     match l1 with
     | [] => Some []
     | (k, v) :: r =>
         match dec_cvdesc k with
         | Some a => match dec_cvdesc v with
                     | Some b0 => match go r with Some rs => Some ((a, b0) :: rs) | None => None end
                     | None => None end
         | None => None end
     end) (map (both enc_cvdesc) m) = Some m.
Proof.
  induction 1 as [|[k v] r [Hk Hv] _ IH]; [reflexivity|]. cbn [forallb map both fst snd] in *. intro H. bsplit.
  rewrite Hk, Hv, IH by assumption. reflexivity.
Qed.

Lemma cvdesc_rt : forall c, cvdesc_ok c = true -> dec_cvdesc (enc_cvdesc c) = Some c.
Proof.
  induction c as [ty dbl int str b l m id ex IHl IHm] using cvdesc_ind'. rewrite cvdesc_ok_eqn, enc_cvdesc_eqn.
  intro H. apply andb_true_iff in H as [H Hex]. apply andb_true_iff in H as [H Hm]. apply andb_true_iff in H as [Hty Hl].
  unfold wstruct. cbn [dec_cvdesc]. gets.
  rewrite (wrap32_small ty) by (apply in_srangeb_spec; exact Hty).
  rewrite (optw_slot_rt (d_list dec_cvdesc) _ (w_structs enc_cvdesc) (forallb cvdesc_ok) l (fun x E => d_list_ok_in _ _ _ x (IHl x E)) Hl),
    (extra_slot_rt ex Hex).
  destruct m as [m0|]; cbn [s_optw w_pairs fst snd opt]; [rewrite (dec_cv_pairs_rt _ (IHm _ eq_refl) Hm)|]; reflexivity.
Qed.

Lemma constdesc_rt c : constdesc_ok c = true -> dec_constdesc (enc_constdesc c) = Some c.
Proof.
  unfold constdesc_ok. intro H. bsplit. unfold dec_constdesc, enc_constdesc, wstruct. gets.
  rewrite tdesc_rt, cvdesc_rt, d_annos_rt, extra_slot_rt by assumption. destruct c; reflexivity.
Qed.

Lemma typedefdesc_rt t : typedefdesc_ok t = true -> dec_typedefdesc (enc_typedefdesc t) = Some t.
Proof.
  unfold typedefdesc_ok. intro H. bsplit. unfold dec_typedefdesc, enc_typedefdesc, wstruct. gets.
  rewrite tdesc_rt, d_annos_rt, extra_slot_rt by assumption. destruct t; reflexivity.
Qed.

Lemma enumvaluedesc_rt v : enumvaluedesc_ok v = true -> dec_enumvaluedesc (enc_enumvaluedesc v) = Some v.
Proof.
  unfold enumvaluedesc_ok. intro H. bsplit. unfold dec_enumvaluedesc, enc_enumvaluedesc, wstruct. gets.
  rewrite d_annos_rt, extra_slot_rt by assumption. destruct v; reflexivity.
Qed.

Lemma enumdesc_rt e : enumdesc_ok e = true -> dec_enumdesc (enc_enumdesc e) = Some e.
Proof.
  unfold enumdesc_ok. intro H. bsplit. unfold dec_enumdesc, enc_enumdesc, wstruct. gets.
  rewrite (d_list_ok _ _ enumvaluedesc_ok _ enumvaluedesc_rt), d_annos_rt, extra_slot_rt by assumption. destruct e; reflexivity.
Qed.

Lemma fielddesc_rt f : fielddesc_ok f = true -> dec_fielddesc (enc_fielddesc f) = Some f.
Proof.
  unfold fielddesc_ok. intro H. bsplit. unfold dec_fielddesc, enc_fielddesc, wstruct. gets.
  rewrite tdesc_rt, (opt_slot_rt dec_cvdesc enc_cvdesc cvdesc_ok _ (fun x _ => cvdesc_rt x)), d_annos_rt, extra_slot_rt by assumption.
  destruct f; reflexivity.
Qed.

Lemma fielddescs_rt l : forallb fielddesc_ok l = true -> dec_fielddescs (enc_fielddescs l) = Some l.
Proof. apply d_list_ok. exact fielddesc_rt. Qed.

Lemma structdesc_rt s : structdesc_ok s = true -> dec_structdesc (enc_structdesc s) = Some s.
Proof.
  unfold structdesc_ok. intro H. bsplit. unfold dec_structdesc, enc_structdesc, wstruct. gets.
  rewrite fielddescs_rt, d_annos_rt, extra_slot_rt by assumption. destruct s; reflexivity.
Qed.

Lemma methoddesc_rt m : methoddesc_ok m = true -> dec_methoddesc (enc_methoddesc m) = Some m.
Proof.
  unfold methoddesc_ok. intro H. bsplit. unfold dec_methoddesc, enc_methoddesc, wstruct. gets.
  rewrite (opt_slot_rt dec_tdesc enc_tdesc tdesc_ok _ (fun x _ => tdesc_rt x)), !fielddescs_rt, d_annos_rt, extra_slot_rt by assumption.
  destruct m; reflexivity.
Qed.

Lemma servicedesc_rt s : servicedesc_ok s = true -> dec_servicedesc (enc_servicedesc s) = Some s.
Proof.
  unfold servicedesc_ok. intro H. bsplit. unfold dec_servicedesc, enc_servicedesc, wstruct. gets.
  rewrite (d_list_ok _ _ methoddesc_ok _ methoddesc_rt), d_annos_rt, extra_slot_rt by assumption.
  destruct s as [p n ms an cm ex b]. destruct b; reflexivity.
Qed.

Theorem fdesc_rt d : fdesc_ok d = true -> dec_fdesc (enc_fdesc d) = Some d.
Proof.
  unfold fdesc_ok. intro H. bsplit. unfold dec_fdesc, enc_fdesc, wstruct. gets.
  rewrite !d_strmap by assumption.
  rewrite (d_list_ok _ _ servicedesc_ok _ servicedesc_rt), !(d_list_ok _ _ structdesc_ok _ structdesc_rt),
    (d_list_ok _ _ enumdesc_ok _ enumdesc_rt), (d_list_ok _ _ typedefdesc_ok _ typedefdesc_rt),
    (d_list_ok _ _ constdesc_ok _ constdesc_rt), extra_slot_rt by assumption.
  destruct d; reflexivity.
Qed.

Lemma weq_mod_refl : forall v, weq_mod false v v = true.
Proof.
  fix IH 1. intros [b|z|z|z|z|z|s|fs|kt vt kvs|et l|et l]; cbn [weq_mod]; try apply Z.eqb_refl.
  5-6: rewrite ttype_eqb_refl; cbn [andb]; induction l as [|x r IHr]; [reflexivity|]; rewrite IH, IHr; reflexivity.
  - destruct b; reflexivity.
  - apply beqb_refl.
  - induction fs as [|[[t i] x] r IHr]; [reflexivity|].
    rewrite ttype_eqb_refl, Z.eqb_refl, IH, IHr. reflexivity.
  - rewrite !ttype_eqb_refl. cbn [andb].
    induction kvs as [|[k x] r IHr]; [reflexivity|].
    rewrite !IH. cbn [andb]. exact IHr.
Qed.

Lemma fdesc_equivb_refl d : fdesc_equivb d d = true.
Proof. apply weq_mod_refl. Qed.

Lemma update_keys {A} k (v : A) m :
  map fst (update k v m) = if existsb (beqb k) (map fst m) then map fst m else map fst m ++ [k].
Proof.
  induction m as [|[k' v'] m IH]; cbn [update map fst existsb]; [reflexivity|].
  destruct (beqb k k') eqn:E; cbn [orb map fst]; [apply beqb_true in E; subst; reflexivity|].
  rewrite IH. destruct (existsb (beqb k) (map fst m)); reflexivity.
Qed.

Lemma update_nodup {A} k (v : A) m : NoDup (map fst m) -> NoDup (map fst (update k v m)).
Proof.
  intro H. rewrite update_keys. destruct (existsb (beqb k) (map fst m)) eqn:E; [exact H|].
  apply (Permutation_NoDup (l := k :: map fst m)).
  - apply Permutation_cons_append.
  - constructor; [|exact H]. intro Hin. apply existsb_beqb_In in Hin. congruence.
Qed.

Lemma fold_smap_ok {A B} (step : smap B -> A -> smap B) (l : list A) :
  (forall m x, NoDup (map fst m) -> NoDup (map fst (step m x))) -> smap_ok (fold_left step l []) = true.
Proof.
  intro H. apply nodupb_NoDup. cut (forall acc, NoDup (map fst acc) -> NoDup (map fst (fold_left step l acc))).
  - intro G. apply G. constructor.
  - induction l as [|x l IH]; intros acc Ha; cbn [fold_left]; [exact Ha|]. apply IH. apply H. exact Ha.
Qed.

Lemma annos_map_ok a : smap_ok (annos_map a) = true.
Proof. apply fold_smap_ok. intros m x. apply update_nodup. Qed.

Lemma includes_map_ok f : smap_ok (includes_map f) = true.
Proof. apply fold_smap_ok. intros m x. apply update_nodup. Qed.

Lemma namespaces_map_ok f : smap_ok (namespaces_map f) = true.
Proof.
  apply fold_smap_ok. intros m x Hm.
  destruct (lookup (ns_language x) m); [destruct (beqb (ns_language x) s_star)|]; try apply update_nodup; exact Hm.
Qed.

Lemma type_desc_ok p : forall t, tdesc_ok (type_desc p t) = true.
Proof.
  induction t as [n k v c an cat r td IHk IHv] using ty_ind'. cbn [type_desc tdesc_ok extra_ok].
  destruct k as [x|]; destruct v as [y|]; rewrite ?IHk, ?IHv by reflexivity; reflexivity.
Qed.

Lemma cv_desc_list l : cv_desc (CList l) = CVD CVT_LIST 0 0 [] false (Some (map cv_desc l)) None [] None.
Proof. reflexivity. Qed.
Lemma cv_desc_map l : cv_desc (CMap l) = CVD CVT_MAP 0 0 [] false None (Some (map (both cv_desc) l)) [] None.
Proof. cbn [cv_desc]. rewrite (fix_map_pair cv_desc). reflexivity. Qed.

Lemma forallb_map_Forall {A B} (f : A -> B) (ok : B -> bool) l : Forall (fun x => ok (f x) = true) l -> forallb ok (map f l) = true.
Proof. induction 1 as [|x l Hx _ IH]; [reflexivity|]. cbn [map forallb]. rewrite Hx, IH. reflexivity. Qed.

Lemma forallb_map_true {A B} (f : A -> B) (ok : B -> bool) l : (forall x, ok (f x) = true) -> forallb ok (map f l) = true.
Proof. intro H. apply forallb_map_Forall. apply Forall_forall. intros x _. apply H. Qed.

Lemma cv_desc_ok : forall c, cvdesc_ok (cv_desc c) = true.
Proof.
  induction c as [b|z|s|s e|l IH|l IH] using const_value_ind'; try reflexivity.
  - cbn [cv_desc]. destruct (beqb s s_false); [reflexivity|]. destruct (beqb s s_true); reflexivity.
  - rewrite cv_desc_list, cvdesc_ok_eqn, (forallb_map_Forall _ _ _ IH). reflexivity.
  - rewrite cv_desc_map, cvdesc_ok_eqn, forallb_map_Forall; [reflexivity|].
    eapply Forall_impl; [|exact IH]. intros [k v] [Hk Hv]. cbn [both fst snd] in *. rewrite Hk, Hv. reflexivity.
Qed.

Lemma field_desc_ok p f : fielddesc_ok (field_desc p f) = true.
Proof.
  unfold fielddesc_ok, field_desc. cbn [fld_type fld_default fld_annos fld_extra extra_ok].
  rewrite type_desc_ok, annos_map_ok. destruct (fd_default f); cbn [omap]; [rewrite cv_desc_ok|]; reflexivity.
Qed.
Lemma struct_desc_ok p s : structdesc_ok (struct_desc p s) = true.
Proof.
  unfold structdesc_ok, struct_desc. cbn [sd_fields sd_annos sd_extra extra_ok].
  rewrite annos_map_ok, forallb_map_true by (apply field_desc_ok). reflexivity.
Qed.
Lemma enum_desc_ok p e : enumdesc_ok (enum_desc p e) = true.
Proof.
  unfold enumdesc_ok, enum_desc. cbn [ed_values ed_annos ed_extra extra_ok].
  rewrite annos_map_ok, forallb_map_true; [reflexivity|].
  intro v. unfold enumvaluedesc_ok, enum_value_desc. cbn [evd_annos evd_extra extra_ok]. rewrite annos_map_ok. reflexivity.
Qed.
Lemma typedef_desc_ok p t : typedefdesc_ok (typedef_desc p t) = true.
Proof. unfold typedefdesc_ok, typedef_desc. cbn [tdd_type tdd_annos tdd_extra extra_ok]. rewrite type_desc_ok, annos_map_ok. reflexivity. Qed.
Lemma method_desc_ok p fn : methoddesc_ok (method_desc p fn) = true.
Proof.
  unfold methoddesc_ok, method_desc. cbn [md_response md_args md_annos md_throws md_extra extra_ok].
  rewrite type_desc_ok, annos_map_ok, !forallb_map_true by (apply field_desc_ok). reflexivity.
Qed.
Lemma service_desc_ok p s : servicedesc_ok (service_desc p s) = true.
Proof.
  unfold servicedesc_ok, service_desc. cbn [svd_methods svd_annos svd_extra extra_ok].
  rewrite annos_map_ok, forallb_map_true by (apply method_desc_ok). reflexivity.
Qed.
Lemma const_desc_ok p c : constdesc_ok (const_desc p c) = true.
Proof. unfold constdesc_ok, const_desc. cbn [cd_type cd_value cd_annos cd_extra extra_ok]. rewrite type_desc_ok, cv_desc_ok, annos_map_ok. reflexivity. Qed.

(* every descriptor GetFileDescriptor builds is in the domain of the round trip *)
Theorem descriptor_of_ok f : fdesc_ok (descriptor_of f) = true.
Proof.
  unfold fdesc_ok, descriptor_of.
  cbn [fdc_includes fdc_namespaces fdc_services fdc_structs fdc_exceptions fdc_enums fdc_typedefs fdc_unions fdc_consts fdc_extra extra_ok].
  rewrite includes_map_ok, namespaces_map_ok.
  rewrite (forallb_map_true _ servicedesc_ok) by (apply service_desc_ok).
  rewrite !(forallb_map_true _ structdesc_ok) by (apply struct_desc_ok).
  rewrite (forallb_map_true _ enumdesc_ok) by (apply enum_desc_ok).
  rewrite (forallb_map_true _ typedefdesc_ok) by (apply typedef_desc_ok).
  rewrite (forallb_map_true _ constdesc_ok) by (apply const_desc_ok).
  reflexivity.
Qed.

Lemma annos_map_faithful a : annos_ok a = true -> annos_map a = annx_of_annos a.
Proof.
  intro H. apply nodupb_NoDup in H. unfold annos_map, annx_of_annos. apply fold_update_map. exact H.
Qed.

Lemma dedup_In : forall l seen x, In x (dedup seen l) <-> In x l /\ ~ In x seen.
Proof.
  induction l as [|y r IH]; intros seen x; cbn [dedup In]; [tauto|].
  destruct (existsb (beqb y) seen) eqn:Ey.
  - rewrite IH. apply existsb_beqb_In in Ey. split; [tauto|]. intros [[->|H] Hn]; [contradiction|tauto].
  - cbn [In]. rewrite IH. cbn [In].
    assert (Hy : ~ In y seen) by (intro Hin; apply existsb_beqb_In in Hin; congruence).
    split.
    + intros [->|[H Hn]]; [tauto|]. split; [tauto|]. intro Hs. apply Hn. right. exact Hs.
    + intros [[->|H] Hn]; [left; reflexivity|].
      destruct (beqb y x) eqn:E; [apply beqb_true in E; left; exact E|].
      right. split; [exact H|]. intros [->|Hs]; [rewrite beqb_refl in E; discriminate|contradiction].
Qed.

Lemma find_snoc {A} (p : A -> bool) l x :
  find p (l ++ [x]) = match find p l with Some y => Some y | None => if p x then Some x else None end.
Proof. induction l as [|y r IH]; cbn [app find]; [reflexivity|]. destruct (p y); [reflexivity|exact IH]. Qed.

Lemma first_ns_snoc l pre n :
  first_ns l (pre ++ [n]) =
  match first_ns l pre with Some x => Some x | None => if beqb (ns_language n) l then Some (ns_name n) else None end.
Proof.
  unfold first_ns. rewrite find_snoc. destruct (find (fun n0 => beqb (ns_language n0) l) pre); [reflexivity|].
  destruct (beqb (ns_language n) l); reflexivity.
Qed.

Lemma dedup_seen_ext : forall l s s', (forall x, In x s <-> In x s') -> dedup s l = dedup s' l.
Proof.
  induction l as [|y r IH]; intros s s' H; cbn [dedup]; [reflexivity|].
  assert (E : existsb (beqb y) s = existsb (beqb y) s').
  { destruct (existsb (beqb y) s) eqn:E1, (existsb (beqb y) s') eqn:E2; try reflexivity.
    - apply existsb_beqb_In, H, existsb_beqb_In in E1. congruence.
    - apply existsb_beqb_In, H, existsb_beqb_In in E2. congruence. }
  rewrite E. destruct (existsb (beqb y) s'); [apply IH; exact H|]. f_equal. apply IH. intro x. cbn [In]. rewrite H. tauto.
Qed.

Lemma first_ns_cons l n ns : first_ns l (n :: ns) = if beqb (ns_language n) l then Some (ns_name n) else first_ns l ns.
Proof. unfold first_ns. cbn [find]. destruct (beqb (ns_language n) l); reflexivity. Qed.

Lemma last_ns_cons l n ns :
  last_ns l (n :: ns) = match last_ns l ns with Some x => Some x | None => if beqb (ns_language n) l then Some (ns_name n) else None end.
Proof. unfold last_ns. cbn [rev]. apply first_ns_snoc. Qed.

Lemma ns_of_language_cons_other l n ns : ns_language n <> l -> ns_of_language l (n :: ns) = ns_of_language l ns.
Proof.
  intro H. apply beqb_false in H. unfold ns_of_language. rewrite first_ns_cons, last_ns_cons, H.
  destruct (last_ns l ns); reflexivity.
Qed.

Lemma update_present {A} k (v : A) m :
  In k (map fst m) -> NoDup (map fst m) -> update k v m = map (fun kv => if beqb k (fst kv) then (k, v) else kv) m.
Proof.
  induction m as [|[k' v'] m IH]; intros Hin Hnd; [destruct Hin|]. cbn [update map fst] in *. inversion Hnd as [|? ? Hk Hm]; subst.
  destruct (beqb k k') eqn:E.
  - apply beqb_true in E. subst k'. f_equal. rewrite <- (map_id m) at 1. apply map_ext_in. intros [k2 v2] H2.
    destruct (beqb k (fst (k2, v2))) eqn:E2; [|reflexivity]. apply beqb_true in E2. cbn [fst] in E2. subst k2.
    exfalso. apply Hk. apply (in_map fst) in H2. exact H2.
  - f_equal. apply IH; [|exact Hm]. destruct Hin as [->|H]; [rewrite beqb_refl in E; discriminate|exact H].
Qed.

(* One run of the loop of namespaces_map from any map m with distinct keys: the entries of m keep their place,
   and only the value of "*" moves on, to the last "*" line of ns; the languages of ns that m does not have are
   appended in order of first mention, each with the namespace GetNamespace reads. *)
Definition ns_step (m : smap bytes) (n : namespace) : smap bytes :=
  match lookup (ns_language n) m with
  | Some _ => if beqb (ns_language n) s_star then update (ns_language n) (ns_name n) m else m
  | None => update (ns_language n) (ns_name n) m
  end.
Definition ns_upd (ns : list namespace) (kv : bytes * bytes) : bytes * bytes :=
  (fst kv, if beqb (fst kv) s_star then match last_ns s_star ns with Some x => x | None => snd kv end else snd kv).

Lemma ns_fold : forall ns m, NoDup (map fst m) ->
  fold_left ns_step ns m = map (ns_upd ns) m ++ map (fun l => (l, ns_of_language l ns)) (dedup (map fst m) (map ns_language ns)).
Proof.
  induction ns as [|n ns IH]; intros m Hnd; cbn [fold_left map dedup].
  - rewrite app_nil_r. rewrite <- (map_id m) at 1. apply map_ext. intros [k v]. unfold ns_upd. cbn [fst snd last_ns rev first_ns find omap].
    destruct (beqb k s_star); reflexivity.
  - set (L := ns_language n). set (N := ns_name n).
    assert (Hother : forall D, (forall x, In x D -> x <> L) ->
              map (fun l => (l, ns_of_language l ns)) D = map (fun l => (l, ns_of_language l (n :: ns))) D).
    { intros D HD. apply map_ext_in. intros x Hx. rewrite ns_of_language_cons_other; [reflexivity|]. intro E. exact (HD x Hx (eq_sym E)). }
    unfold ns_step at 2. fold L N. destruct (lookup L m) as [v0|] eqn:El.
    + assert (HL : In L (map fst m)).
      { destruct (existsb (beqb L) (map fst m)) eqn:E; [apply existsb_beqb_In; exact E|].
        exfalso. assert (X : lookup L m = None); [|congruence]. apply lookup_None_not_In. intro Hin. apply existsb_beqb_In in Hin. congruence. }
      assert (EL : existsb (beqb L) (map fst m) = true) by (apply existsb_beqb_In; exact HL).
      rewrite EL.
      assert (HD : forall x, In x (dedup (map fst m) (map ns_language ns)) -> x <> L).
      { intros x Hx E. apply dedup_In in Hx as [_ Hx]. subst x. contradiction. }
      rewrite <- (Hother _ HD). destruct (beqb L s_star) eqn:Es.
      * rewrite IH by (apply update_nodup; exact Hnd). rewrite update_keys, EL. f_equal.
        rewrite (update_present L N m HL Hnd), map_map. apply map_ext. intros [k v]. unfold ns_upd. rewrite last_ns_cons. fold L N. rewrite Es.
        destruct (beqb L (fst (k, v))) eqn:Ek; cbn [fst snd] in *.
        -- apply beqb_true in Ek. subst k. rewrite Es. destruct (last_ns s_star ns); reflexivity.
        -- destruct (beqb k s_star) eqn:Eks; [|reflexivity]. apply beqb_true in Es, Eks. rewrite Es, Eks, beqb_refl in Ek. discriminate.
      * rewrite IH by exact Hnd. f_equal. apply map_ext. intros [k v]. unfold ns_upd. rewrite last_ns_cons. fold L. rewrite Es.
        destruct (last_ns s_star ns); reflexivity.
    + assert (HLn : ~ In L (map fst m)) by (apply lookup_None_not_In; exact El).
      assert (EL : existsb (beqb L) (map fst m) = false).
      { destruct (existsb (beqb L) (map fst m)) eqn:E; [apply existsb_beqb_In in E; contradiction|reflexivity]. }
      rewrite EL, update_notin by exact HLn. rewrite IH.
      2:{ rewrite map_app. apply (Permutation_NoDup (Permutation_cons_append _ _)). constructor; assumption. }
      rewrite !map_app. cbn [map fst]. rewrite <- app_assoc. cbn [app].
      rewrite (dedup_seen_ext _ (map fst m ++ [L]) (L :: map fst m)) by (intro x; rewrite in_app_iff; cbn [In]; tauto).
      rewrite (Hother (dedup (L :: map fst m) (map ns_language ns)))
        by (intros x Hx E; apply dedup_In in Hx as [_ Hx]; apply Hx; left; symmetry; exact E).
      f_equal; [|f_equal].
      * apply map_ext_in. intros [k v] Hin. unfold ns_upd. cbn [fst snd]. rewrite last_ns_cons. fold L.
        destruct (beqb k s_star) eqn:Ek; [|reflexivity].
        assert (Es : beqb L s_star = false).
        { apply beqb_false. intro E. apply beqb_true in Ek. apply HLn. rewrite E, <- Ek. exact (in_map fst _ _ Hin). }
        rewrite Es. destruct (last_ns s_star ns); reflexivity.
      * unfold ns_upd, ns_of_language. cbn [fst snd]. rewrite first_ns_cons, last_ns_cons. fold L N. rewrite beqb_refl.
        destruct (beqb L s_star) eqn:Es; [|reflexivity]. apply beqb_true in Es. rewrite Es. destruct (last_ns s_star ns); reflexivity.
Qed.

Theorem namespaces_faithful f : namespaces_map f = namespaces_x f.
Proof. exact (ns_fold (f_namespaces f) [] (NoDup_nil _)). Qed.

Definition no_byte (c : byte) (s : bytes) : bool := forallb (fun b => negb (Byte.eqb b c)) s.

Lemma split_on_none c : forall s cur, no_byte c s = true -> split_on c s cur = [rev cur ++ s].
Proof.
  induction s as [|b r IH]; intros cur H; cbn [split_on]; [rewrite app_nil_r; reflexivity|].
  cbn [no_byte forallb] in H. apply andb_true_iff in H as [Hb Hr]. apply negb_true_iff in Hb. rewrite Hb.
  rewrite IH by exact Hr. cbn [rev]. rewrite <- app_assoc. reflexivity.
Qed.

Lemma split_on_app c : forall a b cur, split_on c (a ++ c :: b) cur = split_on c a cur ++ split_on c b [].
Proof.
  induction a as [|x a IH]; intros b cur; cbn [app split_on].
  - assert (E : Byte.eqb c c = true) by (apply byte_eqb_eq; reflexivity). rewrite E. reflexivity.
  - destruct (Byte.eqb x c); [rewrite IH; reflexivity|apply IH].
Qed.

Definition join_with (c : byte) (l : list bytes) : bytes :=
  List.concat (match l with [] => [] | x :: r => x :: map (fun p => c :: p) r end).

Lemma split_on_nonempty c : forall s cur, split_on c s cur <> [].
Proof. induction s as [|b r IH]; intro cur; cbn [split_on]; [discriminate|]. destruct (Byte.eqb b c); [discriminate|apply IH]. Qed.

Lemma join_split c : forall s cur, join_with c (split_on c s cur) = rev cur ++ s.
Proof.
  induction s as [|b r IH]; intro cur; cbn [split_on].
  - unfold join_with. cbn [map List.concat]. rewrite !app_nil_r. reflexivity.
  - destruct (Byte.eqb b c) eqn:E.
    + apply byte_eqb_eq in E. subst b. specialize (IH []). cbn [rev app] in IH.
      unfold join_with in *. destruct (split_on c r []) as [|y ys] eqn:Es; [exfalso; exact (split_on_nonempty c r [] Es)|].
      cbn [map List.concat] in *. rewrite <- IH. cbn [app]. reflexivity.
    + rewrite IH. cbn [rev]. rewrite <- app_assoc. reflexivity.
Qed.

Lemma last_index_split_last c a b : no_byte c b = true -> last_index_split c (a ++ c :: b) = Some (a, b).
Proof.
  intro Hb. unfold last_index_split. rewrite split_on_app, (split_on_none c b [] Hb). cbn [rev app].
  rewrite rev_unit. pose proof (join_split c a []) as J. cbn [rev app] in J.
  destruct (split_on c a []) as [|x r] eqn:Es; [exfalso; exact (split_on_nonempty c a [] Es)|].
  rewrite rev_involutive. unfold join_with in J. rewrite J.
  match goal with |- match ?q with _ => _ end = _ => destruct q as [|y ys] eqn:Er end; [|reflexivity].
  apply (f_equal (@List.length (list byte))) in Er. rewrite rev_length in Er. discriminate.
Qed.

Lemma last_index_split_none c s : no_byte c s = true -> last_index_split c s = None.
Proof. intro H. unfold last_index_split. rewrite (split_on_none c s [] H). reflexivity. Qed.

Lemma include_alias_prefix i :
  match in_ref i with
  | Some p => beqb (base_name (in_path i)) (base_name p)
  | None => false end = true ->
  include_alias (include_path i) = idl_prefix (in_path i).
Proof.
  unfold include_path. destruct (in_ref i) as [p|]; [|discriminate]. intro Hb. apply beqb_true in Hb.
  unfold include_alias, idl_prefix. rewrite Hb. reflexivity.
Qed.

Theorem includes_faithful f :
  distinct_basenames f = true -> includes_plain f = true -> includes_map f = includes_x f.
Proof.
  unfold distinct_basenames, includes_plain, includes_map, includes_x. intros Hd Hp.
  apply nodupb_NoDup in Hd. rewrite (fold_update_map _ _ _ Hd).
  apply map_ext_in. intros i Hi. rewrite forallb_forall in Hp. rewrite (include_alias_prefix i (Hp i Hi)). reflexivity.
Qed.

Definition forget_includes (x : filex) : filex :=
  FileX (x_path x) [] (x_namespaces x) (x_structs x) (x_unions x) (x_exceptions x) (x_enums x) (x_typedefs x)
        (x_services x) (x_consts x).

(* the descriptor rebuilt from the facts alone *)
Fixpoint tdesc_of_tyx (p : bytes) (t : tyx) : tdesc :=
  match t with
  | TyX n k v => TDesc p n (match k with Some x => Some (tdesc_of_tyx p x) | None => None end)
                       (match v with Some x => Some (tdesc_of_tyx p x) | None => None end) None
  end.
Fixpoint cvdesc_of_cvx (c : cvx) : cvdesc :=
  match c with
  | XDouble b => cvd_plain CVT_DOUBLE b 0 [] false []
  | XInt z => cvd_plain CVT_INT 0 z [] false []
  | XString s => cvd_plain CVT_STRING 0 0 s false []
  | XBool b => cvd_plain CVT_BOOL 0 0 [] b []
  | XIdent s => cvd_plain CVT_IDENTIFIER 0 0 [] false s
  | XList l => CVD CVT_LIST 0 0 [] false
                   (Some ((fix go (l : list cvx) : list cvdesc := match l with [] => [] | x :: r => cvdesc_of_cvx x :: go r end) l))
                   None [] None
  | XMap l => CVD CVT_MAP 0 0 [] false None
                  (Some ((fix go (l : list (cvx * cvx)) : list (cvdesc * cvdesc) :=
                            match l with [] => [] | (k, v) :: r => (cvdesc_of_cvx k, cvdesc_of_cvx v) :: go r end) l))
                  [] None
  end.
Definition fielddesc_of_x (p : bytes) (f : fieldx) : fielddesc :=
  FieldD p (fx_name f) (tdesc_of_tyx p (fx_type f)) (match fx_req f with Some r => req_string r | None => [] end) (fx_id f)
         (omap cvdesc_of_cvx (fx_default f)) (fx_annos f) (fx_comments f) None.
Definition structdesc_of_x (p : bytes) (s : structx) : structdesc :=
  StructD p (sx_name s) (map (fielddesc_of_x p) (sx_fields s)) (sx_annos s) (sx_comments s) None.
Definition enumdesc_of_x (p : bytes) (e : enumx) : enumdesc :=
  EnumD p (ex_name' e) (map (fun v => EnumValueD p (evx_name v) (evx_number v) (evx_annos v) (evx_comments v) None) (ex_values e))
        (ex_annos e) (ex_comments e) None.
Definition typedefdesc_of_x (p : bytes) (t : typedefx) : typedefdesc :=
  TypedefD p (tdesc_of_tyx p (tx_type t)) (tx_alias t) (tx_annos t) (tx_comments t) None.
Definition methoddesc_of_x (p : bytes) (m : methodx) : methoddesc :=
  MethodD p (mx_name m) (omap (tdesc_of_tyx p) (mx_response m)) (map (fielddesc_of_x p) (mx_args m)) (mx_annos m)
          (mx_comments m) (map (fielddesc_of_x p) (mx_throws m)) (mx_oneway m) None.
Definition servicedesc_of_x (p : bytes) (s : servicex) : servicedesc :=
  ServiceD p (svx_name s) (map (methoddesc_of_x p) (svx_methods s)) (svx_annos s) (svx_comments s) None (svx_base s).
Definition constdesc_of_x (p : bytes) (c : constx) : constdesc :=
  ConstD p (cx_name c) (tdesc_of_tyx p (cx_type c)) (cvdesc_of_cvx (cx_value c)) (cx_annos c) (cx_comments c) None.
Definition fdesc_of_facts (x : filex) : fdesc :=
  let p := x_path x in
  FileD p (x_includes x) (x_namespaces x) (map (servicedesc_of_x p) (x_services x)) (map (structdesc_of_x p) (x_structs x))
        (map (structdesc_of_x p) (x_exceptions x)) (map (enumdesc_of_x p) (x_enums x)) (map (typedefdesc_of_x p) (x_typedefs x))
        (map (structdesc_of_x p) (x_unions x)) (map (constdesc_of_x p) (x_consts x)) None.

Lemma tdesc_of_tyx_ty p : forall t, tdesc_of_tyx p (tyx_of_ty t) = type_desc p t.
Proof.
  induction t as [n k v c an cat r td IHk IHv] using ty_ind'. cbn [tyx_of_ty tdesc_of_tyx type_desc].
  destruct k as [x|]; destruct v as [y|]; rewrite ?(IHk _ eq_refl), ?(IHv _ eq_refl); reflexivity.
Qed.

Lemma cvx_of_cv_list l : cvx_of_cv (CList l) = XList (map cvx_of_cv l).
Proof. reflexivity. Qed.
Lemma cvx_of_cv_map l : cvx_of_cv (CMap l) = XMap (map (both cvx_of_cv) l).
Proof. cbn [cvx_of_cv]. rewrite (fix_map_pair cvx_of_cv). reflexivity. Qed.
Lemma cvdesc_of_cvx_list l : cvdesc_of_cvx (XList l) = CVD CVT_LIST 0 0 [] false (Some (map cvdesc_of_cvx l)) None [] None.
Proof. reflexivity. Qed.
Lemma cvdesc_of_cvx_map l : cvdesc_of_cvx (XMap l) = CVD CVT_MAP 0 0 [] false None (Some (map (both cvdesc_of_cvx) l)) [] None.
Proof. cbn [cvdesc_of_cvx]. rewrite (fix_map_pair cvdesc_of_cvx). reflexivity. Qed.

Lemma cvdesc_of_cvx_cv : forall c, cvdesc_of_cvx (cvx_of_cv c) = cv_desc c.
Proof.
  induction c as [b|z|s|s e|l IH|l IH] using const_value_ind'; try reflexivity.
  - cbn [cvx_of_cv cv_desc]. destruct (beqb s s_false); [reflexivity|]. destruct (beqb s s_true); reflexivity.
  - rewrite cvx_of_cv_list, cvdesc_of_cvx_list, cv_desc_list, map_map. do 2 f_equal. apply map_ext_Forall. exact IH.
  - rewrite cvx_of_cv_map, cvdesc_of_cvx_map, cv_desc_map, map_map. do 2 f_equal. apply map_ext_Forall.
    eapply Forall_impl; [|exact IH]. intros [k v] [Hk Hv]. unfold both. cbn [fst snd] in *. rewrite Hk, Hv. reflexivity.
Qed.

Lemma map_map_ok {A B C} (ok : A -> bool) (f : A -> B) (g : B -> C) (h : A -> C) l :
  (forall x, ok x = true -> g (f x) = h x) -> forallb ok l = true -> map g (map f l) = map h l.
Proof.
  intros H Hl. rewrite map_map. apply map_ext_in. intros x Hx. apply H. rewrite forallb_forall in Hl. exact (Hl x Hx).
Qed.

Lemma fielddesc_of_x_field p f : field_annos_ok f = true -> fielddesc_of_x p (fieldx_of f) = field_desc p f.
Proof.
  unfold field_annos_ok. intro H. unfold fielddesc_of_x, fieldx_of, field_desc.
  cbn [fx_name fx_id fx_req fx_type fx_default fx_annos fx_comments].
  rewrite tdesc_of_tyx_ty, <- annos_map_faithful by exact H.
  destruct (fd_default f); cbn [omap]; [rewrite cvdesc_of_cvx_cv|]; reflexivity.
Qed.

Lemma structdesc_of_x_struct p s :
  annos_ok (sl_annos s) && forallb field_annos_ok (sl_fields s) = true -> structdesc_of_x p (structx_of s) = struct_desc p s.
Proof.
  intro H. apply andb_true_iff in H as [Ha Hf]. unfold structdesc_of_x, structx_of, struct_desc.
  cbn [sx_name sx_fields sx_annos sx_comments].
  rewrite (map_map_ok _ _ _ _ _ (fielddesc_of_x_field p) Hf), <- annos_map_faithful by exact Ha. reflexivity.
Qed.

Lemma enumdesc_of_x_enum p e :
  annos_ok (en_annos e) && forallb (fun v => annos_ok (ev_annos v)) (en_values e) = true -> enumdesc_of_x p (enumx_of e) = enum_desc p e.
Proof.
  intro H. apply andb_true_iff in H as [Ha Hv]. unfold enumdesc_of_x, enumx_of, enum_desc.
  cbn [ex_name' ex_values ex_annos ex_comments]. rewrite <- annos_map_faithful by exact Ha. f_equal.
  refine (map_map_ok _ _ _ _ _ _ Hv). intros v Hv1. unfold enumvaluex_of, enum_value_desc. cbn [evx_name evx_number evx_annos evx_comments].
  rewrite <- annos_map_faithful by exact Hv1. reflexivity.
Qed.

Lemma typedefdesc_of_x_typedef p t : annos_ok (td_annos t) = true -> typedefdesc_of_x p (typedefx_of t) = typedef_desc p t.
Proof.
  intro H. unfold typedefdesc_of_x, typedefx_of, typedef_desc. cbn [tx_alias tx_type tx_annos tx_comments].
  rewrite tdesc_of_tyx_ty, <- annos_map_faithful by exact H. reflexivity.
Qed.

Lemma methoddesc_of_x_method p fn :
  annos_ok (fn_annos fn) && forallb field_annos_ok (fn_args fn) && forallb field_annos_ok (fn_throws fn) = true ->
  methoddesc_of_x p (methodx_of fn) = method_desc p fn.
Proof.
  intro H. apply andb_true_iff in H as [H Ht]. apply andb_true_iff in H as [Ha Hg].
  unfold methoddesc_of_x, methodx_of, method_desc. cbn [mx_name mx_response mx_args mx_throws mx_oneway mx_annos mx_comments omap].
  rewrite tdesc_of_tyx_ty, (map_map_ok _ _ _ _ _ (fielddesc_of_x_field p) Hg), (map_map_ok _ _ _ _ _ (fielddesc_of_x_field p) Ht),
    <- annos_map_faithful by exact Ha.
  reflexivity.
Qed.

Lemma servicedesc_of_x_service p s :
  annos_ok (sv_annos s) &&
  forallb (fun fn => annos_ok (fn_annos fn) && forallb field_annos_ok (fn_args fn) && forallb field_annos_ok (fn_throws fn)) (sv_functions s) = true ->
  servicedesc_of_x p (servicex_of s) = service_desc p s.
Proof.
  intro H. apply andb_true_iff in H as [Ha Hf]. unfold servicedesc_of_x, servicex_of, service_desc.
  cbn [svx_name svx_base svx_methods svx_annos svx_comments].
  rewrite (map_map_ok _ _ _ _ _ (methoddesc_of_x_method p) Hf), <- annos_map_faithful by exact Ha. reflexivity.
Qed.

Lemma constdesc_of_x_const p c : annos_ok (co_annos c) = true -> constdesc_of_x p (constx_of c) = const_desc p c.
Proof.
  intro H. unfold constdesc_of_x, constx_of, const_desc. cbn [cx_name cx_type cx_value cx_annos cx_comments].
  rewrite tdesc_of_tyx_ty, cvdesc_of_cvx_cv, <- annos_map_faithful by exact H. reflexivity.
Qed.

(* the descriptor is rebuilt from what the AST states; the includes are taken as the descriptor has them,
   since they are the one item that needs more than well-grouped annotations *)
Lemma descriptor_of_facts f :
  file_annos_ok f = true ->
  descriptor_of f =
  fdesc_of_facts (FileX (f_filename f) (includes_map f) (namespaces_x f)
                        (map structx_of (f_structs f)) (map structx_of (f_unions f)) (map structx_of (f_exceptions f))
                        (map enumx_of (f_enums f)) (map typedefx_of (f_typedefs f)) (map servicex_of (f_services f))
                        (map constx_of (f_constants f))).
Proof.
  unfold file_annos_ok, struct_likes. rewrite !forallb_app. intro H.
  apply andb_true_iff in H as [H Hsv]. apply andb_true_iff in H as [H Hco]. apply andb_true_iff in H as [H Htd].
  apply andb_true_iff in H as [H Hen]. apply andb_true_iff in H as [Hs H]. apply andb_true_iff in H as [Hu He].
  unfold fdesc_of_facts, descriptor_of.
  cbn [x_path x_includes x_namespaces x_structs x_unions x_exceptions x_enums x_typedefs x_services x_consts].
  rewrite namespaces_faithful.
  rewrite (map_map_ok _ _ _ _ _ (servicedesc_of_x_service _) Hsv), (map_map_ok _ _ _ _ _ (structdesc_of_x_struct _) Hs),
    (map_map_ok _ _ _ _ _ (structdesc_of_x_struct _) He), (map_map_ok _ _ _ _ _ (enumdesc_of_x_enum _) Hen),
    (map_map_ok _ _ _ _ _ (typedefdesc_of_x_typedef _) Htd), (map_map_ok _ _ _ _ _ (structdesc_of_x_struct _) Hu),
    (map_map_ok _ _ _ _ _ (constdesc_of_x_const _) Hco).
  reflexivity.
Qed.

(* the descriptor is a function of the facts: it holds nothing the property does not name (the
   Filepath copies in every node repeat the file's path) *)
Theorem descriptor_from_facts f :
  file_annos_ok f = true -> distinct_basenames f = true -> includes_plain f = true ->
  descriptor_of f = fdesc_of_facts (project_a f).
Proof. intros Ha Hd Hp. rewrite (descriptor_of_facts f Ha), (includes_faithful f Hd Hp). reflexivity. Qed.

Corollary descriptor_determined_by_projection f g :
  file_annos_ok f = true -> distinct_basenames f = true -> includes_plain f = true ->
  file_annos_ok g = true -> distinct_basenames g = true -> includes_plain g = true ->
  project_a f = project_a g -> descriptor_of f = descriptor_of g.
Proof.
  intros Hf1 Hf2 Hf3 Hg1 Hg2 Hg3 E.
  rewrite (descriptor_from_facts f Hf1 Hf2 Hf3), (descriptor_from_facts g Hg1 Hg2 Hg3), E. reflexivity.
Qed.

Lemma tyx_of_tdesc_of_tyx p : forall t, tyx_of_tdesc (tdesc_of_tyx p t) = t.
Proof. fix IH 1. intros [n [k|] [v|]]; cbn [tdesc_of_tyx tyx_of_tdesc]; rewrite ?IH; reflexivity. Qed.

Lemma cvx_of_cvdesc_list dbl int str b l m id ex :
  cvx_of_cvdesc (CVD CVT_LIST dbl int str b (Some l) m id ex) = XList (map cvx_of_cvdesc l).
Proof. reflexivity. Qed.
Lemma cvx_of_cvdesc_map dbl int str b l m id ex :
  cvx_of_cvdesc (CVD CVT_MAP dbl int str b l (Some m) id ex) = XMap (map (both cvx_of_cvdesc) m).
Proof. cbn [cvx_of_cvdesc]. rewrite (fix_map_pair cvx_of_cvdesc). reflexivity. Qed.

Lemma cvx_of_cvdesc_of_cvx : forall c, cvx_of_cvdesc (cvdesc_of_cvx c) = c.
Proof.
  fix IH 1. intros [b|z|s|b|s|l|l]; try reflexivity.
  - rewrite cvdesc_of_cvx_list, cvx_of_cvdesc_list, map_map. f_equal.
    induction l as [|x r IHr]; [reflexivity|]. cbn [map]. rewrite IH, IHr. reflexivity.
  - rewrite cvdesc_of_cvx_map, cvx_of_cvdesc_map, map_map. f_equal.
    induction l as [|[k v] r IHr]; [reflexivity|]. cbn [map]. unfold both at 1 2. cbn [fst snd]. rewrite !IH, IHr. reflexivity.
Qed.

Lemma tyx_type_desc p t : tyx_of_tdesc (type_desc p t) = tyx_of_ty t.
Proof. rewrite <- tdesc_of_tyx_ty. apply tyx_of_tdesc_of_tyx. Qed.

Lemma cvx_cv_desc c : cvx_of_cvdesc (cv_desc c) = cvx_of_cv c.
Proof. rewrite <- cvdesc_of_cvx_cv. apply cvx_of_cvdesc_of_cvx. Qed.

Lemma req_roundtrip r : req_of_string (req_string r) = Some r.
Proof. destruct r; vm_compute; reflexivity. Qed.

Lemma map_retract {A B} (f : A -> B) (g : B -> A) l : (forall x, g (f x) = x) -> map g (map f l) = l.
Proof. intro H. rewrite map_map. erewrite map_ext; [apply map_id|exact H]. Qed.

Lemma fieldx_of_desc_of_x p f : fieldx_of_desc (fielddesc_of_x p f) = f.
Proof.
  destruct f as [n i r t d a c]. unfold fieldx_of_desc, fielddesc_of_x.
  cbn [fld_name fld_id fld_req fld_type fld_default fld_annos fld_comments fx_name fx_id fx_req fx_type fx_default fx_annos fx_comments].
  rewrite tyx_of_tdesc_of_tyx. f_equal.
  - destruct r; [apply req_roundtrip|reflexivity].
  - destruct d; cbn [omap]; [rewrite cvx_of_cvdesc_of_cvx|]; reflexivity.
Qed.

Lemma structx_of_desc_of_x p s : structx_of_desc (structdesc_of_x p s) = s.
Proof.
  destruct s. unfold structx_of_desc, structdesc_of_x. cbn. rewrite (map_retract _ _ _ (fieldx_of_desc_of_x p)). reflexivity.
Qed.

Lemma enumx_of_desc_of_x p e : enumx_of_desc (enumdesc_of_x p e) = e.
Proof.
  destruct e. unfold enumx_of_desc, enumdesc_of_x. cbn. rewrite map_retract; [reflexivity|]. intros []. reflexivity.
Qed.

Lemma typedefx_of_desc_of_x p t : typedefx_of_desc (typedefdesc_of_x p t) = t.
Proof. destruct t. unfold typedefx_of_desc, typedefdesc_of_x. cbn. rewrite tyx_of_tdesc_of_tyx. reflexivity. Qed.

Lemma methodx_of_desc_of_x p m : methodx_of_desc (methoddesc_of_x p m) = m.
Proof.
  destruct m as [n r a t o an c]. unfold methodx_of_desc, methoddesc_of_x. cbn.
  rewrite !(map_retract _ _ _ (fieldx_of_desc_of_x p)). destruct r; cbn [omap]; [rewrite tyx_of_tdesc_of_tyx|]; reflexivity.
Qed.

Lemma servicex_of_desc_of_x p s : servicex_of_desc (servicedesc_of_x p s) = s.
Proof.
  destruct s. unfold servicex_of_desc, servicedesc_of_x. cbn. rewrite (map_retract _ _ _ (methodx_of_desc_of_x p)). reflexivity.
Qed.

Lemma constx_of_desc_of_x p c : constx_of_desc (constdesc_of_x p c) = c.
Proof.
  destruct c. unfold constx_of_desc, constdesc_of_x. cbn. rewrite tyx_of_tdesc_of_tyx, cvx_of_cvdesc_of_cvx. reflexivity.
Qed.

Lemma project_of_facts x : project_d (fdesc_of_facts x) = x.
Proof.
  destruct x. unfold project_d, fdesc_of_facts. cbn.
  rewrite !(map_retract _ _ _ (structx_of_desc_of_x _)), (map_retract _ _ _ (enumx_of_desc_of_x _)),
    (map_retract _ _ _ (typedefx_of_desc_of_x _)), (map_retract _ _ _ (servicex_of_desc_of_x _)),
    (map_retract _ _ _ (constx_of_desc_of_x _)).
  reflexivity.
Qed.

(* everything but the includes: for every file *)
Theorem descriptor_faithful_definitions f :
  file_annos_ok f = true -> forget_includes (project_d (descriptor_of f)) = forget_includes (project_a f).
Proof. intro H. rewrite (descriptor_of_facts f H), project_of_facts. reflexivity. Qed.

Theorem descriptor_faithful f :
  file_annos_ok f = true -> distinct_basenames f = true -> includes_plain f = true ->
  project_d (descriptor_of f) = project_a f.
Proof. intros Ha Hd Hp. rewrite (descriptor_from_facts f Ha Hd Hp). apply project_of_facts. Qed.

(* two files with the same descriptor state the same; a difference in anything the property names
   shows in the descriptor *)
Theorem descriptor_of_injective_on_projection f g :
  file_annos_ok f = true -> distinct_basenames f = true -> includes_plain f = true ->
  file_annos_ok g = true -> distinct_basenames g = true -> includes_plain g = true ->
  descriptor_of f = descriptor_of g -> project_a f = project_a g.
Proof.
  intros Hf1 Hf2 Hf3 Hg1 Hg2 Hg3 E.
  rewrite <- (descriptor_faithful f Hf1 Hf2 Hf3), <- (descriptor_faithful g Hg1 Hg2 Hg3), E. reflexivity.
Qed.

(* FileDescriptor.Includes is a map keyed by the include's prefix, so it cannot state two includes of one
   base name *)
Local Open Scope string_scope.
Definition dup_file : file :=
  File (B "main.thrift")
       [Include (B "x/shared.thrift") (Some (B "x/shared.thrift")) None;
        Include (B "y/shared.thrift") (Some (B "y/shared.thrift")) None]
       [] [] [] [] [] [] [] [] [] None.
Local Close Scope string_scope.

Theorem includes_same_basename_refuted :
  exists f, file_annos_ok f = true /\ includes_plain f = true /\ distinct_basenames f = false /\
            x_includes (project_d (descriptor_of f)) <> x_includes (project_a f).
Proof.
  exists dup_file. repeat split; try (vm_compute; reflexivity). vm_compute. intro H. discriminate H.
Qed.

(* a program as the parser delivers it: every file once, listed under its own Filename *)
Definition prog_ok (P : program) : bool :=
  nodupb (map fst P) && forallb (fun nf => beqb (fst nf) (f_filename (snd nf))) P.

Lemma lookup_fd_registry P path :
  prog_ok P = true -> lookup_fd (registry_of P) path = omap descriptor_of (prog_file P path).
Proof.
  unfold prog_ok. intro H. apply andb_true_iff in H as [_ H]. unfold lookup_fd, registry_of, prog_file.
  induction P as [|[k f] P IH]; [reflexivity|]. cbn [forallb fst snd] in H. apply andb_true_iff in H as [Hk HP].
  apply beqb_true in Hk. cbn [map find lookup snd]. unfold descriptor_of at 1. cbn [fdc_filepath].
  rewrite <- Hk, (beqb_sym k path). destruct (beqb path k); [reflexivity|]. apply IH. exact HP.
Qed.

Lemma parse_alias_plain n : no_byte dot n = true -> parse_alias n = ([], n).
Proof. intro H. unfold parse_alias. rewrite (last_index_split_none dot n H). reflexivity. Qed.

Lemma parse_alias_qualified pre n : no_byte dot n = true -> parse_alias (pre ++ dot :: n) = (pre, n).
Proof. intro H. unfold parse_alias. rewrite (last_index_split_last dot pre n H). reflexivity. Qed.

Lemma is_empty_false (s : bytes) : s <> [] -> is_empty s = false.
Proof. destruct s; [congruence|reflexivity]. Qed.

Lemma get_descriptor_local {A} (lk : fdesc -> bytes -> option A) reg f n :
  n <> [] -> no_byte dot n = true -> get_descriptor lk reg f n = lk f n.
Proof.
  intros Hn Hd. unfold get_descriptor. rewrite (is_empty_false n Hn), (parse_alias_plain n Hd). reflexivity.
Qed.

Lemma get_descriptor_qualified {A} (lk : fdesc -> bytes -> option A) reg f pre n :
  pre <> [] -> n <> [] -> no_byte dot n = true ->
  get_descriptor lk reg f (pre ++ dot :: n) =
  match get_include_fd reg f pre with Some g => lk g n | None => None end.
Proof.
  intros Hp Hn Hd. unfold get_descriptor.
  rewrite is_empty_false by (destruct pre; discriminate).
  rewrite (parse_alias_qualified pre n Hd), (is_empty_false pre Hp), (is_empty_false n Hn). reflexivity.
Qed.

Lemma find_unique {A K} (key : A -> K) (p : A -> bool) l x :
  NoDup (map key l) -> In x l -> p x = true -> (forall y, p y = true -> key y = key x) -> find p l = Some x.
Proof.
  induction l as [|y l IH]; intros Hnd Hin Hx Hp; [destruct Hin|]. cbn [find map] in *. inversion Hnd as [|? ? Hy Hl]; subst.
  destruct Hin as [->|Hin]; [rewrite Hx; reflexivity|].
  destruct (p y) eqn:E; [|apply IH; assumption].
  exfalso. apply Hy. rewrite (Hp y E). apply in_map. exact Hin.
Qed.

Lemma lookup_map_find {A B} (key : A -> bytes) (val : A -> B) k l :
  lookup k (map (fun y => (key y, val y)) l) = omap val (find (fun y => beqb k (key y)) l).
Proof. induction l as [|y l IH]; [reflexivity|]. cbn [map lookup find]. destruct (beqb k (key y)); [reflexivity|exact IH]. Qed.

(* the descriptor of the file an include prefix stands for *)
Lemma include_fd_right P f i gname g :
  prog_ok P = true -> distinct_basenames f = true ->
  In i (f_includes f) -> in_ref i = Some gname -> gname <> [] -> include_alias gname <> [] ->
  prog_file P gname = Some g ->
  get_include_fd (registry_of P) (descriptor_of f) (include_alias gname) = Some (descriptor_of g).
Proof.
  intros HP Hd Hin Href Hg Ha Hfile. unfold get_include_fd. rewrite (is_empty_false _ Ha).
  unfold descriptor_of at 1. cbn [fdc_includes]. unfold includes_map, distinct_basenames in *.
  apply nodupb_NoDup in Hd. rewrite (fold_update_map _ _ _ Hd).
  assert (Ep : include_path i = gname) by (unfold include_path; rewrite Href; reflexivity).
  rewrite <- Ep at 1.
  rewrite lookup_map_find, (find_unique (fun i => include_alias (include_path i)) _ _ i Hd Hin (beqb_refl _));
    [|intros y Hy; apply beqb_true in Hy; symmetry; exact Hy]. cbn [omap].
  rewrite Ep, (is_empty_false _ Hg), (lookup_fd_registry P gname HP), Hfile. reflexivity.
Qed.

Section LookupByName.
  Context {A D : Type} (lk : fdesc -> bytes -> option D) (mk : bytes -> A -> D) (afind : file -> bytes -> option A).
  (* the descriptor-side search mirrors the AST-side search, file by file *)
  Hypothesis mirrors : forall g n, lk (descriptor_of g) n = omap (mk (f_filename g)) (afind g n).

  (* an unqualified name finds the definition of that name in the file itself *)
  Theorem lookup_local P f n :
    n <> [] -> no_byte dot n = true ->
    get_descriptor lk (registry_of P) (descriptor_of f) n = omap (mk (f_filename f)) (afind f n).
  Proof. intros Hn Hd. rewrite get_descriptor_local by assumption. apply mirrors. Qed.

  (* a name written through the prefix of an include finds the definition in the included file *)
  Theorem lookup_through_include P f i gname g n :
    prog_ok P = true -> distinct_basenames f = true ->
    In i (f_includes f) -> in_ref i = Some gname -> gname <> [] -> include_alias gname <> [] ->
    prog_file P gname = Some g -> n <> [] -> no_byte dot n = true ->
    get_descriptor lk (registry_of P) (descriptor_of f) (include_alias gname ++ dot :: n) =
    omap (mk (f_filename g)) (afind g n).
  Proof.
    intros HP Hd Hin Href Hg Ha Hfile Hn Hnd.
    rewrite get_descriptor_qualified by assumption.
    rewrite (include_fd_right P f i gname g HP Hd Hin Href Hg Ha Hfile). apply mirrors.
  Qed.
End LookupByName.

Lemma find_by_find {A} (key : A -> bytes) k l : find_by key k l = find (fun x => beqb (key x) k) l.
Proof. induction l as [|x l IH]; [reflexivity|]. cbn [find_by find]. rewrite IH. reflexivity. Qed.

Lemma find_map_mirror {A D} (mk : A -> D) (q : D -> bool) (p : A -> bool) l :
  (forall x, q (mk x) = p x) -> find q (map mk l) = omap mk (find p l).
Proof. intro H. induction l as [|x l IH]; [reflexivity|]. cbn [map find]. rewrite H. destruct (p x); [reflexivity|exact IH]. Qed.

(* the only fact the by-name lookups need about descriptor_of: a list of descriptors is searched as the list of
   definitions it was made from *)
Lemma first_named_map {A D} (key : D -> bytes) (akey : A -> bytes) (mk : A -> D) l n :
  (forall x, key (mk x) = akey x) -> first_named key (map mk l) n = omap mk (find_by akey n l).
Proof. intro H. unfold first_named. rewrite find_by_find. apply find_map_mirror. intro x. rewrite H. reflexivity. Qed.

(* fields by name and by id, methods by name: the first entry with that name / id, which is THE
   entry when names / ids are unique *)
Lemma field_by_name p s n : get_field_by_name (struct_desc p s) n = omap (field_desc p) (find_field s n).
Proof. unfold get_field_by_name, struct_desc, find_field. cbn [sd_fields]. apply first_named_map. reflexivity. Qed.

Lemma field_by_id p s id :
  get_field_by_id (struct_desc p s) id = omap (field_desc p) (find (fun x => fd_id x =? id) (sl_fields s)).
Proof. unfold get_field_by_id, struct_desc. cbn [sd_fields]. apply find_map_mirror. reflexivity. Qed.

Theorem field_by_id_right p s x :
  NoDup (map fd_id (sl_fields s)) -> In x (sl_fields s) ->
  get_field_by_id (struct_desc p s) (fd_id x) = Some (field_desc p x).
Proof.
  intros Hnd Hin. rewrite field_by_id, (find_unique fd_id _ _ x Hnd Hin (Z.eqb_refl _)); [reflexivity|]. intros y. apply Z.eqb_eq.
Qed.

Lemma find_by_unique {A} (key : A -> bytes) l x : NoDup (map key l) -> In x l -> find_by key (key x) l = Some x.
Proof. intros Hnd Hin. rewrite find_by_find. apply (find_unique key _ _ x Hnd Hin (beqb_refl _)). intros y. apply beqb_true. Qed.

Theorem field_by_name_right p s x :
  NoDup (map fd_name (sl_fields s)) -> In x (sl_fields s) ->
  get_field_by_name (struct_desc p s) (fd_name x) = Some (field_desc p x).
Proof. intros Hnd Hin. rewrite field_by_name. unfold find_field. rewrite (find_by_unique fd_name _ x Hnd Hin). reflexivity. Qed.

Theorem method_by_name_right p s fn :
  NoDup (map fn_name (sv_functions s)) -> In fn (sv_functions s) ->
  get_method_by_name (service_desc p s) (fn_name fn) = Some (method_desc p fn).
Proof.
  intros Hnd Hin. unfold get_method_by_name, service_desc. cbn [svd_methods].
  rewrite (first_named_map md_name fn_name (method_desc p)) by reflexivity.
  rewrite (find_by_unique fn_name _ fn Hnd Hin). reflexivity.
Qed.

(* a lookup without a file path: when exactly one registered file answers, that answer is the
   result, wherever the file stands in the registry (the Go code ranges over a map) *)
Theorem lookup_without_path {A} (get : registry -> fdesc -> bytes -> option A) reg name d0 x :
  In d0 reg -> get reg d0 name = Some x ->
  (forall d, In d reg -> get reg d name <> None -> d = d0) ->
  lookup_in get reg name [] = Some x.
Proof.
  (* the registry occurs as the list that is walked and as an argument of [get]: name the latter away *)
  intros Hin H0 Huniq. unfold lookup_in. cbn [is_empty]. set (g := get reg) in *. clearbody g.
  induction reg as [|d r IH]; [destruct Hin|]. destruct (g d name) as [y|] eqn:E.
  - assert (d = d0) by (apply Huniq; [left; reflexivity|congruence]). subst d. congruence.
  - destruct Hin as [->|Hin]; [congruence|]. apply IH; [exact Hin|]. intros d' Hd'. apply Huniq. right. exact Hd'.
Qed.

Theorem lookup_with_path {A} (get : registry -> fdesc -> bytes -> option A) P path f name :
  prog_ok P = true -> path <> [] -> prog_file P path = Some f ->
  lookup_in get (registry_of P) name path = get (registry_of P) (descriptor_of f) name.
Proof.
  intros HP Hp Hf. unfold lookup_in. rewrite (is_empty_false path Hp), (lookup_fd_registry P path HP), Hf. reflexivity.
Qed.

Lemma gkind_eqb_eq a b : gkind_eqb a b = true <-> a = b.
Proof. destruct a, b; cbn; split; congruence. Qed.

Lemma dkey_eqb_eq (a b : dkey) : dkey_eqb a b = true <-> a = b.
Proof.
  destruct a as [[p k] i], b as [[q k'] j]. unfold dkey_eqb. cbn [fst snd].
  rewrite !andb_true_iff, beqb_true, gkind_eqb_eq, Nat.eqb_eq. split; [intros [[-> ->] ->]; reflexivity|].
  intro H. injection H as -> -> ->. tauto.
Qed.

Lemma dkey_eqb_refl k : dkey_eqb k k = true.
Proof. apply dkey_eqb_eq. reflexivity. Qed.

Definition kind_of (k : dkey) : gkind := snd (fst k).

Section GoTypeFacts.
  Context {G : Type} (geqb : G -> G -> bool).
  Hypothesis geqb_spec : forall a b, geqb a b = true <-> a = b.

  Lemma bkey_eqb_eq kd g kd' g' : gkind_eqb kd kd' && geqb g g' = true <-> kd = kd' /\ g = g'.
  Proof. rewrite andb_true_iff, gkind_eqb_eq, geqb_spec. tauto. Qed.

  (* A Go map assignment read back, for each of the two maps of the table: the entry just written answers for
     its own key, every other key answers as before.  Nothing else about register1 is used below. *)
  Lemma go_type_of_register1 t k g k' :
    go_type_of (register1 geqb t k g) k' = if dkey_eqb k k' then Some g else go_type_of t k'.
  Proof.
    unfold go_type_of, register1. cbn [g_fwd]. induction (g_fwd t) as [|[k1 g1] m IH]; cbn [put_fwd find fst].
    - destruct (dkey_eqb k k'); reflexivity.
    - destruct (dkey_eqb k k1) eqn:E; cbn [find fst].
      + apply dkey_eqb_eq in E. subst k1. destruct (dkey_eqb k k'); reflexivity.
      + destruct (dkey_eqb k1 k') eqn:E1; [|exact IH]. apply dkey_eqb_eq in E1. subst k1. rewrite E. reflexivity.
  Qed.

  Lemma desc_of_go_type_register1 t k g kd' g' :
    desc_of_go_type geqb (register1 geqb t k g) kd' g' =
    if gkind_eqb (kind_of k) kd' && geqb g g' then Some k else desc_of_go_type geqb t kd' g'.
  Proof.
    unfold desc_of_go_type, register1, kind_of. cbn [g_bwd]. generalize (snd (fst k)) as kd. intro kd.
    induction (g_bwd t) as [|[[kd1 g1] k1] m IH]; cbn [put_bwd find fst snd].
    - destruct (gkind_eqb kd kd' && geqb g g'); reflexivity.
    - destruct (gkind_eqb kd kd1 && geqb g g1) eqn:E; cbn [find fst snd].
      + apply bkey_eqb_eq in E as [<- <-]. destruct (gkind_eqb kd kd' && geqb g g'); reflexivity.
      + destruct (gkind_eqb kd1 kd' && geqb g1 g') eqn:E1; [|exact IH]. apply bkey_eqb_eq in E1 as [-> ->]. rewrite E. reflexivity.
  Qed.

  Lemma register_all_snoc t l k g :
    register_all geqb t (l ++ [(k, g)]) = register1 geqb (register_all geqb t l) k g.
  Proof. unfold register_all. rewrite fold_left_app. reflexivity. Qed.

  (* descriptor |-> its Go type *)
  Lemma registered_fwd t : forall l k g,
    NoDup (map fst l) -> In (k, g) l -> go_type_of (register_all geqb t l) k = Some g.
  Proof.
    induction l as [|[k1 g1] l IH] using rev_ind; intros k g Hnd Hin; [destruct Hin|].
    rewrite register_all_snoc, go_type_of_register1. rewrite map_app in Hnd. cbn [map fst] in Hnd.
    apply in_app_or in Hin as [Hin|[Heq|[]]]; [|injection Heq as -> ->; rewrite dkey_eqb_refl; reflexivity].
    destruct (dkey_eqb k1 k) eqn:E.
    - apply dkey_eqb_eq in E. subst k1. apply NoDup_remove_2 in Hnd. exfalso. apply Hnd. rewrite app_nil_r. exact (in_map fst _ _ Hin).
    - apply IH; [|exact Hin]. apply NoDup_remove_1 in Hnd. rewrite app_nil_r in Hnd. exact Hnd.
  Qed.

  (* Go type |-> the descriptor it was given to, when it was given once within the kind *)
  Lemma registered_bwd t : forall l k g,
    In (k, g) l ->
    (forall k', In (k', g) l -> kind_of k' = kind_of k -> k' = k) ->
    desc_of_go_type geqb (register_all geqb t l) (kind_of k) g = Some k.
  Proof.
    induction l as [|[k1 g1] l IH] using rev_ind; intros k g Hin Huniq; [destruct Hin|].
    rewrite register_all_snoc, desc_of_go_type_register1.
    destruct (gkind_eqb (kind_of k1) (kind_of k) && geqb g1 g) eqn:E.
    - apply bkey_eqb_eq in E as [A ->]. f_equal. apply Huniq; [apply in_or_app; right; left; reflexivity|exact A].
    - apply in_app_or in Hin as [Hin|[Heq|[]]].
      + apply IH; [exact Hin|]. intros k' Hk'. apply Huniq. apply in_or_app. left. exact Hk'.
      + injection Heq as -> ->. rewrite (proj2 (bkey_eqb_eq _ _ _ _) (conj eq_refl eq_refl)) in E. discriminate.
  Qed.

  (* Go type |-> descriptor |-> Go type is the identity, whatever was registered *)
  Definition table_inv (t : gtable) : Prop :=
    forall kd g k, desc_of_go_type geqb t kd g = Some k -> go_type_of t k = Some g /\ kind_of k = kd.

  Lemma table_inv_empty : table_inv gtable_empty.
  Proof. intros kd g k H. discriminate H. Qed.

  Lemma table_inv_step t k g : table_inv t -> go_type_of t k = None -> table_inv (register1 geqb t k g).
  Proof.
    intros Hinv Hfresh kd' g' k'. rewrite desc_of_go_type_register1, go_type_of_register1.
    destruct (gkind_eqb (kind_of k) kd' && geqb g g') eqn:E.
    - apply bkey_eqb_eq in E as [<- <-]. intro H. injection H as <-. rewrite dkey_eqb_refl. split; reflexivity.
    - intro H. destruct (Hinv kd' g' k' H) as [Hf Hk]. destruct (dkey_eqb k k') eqn:Ek; [|split; assumption].
      apply dkey_eqb_eq in Ek. subst k'. congruence.
  Qed.

  Lemma table_inv_all : forall l t,
    table_inv t -> NoDup (map fst l) -> (forall k, In k (map fst l) -> go_type_of t k = None) ->
    table_inv (register_all geqb t l).
  Proof.
    induction l as [|[k1 g1] l IH]; intros t Hinv Hnd Hfresh; [exact Hinv|].
    cbn [map fst] in Hnd, Hfresh. inversion Hnd as [|? ? Hk1 Hl]; subst.
    change (register_all geqb t ((k1, g1) :: l)) with (register_all geqb (register1 geqb t k1 g1) l).
    apply IH; [apply table_inv_step; [exact Hinv|apply Hfresh; left; reflexivity]|exact Hl|].
    intros k Hk. rewrite go_type_of_register1.
    destruct (dkey_eqb k1 k) eqn:E; [apply dkey_eqb_eq in E; subst k1; contradiction|apply Hfresh; right; exact Hk].
  Qed.

  Lemma keys_of_In p kd n k : In k (keys_of p kd n) -> fst (fst k) = p /\ kind_of k = kd.
  Proof. unfold keys_of. rewrite in_map_iff. intros [j [<- _]]. split; reflexivity. Qed.

  Lemma keys_of_NoDup p kd n : NoDup (keys_of p kd n).
  Proof.
    unfold keys_of. apply FinFun.Injective_map_NoDup; [|apply seq_NoDup]. intros a b H. injection H as ->. reflexivity.
  Qed.

  Lemma all_keys_NoDup d : NoDup (all_keys d).
  Proof.
    unfold all_keys. apply NoDup_app_disjoint; [apply keys_of_NoDup| |].
    - apply NoDup_app_disjoint; [apply keys_of_NoDup|apply keys_of_NoDup|].
      intros x H1 H2. apply keys_of_In in H1 as [_ A]. apply keys_of_In in H2 as [_ B]. congruence.
    - intros x H1 H2. apply keys_of_In in H1 as [_ A]. apply in_app_or in H2 as [H2|H2]; apply keys_of_In in H2 as [_ B]; congruence.
  Qed.

  Lemma combine_keys_NoDup {A B} (ks : list A) (gs : list B) : NoDup ks -> NoDup (map fst (combine ks gs)).
  Proof.
    intro H. revert gs. induction H as [|k ks Hk Hnd IH]; intro gs; [constructor|].
    destruct gs as [|g gs]; [constructor|]. cbn [combine map fst]. constructor; [|apply IH].
    intro Hin. apply Hk. apply in_map_iff in Hin as [[k' g'] [E Hin]]. cbn [fst] in E. subst k'.
    apply in_combine_l in Hin. exact Hin.
  Qed.

  (* registering the Go types of one file into a table that does not know the file yet *)
  Theorem go_type_table_spec t d gs t' :
    table_inv t -> (forall k, In k (all_keys d) -> go_type_of t k = None) ->
    go_type_table geqb t d gs = Some t' ->
    table_inv t' /\
    (forall k g, In (k, g) (combine (all_keys d) gs) ->
       go_type_of t' k = Some g /\
       ((forall k', In (k', g) (combine (all_keys d) gs) -> kind_of k' = kind_of k -> k' = k) ->
        desc_of_go_type geqb t' (kind_of k) g = Some k)).
  Proof.
    intros Hinv Hfresh H. unfold go_type_table in H.
    destruct (List.length gs <? List.length (all_keys d))%nat; [discriminate|]. injection H as <-.
    pose proof (combine_keys_NoDup (all_keys d) gs (all_keys_NoDup d)) as Hnd.
    split.
    - apply table_inv_all; [exact Hinv|exact Hnd|]. intros k Hk. apply Hfresh.
      apply in_map_iff in Hk as [[k' g'] [E Hin]]. cbn [fst] in E. subst k'. apply in_combine_l in Hin. exact Hin.
    - intros k g Hin. split; [apply registered_fwd; assumption|]. intro Huniq. apply registered_bwd; assumption.
  Qed.

  Corollary go_type_bijection d gs t' :
    go_type_table geqb gtable_empty d gs = Some t' ->
    (* Go type |-> descriptor |-> Go type *)
    (forall kd g k, desc_of_go_type geqb t' kd g = Some k -> go_type_of t' k = Some g /\ kind_of k = kd) /\
    (* the k-th descriptor has the k-th type; and back, when no other descriptor of the kind has it *)
    (forall k g, In (k, g) (combine (all_keys d) gs) ->
       go_type_of t' k = Some g /\
       ((forall k', In (k', g) (combine (all_keys d) gs) -> kind_of k' = kind_of k -> k' = k) ->
        desc_of_go_type geqb t' (kind_of k) g = Some k)).
  Proof. intro H. apply (go_type_table_spec gtable_empty d gs t' table_inv_empty); [intros; reflexivity|exact H]. Qed.
End GoTypeFacts.

Theorem lookup_by_name_local P f n :
  n <> [] -> no_byte dot n = true ->
  get_struct (registry_of P) (descriptor_of f) n = omap (struct_desc (f_filename f)) (find_struct f n) /\
  get_union (registry_of P) (descriptor_of f) n = omap (struct_desc (f_filename f)) (find_union f n) /\
  get_exception (registry_of P) (descriptor_of f) n = omap (struct_desc (f_filename f)) (find_exception f n) /\
  get_enum (registry_of P) (descriptor_of f) n = omap (enum_desc (f_filename f)) (find_enum f n) /\
  get_typedef (registry_of P) (descriptor_of f) n = omap (typedef_desc (f_filename f)) (find_typedef f n) /\
  get_const (registry_of P) (descriptor_of f) n = omap (const_desc (f_filename f)) (find_constant f n) /\
  get_service (registry_of P) (descriptor_of f) n = omap (service_desc (f_filename f)) (find_service f n).
Proof.
  intros Hn Hd. repeat split; apply lookup_local; try assumption; intros g m; apply first_named_map; reflexivity.
Qed.

Theorem lookup_by_name_through_include P f i gname g n :
  prog_ok P = true -> distinct_basenames f = true ->
  In i (f_includes f) -> in_ref i = Some gname -> gname <> [] -> include_alias gname <> [] ->
  prog_file P gname = Some g -> n <> [] -> no_byte dot n = true ->
  let q := include_alias gname ++ dot :: n in
  get_struct (registry_of P) (descriptor_of f) q = omap (struct_desc (f_filename g)) (find_struct g n) /\
  get_union (registry_of P) (descriptor_of f) q = omap (struct_desc (f_filename g)) (find_union g n) /\
  get_exception (registry_of P) (descriptor_of f) q = omap (struct_desc (f_filename g)) (find_exception g n) /\
  get_enum (registry_of P) (descriptor_of f) q = omap (enum_desc (f_filename g)) (find_enum g n) /\
  get_typedef (registry_of P) (descriptor_of f) q = omap (typedef_desc (f_filename g)) (find_typedef g n) /\
  get_const (registry_of P) (descriptor_of f) q = omap (const_desc (f_filename g)) (find_constant g n) /\
  get_service (registry_of P) (descriptor_of f) q = omap (service_desc (f_filename g)) (find_service g n).
Proof.
  intros HP Hd Hin Href Hg Ha Hfile Hn Hnd q.
  repeat split; apply (lookup_through_include _ _ _) with (i := i); try assumption; intros g' m; apply first_named_map; reflexivity.
Qed.

(* a type expression of file f resolves through the descriptor to the definition in the file the
   prefix stands for: TypeDescriptor.GetStructDescriptor & co. *)
Theorem type_target_right {A} (get : registry -> fdesc -> bytes -> option A) P f t :
  prog_ok P = true -> prog_file P (f_filename f) = Some f ->
  is_container (ty_name t) || is_basic (ty_name t) = false -> f_filename f <> [] ->
  type_target get (registry_of P) (type_desc (f_filename f) t) = get (registry_of P) (descriptor_of f) (ty_name t).
Proof.
  intros HP Hf Hb Hne. destruct t as [n k v c an cat r td]. unfold type_target. cbn [type_desc tyd_name tyd_filepath ty_name] in *.
  rewrite Hb, (lookup_fd_registry P _ HP), Hf. reflexivity.
Qed.

(* the Includes map loses the include that defines a name when a later include has the same
   base name: the lookup through the prefix answers nil although the IDL defines the name *)
Local Open Scope string_scope.
Definition dup_x : file :=
  File (B "x/shared.thrift") [] [] [] [] [] [] [StructLike SKStruct (B "OnlyInX") [] [] []] [] [] [] None.
Definition dup_y : file := empty_file (B "y/shared.thrift").
Definition dup_program : program := [(B "main.thrift", dup_file); (B "x/shared.thrift", dup_x); (B "y/shared.thrift", dup_y)].
Theorem lookup_same_basename_refuted :
  exists P f g n, prog_ok P = true /\ prog_file P (f_filename f) = Some f /\
    (exists i, In i (f_includes f) /\ in_ref i = Some (f_filename g)) /\
    prog_file P (f_filename g) = Some g /\ find_struct g n <> None /\
    get_struct (registry_of P) (descriptor_of f) (include_alias (f_filename g) ++ dot :: n)%list = None.
Proof.
  exists dup_program, dup_file, dup_x, (B "OnlyInX").
  split; [vm_compute; reflexivity|]. split; [vm_compute; reflexivity|].
  split; [eexists; split; [left; reflexivity|reflexivity]|].
  split; [vm_compute; reflexivity|]. split; [vm_compute; discriminate|]. vm_compute. reflexivity.
Qed.
Local Close Scope string_scope.

(* the extends chain of a service, read off the AST: every link is either a service of the same
   file (unqualified base) or a service of an included file (base written through the prefix) *)
Inductive base_chain (P : program) : file -> service -> list (file * service) -> Prop :=
| bc_end f s : sv_extends s = [] -> base_chain P f s [(f, s)]
| bc_local f s t l :
    sv_extends s <> [] -> no_byte dot (sv_extends s) = true ->
    find_service f (sv_extends s) = Some t -> prog_file P (f_filename f) = Some f ->
    base_chain P f t l -> base_chain P f s ((f, s) :: l)
| bc_include f s i gname g n t l :
    distinct_basenames f = true -> In i (f_includes f) -> in_ref i = Some gname -> gname <> [] ->
    include_alias gname <> [] -> prog_file P gname = Some g -> n <> [] -> no_byte dot n = true ->
    sv_extends s = include_alias gname ++ dot :: n -> find_service g n = Some t ->
    prog_file P (f_filename f) = Some f ->
    base_chain P g t l -> base_chain P f s ((f, s) :: l).

Definition chain_methods (l : list (file * service)) : list methoddesc :=
  flat_map (fun fs => map (method_desc (f_filename (fst fs))) (sv_functions (snd fs))) l.

Lemma get_parent_end reg p s : sv_extends s = [] -> get_parent reg (service_desc p s) = None.
Proof.
  intro H. unfold get_parent, service_desc. cbn [svd_filepath svd_base]. rewrite H.
  destruct (lookup_fd reg p); reflexivity.
Qed.

Lemma chain_file_in P f s l : base_chain P f s l -> sv_extends s <> [] -> prog_file P (f_filename f) = Some f.
Proof. intros H Hne. destruct H; [contradiction|assumption|assumption]. Qed.

Definition all_services (P : program) : list (file * service) :=
  flat_map (fun nf => map (pair (snd nf)) (f_services (snd nf))) P.

Lemma find_service_in_all P n f m t : prog_file P n = Some f -> find_service f m = Some t -> In (f, t) (all_services P).
Proof.
  intros Hf Ht. unfold all_services. apply in_flat_map. exists (n, f). split; [apply lookup_In; exact Hf|].
  cbn [snd]. apply in_map. unfold find_service in Ht. rewrite find_by_find in Ht. exact (proj1 (find_some _ _ Ht)).
Qed.

(* GetParent looks the base name up from the descriptor of the file the service stands in *)
Lemma get_parent_service P n f s :
  prog_ok P = true -> prog_file P n = Some f ->
  get_parent (registry_of P) (service_desc n s) = get_service (registry_of P) (descriptor_of f) (sv_extends s).
Proof.
  intros HP Hf. unfold get_parent, service_desc. cbn [svd_filepath svd_base]. rewrite (lookup_fd_registry P n HP), Hf. reflexivity.
Qed.

(* Induction over an extends chain link by link.  However the base is written (a name of the same file, or a
   name through the prefix of an include), a link says two things: the parent of the service's descriptor is the
   descriptor of the next service of the chain, and that service belongs to the program. *)
Lemma base_chain_links P (Q : file -> service -> list (file * service) -> Prop) :
  prog_ok P = true ->
  (forall f s, sv_extends s = [] -> Q f s [(f, s)]) ->
  (forall f s g t l,
     get_parent (registry_of P) (service_desc (f_filename f) s) = Some (service_desc (f_filename g) t) ->
     In (g, t) (all_services P) -> base_chain P g t l -> Q g t l -> Q f s ((f, s) :: l)) ->
  forall f s l, base_chain P f s l -> Q f s l.
Proof.
  intros HP Hend Hlink f s l H.
  induction H as [f s He|f s t l Hne Hnd Hfind Hfile Hc IH|f s i gname g n t l Hd Hin Href Hg Ha Hgf Hn Hnd Hext Hfind Hfile Hc IH].
  - apply Hend. exact He.
  - apply (Hlink f s f t l); [|exact (find_service_in_all P _ f _ t Hfile Hfind)|exact Hc|exact IH].
    rewrite (get_parent_service P _ f s HP Hfile).
    destruct (lookup_by_name_local P f _ Hne Hnd) as (_ & _ & _ & _ & _ & _ & L). rewrite L, Hfind. reflexivity.
  - apply (Hlink f s g t l); [|exact (find_service_in_all P _ g _ t Hgf Hfind)|exact Hc|exact IH].
    rewrite (get_parent_service P _ f s HP Hfile), Hext.
    destruct (lookup_by_name_through_include P f i gname g n HP Hd Hin Href Hg Ha Hgf Hn Hnd) as (_ & _ & _ & _ & _ & _ & L).
    rewrite L, Hfind. reflexivity.
Qed.

Theorem all_methods_chain P : prog_ok P = true -> forall f s l, base_chain P f s l ->
  forall fuel, (List.length l <= S fuel)%nat ->
  all_methods fuel (registry_of P) (service_desc (f_filename f) s) = chain_methods l.
Proof.
  intro HP.
  apply (base_chain_links P (fun f s l => forall fuel, (List.length l <= S fuel)%nat ->
                               all_methods fuel (registry_of P) (service_desc (f_filename f) s) = chain_methods l) HP).
  - intros f s He fuel _. unfold chain_methods. cbn [flat_map fst snd]. rewrite app_nil_r.
    destruct fuel; cbn [all_methods]; [|rewrite get_parent_end by exact He]; apply app_nil_r.
  - intros f s g t l Hpar _ Hc IH fuel Hlen. cbn [List.length] in Hlen. destruct fuel as [|fuel].
    { destruct Hc; cbn [List.length] in Hlen; lia. }
    cbn [all_methods]. rewrite Hpar, IH by lia. reflexivity.
Qed.

(* GetAllMethods = own methods ++ those of the base service ++ ... for a chain of any length, with
   the fuel the model uses (one more than the number of registered services) whenever the chain is
   not longer than that *)
Corollary get_all_methods_chain P f s l :
  prog_ok P = true -> base_chain P f s l -> (List.length l <= S (chain_fuel (registry_of P)))%nat ->
  get_all_methods (registry_of P) (service_desc (f_filename f) s) = chain_methods l.
Proof. intros HP Hc Hlen. unfold get_all_methods. apply (all_methods_chain P HP f s l Hc). exact Hlen. Qed.

Corollary method_from_all_chain P f s l n :
  prog_ok P = true -> base_chain P f s l -> (List.length l <= S (chain_fuel (registry_of P)))%nat ->
  get_method_from_all (registry_of P) (service_desc (f_filename f) s) n = first_named md_name (chain_methods l) n.
Proof. intros HP Hc Hlen. unfold get_method_from_all. rewrite (get_all_methods_chain P f s l HP Hc Hlen). reflexivity. Qed.

Lemma all_services_length P : List.length (all_services P) = List.length (flat_map fdc_services (registry_of P)).
Proof.
  unfold all_services, registry_of. induction P as [|[n f] P IH]; [reflexivity|].
  cbn [flat_map map snd]. rewrite !app_length, IH. f_equal. unfold descriptor_of. cbn [fdc_services]. rewrite !map_length. reflexivity.
Qed.

Lemma base_chain_tail P f s l : prog_ok P = true -> base_chain P f s l -> incl (tl l) (all_services P).
Proof.
  intro HP. apply (base_chain_links P (fun _ _ l => incl (tl l) (all_services P)) HP).
  - intros f0 s0 _ x [].
  - intros f0 s0 g t l0 _ Hin Hc IH. cbn [tl]. destruct Hc; (intros x [<-|Hx]; [exact Hin|apply IH; exact Hx]).
Qed.

(* GetAllMethods along an extends chain without repetition (what the checker guarantees): no
   premise about the fuel *)
Theorem get_all_methods_acyclic P f s l :
  prog_ok P = true -> base_chain P f s l -> NoDup (tl l) ->
  get_all_methods (registry_of P) (service_desc (f_filename f) s) = chain_methods l.
Proof.
  intros HP Hc Hnd. apply (get_all_methods_chain P f s l HP Hc).
  unfold chain_fuel. rewrite <- all_services_length.
  pose proof (NoDup_incl_length Hnd (base_chain_tail P f s l HP Hc)) as Hlen.
  destruct l as [|x r]; cbn [List.length tl] in *; lia.
Qed.

(* the hypotheses are satisfiable *)
Local Open Scope string_scope.
Definition ex_types : file :=
  File (B "base/types.thrift") [] [] [Namespace (B "go") (B "c15.types") []]
       [Typedef (ty_named (B "i64")) (B "Id") [] []] [] []
       [StructLike SKStruct (B "Point") [Field 1 (B "x") ReqDefault (ty_named (B "double")) None [] [];
                                         Field 2 (B "y") ReqDefault (ty_named (B "double")) None [] []] [] []]
       [] [] [] None.
Definition ex_api : file :=
  File (B "svc/api.thrift")
       [Include (B "../base/types.thrift") (Some (B "base/types.thrift")) None] []
       [Namespace (B "go") (B "c15.api") []; Namespace (B "go") (B "ignored") []; Namespace (B "*") (B "a") []; Namespace (B "*") (B "b") []]
       [Typedef (ty_named (B "types.Id")) (B "LocalId") [Anno (B "note") [B "x"; B "y"]] (B "// id")]
       [Constant (B "AGES") (ty_plain (B "map") (Some (ty_named (B "string"))) (Some (ty_named (B "i32"))) [] [])
                 (CMap [(CLiteral (B "a"), CInt 1); (CLiteral (B "b"), CIdent (B "true") None)]) [] []]
       [Enum (B "Colour") [EnumValue (B "RED") 1 [Anno (B "w") [B "h"]] []; EnumValue (B "BLUE") (-5) [] []] [] []]
       [StructLike SKStruct (B "Request")
          [Field 1 (B "id") ReqRequired (ty_named (B "LocalId")) None [Anno (B "k") [B "v1"; B "v2"]] [];
           Field (-4) (B "where") ReqOptional (ty_named (B "types.Point")) None [] [];
           Field 7 (B "cs") ReqDefault (ty_plain (B "list") None (Some (ty_named (B "Colour"))) [] [])
                 (Some (CList [CIdent (B "Colour.RED") None; CInt 5; CDouble 4602678819172646912%N])) [] []] [] []]
       [] []
       [Service (B "Api") (B "") [Function (B "fire") true true (ty_named (B "void"))
                                   [Field 1 (B "r") ReqDefault (ty_named (B "Request")) None [] []] [] [] []] [] None []]
       None.
Definition ex_program : program := [(B "svc/api.thrift", ex_api); (B "base/types.thrift", ex_types)].
Local Close Scope string_scope.

Lemma ex_hypotheses :
  file_annos_ok ex_api = true /\ distinct_basenames ex_api = true /\ includes_plain ex_api = true /\
  prog_ok ex_program = true /\ wfb (enc_fdesc (descriptor_of ex_api)) = true /\ fdesc_ok (descriptor_of ex_api) = true.
Proof. vm_compute. repeat split. Qed.

(* R behaves as an equivalence as far as x is concerned.  tdesc_eq and cvd_eq recur through optR, Forall2 and PermR
   of themselves, and their induction knows the three laws for the components of x only: so the closure lemmas
   are stated at an element. *)
Definition eqv_at {A} (R : A -> A -> Prop) (x : A) : Prop :=
  R x x /\ (forall y, R x y -> R y x) /\ (forall y z, R x y -> R y z -> R x z).

Lemma eqv_at_all {A} (R : A -> A -> Prop) : Equivalence R -> forall x, eqv_at R x.
Proof. intros E x. split; [reflexivity|]. split; [intros y; symmetry|intros y z; etransitivity]; eassumption. Qed.

Lemma eqv_all_at {A} (R : A -> A -> Prop) : (forall x, eqv_at R x) -> Equivalence R.
Proof.
  intro H. split; [intro x; exact (proj1 (H x))|intros x y; exact (proj1 (proj2 (H x)) y)|intros x y z; exact (proj2 (proj2 (H x)) y z)].
Qed.

Lemma optR_eqv_at {A} (R : A -> A -> Prop) o : (forall x, o = Some x -> eqv_at R x) -> eqv_at (optR R) o.
Proof.
  intro H. split; [|split].
  - destruct o as [x|]; constructor. exact (proj1 (H x eq_refl)).
  - intros o' H1. inversion H1 as [|x y Hr]; subst; constructor. exact (proj1 (proj2 (H x eq_refl)) y Hr).
  - intros o' o'' H1 H2. inversion H1 as [|x y Hr]; subst; inversion H2 as [|? z Hr']; subst; constructor.
    exact (proj2 (proj2 (H x eq_refl)) y z Hr Hr').
Qed.

Lemma Forall2_eqv_at {A} (R : A -> A -> Prop) l : Forall (eqv_at R) l -> eqv_at (Forall2 R) l.
Proof.
  induction 1 as [|x l (Hr & Hs & Ht) _ (IHr & IHs & IHt)]; (split; [|split]).
  - constructor.
  - intros l' F. inversion F. constructor.
  - intros l' l'' F F'. inversion F; subst. exact F'.
  - constructor; assumption.
  - intros l' F. inversion F; subst. constructor; auto.
  - intros l' l'' F F'. inversion F; subst. inversion F'; subst. constructor; eauto.
Qed.

Lemma pairR_eqv_at {A} (R : A -> A -> Prop) kv : eqv_at R (fst kv) /\ eqv_at R (snd kv) -> eqv_at (pairR R) kv.
Proof.
  destruct kv as [k v]. cbn [fst snd]. intros [(Kr & Ks & Kt) (Vr & Vs & Vt)]. split; [constructor; assumption|]. split.
  - intros y H. inversion H; subst. constructor; auto.
  - intros y z H1 H2. inversion H1; subst. inversion H2; subst. constructor; eauto.
Qed.

Lemma Forall2_flip {A B} (R : A -> B -> Prop) l l' : Forall2 R l l' -> Forall2 (fun y x => R x y) l' l.
Proof. induction 1; constructor; assumption. Qed.

Lemma Forall2_perm_r {A} (R : A -> A -> Prop) a b c :
  Permutation b c -> Forall2 R a b -> exists a', Permutation a a' /\ Forall2 R a' c.
Proof.
  intros Hp F. destruct (Permutation_Forall2 Hp (Forall2_flip _ _ _ F)) as (a' & Pa & Fa).
  exists a'. split; [exact Pa|exact (Forall2_flip _ _ _ Fa)].
Qed.

Lemma PermR_eqv_at {A} (R : A -> A -> Prop) l : Forall (eqv_at R) l -> eqv_at (PermR R) l.
Proof.
  intro H. split; [|split].
  - exact (PermR_intro R l l l (Permutation_refl l) (proj1 (Forall2_eqv_at R l H))).
  - intros l' HP. inversion HP as [m l0 m' Hp F E1 E2]. subst m m'.
    pose proof (proj1 (proj2 (Forall2_eqv_at R l0 (Permutation_Forall Hp H))) l' F) as Fs.
    destruct (Forall2_perm_r R l' l0 l (Permutation_sym Hp) Fs) as (a' & Pa & Fa).
    exact (PermR_intro R l' a' l Pa Fa).
  - intros l' l'' HP H2. inversion HP as [m l0 m' Hp F E1 E2]. subst m m'. inversion H2 as [m l1 m'' Hp1 F1 E1 E2]. subst m m''.
    destruct (Forall2_perm_r R l0 l' l1 Hp1 F) as (l0' & P0 & F0).
    apply (PermR_intro R l l0' l''); [eapply Permutation_trans; eassumption|].
    exact (proj2 (proj2 (Forall2_eqv_at R l0' (Permutation_Forall (Permutation_trans Hp P0) H))) l1 l'' F0 F1).
Qed.

#[global] Instance optR_equiv {A} (R : A -> A -> Prop) : Equivalence R -> Equivalence (optR R).
Proof. intro E. apply eqv_all_at. intro o. apply optR_eqv_at. intros x _. apply eqv_at_all. exact E. Qed.

#[global] Instance Forall2_equiv {A} (R : A -> A -> Prop) : Equivalence R -> Equivalence (Forall2 R).
Proof. intro E. apply eqv_all_at. intro l. apply Forall2_eqv_at. apply Forall_forall. intros x _. apply eqv_at_all. exact E. Qed.

#[global] Instance extra_eq_equiv : Equivalence extra_eq := optR_equiv _ _.

Lemma tdesc_eq_eqn p n k v ex p' n' k' v' ex' :
  tdesc_eq (TDesc p n k v ex) (TDesc p' n' k' v' ex') <->
  p = p' /\ n = n' /\ optR tdesc_eq k k' /\ optR tdesc_eq v v' /\ extra_eq ex ex'.
Proof.
  assert (O : forall o o' : option tdesc,
             match o, o' with Some x, Some y => tdesc_eq x y | None, None => True | _, _ => False end <-> optR tdesc_eq o o').
  { intros [x|] [y|]; split; intro H; try contradiction; try constructor; try exact H; inversion H; assumption. }
  cbn [tdesc_eq]. rewrite (O k k'), (O v v'). reflexivity.
Qed.

Lemma tdesc_eq_eqv_at : forall t, eqv_at tdesc_eq t.
Proof.
  induction t as [p n k v ex IHk IHv] using tdesc_ind'.
  destruct (optR_eqv_at tdesc_eq k IHk) as (Kr & Ks & Kt). destruct (optR_eqv_at tdesc_eq v IHv) as (Vr & Vs & Vt).
  split; [apply tdesc_eq_eqn; repeat split; [exact Kr|exact Vr|reflexivity]|]. split.
  - intros [p' n' k' v' ex'] H. apply tdesc_eq_eqn in H as (-> & -> & Hk & Hv & He). apply tdesc_eq_eqn.
    repeat split; [apply Ks; exact Hk|apply Vs; exact Hv|symmetry; exact He].
  - intros [p' n' k' v' ex'] [p'' n'' k'' v'' ex''] H1 H2. apply tdesc_eq_eqn in H1 as (-> & -> & Hk & Hv & He).
    apply tdesc_eq_eqn in H2 as (-> & -> & Hk' & Hv' & He'). apply tdesc_eq_eqn.
    repeat split; [eapply Kt; eassumption|eapply Vt; eassumption|etransitivity; eassumption].
Qed.
#[global] Instance tdesc_eq_equiv : Equivalence tdesc_eq := eqv_all_at _ tdesc_eq_eqv_at.

Lemma cvd_eq_eqv_at : forall c, eqv_at cvd_eq c.
Proof.
  induction c as [ty dbl int str b l m id ex IHl IHm] using cvdesc_ind'.
  destruct (optR_eqv_at (Forall2 cvd_eq) l (fun x E => Forall2_eqv_at _ x (IHl x E))) as (Lr & Ls & Lt).
  destruct (optR_eqv_at (PermR (pairR cvd_eq)) m
              (fun x E => PermR_eqv_at _ x (@Forall_impl _ _ _ (pairR_eqv_at cvd_eq) _ (IHm x E)))) as (Mr & Ms & Mt).
  split; [constructor; [exact Lr|exact Mr|reflexivity]|]. split.
  - intros c H. inversion H; subst. constructor; [apply Ls|apply Ms|symmetry]; assumption.
  - intros c d H1 H2. inversion H1; subst. inversion H2; subst. constructor; [eapply Lt|eapply Mt|etransitivity]; eassumption.
Qed.
#[global] Instance cvd_eq_equiv : Equivalence cvd_eq := eqv_all_at _ cvd_eq_eqv_at.

(* every other descriptor relation is a conjunction of equivalences, one per field *)
Ltac fieldwise_equiv :=
  split;
  [ intros a; repeat split; reflexivity
  | intros a b H; hnf in H; decompose [and] H; repeat split; symmetry; assumption
  | intros a b c H1 H2; hnf in H1, H2; decompose [and] H1; decompose [and] H2; repeat split; etransitivity; eassumption ].

#[global] Instance fielddesc_eq_equiv : Equivalence fielddesc_eq. Proof. fieldwise_equiv. Qed.
#[global] Instance structdesc_eq_equiv : Equivalence structdesc_eq. Proof. fieldwise_equiv. Qed.
#[global] Instance enumvaluedesc_eq_equiv : Equivalence enumvaluedesc_eq. Proof. fieldwise_equiv. Qed.
#[global] Instance enumdesc_eq_equiv : Equivalence enumdesc_eq. Proof. fieldwise_equiv. Qed.
#[global] Instance typedefdesc_eq_equiv : Equivalence typedefdesc_eq. Proof. fieldwise_equiv. Qed.
#[global] Instance methoddesc_eq_equiv : Equivalence methoddesc_eq. Proof. fieldwise_equiv. Qed.
#[global] Instance servicedesc_eq_equiv : Equivalence servicedesc_eq. Proof. fieldwise_equiv. Qed.
#[global] Instance constdesc_eq_equiv : Equivalence constdesc_eq. Proof. fieldwise_equiv. Qed.
#[global] Instance fdesc_equiv_equiv : Equivalence fdesc_equiv. Proof. fieldwise_equiv. Qed.

Lemma smap_ok_perm {A} (m m' : smap A) : Permutation m m' -> smap_ok m = true -> smap_ok m' = true.
Proof.
  unfold smap_ok. intros Hp H. apply nodupb_NoDup. apply nodupb_NoDup in H.
  eapply Permutation_NoDup; [apply Permutation_map; exact Hp|exact H].
Qed.

Lemma extra_ok_eq e e' : extra_eq e e' -> extra_ok e = true -> extra_ok e' = true.
Proof. intros H. inversion H; subst; cbn [extra_ok]; [auto|]. apply smap_ok_perm. assumption. Qed.

Lemma optR_ok {A} (R : A -> A -> Prop) (ok : A -> bool) o o' :
  (forall x, o = Some x -> forall y, R x y -> ok x = true -> ok y = true) -> optR R o o' ->
  match o with Some x => ok x | None => true end = true -> match o' with Some x => ok x | None => true end = true.
Proof. intros H Ho. inversion Ho as [|x y Hr]; subst; [auto|]. exact (H x eq_refl y Hr). Qed.

Lemma tdesc_ok_eq : forall a b, tdesc_eq a b -> tdesc_ok a = true -> tdesc_ok b = true.
Proof.
  induction a as [p n k v ex IHk IHv] using tdesc_ind'. intros [p' n' k' v' ex'] H.
  apply tdesc_eq_eqn in H as (_ & _ & Hk & Hv & He). cbn [tdesc_ok]. intro Hok. bsplit.
  rewrite (optR_ok _ _ _ _ IHk Hk), (optR_ok _ _ _ _ IHv Hv), (extra_ok_eq _ _ He) by assumption. reflexivity.
Qed.

(* A property that the relation R carries from an element to its partner is carried from a list to its partner
   under Forall2 R, and under PermR R; the premise is asked of the elements of the first list only, which is what
   the inductions over tdesc and cvdesc know. *)
Lemma Forall2_Forall {A} (R : A -> A -> Prop) (Q : A -> Prop) l l' :
  Forall (fun x => forall y, R x y -> Q x -> Q y) l -> Forall2 R l l' -> Forall Q l -> Forall Q l'.
Proof.
  intros H F. induction F as [|x y l l' Hr F IH]; intro HQ; [constructor|].
  inversion HQ; subst. inversion H; subst. constructor; auto.
Qed.

Lemma PermR_Forall {A} (R : A -> A -> Prop) (Q : A -> Prop) l l' :
  Forall (fun x => forall y, R x y -> Q x -> Q y) l -> PermR R l l' -> Forall Q l -> Forall Q l'.
Proof.
  intros H HP HQ. destruct HP as [l l0 l' Hp F].
  exact (Forall2_Forall R Q l0 l' (Permutation_Forall Hp H) F (Permutation_Forall Hp HQ)).
Qed.

Lemma forallb_Forall2_in {A} (ok : A -> bool) (R : A -> A -> Prop) l l' :
  Forall (fun x => forall y, R x y -> ok x = true -> ok y = true) l -> Forall2 R l l' -> forallb ok l = true -> forallb ok l' = true.
Proof. intros H F Hb. rewrite forallb_forall, <- Forall_forall in *. exact (Forall2_Forall R _ l l' H F Hb). Qed.

Lemma forallb_PermR_in {A} (ok : A -> bool) (R : A -> A -> Prop) l l' :
  Forall (fun x => forall y, R x y -> ok x = true -> ok y = true) l -> PermR R l l' -> forallb ok l = true -> forallb ok l' = true.
Proof. intros H F Hb. rewrite forallb_forall, <- Forall_forall in *. exact (PermR_Forall R _ l l' H F Hb). Qed.

Lemma pairR_ok {A} (R : A -> A -> Prop) (ok : A -> bool) kv :
  (forall y, R (fst kv) y -> ok (fst kv) = true -> ok y = true) /\ (forall y, R (snd kv) y -> ok (snd kv) = true -> ok y = true) ->
  forall kv', pairR R kv kv' -> ok (fst kv) && ok (snd kv) = true -> ok (fst kv') && ok (snd kv') = true.
Proof.
  intros [Hk Hv] kv' Hp H. destruct Hp as [k v k' v' Rk Rv]. cbn [fst snd] in *. bsplit.
  rewrite (Hk k' Rk), (Hv v' Rv) by assumption. reflexivity.
Qed.

Lemma forallb_Forall2 {A} (ok : A -> bool) (R : A -> A -> Prop) l l' :
  (forall x y, R x y -> ok x = true -> ok y = true) -> Forall2 R l l' -> forallb ok l = true -> forallb ok l' = true.
Proof. intro H. apply forallb_Forall2_in. apply Forall_forall. intros x _. apply H. Qed.

Lemma cvdesc_ok_eq : forall a b, cvd_eq a b -> cvdesc_ok a = true -> cvdesc_ok b = true.
Proof.
  induction a as [ty dbl int str b l m id ex IHl IHm] using cvdesc_ind'. intros c H.
  inversion H as [? ? ? ? ? ? l' ? m' ? ? ex' Hl Hm He]; subst. rewrite !cvdesc_ok_eqn. intro Hok. bsplit.
  rewrite (optR_ok _ (forallb cvdesc_ok) l l' (fun x E y => forallb_Forall2_in _ _ x y (IHl x E)) Hl),
    (optR_ok _ (forallb (fun kv => cvdesc_ok (fst kv) && cvdesc_ok (snd kv))) m m'
       (fun x E y => forallb_PermR_in _ _ x y (Forall_impl _ (pairR_ok cvd_eq cvdesc_ok) (IHm x E))) Hm),
    (extra_ok_eq _ _ He) by assumption.
  rewrite !andb_true_r. assumption.
Qed.

Lemma fielddesc_ok_eq a b : fielddesc_eq a b -> fielddesc_ok a = true -> fielddesc_ok b = true.
Proof.
  unfold fielddesc_eq, fielddesc_ok. intros (_ & _ & A3 & _ & _ & A6 & A7 & _ & A9) H. bsplit.
  rewrite (tdesc_ok_eq _ _ A3), (optR_ok _ _ _ _ (fun x _ => cvdesc_ok_eq x) A6), (smap_ok_perm _ _ A7), (extra_ok_eq _ _ A9) by assumption.
  reflexivity.
Qed.
Lemma structdesc_ok_eq a b : structdesc_eq a b -> structdesc_ok a = true -> structdesc_ok b = true.
Proof.
  unfold structdesc_eq, structdesc_ok. intros (_ & _ & A3 & A4 & _ & A6) H. bsplit.
  rewrite (forallb_Forall2 _ _ _ _ fielddesc_ok_eq A3), (smap_ok_perm _ _ A4), (extra_ok_eq _ _ A6) by assumption. reflexivity.
Qed.
Lemma enumvaluedesc_ok_eq a b : enumvaluedesc_eq a b -> enumvaluedesc_ok a = true -> enumvaluedesc_ok b = true.
Proof.
  unfold enumvaluedesc_eq, enumvaluedesc_ok. intros (_ & _ & _ & A4 & _ & A6) H. bsplit.
  rewrite (smap_ok_perm _ _ A4), (extra_ok_eq _ _ A6) by assumption. reflexivity.
Qed.
Lemma enumdesc_ok_eq a b : enumdesc_eq a b -> enumdesc_ok a = true -> enumdesc_ok b = true.
Proof.
  unfold enumdesc_eq, enumdesc_ok. intros (_ & _ & A3 & A4 & _ & A6) H. bsplit.
  rewrite (forallb_Forall2 _ _ _ _ enumvaluedesc_ok_eq A3), (smap_ok_perm _ _ A4), (extra_ok_eq _ _ A6) by assumption. reflexivity.
Qed.
Lemma typedefdesc_ok_eq a b : typedefdesc_eq a b -> typedefdesc_ok a = true -> typedefdesc_ok b = true.
Proof.
  unfold typedefdesc_eq, typedefdesc_ok. intros (_ & A2 & _ & A4 & _ & A6) H. bsplit.
  rewrite (tdesc_ok_eq _ _ A2), (smap_ok_perm _ _ A4), (extra_ok_eq _ _ A6) by assumption. reflexivity.
Qed.
Lemma methoddesc_ok_eq a b : methoddesc_eq a b -> methoddesc_ok a = true -> methoddesc_ok b = true.
Proof.
  unfold methoddesc_eq, methoddesc_ok. intros (_ & _ & A3 & A4 & A5 & _ & A7 & _ & A9) H. bsplit.
  rewrite (optR_ok _ _ _ _ (fun x _ => tdesc_ok_eq x) A3), (forallb_Forall2 _ _ _ _ fielddesc_ok_eq A4),
    (forallb_Forall2 _ _ _ _ fielddesc_ok_eq A7), (smap_ok_perm _ _ A5), (extra_ok_eq _ _ A9) by assumption.
  reflexivity.
Qed.
Lemma servicedesc_ok_eq a b : servicedesc_eq a b -> servicedesc_ok a = true -> servicedesc_ok b = true.
Proof.
  unfold servicedesc_eq, servicedesc_ok. intros (_ & _ & A3 & A4 & _ & A6 & _) H. bsplit.
  rewrite (forallb_Forall2 _ _ _ _ methoddesc_ok_eq A3), (smap_ok_perm _ _ A4), (extra_ok_eq _ _ A6) by assumption. reflexivity.
Qed.
Lemma constdesc_ok_eq a b : constdesc_eq a b -> constdesc_ok a = true -> constdesc_ok b = true.
Proof.
  unfold constdesc_eq, constdesc_ok. intros (_ & _ & A3 & A4 & A5 & _ & A7) H. bsplit.
  rewrite (tdesc_ok_eq _ _ A3), (cvdesc_ok_eq _ _ A4), (smap_ok_perm _ _ A5), (extra_ok_eq _ _ A7) by assumption. reflexivity.
Qed.

Theorem fdesc_ok_equiv a b : fdesc_equiv a b -> fdesc_ok a = true -> fdesc_ok b = true.
Proof.
  unfold fdesc_equiv, fdesc_ok. intros (_ & A2 & A3 & A4 & A5 & A6 & A7 & A8 & A9 & A10 & A11) H. bsplit.
  rewrite (smap_ok_perm _ _ A2), (smap_ok_perm _ _ A3), (forallb_Forall2 _ _ _ _ servicedesc_ok_eq A4),
    (forallb_Forall2 _ _ _ _ structdesc_ok_eq A5), (forallb_Forall2 _ _ _ _ structdesc_ok_eq A6),
    (forallb_Forall2 _ _ _ _ enumdesc_ok_eq A7), (forallb_Forall2 _ _ _ _ typedefdesc_ok_eq A8),
    (forallb_Forall2 _ _ _ _ structdesc_ok_eq A9), (forallb_Forall2 _ _ _ _ constdesc_ok_eq A10), (extra_ok_eq _ _ A11) by assumption.
  reflexivity.
Qed.

(* decoding the encoding of ANY entry-order permutation of the maps of a descriptor yields a
   descriptor equivalent to it *)
Theorem wire_roundtrip_any_order d d' :
  fdesc_ok d = true -> fdesc_equiv d d' ->
  exists d'', dec_fdesc (enc_fdesc d') = Some d'' /\ fdesc_equiv d'' d.
Proof.
  intros Hok He. exists d'. split; [apply fdesc_rt; exact (fdesc_ok_equiv d d' He Hok)|symmetry; exact He].
Qed.

Definition wsim (w w' : wval) : Prop := wtype w = wtype w' /\ (wf w -> wf w').
Definition slot_rel (s s' : slot) : Prop := snd s = snd s' /\ wsim (fst s) (fst s').

Lemma wsim_refl w : wsim w w.
Proof. split; auto. Qed.
Lemma slot_refl s : slot_rel s s.
Proof. split; [reflexivity|apply wsim_refl]. Qed.
Lemma slot_nz w w' : wsim w w' -> slot_rel (nz w) (nz w').
Proof. intro H. split; [reflexivity|exact H]. Qed.

Lemma emit_wf lay : forall sl sl', Forall2 slot_rel sl sl' ->
  Forall (fun f : wfield => wtype (snd f) = fst (fst f) /\ in_srange 2 (snd (fst f)) /\ wf (snd f)) (emit lay sl) ->
  Forall (fun f : wfield => wtype (snd f) = fst (fst f) /\ in_srange 2 (snd (fst f)) /\ wf (snd f)) (emit lay sl').
Proof.
  induction lay as [|[[t id] r] lay IH]; intros sl sl' F H; [destruct sl'; constructor|].
  destruct F as [|[w z] [w' z'] sl sl' [Hz [Ht Hw]] F]; cbn [emit fst snd] in *; [constructor|]. subst z'.
  destruct (req_eqb r Optional && z); [apply (IH _ _ F H)|].
  inversion H as [|? ? [A [B C]] H']; subst. cbn [fst snd] in *. constructor; [|apply (IH _ _ F H')].
  cbn [fst snd]. split; [congruence|]. split; [exact B|apply Hw; exact C].
Qed.

Lemma emit_wsim lay sl sl' : Forall2 slot_rel sl sl' -> wsim (wstruct lay sl) (wstruct lay sl').
Proof.
  intro F. split; [reflexivity|]. unfold wstruct. rewrite !wf_struct_iff. apply emit_wf. exact F.
Qed.

Lemma smap_wsim {A} vt (e : A -> wval) (m m' : smap A) : Permutation m m' -> wsim (w_smap vt e m) (w_smap vt e m').
Proof.
  intro Hp. split; [reflexivity|]. unfold w_smap. rewrite !wf_map_iff, !map_length, (Permutation_length Hp).
  intros [Hl Hf]. split; [exact Hl|]. exact (Permutation_Forall (Permutation_map _ Hp) Hf).
Qed.

Lemma structs_wsim_in {A} (R : A -> A -> Prop) (e : A -> wval) l l' :
  Forall (fun x => forall y, R x y -> wsim (e x) (e y)) l -> Forall2 R l l' -> wsim (w_structs e l) (w_structs e l').
Proof.
  intros H F. split; [reflexivity|]. unfold w_structs. rewrite !wf_list_iff, !map_length, !Forall_map, (Forall2_length _ _ _ F).
  intros [Hl Hf]. split; [exact Hl|]. refine (Forall2_Forall R _ l l' _ F Hf).
  eapply Forall_impl; [|exact H]. intros x Hx y Hr [Ht Hw]. destruct (Hx y Hr) as [Et Ew]. split; [congruence|auto].
Qed.

Lemma pairs_wsim_in {A} (R : A -> A -> Prop) (e : A -> wval) m m' :
  Forall (fun kv => (forall y, R (fst kv) y -> wsim (e (fst kv)) (e y)) /\ (forall y, R (snd kv) y -> wsim (e (snd kv)) (e y))) m ->
  PermR (pairR R) m m' -> wsim (w_pairs e m) (w_pairs e m').
Proof.
  intros H HP. split; [reflexivity|]. unfold w_pairs. rewrite !wf_map_iff, !map_length, !Forall_map. intros [Hl Hf]. split.
  - destruct HP as [m m0 m' Hp F]. rewrite <- (Forall2_length _ _ _ F), <- (Permutation_length Hp). exact Hl.
  - refine (PermR_Forall (pairR R) _ m m' _ HP Hf). eapply Forall_impl; [|exact H].
    intros kv [Hk Hv] kv' Hpr (T1 & T2 & W1 & W2). destruct Hpr as [k v k' v' Rk Rv]. cbn [both fst snd] in *.
    destruct (Hk k' Rk) as [Ek Wk]. destruct (Hv v' Rv) as [Ev Wv]. repeat split; [congruence|congruence|auto|auto].
Qed.

Lemma slot_optw {A} (R : A -> A -> Prop) w0 (e : A -> wval) o o' :
  (forall x, o = Some x -> forall y, R x y -> wsim (e x) (e y)) -> optR R o o' -> slot_rel (s_optw w0 e o) (s_optw w0 e o').
Proof.
  intros H Ho. inversion Ho as [|x y Hr]; subst; cbn [s_optw]; [apply slot_refl|].
  split; [reflexivity|]. exact (H x eq_refl y Hr).
Qed.
Lemma slot_extra e e' : extra_eq e e' -> slot_rel (s_extra e) (s_extra e').
Proof. apply (slot_optw _ _ (w_smap T_STRING WStr)). intros m _ m'. apply smap_wsim. Qed.
Lemma slot_annos a a' : Permutation a a' -> slot_rel (s_annos a) (s_annos a').
Proof. intro H. apply slot_nz. apply smap_wsim. exact H. Qed.
Lemma slot_strmap a a' : Permutation a a' -> slot_rel (s_strmap a) (s_strmap a').
Proof. intro H. apply slot_nz. apply smap_wsim. exact H. Qed.
Lemma slot_opt {A} (R : A -> A -> Prop) (e : A -> wval) o o' :
  (forall x, o = Some x -> forall y, R x y -> wsim (e x) (e y)) -> optR R o o' -> slot_rel (s_opt e o) (s_opt e o').
Proof. apply slot_optw. Qed.
Lemma slot_structs {A} (R : A -> A -> Prop) (e : A -> wval) l l' :
  (forall x y, R x y -> wsim (e x) (e y)) -> Forall2 R l l' -> slot_rel (nz (w_structs e l)) (nz (w_structs e l')).
Proof. intros H F. apply slot_nz. apply (structs_wsim_in R); [|exact F]. apply Forall_forall. intros x _. apply H. Qed.

(* Two related descriptors are encoded slot by slot, and every pair of slots is related by one of the slot
   lemmas above, applied to the matching conjunct of the relation: that search is left to [eauto]. *)
Create HintDb wsim discriminated.
#[local] Hint Resolve slot_refl slot_nz slot_extra slot_annos slot_strmap slot_opt slot_optw slot_structs : wsim.
Ltac slots := apply emit_wsim; repeat apply Forall2_cons; try apply Forall2_nil; eauto with wsim.

Lemma tdesc_wsim : forall a b, tdesc_eq a b -> wsim (enc_tdesc a) (enc_tdesc b).
Proof.
  induction a as [p n k v ex IHk IHv] using tdesc_ind'. intros [p' n' k' v' ex'] H.
  apply tdesc_eq_eqn in H as (-> & -> & Hk & Hv & He). rewrite !enc_tdesc_eqn. slots.
Qed.
#[local] Hint Resolve tdesc_wsim : wsim.

Lemma cvdesc_wsim : forall a b, cvd_eq a b -> wsim (enc_cvdesc a) (enc_cvdesc b).
Proof.
  induction a as [ty dbl int str b l m id ex IHl IHm] using cvdesc_ind'. intros c H.
  inversion H as [? ? ? ? ? ? l' ? m' ? ? ex' Hl Hm He]; subst.
  pose proof (fun x E y => structs_wsim_in cvd_eq enc_cvdesc x y (IHl x E)) as Wl.
  pose proof (fun x E y => pairs_wsim_in cvd_eq enc_cvdesc x y (IHm x E)) as Wm.
  rewrite !enc_cvdesc_eqn. slots.
Qed.
#[local] Hint Resolve cvdesc_wsim : wsim.

Lemma fielddesc_wsim a b : fielddesc_eq a b -> wsim (enc_fielddesc a) (enc_fielddesc b).
Proof.
  destruct a, b. unfold fielddesc_eq, enc_fielddesc. cbn. intros (-> & -> & A3 & -> & -> & A6 & A7 & -> & A9). slots.
Qed.
#[local] Hint Resolve fielddesc_wsim : wsim.

Lemma structdesc_wsim a b : structdesc_eq a b -> wsim (enc_structdesc a) (enc_structdesc b).
Proof.
  destruct a, b. unfold structdesc_eq, enc_structdesc, enc_fielddescs. cbn. intros (-> & -> & A3 & A4 & -> & A6). slots.
Qed.
Lemma enumvaluedesc_wsim a b : enumvaluedesc_eq a b -> wsim (enc_enumvaluedesc a) (enc_enumvaluedesc b).
Proof.
  destruct a, b. unfold enumvaluedesc_eq, enc_enumvaluedesc. cbn. intros (-> & -> & -> & A4 & -> & A6). slots.
Qed.
#[local] Hint Resolve enumvaluedesc_wsim : wsim.
Lemma enumdesc_wsim a b : enumdesc_eq a b -> wsim (enc_enumdesc a) (enc_enumdesc b).
Proof.
  destruct a, b. unfold enumdesc_eq, enc_enumdesc. cbn. intros (-> & -> & A3 & A4 & -> & A6). slots.
Qed.
Lemma typedefdesc_wsim a b : typedefdesc_eq a b -> wsim (enc_typedefdesc a) (enc_typedefdesc b).
Proof.
  destruct a, b. unfold typedefdesc_eq, enc_typedefdesc. cbn. intros (-> & A2 & -> & A4 & -> & A6). slots.
Qed.
Lemma methoddesc_wsim a b : methoddesc_eq a b -> wsim (enc_methoddesc a) (enc_methoddesc b).
Proof.
  destruct a, b. unfold methoddesc_eq, enc_methoddesc, enc_fielddescs. cbn. intros (-> & -> & A3 & A4 & A5 & -> & A7 & -> & A9). slots.
Qed.
#[local] Hint Resolve methoddesc_wsim : wsim.
Lemma servicedesc_wsim a b : servicedesc_eq a b -> wsim (enc_servicedesc a) (enc_servicedesc b).
Proof.
  destruct a, b. unfold servicedesc_eq, enc_servicedesc. cbn. intros (-> & -> & A3 & A4 & -> & A6 & ->). slots.
Qed.
Lemma constdesc_wsim a b : constdesc_eq a b -> wsim (enc_constdesc a) (enc_constdesc b).
Proof.
  destruct a, b. unfold constdesc_eq, enc_constdesc. cbn. intros (-> & -> & A3 & A4 & A5 & -> & A7). slots.
Qed.
#[local] Hint Resolve structdesc_wsim enumdesc_wsim typedefdesc_wsim servicedesc_wsim constdesc_wsim : wsim.

Lemma fdesc_wsim a b : fdesc_equiv a b -> wsim (enc_fdesc a) (enc_fdesc b).
Proof.
  destruct a, b. unfold fdesc_equiv, enc_fdesc. cbn. intros (-> & A2 & A3 & A4 & A5 & A6 & A7 & A8 & A9 & A10 & A11). slots.
Qed.

(* equivalent descriptors fit the wire format together *)
Theorem fdesc_wf_equiv a b : fdesc_equiv a b -> wf (enc_fdesc a) -> wf (enc_fdesc b).
Proof. intro H. exact (proj2 (fdesc_wsim a b H)). Qed.

(* the bytes of any entry-order permutation d' of d, followed by anything, read back to d': the
   premises speak about d only *)
Lemma meta_roundtrip_equiv d d' rest :
  fdesc_ok d = true -> wfb (enc_fdesc d) = true -> fdesc_equiv d d' -> meta_unmarshal (meta_marshal d' ++ rest) = Some d'.
Proof.
  intros Hok Hwf He. unfold meta_unmarshal, meta_marshal, enc_fdesc, wstruct.
  rewrite dec_struct_enc by (apply (fdesc_wf_equiv d d' He); apply wfb_wf; exact Hwf).
  apply fdesc_rt. exact (fdesc_ok_equiv d d' He Hok).
Qed.

(* the bytes of meta.Marshal, followed by anything, read back to the descriptor *)
Theorem meta_roundtrip d rest :
  fdesc_ok d = true -> wfb (enc_fdesc d) = true -> meta_unmarshal (meta_marshal d ++ rest) = Some d.
Proof. intros Hok Hwf. apply (meta_roundtrip_equiv d d rest Hok Hwf). reflexivity. Qed.

Theorem meta_roundtrip_any_order d d' rest :
  fdesc_ok d = true -> wfb (enc_fdesc d) = true -> fdesc_equiv d d' ->
  exists d'', meta_unmarshal (meta_marshal d' ++ rest) = Some d'' /\ fdesc_equiv d'' d.
Proof.
  intros Hok Hwf He. exists d'. split; [apply (meta_roundtrip_equiv d); assumption|symmetry; exact He].
Qed.

Section Gzip.
  Variable zip : bytes -> bytes.
  Variable unzip : bytes -> option bytes.
  Hypothesis unzip_zip : forall x, unzip (zip x) = Some x.

  Lemma marshal_roundtrip_equiv d d' :
    fdesc_ok d = true -> wfb (enc_fdesc d) = true -> fdesc_equiv d d' -> unmarshal unzip (marshal zip d') = Some d'.
  Proof.
    intros Hok Hwf He. unfold unmarshal, marshal. rewrite unzip_zip.
    rewrite <- (app_nil_r (meta_marshal d')). apply (meta_roundtrip_equiv d); assumption.
  Qed.

  Theorem marshal_roundtrip d :
    fdesc_ok d = true -> wfb (enc_fdesc d) = true -> unmarshal unzip (marshal zip d) = Some d.
  Proof. intros Hok Hwf. apply (marshal_roundtrip_equiv d d Hok Hwf). reflexivity. Qed.

  Theorem marshal_roundtrip_every_order d d' :
    fdesc_ok d = true -> wfb (enc_fdesc d) = true -> fdesc_equiv d d' ->
    exists d'', unmarshal unzip (marshal zip d') = Some d'' /\ fdesc_equiv d'' d.
  Proof.
    intros Hok Hwf He. exists d'. split; [apply (marshal_roundtrip_equiv d); assumption|symmetry; exact He].
  Qed.

  Theorem marshal_roundtrip_any_order d d' :
    fdesc_ok d = true -> fdesc_equiv d d' -> wfb (enc_fdesc d') = true ->
    exists d'', unmarshal unzip (marshal zip d') = Some d'' /\ fdesc_equiv d'' d.
  Proof.
    intros Hok He Hwf. exists d'. split; [|symmetry; exact He].
    apply marshal_roundtrip; [exact (fdesc_ok_equiv d d' He Hok)|exact Hwf].
  Qed.
End Gzip.
