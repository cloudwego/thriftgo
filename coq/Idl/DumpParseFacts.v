(* Idl/DumpParseFacts.v — property C17: the dumper's tokens are one spelling of the
   abstract token sequence of the view (Idl/Print.v), hence parse into the view
   (parse_tokens_any_order, for the dumper's order of headers). *)
From Coq Require Import List Bool ZArith.
From Coq.Strings Require Import Byte.
From Verif Require Import Base.Bytes Idl.Ast Idl.AstFacts Idl.Lex Idl.Parse Idl.Print Idl.PrintFacts
  Idl.Dump Idl.DumpFacts.
From Verif Require Import Idl.DumpNumFacts Idl.DumpLexFacts.
Import ListNotations.

Lemma piece_toks_app a b : piece_toks (a ++ b) = piece_toks a ++ piece_toks b.
Proof. unfold piece_toks. apply flat_map_app. Qed.

(* The steps of the walk over the dumper's pieces.  [piece_toks (PT t :: qs)] is convertible with
   [[t] ++ piece_toks qs] and white space carries no token, so each step is stated on the pieces
   themselves and [piece_toks] is never rewritten. *)
Lemma cW w ps qs : conc ps (piece_toks qs) -> conc (Print.PW w :: ps) (piece_toks (word w :: qs)).
Proof. intro H. exact (conc_cons _ _ [TWord w] _ (conc_w w) H). Qed.
Lemma cP c ps qs : conc ps (piece_toks qs) -> conc (PP c :: ps) (piece_toks (punct c :: qs)).
Proof. intro H. exact (conc_cons _ _ [TPunct c] _ (conc_p c) H). Qed.
Lemma cWs ws ps qs : conc ps (piece_toks qs) -> conc ps (piece_toks (Dump.PW ws :: qs)).
Proof. intro H. exact H. Qed.
Lemma cL s ps qs : lit_ok s = true -> conc ps (piece_toks qs) -> conc (PL s :: ps) (piece_toks (lit s :: qs)).
Proof.
  intros Hs H. destruct (lit_token_roundtrip s Hs) as (q & raw & E & _ & _ & Hu).
  change (piece_toks (lit s :: qs)) with ([lit_token s] ++ piece_toks qs). rewrite E.
  exact (conc_cons _ _ _ _ (conc_l s q raw Hu) H).
Qed.
Lemma cSep0 ps qs : conc ps (piece_toks qs) -> conc (PSep :: ps) (piece_toks qs).
Proof. intro H. exact (conc_cons _ _ [] _ conc_sep0 H). Qed.
Lemma cSep1 ps qs : conc ps (piece_toks qs) -> conc (PSep :: ps) (piece_toks (punct p_comma :: qs)).
Proof. intro H. exact (conc_cons _ _ [TPunct p_comma] _ (conc_sep1 p_comma eq_refl) H). Qed.
Lemma cEA0 ps qs : conc ps (piece_toks qs) -> conc (POptEmptyAnnos :: ps) (piece_toks qs).
Proof. intro H. exact (conc_cons _ _ [] _ conc_oea0 H). Qed.

(* integers are written in decimal by fmt.Sprintf("%d") and read back exactly when they fit
   (Idl/DumpNumFacts.v): constants and enum values in 64 bits, field ids in 32 bits *)
Definition z_spell (z : Z) : bool := in_i64 z.
Definition id_spell (z : Z) : bool := in_i32 z.
(* a double text read as an integer constant must be a valid one *)
Definition dbl_spell (text : bytes) : bool :=
  match num_token text with
  | TInt s => match int_value s with Some _ => true | None => false end
  | TDouble _ => true
  | _ => false
  end.

Section Spell.
  Variable fmt : N -> bytes.
  Fixpoint cv_spell (c : const_value) : bool :=
    match c with
    | CDouble d => dbl_spell (fmt d)
    | CInt z => z_spell z
    | CLiteral s => lit_ok s
    | CIdent _ _ => true
    | CList l => forallb cv_spell l
    | CMap l => forallb (fun kv => cv_spell (fst kv) && cv_spell (snd kv)) l
    end.
  Definition field_spell (f : field) : bool :=
    id_spell (fd_id f) && match fd_default f with Some v => cv_spell v | None => true end.
  Definition function_spell (f : function) : bool :=
    forallb field_spell (fn_args f) && forallb field_spell (fn_throws f).
  Definition spell_ok (a : file) : bool :=
    forallb (fun c => cv_spell (co_value c)) (f_constants a) &&
    forallb (fun e => forallb (fun v => z_spell (ev_value v)) (en_values e)) (f_enums a) &&
    forallb (fun s => forallb field_spell (sl_fields s)) (f_structs a ++ f_unions a ++ f_exceptions a) &&
    forallb (fun s => forallb function_spell (sv_functions s)) (f_services a).
End Spell.

Lemma cI z ps qs : z_spell z = true -> conc ps (piece_toks qs) -> conc (PI z :: ps) (piece_toks (int_piece z :: qs)).
Proof. intros Hz H. exact (conc_cons _ _ [TInt (print_Z z)] _ (conc_i z _ (int_value_print_Z z Hz)) H). Qed.
Lemma cEnumVal prev z ps qs : z_spell z = true -> conc ps (piece_toks qs) ->
  conc ((if Z.eqb z (implicit_enum_value prev) then [POptEnumVal z] else [PP p_eq; PI z]) ++ ps)
       (piece_toks (punct p_eq :: sp :: int_piece z :: qs)).
Proof.
  intros Hz H. destruct (Z.eqb z (implicit_enum_value prev)); cbn [app].
  - exact (conc_cons _ _ [TPunct p_eq; TInt (print_Z z)] _ (conc_oev1 z _ (int_value_print_Z z Hz)) H).
  - apply cP, cWs, cI; assumption.
Qed.
Lemma cFid prev z ps qs : id_spell z = true -> conc ps (piece_toks qs) ->
  conc ((if Z.eqb z (implicit_id prev) then [POptFid z] else [PFid z]) ++ ps)
       (piece_toks (int_piece z :: punct p_colon :: qs)).
Proof.
  intros Hz H. pose proof (field_id_value_print_Z z Hz) as E. destruct (Z.eqb z (implicit_id prev)); cbn [app].
  - exact (conc_cons _ _ [TInt (print_Z z); TPunct p_colon] _ (conc_ofid1 z _ E) H).
  - exact (conc_cons _ _ [TInt (print_Z z); TPunct p_colon] _ (conc_fid z _ E) H).
Qed.
Lemma cNum text ps qs : dbl_spell text = true -> conc ps (piece_toks qs) ->
  conc (protos_cv (num_view text) ++ ps) (piece_toks (PN text :: qs)).
Proof.
  unfold dbl_spell, num_view. intros Hs H.
  change (piece_toks (PN text :: qs)) with ([num_token text] ++ piece_toks qs).
  destruct (num_token text) as [w|t|t|q raw|pc]; try discriminate.
  - destruct (int_value t) as [z|] eqn:Ez; [|discriminate]. exact (conc_cons _ _ _ _ (conc_i z t Ez) H).
  - exact (conc_cons _ _ _ _ (conc_d _ t eq_refl) H).
Qed.

Section Conc.
  Variable fmt : N -> bytes.

  Lemma conc_anno_values k : forall vs last ps qs, forallb lit_ok vs = true -> conc ps (piece_toks qs) ->
    conc (flat_map (fun v => [Print.PW k; PP p_eq; PL v; PSep]) vs ++ ps)
         (piece_toks (anno_values_pieces k vs last ++ qs)).
  Proof.
    induction vs as [|v r IH]; intros last ps qs Hl H; [exact H|].
    cbn [forallb] in Hl. apply andb_true_iff in Hl. destruct Hl as [Hv Hr].
    cbn [flat_map anno_values_pieces]. norm. apply cW, cWs, cP, cWs, cL; [exact Hv|].
    destruct (last && match r with [] => true | _ :: _ => false end); unfold comma_sp; cbn [app].
    - apply cSep0, IH; assumption.
    - apply cSep1, cWs, IH; assumption.
  Qed.

  Lemma conc_anno_list : forall a ps qs, forallb anno_ok a = true -> conc ps (piece_toks qs) ->
    conc (flat_map (fun an => flat_map (fun v => [Print.PW (an_key an); PP p_eq; PL v; PSep]) (an_values an)) a ++ ps)
         (piece_toks (anno_list_pieces a ++ qs)).
  Proof.
    induction a as [|x r IH]; intros ps qs Ha H; [exact H|].
    cbn [forallb] in Ha. apply andb_true_iff in Ha. destruct Ha as [Hx Hr].
    unfold anno_ok in Hx. apply andb_true_iff in Hx. destruct Hx as [_ Hv].
    cbn [flat_map anno_list_pieces]. norm. apply conc_anno_values; [exact Hv|]. apply IH; assumption.
  Qed.

  Lemma conc_annos a ps qs : annos_ok a = true -> conc ps (piece_toks qs) ->
    conc (protos_annos (view_annos a) ++ ps) (piece_toks (annos_pieces a ++ qs)).
  Proof.
    intros Ha H. rewrite (view_annos_id a Ha). unfold annos_ok in Ha. apply andb_true_iff in Ha. destruct Ha as [Ha _].
    destruct a as [|x r].
    - apply cEA0. exact H.
    - unfold protos_annos, annos_pieces. norm. apply cP, conc_anno_list; [exact Ha|]. apply cP. exact H.
  Qed.

  Lemma pt_C c r : piece_toks (PC c :: r) = piece_toks r.
  Proof. reflexivity. Qed.
  (* a recorded comment, written or not, carries no token *)
  Lemma cC prefix c ps qs : piece_toks prefix = [] -> conc ps (piece_toks qs) ->
    conc ps (piece_toks (comment_pieces prefix c ++ qs)).
  Proof.
    intros Hp H. unfold comment_pieces. destruct (forallb go_space c); [exact H|].
    rewrite <- app_assoc, piece_toks_app, Hp. exact H.
  Qed.

  Definition pd_ty (t : ty) : bool := ty_ok t && wf_type (view_ty t).

  Lemma conc_type : forall t, ty_ok t = true -> wf_type (view_ty t) = true ->
    forall ps qs, conc ps (piece_toks qs) -> conc (protos_type (view_ty t) ++ ps) (piece_toks (type_pieces t ++ qs)).
  Proof.
    induction t as [n k v c an cat r td IHk IHv] using ty_ind'. intros Hok Hwf ps qs H.
    cbn [ty_ok] in Hok. apply andb_true_iff in Hok. destruct Hok as [Han Hsh].
    destruct k as [kt|], v as [vt|]; cbn [view_ty] in Hwf |- *; unfold ty_plain in Hwf |- *; cbn [wf_type] in Hwf;
      repeat (apply andb_true_iff in Hwf; destruct Hwf as [Hwf ?]);
      repeat match goal with Hc : (_ && _) = true |- _ => apply andb_true_iff in Hc; destruct Hc end;
      cbn [protos_type type_pieces protos_cpp]; norm.
    - match goal with Hn : beqb n kw_map = true |- _ => apply beqb_true in Hn; subst n end.
      apply cW, cP, (IHk kt eq_refl); [assumption | assumption|].
      apply cP, (IHv vt eq_refl); [assumption | assumption|]. apply cP, conc_annos; assumption.
    - discriminate.
    - match goal with Hn : (beqb n kw_set || beqb n kw_list) = true |- _ => rename Hn into Hn' end.
      destruct (beqb n kw_list) eqn:El.
      + apply beqb_true in El. subst n. norm. apply cW, cP, (IHv vt eq_refl); [assumption | assumption|].
        apply cP, conc_annos; assumption.
      + rewrite orb_false_r in Hn'. apply beqb_true in Hn'. subst n. norm. apply cW, cP, (IHv vt eq_refl); [assumption | assumption|].
        apply cP, conc_annos; assumption.
    - apply cW, conc_annos; assumption.
  Qed.

  Lemma conc_cv : forall c, cv_spell fmt c = true ->
    forall ps qs, conc ps (piece_toks qs) -> conc (protos_cv (view_cv fmt c) ++ ps) (piece_toks (cv_pieces fmt c ++ qs)).
  Proof.
    induction c as [d|z|s|s e|l IH|l IH] using const_value_ind'; intros Hs ps qs H; cbn [cv_spell] in Hs;
      cbn [view_cv cv_pieces protos_cv]; norm.
    - apply cNum; assumption.
    - apply cI; assumption.
    - rewrite (view_lit_id s Hs). apply cL; assumption.
    - apply cW. exact H.
    - apply cP. rewrite flat_map_map.
      induction IH as [|x r Hx _ IHr]; cbn [flat_map app].
      + apply cP. exact H.
      + cbn [forallb] in Hs. apply andb_true_iff in Hs. destruct Hs as [H1 H2]. norm. apply Hx; [exact H1|].
        destruct r as [|y r']; unfold comma_sp; cbn [flat_map app].
        * apply cSep0, cP. exact H.
        * apply cSep1, cWs. exact (IHr H2).
    - apply cP. rewrite flat_map_map.
      induction IH as [|[k v] r [Hk Hv] _ IHr]; cbn [flat_map app].
      + apply cWs, cP. exact H.
      + cbn [forallb fst snd] in Hs. apply andb_true_iff in Hs. destruct Hs as [H1 H2].
        apply andb_true_iff in H1. destruct H1 as [H1k H1v]. cbn [fst snd] in *. norm.
        apply cWs, Hk; [exact H1k|]. apply cP, cWs, Hv; [exact H1v|].
        destruct r as [|y r']; unfold comma_sp; cbn [flat_map app].
        * apply cSep0, cWs, cP. exact H.
        * apply cSep1, cWs. exact (IHr H2).
  Qed.

  Definition pd_field (f : field) : bool :=
    field_ok fmt f && field_spell fmt f && wf_type (view_ty (fd_type f)).

  (* a throws entry is read back as optional whatever keyword is written *)
  Lemma conc_req throws r r' ps qs : throws = true \/ r' = r -> conc ps (piece_toks qs) ->
    conc (protos_req throws r' ++ ps) (piece_toks (req_pieces r ++ qs)).
  Proof.
    intros Hr H. destruct throws.
    - destruct r; cbn [protos_req req_pieces app].
      + exact (conc_cons _ _ [] _ conc_thr0 H).
      + exact (conc_cons _ _ [TWord kw_required] _ conc_thr2 H).
      + exact (conc_cons _ _ [TWord kw_optional] _ conc_thr1 H).
    - destruct Hr as [Hr | ->]; [discriminate|].
      destruct r; cbn [protos_req req_pieces app]; [exact H | apply cW, cWs; exact H | apply cW, cWs; exact H].
  Qed.

  (* the field of the view with requiredness r' (forced for a throws entry); what stands for its
     closing PSep is written by the caller *)
  Lemma conc_field throws prev f r' : pd_field f = true -> throws = true \/ r' = fd_req f ->
    forall ps qs, conc (PSep :: ps) (piece_toks qs) ->
    conc (protos_field throws prev (set_req (view_field fmt f) r') ++ ps) (piece_toks (field_pieces fmt f ++ qs)).
  Proof.
    unfold pd_field, field_ok, field_spell. intros Hf Hr ps qs H.
    repeat match goal with Hc : (_ && _) = true |- _ => apply andb_true_iff in Hc; destruct Hc end.
    destruct f as [id name req t d an cm]. cbn [fd_id fd_type fd_default fd_annos fd_req] in *.
    unfold protos_field, field_pieces, set_req, view_field.
    cbn [fd_id fd_name fd_req fd_type fd_default fd_annos fd_comments]. norm.
    apply cFid; [assumption|]. apply cWs, conc_req; [exact Hr|]. apply conc_type; [assumption | assumption|].
    apply cWs, cW. destruct d as [v|]; cbn [option_map]; norm.
    - apply cWs, cP, cWs, conc_cv; [assumption|]. apply conc_annos; assumption.
    - apply conc_annos; assumption.
  Qed.

  Lemma conc_sep_fields throws r' :
    (throws = true \/ forall f : field, r' f = fd_req f) ->
    forall l prev ps qs, forallb pd_field l = true -> conc ps (piece_toks qs) ->
    conc (protos_fields throws prev (map (fun f => set_req (view_field fmt f) (r' f)) l) ++ ps)
         (piece_toks (sep_fields fmt l ++ qs)).
  Proof.
    intros Hr. induction l as [|f r IH]; intros prev ps qs Hl H; [exact H|].
    cbn [forallb] in Hl. apply andb_true_iff in Hl. destruct Hl as [Hf Hrr].
    cbn [map protos_fields sep_fields]. norm.
    apply conc_field; [exact Hf | destruct Hr as [Hr|Hr]; [left; exact Hr | right; apply Hr] |].
    destruct r as [|g r2]; unfold comma_sp; cbn [map protos_fields sep_fields app].
    - apply cSep0. exact H.
    - apply cSep1, cWs, (IH _ ps qs Hrr H).
  Qed.

  Lemma conc_struct_fields : forall l prev ps qs, forallb pd_field l = true -> conc ps (piece_toks qs) ->
    conc (protos_fields false prev (map (view_field fmt) l) ++ ps)
         (piece_toks (flat_map (fun f => comment_pieces [indent4] (fd_comments f) ++ [indent4] ++ field_pieces fmt f ++ [nl]) l ++ qs)).
  Proof.
    induction l as [|f r IH]; intros prev ps qs Hl H; [exact H|].
    cbn [forallb] in Hl. apply andb_true_iff in Hl. destruct Hl as [Hf Hrr].
    cbn [map protos_fields flat_map]. norm. apply cC; [reflexivity|]. apply cWs.
    (* view_field builds a Field, so set_req on it computes *)
    change (view_field fmt f) with (set_req (view_field fmt f) (fd_req f)) at 1.
    apply conc_field; [exact Hf | right; reflexivity |]. apply cSep0, cWs, IH; assumption.
  Qed.

  Lemma pd_field_ok l : forallb pd_field l = true -> forallb (field_ok fmt) l = true.
  Proof. apply forallb_impl. unfold pd_field. intros f Hf. rewrite !andb_true_iff in Hf. tauto. Qed.

  Lemma view_fields_id l : forallb pd_field l = true -> view_fields fmt l = map (view_field fmt) l.
  Proof. intro H. apply (assign_ids_view fmt); [reflexivity | exact (pd_field_ok l H)]. Qed.
  Lemma view_throws_id l : forallb pd_field l = true ->
    assign_ids None (map (fun x => set_req (view_field fmt x) ReqOptional) l) = map (fun x => set_req (view_field fmt x) ReqOptional) l.
  Proof. intro H. apply (assign_ids_view fmt); [reflexivity | exact (pd_field_ok l H)]. Qed.

  Definition pd_struct (s : struct_like) : bool := forallb pd_field (sl_fields s) && annos_ok (sl_annos s).

  Lemma conc_struct k s : pd_struct s = true -> forall ps qs, conc ps (piece_toks qs) ->
    conc (protos_struct_like (view_struct fmt k s) ++ ps)
         (piece_toks (struct_pieces fmt (sl_kind_name k) s ++ qs)).
  Proof.
    unfold pd_struct. intros Hs ps qs H. apply andb_true_iff in Hs. destruct Hs as [Hf Ha].
    unfold protos_struct_like, view_struct, struct_pieces.
    cbn [sl_category sl_name sl_fields sl_annos]. rewrite (view_fields_id _ Hf). norm.
    apply cC; [reflexivity|]. apply cW, cWs, cW, cWs, cP, cWs, conc_struct_fields; [exact Hf|].
    apply cP, cWs, conc_annos; [exact Ha|]. apply cWs, cWs. exact H.
  Qed.

  Definition pd_function (f : function) : bool :=
    ty_ok (fn_type f) && (is_void_type (fn_type f) || wf_type (view_ty (fn_type f))) &&
    forallb pd_field (fn_args f) && forallb pd_field (fn_throws f) && annos_ok (fn_annos f).

  Lemma is_void_type_pieces t : is_void_type t = true -> type_pieces t = [word kw_void].
  Proof.
    destruct t as [n [k|] [v|] c an cat r td]; cbn [is_void_type]; try discriminate.
    destruct an; [|discriminate]. intro H. apply beqb_true in H. subst n. reflexivity.
  Qed.

  Lemma conc_oneway (b : bool) ps qs : conc ps (piece_toks qs) ->
    conc ((if b then [Print.PW kw_oneway] else []) ++ ps) (piece_toks ((if b then [word kw_oneway; sp] else []) ++ qs)).
  Proof. intro H. destruct b; cbn [app]; [apply cW, cWs|]; exact H. Qed.

  Lemma conc_return_type t ps qs : ty_ok t = true -> is_void_type t || wf_type (view_ty t) = true ->
    conc ps (piece_toks qs) ->
    conc ((if is_void_type t then [Print.PW kw_void]
           else protos_type (if is_void_type t then ty_named kw_void else view_ty t)) ++ ps)
         (piece_toks (type_pieces t ++ qs)).
  Proof.
    intros Hok Hw H. destruct (is_void_type t) eqn:Ev.
    - rewrite (is_void_type_pieces t Ev). apply cW. exact H.
    - apply conc_type; assumption.
  Qed.

  Lemma conc_throws l ps qs : forallb pd_field l = true -> conc ps (piece_toks qs) ->
    conc (match map (fun x => set_req (view_field fmt x) ReqOptional) l with
          | [] => []
          | l' => [Print.PW kw_throws; PP p_lpar] ++ protos_fields true None l' ++ [PP p_rpar]
          end ++ ps)
         (piece_toks (match l with
                      | [] => []
                      | _ => [word kw_throws; sp; punct p_lpar] ++ sep_fields fmt l ++ [punct p_rpar]
                      end ++ qs)).
  Proof.
    intros Hl H. destruct l as [|t0 tr]; [exact H|]. cbn [map]. norm.
    apply cW, cWs, cP, (conc_sep_fields true (fun _ => ReqOptional) (or_introl eq_refl) (t0 :: tr)); [exact Hl|].
    apply cP. exact H.
  Qed.

  Lemma conc_function f : pd_function f = true -> forall ps qs, conc ps (piece_toks qs) ->
    conc (protos_function (view_function fmt f) ++ ps) (piece_toks (function_pieces fmt f ++ qs)).
  Proof.
    unfold pd_function. intros Hf ps qs H.
    repeat match goal with Hc : (_ && _) = true |- _ => apply andb_true_iff in Hc; destruct Hc end.
    unfold protos_function, view_function, function_pieces.
    cbn [fn_oneway fn_void fn_type fn_name fn_args fn_throws fn_annos].
    rewrite (view_fields_id (fn_args f)) by assumption. rewrite (view_throws_id (fn_throws f)) by assumption.
    norm. apply cC; [reflexivity|]. apply cWs, conc_oneway, conc_return_type; [assumption | assumption|].
    apply cWs, cW, cP.
    change (map (view_field fmt) (fn_args f)) with (map (fun x => set_req (view_field fmt x) (fd_req x)) (fn_args f)).
    apply (conc_sep_fields false fd_req (or_intror (fun _ => eq_refl))); [assumption|].
    apply cP, conc_throws; [assumption|]. apply conc_annos; [assumption|]. apply cSep0, cWs. exact H.
  Qed.

  Lemma conc_flat_map {A} (pr : A -> list ptok) (pc : A -> list piece) (ok : A -> bool) :
    (forall x ps qs, ok x = true -> conc ps (piece_toks qs) -> conc (pr x ++ ps) (piece_toks (pc x ++ qs))) ->
    forall l ps qs, forallb ok l = true -> conc ps (piece_toks qs) ->
    conc (flat_map pr l ++ ps) (piece_toks (flat_map pc l ++ qs)).
  Proof.
    intro Hx. induction l as [|x r IH]; intros ps qs Hl H; [exact H|].
    cbn [forallb] in Hl. apply andb_true_iff in Hl. destruct Hl as [H1 H2].
    cbn [flat_map]. norm. apply Hx; [exact H1|]. apply IH; assumption.
  Qed.

  Lemma conc_section {A} (pr : A -> list ptok) (pc : A -> list piece) (ok : A -> bool) :
    (forall x ps qs, ok x = true -> conc ps (piece_toks qs) -> conc (pr x ++ ps) (piece_toks (pc x ++ qs))) ->
    forall l ps qs, forallb ok l = true -> conc ps (piece_toks qs) ->
    conc (flat_map pr l ++ ps) (piece_toks (section pc l ++ qs)).
  Proof.
    intros Hx l ps qs Hl H. unfold section. norm. apply (conc_flat_map pr pc ok Hx); [exact Hl|].
    destruct l; [|apply cWs]; exact H.
  Qed.

  Definition pd_service (s : service) : bool := forallb pd_function (sv_functions s) && annos_ok (sv_annos s).

  Lemma conc_extends e ps qs : conc ps (piece_toks qs) ->
    conc (match e with [] => [] | b :: l => [Print.PW kw_extends; Print.PW (b :: l)] end ++ ps)
         (piece_toks (match e with [] => [] | b :: l => [word kw_extends; sp; word (b :: l); sp] end ++ qs)).
  Proof. intro H. destruct e; [exact H|]. cbn [app]. apply cW, cWs, cW, cWs. exact H. Qed.

  Lemma conc_service s : pd_service s = true -> forall ps qs, conc ps (piece_toks qs) ->
    conc (protos_service (view_service fmt s) ++ ps) (piece_toks (service_pieces fmt s ++ qs)).
  Proof.
    unfold pd_service. intros Hs ps qs H. apply andb_true_iff in Hs. destruct Hs as [Hf Ha].
    unfold protos_service, view_service, service_pieces.
    cbn [sv_name sv_extends sv_functions sv_annos]. norm.
    apply cC; [reflexivity|]. apply cW, cWs, cW, cWs, conc_extends, cP, cWs. rewrite flat_map_map.
    apply (conc_flat_map (fun f => protos_function (view_function fmt f)) (function_pieces fmt) pd_function);
      [intros; apply conc_function; assumption | exact Hf|].
    apply cP, cWs, conc_annos; [exact Ha|]. apply cWs, cWs. exact H.
  Qed.

  Definition pd_enum (e : enum) : bool :=
    forallb (fun v => z_spell (ev_value v) && annos_ok (ev_annos v)) (en_values e) && annos_ok (en_annos e).

  Lemma conc_enum_values : forall l prev ps qs,
    forallb (fun v => z_spell (ev_value v) && annos_ok (ev_annos v)) l = true -> conc ps (piece_toks qs) ->
    conc (protos_enum_values prev (map (fun v => EnumValue (ev_name v) (ev_value v) (view_annos (ev_annos v)) []) l) ++ ps)
         (piece_toks (enum_values_pieces l ++ qs)).
  Proof.
    induction l as [|v r IH]; intros prev ps qs Hl H; [exact H|].
    cbn [forallb] in Hl. apply andb_true_iff in Hl. destruct Hl as [Hv Hr].
    apply andb_true_iff in Hv. destruct Hv as [Hz Ha].
    cbn [map protos_enum_values enum_values_pieces]. unfold protos_enum_value. cbn [ev_name ev_value ev_annos]. norm.
    apply cC; [reflexivity|]. apply cWs, cW, cWs, cEnumVal; [exact Hz|]. apply cWs, conc_annos; [exact Ha|].
    apply cSep0, cWs. destruct r as [|w r']; cbn [app]; [|apply cWs]; apply IH; assumption.
  Qed.

  Lemma conc_enum e : pd_enum e = true -> forall ps qs, conc ps (piece_toks qs) ->
    conc (protos_enum (view_enum e) ++ ps) (piece_toks (enum_pieces e ++ qs)).
  Proof.
    unfold pd_enum. intros He ps qs H. apply andb_true_iff in He. destruct He as [Hv Ha].
    unfold protos_enum, view_enum, enum_pieces. cbn [en_name en_values en_annos]. norm.
    apply cC; [reflexivity|]. apply cW, cWs, cW, cWs, cP, cWs, conc_enum_values; [exact Hv|].
    apply cP, cWs, conc_annos; [exact Ha|]. apply cWs, cWs. exact H.
  Qed.

  Definition pd_typedef (t : typedef) : bool := pd_ty (td_type t) && annos_ok (td_annos t).
  Lemma conc_typedef t : pd_typedef t = true -> forall ps qs, conc ps (piece_toks qs) ->
    conc (protos_typedef (view_typedef t) ++ ps) (piece_toks (typedef_pieces t ++ qs)).
  Proof.
    unfold pd_typedef, pd_ty. intros Ht ps qs H.
    repeat match goal with Hc : (_ && _) = true |- _ => apply andb_true_iff in Hc; destruct Hc end.
    unfold protos_typedef, view_typedef, typedef_pieces. cbn [td_type td_alias td_annos]. norm.
    apply cC; [reflexivity|]. apply cW, cWs, conc_type; [assumption | assumption|].
    apply cWs, cW, cWs, conc_annos; [assumption|]. apply cWs. exact H.
  Qed.

  Definition pd_constant (c : constant) : bool :=
    pd_ty (co_type c) && cv_spell fmt (co_value c) && annos_ok (co_annos c).
  Lemma conc_constant c : pd_constant c = true -> forall ps qs, conc ps (piece_toks qs) ->
    conc (protos_constant (view_constant fmt c) ++ ps) (piece_toks (constant_pieces fmt c ++ qs)).
  Proof.
    unfold pd_constant, pd_ty. intros Hc ps qs H.
    repeat match goal with Hc : (_ && _) = true |- _ => apply andb_true_iff in Hc; destruct Hc end.
    unfold protos_constant, view_constant, constant_pieces. cbn [co_type co_name co_value co_annos]. norm.
    apply cC; [reflexivity|]. apply cW, cWs, conc_type; [assumption | assumption|].
    apply cWs, cW, cWs, cP, cWs, conc_cv; [assumption|]. apply cSep0, conc_annos; [assumption|]. apply cWs. exact H.
  Qed.

  Lemma conc_namespace n : annos_ok (ns_annos n) = true -> forall ps qs, conc ps (piece_toks qs) ->
    conc (protos_namespace (view_namespace n) ++ ps) (piece_toks (namespace_pieces n ++ qs)).
  Proof.
    intros Ha ps qs H. unfold protos_namespace, view_namespace, namespace_pieces, scope_piece.
    cbn [ns_language ns_name ns_annos]. norm. apply cW, cWs.
    destruct (beqb (ns_language n) [p_star]); [apply cP | apply cW]; apply cWs, cW, conc_annos; [exact Ha | | exact Ha |];
      apply cWs; exact H.
  Qed.
End Conc.

Section FileLevel.
  Variable fmt : N -> bytes.

  (* the dumper writes the headers in the order include, namespace, cpp_include *)
  Definition dump_hs (v : file) : list header :=
    map (fun i => HInclude (in_path i)) (f_includes v) ++ map HNamespace (f_namespaces v) ++
    map HCppInclude (f_cpp_includes v).

  Definition pd_ok (a : file) : bool :=
    includes_ok (f_includes a) && forallb lit_ok (f_cpp_includes a) &&
    forallb (fun n => annos_ok (ns_annos n)) (f_namespaces a) &&
    forallb pd_typedef (f_typedefs a) && forallb (pd_constant fmt) (f_constants a) &&
    forallb pd_enum (f_enums a) && forallb (pd_struct fmt) (f_structs a) && forallb (pd_struct fmt) (f_unions a) &&
    forallb (pd_struct fmt) (f_exceptions a) && forallb (pd_service fmt) (f_services a).

  Theorem conc_file a : pd_ok a = true ->
    conc (flat_map protos_header (dump_hs (dump_view fmt a)) ++ flat_map protos_def (defs_of (dump_view fmt a)))
         (piece_toks (dump_pieces fmt a)).
  Proof.
    unfold pd_ok. rewrite !andb_true_iff.
    intros (((((((((Hinc & Hcpp) & Hns) & Htd) & Hcs) & Hes) & Hss) & Hus) & Hxs) & Hsv).
    unfold dump_hs, defs_of, dump_view, dump_pieces.
    cbn [f_includes f_cpp_includes f_namespaces f_typedefs f_constants f_enums f_structs f_unions f_exceptions f_services].
    rewrite (view_includes_eq _ Hinc).
    rewrite !flat_map_app, !map_map, !flat_map_map.
    cbn [protos_header protos_def in_path].
    rewrite <- (app_nil_r (flat_map (service_pieces fmt) (f_services a))).
    rewrite <- (app_nil_r (flat_map (fun x : service => protos_service (view_service fmt x)) (f_services a))).
    norm.
    apply (conc_section (fun i => [Print.PW kw_include; PL (in_path i)]) _ (fun i => lit_ok (in_path i) && nonempty_l (in_path i)));
      [|exact (proj1 (proj1 (andb_true_iff _ _) Hinc))|].
    { intros i ps qs Hi Hc. apply andb_true_iff in Hi. destruct Hi as [Hi _]. apply cW, cWs, cL; [exact Hi|]. apply cWs. exact Hc. }
    apply (conc_section (fun n => protos_namespace (view_namespace n)) _ (fun n => annos_ok (ns_annos n)));
      [intros; apply conc_namespace; assumption | assumption|].
    apply (conc_section (fun p => [Print.PW kw_cpp_include; PL (view_lit p)]) _ lit_ok); [|assumption|].
    { intros p ps qs Hp Hc. rewrite (view_lit_id p Hp). apply cW, cWs, cL; [exact Hp|]. apply cWs. exact Hc. }
    apply (conc_section (fun t => protos_typedef (view_typedef t)) _ pd_typedef);
      [intros; apply conc_typedef; assumption | assumption|].
    apply (conc_section (fun c => protos_constant (view_constant fmt c)) _ (pd_constant fmt));
      [intros; apply conc_constant; assumption | assumption|].
    apply (conc_section (fun e => protos_enum (view_enum e)) _ pd_enum);
      [intros; apply conc_enum; assumption | assumption|].
    apply (conc_section (fun s => protos_struct_like (view_struct fmt SKStruct s)) (struct_pieces fmt kw_struct) (pd_struct fmt));
      [intros; apply (conc_struct fmt SKStruct); assumption | assumption|].
    apply (conc_section (fun s => protos_struct_like (view_struct fmt SKUnion s)) (struct_pieces fmt kw_union) (pd_struct fmt));
      [intros; apply (conc_struct fmt SKUnion); assumption | assumption|].
    apply (conc_section (fun s => protos_struct_like (view_struct fmt SKException s)) (struct_pieces fmt kw_exception) (pd_struct fmt));
      [intros; apply (conc_struct fmt SKException); assumption | assumption|].
    apply (conc_flat_map (fun s => protos_service (view_service fmt s)) _ (pd_service fmt));
      [intros; apply conc_service; assumption | assumption|].
    constructor.
  Qed.

  Lemma add_includes_app : forall l1 l2 acc, add_includes acc (l1 ++ l2) = add_includes (add_includes acc l1) l2.
  Proof.
    induction l1 as [|h r IH]; intros l2 acc; [reflexivity|].
    cbn [app add_includes]. destruct h as [p|p|n]; try apply IH.
    destruct (beqb p [] || existsb (fun i => beqb (in_path i) p) acc); apply IH.
  Qed.

  Lemma file_of_dump_hs n v ds : file_of n (dump_hs v) ds = file_of n (hs_of v) ds.
  Proof.
    unfold file_of, dump_hs, hs_of.
    apply file_ext; try reflexivity; cbn [f_includes f_cpp_includes f_namespaces].
    - rewrite !add_includes_app.
      set (A := add_includes [] (map (fun i => HInclude (in_path i)) (f_includes v))).
      assert (HN : forall acc, add_includes acc (map HNamespace (f_namespaces v)) = acc).
      { intro acc. apply add_includes_non. intros h Hh. apply in_map_iff in Hh. destruct Hh as (? & <- & _). exact I. }
      assert (HC : forall acc, add_includes acc (map HCppInclude (f_cpp_includes v)) = acc).
      { intro acc. apply add_includes_non. intros h Hh. apply in_map_iff in Hh. destruct Hh as (? & <- & _). exact I. }
      rewrite ?HN, ?HC, ?HN, ?HC. reflexivity.
    - rewrite !flat_map_app, !flat_map_map. cbn.
      rewrite (flat_map_nil _ (f_includes v)) by reflexivity.
      rewrite (flat_map_nil _ (f_namespaces v)) by reflexivity. cbn [app]. rewrite app_nil_r. reflexivity.
    - rewrite !flat_map_app, !flat_map_map. cbn.
      rewrite (flat_map_nil _ (f_includes v)) by reflexivity.
      rewrite (flat_map_nil _ (f_cpp_includes v)) by reflexivity. cbn [app]. rewrite app_nil_r. reflexivity.
  Qed.

  (* the parser accepts the headers in any order; here the dumper's *)
  Theorem parse_tokens_dump_order v lts fin :
    wf_file v = true ->
    C (flat_map protos_header (dump_hs v) ++ flat_map protos_def (defs_of v)) lts ->
    exists a', parse_tokens (f_filename v) lts fin = Some a' /\ strip_comments a' = strip_comments v.
  Proof.
    intros Hwf H. destruct (wf_file_inv v Hwf) as (_ & _ & Hwns & Hwd & _).
    assert (Hwh : forallb wf_header (dump_hs v) = true).
    { unfold dump_hs. rewrite !forallb_app, !forallb_map. cbn [wf_header].
      rewrite !(proj2 (forallb_forall (fun _ => true) _)) by reflexivity. rewrite andb_true_r. exact Hwns. }
    destruct (parse_tokens_any_order (f_filename v) _ _ lts fin Hwh Hwd H) as (a' & E & Hs).
    exists a'. split; [exact E|]. rewrite Hs, file_of_dump_hs, (file_of_hs_defs v Hwf). reflexivity.
  Qed.

  (* the domain of the round trip, all decidable:
     lex_ok   names are words, literal values in the domain of quoteLiteral, double texts have
              a number shape, recorded comments blank or reading back as trivia
     pd_ok    the AST has the shape the parser builds (annotation keys grouped, include paths
              distinct and not empty, no id equal to the NOTSET sentinel, types well formed in
              the sense of Idl/Print.v, ids in i32 and integer values in i64; a double text that
              reads as an integer is a valid integer constant)
     wf_file  the view is a file the token grammar can express (Idl/Print.v): no keyword used
              as a name, ids in i32, values in i64, containers named map / set / list *)
  Definition dump_ok (a : file) : bool :=
    lex_ok fmt a && pd_ok a && wf_file (dump_view fmt a).

  Theorem parse_dump a : dump_ok a = true ->
    exists b, parse (f_filename a) (dump fmt a) = Some b /\
              strip_comments b = strip_comments (dump_view fmt a).
  Proof.
    unfold dump_ok. intro H.
    apply andb_true_iff in H. destruct H as [H Hwf].
    apply andb_true_iff in H. destruct H as [Hlex Hpd].
    unfold parse.
    rewrite (lex_dump fmt a Hlex). destruct (group [] (dump_pieces fmt a)) as [lts fin] eqn:Eg.
    change (f_filename a) with (f_filename (dump_view fmt a)).
    apply parse_tokens_dump_order; [exact Hwf|].
    unfold C, untriv. replace lts with (fst (group [] (dump_pieces fmt a))) by (rewrite Eg; reflexivity).
    rewrite group_toks. apply conc_file. exact Hpd.
  Qed.
End FileLevel.
