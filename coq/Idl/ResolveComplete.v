(* Idl/ResolveComplete.v — completeness of the resolver model: on every program
   described by Idl/ResolvableSpec.v, [resolve_program] succeeds. *)
From Coq Require Import List Bool ZArith.
From Verif Require Import Base.Bytes Idl.Ast Idl.AstUtil Idl.AstFacts Idl.Resolve Idl.ResolveSpec Idl.ResolveTd
  Idl.ResolveLemmas Idl.ResolveInv Idl.ResolveProg Idl.ResolveDeref Idl.ResolvePerm Idl.ResolvableSpec Idl.ResolvePath.
Import ListNotations.
Local Open Scope resolve_scope.

Lemma mapM_ok {A B} (f : A -> result B) l : (forall x, In x l -> exists y, f x = Ok y) -> exists l', mapM f l = Ok l'.
Proof.
  induction l as [|x l IH]; intros H; cbn [mapM]; [eauto|].
  destruct (H x (or_introl eq_refl)) as (y & ->). cbn [bind].
  destruct IH as (l' & ->); [intros z Hz; apply H; right; exact Hz|]. cbn [bind]. eauto.
Qed.

Lemma mapM_two_ok {A B C} (r : A -> result B) (fx : B -> result C) (ok : A -> Prop) l :
  (forall x, ok x -> exists y z, r x = Ok y /\ fx y = Ok z) -> Forall ok l ->
  exists l1 l2, mapM r l = Ok l1 /\ mapM fx l1 = Ok l2.
Proof.
  intros Hstep. induction 1 as [|x l Hx _ (l1 & l2 & H1 & H2)]; cbn [mapM]; [exists [], []; split; reflexivity|].
  destruct (Hstep x Hx) as (y & z & -> & Hz). rewrite H1. cbn [bind].
  exists (y :: l1), (z :: l2). split; [reflexivity|]. cbn [mapM]. rewrite Hz, H2. reflexivity.
Qed.

Lemma nodupb_NoDup l : nodupb l = true -> NoDup l.
Proof.
  induction l as [|x l IH]; cbn [nodupb]; intros H; [constructor|].
  apply andb_true_iff in H. destruct H as (Hx & Hl). constructor; [|auto].
  intros Hin. apply negb_true_iff in Hx. assert (existsb (beqb x) l = true); [|congruence].
  apply existsb_exists. exists x. split; [exact Hin | apply beqb_refl].
Qed.

Section FileComplete.
  Variables (p done : program) (fn : bytes) (f : file).
  Hypothesis Hinv : inv p done.
  Hypothesis Hf : prog_file p fn = Some f.
  Hypothesis Htargets : forall i, In i (f_includes f) -> exists hn, in_ref i = Some hn /\ lookup hn done <> None.
  Variable g1 : file.
  Hypothesis Hreg : register (file_def_names f) [] = Ok (n2c_of g1).
  Hypothesis Hincs : f_includes g1 = f_includes f.

  Lemma g1_lookup a : lookup a (n2c_of g1) = option_map dkind_cat (def_of p fn a).
  Proof. rewrite (def_of_file p fn f a Hf). exact (proj2 (register_file f _ Hreg) a). Qed.

  Lemma def_denotes_type_kind gn a d : def_denotes p gn a d -> exists k, def_of p gn a = Some k /\ is_type_kind k = true.
  Proof. destruct 1; eexists; split; eauto. destruct k; reflexivity. Qed.

  Lemma resolve_ty_complete : forall t, ty_ok p fn t = true -> exists t', resolve_ty done g1 t = Ok t'.
  Proof.
    induction t as [n k v cpp an cat r td IHk IHv] using ty_ind'. intros H. cbn [ty_ok] in H. cbn [resolve_ty].
    destruct (builtin_category n) as [c|] eqn:Bn.
    - destruct c; eauto.
      + destruct k as [kt|]; [|discriminate]. destruct v as [vt|]; [|discriminate].
        apply andb_true_iff in H. destruct H as (H1 & H2).
        destruct (IHk kt eq_refl H1) as (k' & ->). destruct (IHv vt eq_refl H2) as (v' & ->). cbn [bind]. eauto.
      + destruct k; [discriminate|]. destruct v as [vt|]; [|discriminate]. destruct (IHv vt eq_refl H) as (v' & ->). cbn [bind]. eauto.
      + destruct k; [discriminate|]. destruct v as [vt|]; [|discriminate]. destruct (IHv vt eq_refl H) as (v' & ->). cbn [bind]. eauto.
    - destruct k; [discriminate|]. destruct v; [discriminate|].
      destruct (proj1 (denotes_b_iff _ _ _) H) as (d & Hd).
      inversion Hd as [? ? c Hb | ? ? a ? Hb Hs Hdd | ? f0 ? pre m i gn ? Hb Hs Hf0 Hsi Hdd]; subst; [congruence| |].
      + rewrite Hs. destruct (def_denotes_type_kind _ _ _ Hdd) as (kd & Hk & Tk).
        rewrite g1_lookup, Hk. cbn [option_map]. unfold is_type_kind in Tk. rewrite Tk. eauto.
      + rewrite Hs. assert (f0 = f) by congruence. subst f0. rewrite Hincs.
        destruct (spec_include_find p done is_type_cat is_type_kind pre m Hinv (fun _ => eq_refl) _ _ _ _ Htargets Hsi) as (c & ->).
        eauto.
  Qed.

  Variable fuel : nat.
  Variable okid : bytes -> bool.
  Hypothesis Hid : forall s, okid s = true -> exists e, resolve_ident fuel done g1 s = Ok e.

  Lemma resolve_ident_bool s : ident_is_bool s = true -> resolve_ident fuel done g1 s = Ok None.
  Proof. unfold resolve_ident. intros ->. reflexivity. Qed.

  Lemma resolve_cv_complete : forall c, cv_idents_ok okid c = true -> exists c', resolve_cv fuel done g1 c = Ok c'.
  Proof.
    induction c as [b|z|s|s e|l IHl|l IHl] using const_value_ind'; intros H; cbn [resolve_cv]; eauto.
    - cbn [cv_idents_ok] in H. apply orb_true_iff in H. destruct H as [H|H].
      + rewrite (resolve_ident_bool s H). cbn [bind]. eauto.
      + destruct (Hid s H) as (e' & ->). cbn [bind]. eauto.
    - cbn [cv_idents_ok] in H. rewrite forallb_forall in H.
      assert (G : exists l', (fix go (l0 : list const_value) : result (list const_value) :=
                   match l0 with [] => Ok [] | x :: r => x' <- resolve_cv fuel done g1 x;; r' <- go r;; Ok (x' :: r') end) l = Ok l').
      { induction IHl as [|y l Hy _ IH2]; [eauto|].
        destruct (Hy (H y (or_introl eq_refl))) as (y' & ->). cbn [bind].
        destruct IH2 as (l' & ->); [intros z Hz; apply H; right; exact Hz|]. cbn [bind]. eauto. }
      destruct G as (l' & ->). cbn [bind]. eauto.
    - cbn [cv_idents_ok] in H. rewrite forallb_forall in H.
      assert (G : exists l', (fix go (l0 : list (const_value * const_value)) : result (list (const_value * const_value)) :=
                   match l0 with [] => Ok [] | (k, v) :: r => k' <- resolve_cv fuel done g1 k;; v' <- resolve_cv fuel done g1 v;; r' <- go r;; Ok ((k', v') :: r') end) l = Ok l').
      { induction IHl as [|[k v] l (Hk & Hv) _ IH2]; [eauto|]. cbn [fst snd] in Hk, Hv.
        pose proof (H (k, v) (or_introl eq_refl)) as Hkv. cbn [fst snd] in Hkv. apply andb_true_iff in Hkv. destruct Hkv as (Hk1 & Hv1).
        destruct (Hk Hk1) as (k' & ->). cbn [bind]. destruct (Hv Hv1) as (v' & ->). cbn [bind].
        destruct IH2 as (l' & ->); [intros z Hz; apply H; right; exact Hz|]. cbn [bind]. eauto. }
      destruct G as (l' & ->). cbn [bind]. eauto.
  Qed.

  Lemma resolve_base_complete sv : base_ok p fn f sv = true -> exists r, resolve_base done g1 sv = Ok r.
  Proof.
    unfold base_ok, resolve_base. destruct (split_type (sv_extends sv)) as [|a [|m [|? ?]]]; eauto.
    - rewrite g1_lookup. destruct (def_of p fn a) as [k|]; [|discriminate]. destruct k; try discriminate. cbn. eauto.
    - destruct (spec_include p is_service_kind a m (file_incs f) 0) as [[i gn]|] eqn:Si; [|discriminate]. intros _.
      rewrite Hincs. destruct (spec_include_find p done is_service_cat is_service_kind a m Hinv (fun _ => eq_refl) _ _ _ _ Htargets Si) as (c & ->).
      eauto.
  Qed.
End FileComplete.

Lemma denotes_kind p :
  (forall fn n d, def_denotes p fn n d -> is_typedef_cat (kind d) = false) /\
  (forall fn n d, name_denotes p fn n d -> is_typedef_cat (kind d) = false).
Proof.
  apply denotes_mutind; intros; auto.
  - destruct k; reflexivity.
  - cbn [kind]. exact (proj1 (builtin_cases _ _ H)).
Qed.

Section FixComplete.
  Variables (p done : program) (fn : bytes) (f : file).
  Hypothesis Hinv : inv p done.
  Hypothesis Hf : prog_file p fn = Some f.
  Hypothesis Htargets : forall i, In i (f_includes f) -> exists hn, in_ref i = Some hn /\ lookup hn done <> None.
  Variable n2c : list (bytes * category).
  Hypothesis Hreg : register (file_def_names f) [] = Ok n2c.
  Variable tds1 : list typedef.
  Hypothesis Htds1 : mapM (resolve_typedef done (with_name2cat f (Some n2c))) (f_typedefs f) = Ok tds1.
  Hypothesis Htd_den : forall td, In td (f_typedefs f) -> exists d, name_denotes p fn (ty_name (td_type td)) d.

  Let c1 := cur1 f n2c tds1.
  Let s0 := st0 done f n2c tds1.

  Lemma ext_typedef_cat_some pre m i gn tgt :
    spec_include p is_type_kind pre m (file_incs f) 0 = Some (i, gn) ->
    def_of p gn m = Some (DkTypedef tgt) ->
    exists c', ext_typedef_cat done c1 (Ref m (Z.of_nat i)) = Some c' /\ is_typedef_cat c' = false /\
               exists d, def_denotes p gn m d /\ kind d = c'.
  Proof.
    intros Hs Hd.
    destruct (spec_include_target p done f c1 _ _ _ _ _ Hinv eq_refl Htargets Hs) as (x & g & g' & Nx & Hrx & Lg & Hg & Gd).
    rewrite (def_of_file p gn g m Hg) in Hd.
    destruct (good_find_typedef p done gn g g' m tgt Gd Hd) as (td' & Ft & _ & _).
    assert (E : ext_typedef_cat done c1 (Ref m (Z.of_nat i)) = Some (ty_category (td_type td'))).
    { unfold ext_typedef_cat. cbn [ref_name]. rewrite (reference_target_nth done c1 m i x gn Nx Hrx).
      unfold prog_file. rewrite Lg, Ft. reflexivity. }
    exists (ty_category (td_type td')). split; [exact E|].
    destruct (ext_typedef_denotes p done f Hinv Htargets n2c tds1 pre m i gn _ Hs E) as (d & Hdd & Hk).
    split; [rewrite <- Hk; exact (proj1 (denotes_kind p) _ _ _ Hdd) | eauto].
  Qed.

  Lemma local_typedef_entry a tgt : def_of p fn a = Some (DkTypedef tgt) ->
    exists td1, In td1 tds1 /\ td_alias td1 = a /\ ty_name (td_type td1) = tgt /\ head1 done c1 (td_type td1).
  Proof.
    intros Hd. rewrite (def_of_file p fn f a Hf) in Hd.
    destruct (file_defs_typedef_inv f a tgt Hd) as (td & Hin & Ha & _).
    destruct (Forall2_In_l _ _ _ _ (tds1_aligned done f n2c tds1 Htds1) Hin) as (td1 & Hin1 & (Ha1 & Hn1 & _)).
    destruct (tds1_def p done fn f Hf n2c Hreg tds1 Htds1 td1 Hin1) as (Hdef & Hh).
    exists td1. split; [exact Hin1|]. split; [congruence|]. split; [|exact Hh].
    rewrite Ha1, Ha, (def_of_file p fn f a Hf), Hd in Hdef. congruence.
  Qed.

  (* the chain of a local typedef in the initial table ends in the kind of what the typedef denotes.
     [denotes_mutind] ranges over all files, the table only holds the typedefs of [fn]: hence [gn = fn ->] *)
  Lemma denotes_chain :
    (forall gn a d, def_denotes p gn a d -> gn = fn -> forall tgt, def_of p fn a = Some (DkTypedef tgt) ->
                    te_chain s0 a (kind d)) /\
    (forall gn n d, name_denotes p gn n d -> gn = fn -> builtin_category n = None ->
                    forall a tgt, split_type n = [a] -> def_of p fn a = Some (DkTypedef tgt) -> te_chain s0 a (kind d)).
  Proof.
    apply denotes_mutind.
    - intros gn a vs H -> tgt Hd. congruence.
    - intros gn a k H -> tgt Hd. congruence.
    - intros gn a tgt d Hdef Hden IH -> tgt' Hd. assert (tgt' = tgt) by congruence. subst tgt'.
      destruct (local_typedef_entry a tgt Hd) as (td1 & Hin1 & Ha1 & Hn1 & Hh).
      assert (Hin : In (te_init done c1 td1) s0) by (unfold s0, st0; apply in_map; exact Hin1).
      pose proof (proj2 (denotes_kind p) _ _ _ Hden) as Hnk.
      assert (Hnon : is_typedef_cat (ty_category (td_type td1)) = false -> te_chain s0 a (kind d)).
      { intros Tc.
        destruct (head1_nontypedef_denotes p done fn f Hinv Hf Htargets n2c Hreg tds1 _ Hh Tc) as (d0 & Hd0 & Hk0).
        rewrite Hn1 in Hd0. pose proof (name_denotes_fun p _ _ _ Hd0 _ Hden) as ->.
        assert (Ee : te_init done c1 td1 = Tde a None (kind d)) by (unfold te_init; fold c1; rewrite Tc, Ha1, Hk0; reflexivity).
        rewrite Ee in Hin. apply (tc_done s0 _ Hin). cbn [te_cat]. rewrite Hk0. exact Tc. }
      destruct (is_typedef_cat (ty_category (td_type td1))) eqn:Tc; [|auto].
      unfold head1 in Hh. rewrite Hn1 in Hh. destruct (builtin_category tgt) as [cb|] eqn:Bt.
      { destruct Hh as (Hc & _). rewrite Hc in Tc. rewrite (proj1 (builtin_cases _ _ Bt)) in Tc. discriminate. }
      destruct (split_type tgt) as [|a' [|m [|? ?]]] eqn:St; try contradiction.
      + destruct Hh as (c & La & _ & Hc & Hr0 & _). subst c.
        pose proof (split_type_single _ _ St) as ->.
        rewrite (cur_lookup p fn f Hf n2c Hreg tds1) in La.
        destruct (def_of p fn tgt) as [k|] eqn:Dk; [|discriminate]. cbn [option_map] in La. injection La as La.
        assert (dkind_cat k = CatTypedef) as Hk by (rewrite La; destruct (ty_category (td_type td1)); try discriminate; reflexivity).
        destruct (dkind_typedef k Hk) as (tgt2 & ->).
        specialize (IH eq_refl eq_refl tgt tgt2 eq_refl Dk).
        assert (Ee : te_init done c1 td1 = Tde a (Some tgt) CatTypedef)
          by (unfold te_init; fold c1; rewrite Tc, Hr0, Ha1, Hn1; reflexivity).
        rewrite Ee in Hin. exact (tc_step s0 _ tgt _ Hin eq_refl eq_refl IH).
      + destruct Hh as (idx & c & Fi & Hc & Hr0 & _). subst c.
        destruct (cur_find_include p done f Hinv Htargets n2c tds1 is_type_cat is_type_kind a' m idx _ (fun k => eq_refl) Fi) as (gn & k & Hs & Dk & Hk).
        assert (dkind_cat k = CatTypedef) as Hk' by (rewrite Hk; destruct (ty_category (td_type td1)); try discriminate; reflexivity).
        destruct (dkind_typedef k Hk') as (tgt2 & ->).
        destruct (ext_typedef_cat_some a' m idx gn tgt2 Hs Dk) as (c' & Ec & Nc & (d' & Hd' & Hkd')).
        assert (Hden' : name_denotes p fn tgt d') by (eapply nd_qualified; eauto).
        pose proof (name_denotes_fun p _ _ _ Hden' _ Hden) as ->.
        assert (Ee : te_init done c1 td1 = Tde a None (kind d))
          by (unfold te_init; fold c1; rewrite Tc, Hr0, Ec, Ha1, Hkd'; reflexivity).
        rewrite Ee in Hin. apply (tc_done s0 _ Hin). cbn [te_cat]. rewrite Hkd'. exact Nc.
    - intros gn n c Hb -> Hb'. congruence.
    - intros gn n a d Hb Hs Hdd IH -> _ a' tgt Hs' Hd. assert (a' = a) by congruence. subst a'. eapply IH; eauto.
    - intros gn f0 n pre m i hn d Hb Hs _ _ _ _ -> _ a tgt Hs'. congruence.
  Qed.

  Lemma st0_resolvable : te_resolvable s0.
  Proof.
    intros e Hin. unfold s0, st0 in Hin. apply in_map_iff in Hin. destruct Hin as (td1 & <- & Hin1).
    destruct (tds1_def p done fn f Hf n2c Hreg tds1 Htds1 td1 Hin1) as (Hdef & _).
    rewrite te_init_alias.
    destruct (Forall2_In_r _ _ _ _ (tds1_aligned done f n2c tds1 Htds1) Hin1) as (td & Hin0 & (Ha & Hn & _)).
    destruct (Htd_den td Hin0) as (d & Hd). rewrite <- Hn in Hd.
    exists (kind d). eapply (proj1 denotes_chain); [eapply dd_typedef; eauto | reflexivity | exact Hdef].
  Qed.

  Lemma te_fix_ok : exists st, te_fix (S (length tds1)) s0 = Ok st.
  Proof.
    destruct (te_fix_complete s0 (st0_nodup done f n2c Hreg tds1 Htds1) st0_resolvable) as (st & H & _).
    unfold s0, st0 in H. rewrite map_length in H. eauto.
  Qed.

  Variable st : list tde.
  Hypothesis Hfix : te_fix (S (length tds1)) s0 = Ok st.

  Lemma st_lookup_typedef a tgt : def_of p fn a = Some (DkTypedef tgt) ->
    exists c', te_lookup st a = Some c' /\ is_typedef_cat c' = false.
  Proof.
    intros Hd. pose proof (te_fix_sound _ _ _ Hfix) as HS.
    destruct (local_typedef_entry a tgt Hd) as (td1 & Hin1 & Ha1 & _).
    assert (Hin0 : In (te_init done c1 td1) s0) by (unfold s0, st0; apply in_map; exact Hin1).
    destruct (Forall2_In_l _ _ _ _ HS Hin0) as (e & Hin & (Hae & _)).
    rewrite te_init_alias, Ha1 in Hae.
    unfold te_lookup. destruct (find_by te_alias a st) as [e'|] eqn:F.
    - destruct (find_by_In _ _ _ _ F) as (Hin' & _).
      destruct (Forall2_In_r _ _ _ _ HS Hin') as (e0 & _ & (_ & _ & Hn & _)). eauto.
    - exfalso. apply find_by_none in F. apply F. rewrite <- Hae. apply in_map. exact Hin.
  Qed.

  Lemma fix_ty_complete : forall t t1, ty_ok p fn t = true -> resolve_ty done c1 t = Ok t1 ->
    exists t2, fix_ty done c1 st t1 = Ok t2.
  Proof.
    induction t as [n k v cpp an cat r td IHk IHv] using ty_ind'. intros t1 Hok H.
    cbn [ty_ok] in Hok. cbn [resolve_ty] in H. destruct (builtin_category n) as [c|] eqn:Bn.
    - pose proof (proj1 (builtin_cases _ _ Bn)) as Nt. destruct c; try (cbn in Nt; discriminate);
        try (destruct k; [discriminate|]; destruct v; [discriminate|]; injection H as <-; cbn [fix_ty bind is_typedef_cat]; eauto; fail).
      + destruct k as [kt|]; [|discriminate]. destruct v as [vt|]; [|discriminate].
        apply andb_true_iff in Hok. destruct Hok as (H1 & H2). inv_bind H. injection H as <-.
        destruct (IHk kt eq_refl _ H1 E) as (k2 & Ek). destruct (IHv vt eq_refl _ H2 E0) as (v2 & Ev).
        cbn [fix_ty]. rewrite Ek, Ev. cbn [bind is_typedef_cat]. eauto.
      + destruct k; [discriminate|]. destruct v as [vt|]; [|discriminate]. inv_bind H. injection H as <-.
        destruct (IHv vt eq_refl _ Hok E) as (v2 & Ev). cbn [fix_ty]. rewrite Ev. cbn [bind is_typedef_cat]. eauto.
      + destruct k; [discriminate|]. destruct v as [vt|]; [|discriminate]. inv_bind H. injection H as <-.
        destruct (IHv vt eq_refl _ Hok E) as (v2 & Ev). cbn [fix_ty]. rewrite Ev. cbn [bind is_typedef_cat]. eauto.
    - destruct k; [discriminate|]. destruct v; [discriminate|].
      destruct (split_type n) as [|a [|m [|? ?]]] eqn:Sn; try discriminate.
      + destruct (lookup a (n2c_of c1)) as [c|] eqn:La; [|discriminate].
        destruct (is_type_cat c) eqn:Tc; [|discriminate]. injection H as <-. cbn [fix_ty bind].
        destruct (is_typedef_cat c) eqn:Td; [|eauto].
        pose proof (split_type_single _ _ Sn) as ->.
        unfold c1 in La. rewrite (cur_lookup p fn f Hf n2c Hreg tds1) in La.
        destruct (def_of p fn n) as [kd|] eqn:Dk; [|discriminate]. cbn [option_map] in La. injection La as <-.
        assert (dkind_cat kd = CatTypedef) as Hk by (destruct (dkind_cat kd); try discriminate; reflexivity).
        destruct (dkind_typedef kd Hk) as (tgt & ->).
        destruct (st_lookup_typedef n tgt Dk) as (c' & -> & ->). eauto.
      + destruct (find_include done is_type_cat a m (f_includes c1) 0) as [[idx c]|] eqn:Fi; [|discriminate].
        injection H as <-. cbn [fix_ty bind]. destruct (is_typedef_cat c) eqn:Td; [|eauto].
        destruct (cur_find_include p done f Hinv Htargets n2c tds1 is_type_cat is_type_kind a m idx c (fun k => eq_refl) Fi) as (gn & kd & Hs & Dk & Hk).
        assert (dkind_cat kd = CatTypedef) as Hk' by (rewrite Hk; destruct c; try discriminate; reflexivity).
        destruct (dkind_typedef kd Hk') as (tgt & ->).
        destruct (ext_typedef_cat_some a m idx gn tgt Hs Dk) as (c' & -> & -> & _). eauto.
  Qed.

  Variable okid : bytes -> bool.
  Let fuel := enum_fuel done c1.
  Hypothesis Hid : forall s, okid s = true -> exists e, resolve_ident fuel done c1 s = Ok e.

  Let cv_ok (fd : field) : Prop :=
    Forall (fun c => cv_idents_ok okid c = true) match fd_default fd with Some c => [c] | None => [] end.

  Lemma ty_two t : ty_ok p fn t = true ->
    exists t1 t2, resolve_ty done c1 t = Ok t1 /\ fix_ty done c1 st t1 = Ok t2.
  Proof.
    intros Hok. destruct (resolve_ty_complete p done fn f Hinv Hf Htargets c1 Hreg eq_refl t Hok) as (t1 & H1).
    destruct (fix_ty_complete t t1 Hok H1) as (t2 & H2). eauto.
  Qed.

  Lemma typedefs_fix : Forall (fun td => ty_ok p fn (td_type td) = true) (f_typedefs f) ->
    exists tds2, mapM (fix_typedef done c1 st) tds1 = Ok tds2.
  Proof.
    intros Hok. apply mapM_ok. intros td1 Hin1.
    destruct (Forall2_In_r _ _ _ _ (mapM_Forall2 _ _ _ Htds1) Hin1) as (td & Hin & H).
    rewrite Forall_forall in Hok. specialize (Hok td Hin).
    unfold resolve_typedef in H. inv_bind H. injection H as <-.
    rewrite (resolve_ty_ctx done (with_name2cat f (Some n2c)) c1 eq_refl eq_refl) in E.
    destruct (fix_ty_complete _ _ Hok E) as (t2 & Ht). unfold fix_typedef. cbn [td_type]. rewrite Ht. cbn [bind]. eauto.
  Qed.

  Lemma constant_two c : ty_ok p fn (co_type c) = true /\ cv_idents_ok okid (co_value c) = true ->
    exists x1 x2, resolve_constant fuel done c1 c = Ok x1 /\ fix_constant done c1 st x1 = Ok x2.
  Proof.
    intros (Ht & Hv). unfold resolve_constant, fix_constant. destruct (ty_two _ Ht) as (t1 & t2 & -> & H2).
    destruct (resolve_cv_complete done c1 fuel okid Hid _ Hv) as (v & ->). cbn [bind].
    eexists. eexists. split; [reflexivity|]. cbn [bind co_type]. rewrite H2. reflexivity.
  Qed.

  Lemma field_two b fd : ty_ok p fn (fd_type fd) = true /\ cv_ok fd ->
    exists x1 x2, resolve_field fuel done c1 b fd = Ok x1 /\ fix_field done c1 st x1 = Ok x2.
  Proof.
    intros (Ht & Hv). unfold resolve_field, fix_field. destruct (ty_two _ Ht) as (t1 & t2 & -> & H2). cbn [bind].
    assert (E : exists d, match fd_default fd with Some c => c' <- resolve_cv fuel done c1 c;; Ok (Some c') | None => Ok None end = Ok d).
    { unfold cv_ok in Hv. destruct (fd_default fd) as [c|]; [|eauto].
      destruct (resolve_cv_complete done c1 fuel okid Hid c (Forall_inv Hv)) as (c' & ->). cbn [bind]. eauto. }
    destruct E as (d & ->). cbn [bind]. eexists. eexists. split; [reflexivity|]. cbn [bind fd_type]. rewrite H2. reflexivity.
  Qed.

  Lemma fields_two b l : Forall (fun fd => ty_ok p fn (fd_type fd) = true) l -> Forall cv_ok l ->
    exists l1 l2, mapM (resolve_field fuel done c1 b) l = Ok l1 /\ mapM (fix_field done c1 st) l1 = Ok l2.
  Proof. intros Ht Hv. exact (mapM_two_ok _ _ _ l (field_two b) (Forall_and Ht Hv)). Qed.

  Lemma struct_two s : Forall (fun fd => ty_ok p fn (fd_type fd) = true) (sl_fields s) /\ Forall cv_ok (sl_fields s) ->
    exists x1 x2, resolve_struct_like fuel done c1 s = Ok x1 /\ fix_struct_like done c1 st x1 = Ok x2.
  Proof.
    intros (Ht & Hv). unfold resolve_struct_like, fix_struct_like.
    destruct (fields_two (is_union s) _ Ht Hv) as (l1 & l2 & -> & H2). cbn [bind].
    eexists. eexists. split; [reflexivity|]. cbn [bind sl_fields]. rewrite H2. reflexivity.
  Qed.

  Lemma function_two fu :
    (Forall (fun t => ty_ok p fn t = true) (function_top_types fu) /\ Forall cv_ok (function_fields fu)) /\ void_ok fu = true ->
    exists x1 x2, resolve_function fuel done c1 fu = Ok x1 /\ fix_function done c1 st x1 = Ok x2.
  Proof.
    intros ((Ht & Hv) & Hvoid). unfold function_top_types, function_fields in Ht, Hv.
    rewrite Forall_app, Forall_map, Forall_app in Ht. rewrite Forall_app in Hv.
    destruct Ht as (Hrt & Ha & Hth). destruct Hv as (Va & Vth).
    assert (E : exists rt rt2, (if fn_void fu then Ok (fn_type fu) else resolve_ty done c1 (fn_type fu)) = Ok rt /\
                               fix_ty done c1 st rt = Ok rt2).
    { unfold void_ok in Hvoid. destruct (fn_void fu); [|apply ty_two; exact (Forall_inv Hrt)].
      (* the type of a void function is not resolved; it is a leaf, which the second pass keeps *)
      exists (fn_type fu). destruct (fn_type fu) as [n k v cpp an cat r td]. cbn [ty_key ty_value ty_category] in Hvoid.
      destruct k; [discriminate|]. destruct v; [discriminate|]. apply negb_true_iff in Hvoid.
      cbn [fix_ty bind]. rewrite Hvoid. eauto. }
    destruct E as (rt & rt2 & E1 & E2). unfold resolve_function, fix_function. rewrite E1.
    destruct (fields_two false _ Ha Va) as (a1 & a2 & -> & A2). destruct (fields_two false _ Hth Vth) as (h1 & h2 & -> & T2).
    cbn [bind]. eexists. eexists. split; [reflexivity|]. cbn [bind fn_type fn_args fn_throws]. rewrite E2, A2, T2. reflexivity.
  Qed.

  Lemma service_two sv :
    ((Forall (fun t => ty_ok p fn t = true) (flat_map' function_top_types (sv_functions sv)) /\ Forall cv_ok (service_fields sv)) /\
     forallb void_ok (sv_functions sv) = true) /\ base_ok p fn f sv = true ->
    exists x1 x2, resolve_service fuel done c1 sv = Ok x1 /\ fix_service done c1 st x1 = Ok x2.
  Proof.
    intros (((Ht & Hv) & Hvoid) & Hb). unfold service_fields in Hv. rewrite Forall_flat_map' in Ht. rewrite Forall_flat_map' in Hv.
    rewrite forallb_forall, <- Forall_forall in Hvoid.
    destruct (mapM_two_ok _ _ _ _ function_two (Forall_and (Forall_and Ht Hv) Hvoid)) as (l1 & l2 & H1 & H2).
    destruct (resolve_base_complete p done fn f Hinv Hf Htargets c1 Hreg eq_refl sv Hb) as (r & Hr).
    unfold resolve_service, fix_service. rewrite H1, Hr. cbn [bind].
    eexists. eexists. split; [reflexivity|]. cbn [bind sv_functions]. rewrite H2. reflexivity.
  Qed.

  Lemma passes_complete :
    Forall (fun t => ty_ok p fn t = true) (file_top_occs f) ->
    Forall (fun sv => base_ok p fn f sv = true) (f_services f) ->
    Forall (fun sv => forallb void_ok (sv_functions sv) = true) (f_services f) ->
    Forall (fun c => cv_idents_ok okid c = true) (file_top_const_values f) ->
    exists f', resolve_file_in done f = Ok f'.
  Proof.
    intros Hty Hbase Hvoid Hcv.
    unfold file_top_occs, struct_likes in Hty. rewrite !Forall_app, !Forall_map, !Forall_flat_map', !Forall_app in Hty.
    destruct Hty as (Ttd & Tco & (Tss & Tus & Tes) & Tsv).
    unfold file_top_const_values, file_fields, struct_likes in Hcv.
    rewrite Forall_app, Forall_map, Forall_flat_map', Forall_app, !Forall_flat_map', !Forall_app in Hcv.
    destruct Hcv as (Vco & (Vss & Vus & Ves) & Vsv).
    destruct (typedefs_fix Ttd) as (tds2 & Htds2).
    destruct (mapM_two_ok _ _ _ _ constant_two (Forall_and Tco Vco)) as (cs1 & cs2 & Hcs1 & Hcs2).
    destruct (mapM_two_ok _ _ _ _ struct_two (Forall_and Tss Vss)) as (ss1 & ss2 & Hss1 & Hss2).
    destruct (mapM_two_ok _ _ _ _ struct_two (Forall_and Tus Vus)) as (us1 & us2 & Hus1 & Hus2).
    destruct (mapM_two_ok _ _ _ _ struct_two (Forall_and Tes Ves)) as (es1 & es2 & Hes1 & Hes2).
    destruct (mapM_two_ok _ _ _ _ service_two (Forall_and (Forall_and (Forall_and Tsv Vsv) Hvoid) Hbase))
      as (sv1 & sv2 & Hsv1 & Hsv2).
    unfold resolve_file_in. rewrite Hreg. cbn [bind]. rewrite Htds1. cbn [bind].
    change (with_typedefs (with_name2cat f (Some n2c)) tds1) with c1. fold fuel.
    rewrite Hcs1, Hss1, Hus1, Hes1, Hsv1. cbn [bind].
    change (map (te_init done c1) tds1) with s0. rewrite Hfix. cbn [bind].
    rewrite Htds2, Hcs2, Hss2, Hus2, Hes2, Hsv2. cbn [bind]. eauto.
  Qed.
End FixComplete.

Lemma ty_ok_head_denotes p fn t : ty_ok p fn t = true -> exists d, name_denotes p fn (ty_name t) d.
Proof.
  destruct t as [n k v cpp an cat r td]. cbn [ty_ok ty_name]. destruct (builtin_category n) as [c|] eqn:Bn.
  - intros _. exists (TBuiltin c). apply nd_builtin. exact Bn.
  - destruct k; [discriminate|]. destruct v; [discriminate|]. apply denotes_b_iff.
Qed.

(* what [idok] promises: the identifier resolves in the context of its file *)
Definition idok_sound (p : program) (idok : bytes -> bytes -> bool) : Prop :=
  forall done fn f n2c tds1 s,
    inv p done -> prog_file p fn = Some f ->
    (forall i, In i (f_includes f) -> exists hn, in_ref i = Some hn /\ lookup hn done <> None) ->
    register (file_def_names f) [] = Ok n2c ->
    mapM (resolve_typedef done (with_name2cat f (Some n2c))) (f_typedefs f) = Ok tds1 ->
    idok fn s = true ->
    exists e, resolve_ident (enum_fuel done (cur1 f n2c tds1)) done (cur1 f n2c tds1) s = Ok e.

Lemma resolve_file_complete p idok done fn f :
  idok_sound p idok -> inv p done -> prog_file p fn = Some f ->
  (forall i, In i (f_includes f) -> exists hn, in_ref i = Some hn /\ lookup hn done <> None) ->
  file_ok idok p fn f = true -> exists f', resolve_file_in done f = Ok f'.
Proof.
  intros Hid Hinv Hf Htg Hok. unfold file_ok in Hok. rewrite !andb_true_iff, !forallb_forall, <- !Forall_forall in Hok.
  destruct Hok as ((((Hnd & Hty) & Hbase) & Hvoid) & Hcv).
  destruct (register_complete (file_def_names f) []) as (n2c & Hreg).
  { rewrite map_fst_def_names. apply nodupb_NoDup. exact Hnd. } { reflexivity. }
  assert (Ttd : forall td, In td (f_typedefs f) -> ty_ok p fn (td_type td) = true).
  { unfold file_top_occs in Hty. rewrite Forall_app, Forall_map in Hty. apply Forall_forall. exact (proj1 Hty). }
  destruct (mapM_ok (resolve_typedef done (with_name2cat f (Some n2c))) (f_typedefs f)) as (tds1 & Htds1).
  { intros td Hin. unfold resolve_typedef.
    destruct (resolve_ty_complete p done fn f Hinv Hf Htg (with_name2cat f (Some n2c)) Hreg eq_refl _ (Ttd td Hin)) as (t' & ->). cbn [bind]. eauto. }
  destruct (te_fix_ok p done fn f Hinv Hf Htg n2c Hreg tds1 Htds1) as (st & Hst).
  { intros td Hin. apply ty_ok_head_denotes. exact (Ttd td Hin). }
  exact (passes_complete p done fn f Hinv Hf Htg n2c Hreg tds1 Htds1 st Hst (idok fn)
           (fun s => Hid done fn f n2c tds1 s Hinv Hf Htg Hreg Htds1) Hty Hbase Hvoid Hcv).
Qed.

Definition inc_step (p : program) (a b : bytes) : Prop :=
  exists f i, prog_file p a = Some f /\ In i (f_includes f) /\ in_ref i = Some b.

Inductive reaches (p : program) : bytes -> bytes -> Prop :=
| r_refl a : reaches p a a
| r_step a b c : inc_step p a b -> reaches p b c -> reaches p a c.

Lemma reaches_snoc p a b c : reaches p a b -> inc_step p b c -> reaches p a c.
Proof. induction 1 as [a|a b0 b Hs _ IH]; intros H; [eapply r_step; [exact H | apply r_refl] | eapply r_step; eauto]. Qed.

Lemma reaches_trans p a b c : reaches p a b -> reaches p b c -> reaches p a c.
Proof. induction 1; intros; [assumption | eapply r_step; eauto]. Qed.

Lemma includes_ok_step p k a b : includes_ok (S k) p a = true -> inc_step p a b -> includes_ok k p b = true.
Proof.
  cbn [includes_ok]. intros H (f & i & Hf & Hi & Hr). rewrite Hf in H. rewrite forallb_forall in H.
  specialize (H i Hi). rewrite Hr in H. exact H.
Qed.

Lemma includes_ok_acyclic p : forall n a, includes_ok n p a = true ->
  forall b, inc_step p a b -> reaches p b a -> False.
Proof.
  induction n as [|k IH]; intros a H b Hs Hr; [discriminate|].
  pose proof (includes_ok_step p k a b H Hs) as Hb.
  inversion Hr as [|? c ? Hbc Hca]; subst.
  - exact (IH a Hb a Hs (r_refl p a)).
  - exact (IH b Hb c Hbc (reaches_snoc p c a b Hca Hs)).
Qed.

Lemma go_includes_adds k p :
  (forall d a d1, resolve_rec k p d a = Ok d1 -> forall x, lookup x d1 <> None -> lookup x d <> None \/ reaches p a x) ->
  forall incs d0 d2, go_includes k p incs d0 = Ok d2 -> forall y, lookup y d2 <> None ->
  lookup y d0 <> None \/ exists i g, In i incs /\ in_ref i = Some g /\ reaches p g y.
Proof.
  intros IH. induction incs as [|i incs IHi]; intros d0 d2 Hg y Hy; cbn [go_includes] in Hg.
  - injection Hg as <-. auto.
  - destruct (in_ref i) as [g|] eqn:Ri; [|discriminate]. inv_bind Hg.
    destruct (IHi _ _ Hg y Hy) as [Hy'|(j & g' & Hj & Hrj & Hre)].
    + destruct (IH _ _ _ E y Hy') as [?|Hre]; [auto|]. right. exists i, g. cbn. auto.
    + right. exists j, g'. cbn. auto.
Qed.

Lemma resolve_rec_adds p : forall fuel d a d1, resolve_rec fuel p d a = Ok d1 ->
  forall x, lookup x d1 <> None -> lookup x d <> None \/ reaches p a x.
Proof.
  induction fuel as [|k IH]; intros d a d1 H x Hx.
  - cbn [resolve_rec] in H. destruct (lookup a d); [|discriminate]. injection H as <-. auto.
  - rewrite resolve_rec_unfold in H. destruct (lookup a d) eqn:La; [injection H as <-; auto|].
    destruct (prog_file p a) as [f|] eqn:Pf; [|discriminate]. inv_bind H. rename x0 into done1.
    destruct (lookup a done1) eqn:La1; [discriminate|]. inv_bind H. injection H as <-.
    cbn [lookup] in Hx. destruct (beqb x a) eqn:Exa.
    + apply beqb_true in Exa. subst. right. apply r_refl.
    + destruct (go_includes_adds k p IH _ _ _ E x Hx) as [?|(i & g & Hi & Hri & Hre)]; [auto|].
      right. eapply r_step; [|exact Hre]. exists f, i. auto.
Qed.

Lemma go_includes_complete p k :
  (forall d a, inv p d -> includes_ok k p a = true -> exists d1, resolve_rec k p d a = Ok d1) ->
  forall incs d0, inv p d0 ->
  (forall i, In i incs -> match in_ref i with Some g => includes_ok k p g | None => false end = true) ->
  exists d2, go_includes k p incs d0 = Ok d2.
Proof.
  intros IH. induction incs as [|i incs IHi]; intros d0 Hd0 Hok; cbn [go_includes]; [eauto|].
  pose proof (Hok i (or_introl eq_refl)) as Hi. destruct (in_ref i) as [g|]; [|discriminate].
  destruct (IH d0 g Hd0 Hi) as (d' & Hd'). rewrite Hd'. cbn [bind].
  apply IHi; [exact (proj1 (resolve_rec_inv p _ _ _ _ Hd0 Hd')) | intros j Hj; apply Hok; right; exact Hj].
Qed.

Section Driver.
  Variable p : program.
  Variable idok : bytes -> bytes -> bool.
  Hypothesis Hid : idok_sound p idok.
  Hypothesis Hall : forall fn f, prog_file p fn = Some f -> file_ok idok p fn f = true.

  Lemma resolve_rec_complete : forall fuel d a, inv p d -> includes_ok fuel p a = true ->
    exists d1, resolve_rec fuel p d a = Ok d1.
  Proof.
    induction fuel as [|k IH]; intros d a Hinv Hok; [discriminate|].
    rewrite resolve_rec_unfold. destruct (lookup a d) eqn:La; [eauto|].
    pose proof Hok as Hok'. cbn [includes_ok] in Hok. destruct (prog_file p a) as [f|] eqn:Pf; [|discriminate].
    rewrite forallb_forall in Hok.
    destruct (go_includes_complete p k IH (f_includes f) d Hinv Hok) as (done1 & Hg). rewrite Hg. cbn [bind].
    destruct (go_includes_ind k p (inv p) (resolve_rec_inv p k) _ _ _ Hinv Hg) as (I1 & _ & T1).
    destruct (lookup a done1) eqn:La1.
    { (* [a] is new, so it would be reachable from one of its own includes *)
      exfalso. destruct (go_includes_adds k p (resolve_rec_adds p k) _ _ _ Hg a) as [H|(i & g & Hi & Hri & Hre)];
        [congruence | congruence |].
      eapply (includes_ok_acyclic p _ a Hok' g); [exists f, i; auto | exact Hre]. }
    destruct (resolve_file_complete p idok done1 a f Hid I1 Pf T1 (Hall a f Pf)) as (f' & ->). cbn [bind]. eauto.
  Qed.
End Driver.

(* completeness, relative to what [idok] promises about identifiers *)
Theorem resolve_complete_with p idok :
  idok_sound p idok -> resolvable_with idok p = true -> exists r, resolve_program p = Ok r.
Proof.
  intros Hid H. unfold resolvable_with in H. unfold resolve_program. destruct p as [|[mainfn mf] p'] eqn:Ep; [eauto|].
  rewrite <- Ep in *. apply andb_true_iff in H. destruct H as (Hinc & Hall). rewrite forallb_forall in Hall.
  assert (Hall' : forall fn f, prog_file p fn = Some f -> file_ok idok p fn f = true).
  { intros fn f Hf. unfold prog_file in Hf. apply lookup_In in Hf. exact (Hall (fn, f) Hf). }
  destruct (resolve_rec_complete p idok Hid Hall' _ [] mainfn (inv_nil p) Hinc) as (d1 & ->). cbn [bind]. eauto.
Qed.

(* the type / service part: a program without identifier values (other than true / false) *)
Theorem resolve_complete_types p : resolvable_types p = true -> exists r, resolve_program p = Ok r.
Proof. apply resolve_complete_with. intros; discriminate. Qed.
