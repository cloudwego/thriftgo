(* Idl/LexFacts.v — facts about the token layer Idl/Lex.v (property C03).
   Literals: [lit_text_ok] (the texts a quote can enclose) and [unescape_escape].
   Printed trivia: [trivia_ok] and [lex_trivia_printed].  Printed tokens: the shapes of
   integer and double texts ([int_shape], [double_shape]), [token_wf], the sequences of
   tokens with trivia that can be printed and read back ([lts_wf]) and the round trip
   [lex_ltoks_bytes]; [lts_wfb] is a boolean check that implies [lts_wf]. *)
From Coq Require Import List Bool Lia.
From Coq.Strings Require Import Byte.
From Verif Require Import Base.Bytes Idl.Lex.
Import ListNotations.

(* the texts for which quoting with q is reversible: no backslash stands directly in
   front of a q, and the text does not end with a backslash *)
Fixpoint lit_text_ok (q : byte) (s : bytes) : bool :=
  match s with
  | [] => true
  | c :: r =>
    (if Byte.eqb c c_bs
     then match r with [] => false | d :: _ => negb (Byte.eqb d q) end
     else true) && lit_text_ok q r
  end.

Lemma eqb_neq c d : c <> d -> Byte.eqb c d = false.
Proof. intro H. destruct (Byte.eqb c d) eqn:E; [apply byte_eqb_eq in E; contradiction | reflexivity]. Qed.

Lemma eqb_false_neq c d : Byte.eqb c d = false -> c <> d.
Proof. intros H ->. rewrite byte_eqb_refl in H. discriminate. Qed.

Lemma lit_ok_cons q c r :
  lit_text_ok q (c :: r) = true <->
  (c = c_bs -> exists d r', r = d :: r' /\ d <> q) /\ lit_text_ok q r = true.
Proof.
  cbn [lit_text_ok]. rewrite andb_true_iff. split; intros [H1 H2]; split; try assumption.
  - intros ->. rewrite byte_eqb_refl in H1. destruct r as [|d r']; [discriminate|].
    exists d, r'. split; [reflexivity|]. apply negb_true_iff in H1. apply eqb_false_neq. exact H1.
  - destruct (Byte.eqb c c_bs) eqn:E; [|reflexivity]. apply byte_eqb_eq in E.
    destruct (H1 E) as (d & r' & -> & Hd). apply negb_true_iff. apply eqb_neq. exact Hd.
Qed.

Lemma lit_text_ok_tail q c r : lit_text_ok q (c :: r) = true -> lit_text_ok q r = true.
Proof. intro H. apply lit_ok_cons in H. tauto. Qed.

Lemma list_ind2 {A} (P : list A -> Prop) :
  P [] -> (forall a, P [a]) -> (forall a b l, P l -> P (b :: l) -> P (a :: b :: l)) -> forall l, P l.
Proof.
  intros H0 H1 H2 l. assert (H : P l /\ forall a, P (a :: l)); [|exact (proj1 H)].
  induction l as [|b l [IHl IHb]]; split; auto.
Qed.

Lemma unescape_step q c d r' :
  unescape q (c :: d :: r') =
  if Byte.eqb c c_bs then
    if Byte.eqb d c_bs then match r' with [] => [c; c; d] | _ => c :: c :: unescape q r' end
    else if Byte.eqb d q then unescape q (d :: r') else c :: unescape q (d :: r')
  else c :: unescape q (d :: r').
Proof. reflexivity. Qed.

Lemma unescape_id q t : lit_text_ok q t = true -> unescape q t = t.
Proof.
  induction t as [|c|c d r' IH1 IH2] using list_ind2; intro Hok; [reflexivity | reflexivity |].
  apply lit_ok_cons in Hok. destruct Hok as [Hc Hr].
  rewrite unescape_step.
  destruct (Byte.eqb c c_bs) eqn:Ec.
  - apply byte_eqb_eq in Ec. destruct (Hc Ec) as (d0 & r0 & [= <- <-] & Hdq).
    destruct (Byte.eqb d c_bs) eqn:Ed.
    + apply byte_eqb_eq in Ed. subst c d.
      apply lit_ok_cons in Hr. destruct Hr as [Hd Hr'].
      destruct (Hd eq_refl) as (e & r'' & -> & _).
      f_equal. f_equal. apply IH1. exact Hr'.
    + rewrite (eqb_neq d q Hdq). f_equal. apply IH2. exact Hr.
  - f_equal. apply IH2. exact Hr.
Qed.

Lemma escape_nil_inv q s : escape q s = [] -> s = [].
Proof. destruct s as [|c r]; [reflexivity|]. cbn. destruct (Byte.eqb c q); discriminate. Qed.

Lemma escape_cons_ne q c r : c <> q -> escape q (c :: r) = c :: escape q r.
Proof. intro H. cbn [escape]. rewrite (eqb_neq c q H). reflexivity. Qed.

Lemma escape_cons_eq q r : escape q (q :: r) = c_bs :: q :: escape q r.
Proof. cbn [escape]. rewrite byte_eqb_refl. reflexivity. Qed.

Lemma unescape_cons_plain q c t : c <> c_bs -> t <> [] -> unescape q (c :: t) = c :: unescape q t.
Proof.
  intros Hc Ht. destruct t as [|d r']; [contradiction|].
  rewrite unescape_step. rewrite (eqb_neq c c_bs Hc). reflexivity.
Qed.

(* unescape_spec: quoting a text with q and reading it back gives the text *)
Theorem unescape_escape q s : q <> c_bs -> lit_text_ok q s = true -> unescape q (escape q s) = s.
Proof.
  intros Hq. induction s as [|c|c d r' IH1 IH2] using list_ind2; intro Hok; [reflexivity | |].
  - destruct (Byte.byte_eq_dec c q) as [->|Hcq].
    + rewrite escape_cons_eq. cbn [escape]. rewrite unescape_step, byte_eqb_refl, (eqb_neq q c_bs Hq), byte_eqb_refl. reflexivity.
    + rewrite (escape_cons_ne q c [] Hcq). reflexivity.
  - apply lit_ok_cons in Hok. destruct Hok as [Hc Hokr].
    destruct (Byte.byte_eq_dec c q) as [->|Hcq].
    + (* c = q: printed as backslash q; unescape drops the backslash *)
      rewrite escape_cons_eq.
      assert (Hstep : unescape q (c_bs :: q :: escape q (d :: r')) = unescape q (q :: escape q (d :: r'))).
      { rewrite unescape_step. rewrite byte_eqb_refl, (eqb_neq q c_bs Hq), byte_eqb_refl. reflexivity. }
      rewrite Hstep.
      rewrite unescape_cons_plain; [| exact Hq | intro E; apply escape_nil_inv in E; discriminate].
      f_equal. apply IH2. exact Hokr.
    + rewrite (escape_cons_ne q c _ Hcq).
      destruct (Byte.byte_eq_dec c c_bs) as [->|Hcb].
      * (* a backslash of the text: the next byte d is not q *)
        destruct (Hc eq_refl) as (d0 & r0 & [= <- <-] & Hdq).
        rewrite (escape_cons_ne q d r' Hdq).
        destruct (Byte.byte_eq_dec d c_bs) as [->|Hdb].
        -- apply lit_ok_cons in Hokr. destruct Hokr as [Hd Hokr'].
           destruct (Hd eq_refl) as (e & r'' & -> & Heq).
           assert (Hne : escape q (e :: r'') <> []) by (intro E; apply escape_nil_inv in E; discriminate).
           destruct (escape q (e :: r'')) as [|x rest]; [contradiction|].
           rewrite unescape_step. rewrite !byte_eqb_refl. f_equal. f_equal. apply IH1. exact Hokr'.
        -- rewrite unescape_step. rewrite byte_eqb_refl, (eqb_neq d c_bs Hdb), (eqb_neq d q Hdq). f_equal.
           rewrite <- (escape_cons_ne q d r' Hdq). apply IH2. exact Hokr.
      * rewrite unescape_cons_plain; [| exact Hcb | intro E; apply escape_nil_inv in E; discriminate].
        f_equal. apply IH2. exact Hokr.
Qed.

Lemma lit_text_ok_escape_other q q' s :
  q <> q' -> q <> c_bs -> lit_text_ok q s = true -> lit_text_ok q (escape q' s) = true.
Proof.
  intros Hne Hq. induction s as [|c r IH]; intro Hok; [reflexivity|].
  apply lit_ok_cons in Hok. destruct Hok as [Hc Hokr]. specialize (IH Hokr).
  (* a backslash of the text is still followed by something other than q *)
  assert (K : c = c_bs -> exists d r', escape q' r = d :: r' /\ d <> q).
  { intros E. destruct (Hc E) as (d & r' & -> & Hdq).
    destruct (Byte.byte_eq_dec d q') as [->|Hdq'].
    - rewrite escape_cons_eq. exists c_bs, (q' :: escape q' r'). split; [reflexivity | congruence].
    - rewrite (escape_cons_ne q' d r' Hdq'). exists d, (escape q' r'). split; [reflexivity | exact Hdq]. }
  destruct (Byte.byte_eq_dec c q') as [->|Hcq].
  - rewrite escape_cons_eq. apply lit_ok_cons. split.
    + intros _. exists q', (escape q' r). split; [reflexivity | congruence].
    + apply lit_ok_cons. split; [exact K | exact IH].
  - rewrite (escape_cons_ne q' c r Hcq). apply lit_ok_cons. split; [exact K | exact IH].
Qed.

Theorem unescape_other_quote_untouched q q' s :
  q <> q' -> q <> c_bs -> lit_text_ok q s = true -> unescape q (escape q' s) = escape q' s.
Proof. intros Hne Hq Hok. apply unescape_id. apply lit_text_ok_escape_other; assumption. Qed.

Lemma span_app p a rest :
  forallb p a = true -> match rest with [] => True | c :: _ => p c = false end ->
  span p (a ++ rest) = (a, rest).
Proof.
  intros Ha Hr. induction a as [|c a IH]; cbn [app].
  - destruct rest as [|c r]; [reflexivity|]. cbn [span]. rewrite Hr. reflexivity.
  - cbn [forallb] in Ha. apply andb_true_iff in Ha. destruct Ha as [Hc Ha].
    cbn [span]. rewrite Hc, (IH Ha). reflexivity.
Qed.

Definition no_nl (b : bytes) : bool := forallb (fun x => negb (is_nl x)) b.
(* the body of a block comment: the first closing pair after it is the one printed *)
Definition block_body_ok (b : bytes) : bool :=
  match block_end (b ++ [c_star; c_slash]) with
  | Some (b', []) => beqb b' b
  | _ => false
  end.

Definition tritem_ok (i : tritem) : bool :=
  match i with
  | TrSp c => is_space c
  | TrLine b | TrHash b => no_nl b
  | TrBlock b => block_body_ok b
  end.

Definition is_line_comment (i : tritem) : bool :=
  match i with TrLine _ | TrHash _ => true | _ => false end.

(* every item is well formed and a line comment is followed by a line break; [last]:
   the run is the last thing of the file, where a line comment may come last *)
Fixpoint trivia_ok (last : bool) (tr : trivia) : bool :=
  match tr with
  | [] => true
  | i :: r =>
    tritem_ok i &&
    (if is_line_comment i
     then match r with [] => last | j :: _ => tr_is_nl j end
     else true) &&
    trivia_ok last r
  end.

Definition not_trivia_start (s : bytes) : Prop :=
  match s with
  | [] => True
  | c :: _ => is_space c = false /\ c <> c_hash /\ c <> c_slash
  end.

Lemma block_end_cons2 c d s :
  block_end (c :: d :: s) =
  if Byte.eqb c c_star && Byte.eqb d c_slash then Some ([], s)
  else match block_end (d :: s) with Some (b, rest) => Some (c :: b, rest) | None => None end.
Proof. reflexivity. Qed.

Lemma block_end_app s b r x : block_end s = Some (b, r) -> block_end (s ++ x) = Some (b, r ++ x).
Proof.
  revert b r. induction s as [|c s IH]; intros b r H; [discriminate|].
  destruct s as [|d s']; [discriminate|].
  rewrite block_end_cons2 in H.
  change ((c :: d :: s') ++ x) with (c :: d :: (s' ++ x)). rewrite block_end_cons2.
  destruct (Byte.eqb c c_star && Byte.eqb d c_slash).
  - injection H as <- <-. reflexivity.
  - destruct (block_end (d :: s')) as [[b0 r0]|] eqn:E; [|discriminate].
    injection H as <- <-.
    change (d :: s' ++ x) with ((d :: s') ++ x). rewrite (IH _ _ eq_refl). reflexivity.
Qed.

Lemma block_body_end b rest :
  block_body_ok b = true -> block_end (b ++ c_star :: c_slash :: rest) = Some (b, rest).
Proof.
  unfold block_body_ok. intro H.
  destruct (block_end (b ++ [c_star; c_slash])) as [[b' r]|] eqn:E; [|discriminate].
  destruct r; [|discriminate]. apply beqb_true in H. subst b'.
  replace (b ++ c_star :: c_slash :: rest) with ((b ++ [c_star; c_slash]) ++ rest)
    by (rewrite <- app_assoc; reflexivity).
  rewrite (block_end_app _ _ _ rest E). reflexivity.
Qed.

Lemma is_nl_space c : is_nl c = true -> is_space c = true.
Proof. unfold is_space. intros ->. apply orb_true_r. Qed.

Lemma span_line_body b rest :
  no_nl b = true -> match rest with [] => True | c :: _ => is_nl c = true end ->
  span (fun x => negb (is_nl x)) (b ++ rest) = (b, rest).
Proof.
  intros Hb Hr. apply span_app; [exact Hb|].
  destruct rest as [|c r]; [exact I|]. rewrite Hr. reflexivity.
Qed.

Lemma trivia_bytes_cons i r : trivia_bytes (i :: r) = tritem_bytes i ++ trivia_bytes r.
Proof. reflexivity. Qed.

Lemma trivia_bytes_nl_head j r rest :
  tr_is_nl j = true -> match trivia_bytes (j :: r) ++ rest with [] => True | c :: _ => is_nl c = true end.
Proof. destruct j as [c| | |]; cbn; try discriminate. intro H. exact H. Qed.

Lemma lex_trivia_printed last tr : forall fuel rest,
  trivia_ok last tr = true -> List.length tr < fuel ->
  not_trivia_start rest -> (last = true -> rest = []) ->
  lex_trivia fuel (trivia_bytes tr ++ rest) = Some (tr, rest).
Proof.
  induction tr as [|i r IH]; intros fuel rest Hok Hf Hns Hlast.
  - cbn [trivia_bytes map List.concat app].
    destruct fuel as [|f]; [cbn in Hf; lia|].
    destruct rest as [|c rest']; [reflexivity|].
    cbn [lex_trivia]. destruct Hns as (Hsp & Hh & Hs).
    rewrite Hsp, (eqb_neq c c_hash Hh), (eqb_neq c c_slash Hs). reflexivity.
  - destruct fuel as [|f]; [cbn in Hf; lia|].
    cbn [trivia_ok] in Hok. apply andb_true_iff in Hok. destruct Hok as [Hok Hr].
    apply andb_true_iff in Hok. destruct Hok as [Hi Hfollow].
    assert (Hf' : List.length r < f) by (cbn in Hf; lia).
    specialize (IH f rest Hr Hf' Hns Hlast).
    rewrite trivia_bytes_cons, <- app_assoc.
    (* after a line comment the remaining bytes are empty or start with a line break *)
    assert (Hnl : is_line_comment i = true ->
                  match trivia_bytes r ++ rest with [] => True | c :: _ => is_nl c = true end).
    { intro Hl. rewrite Hl in Hfollow. destruct r as [|j r'].
      - cbn. rewrite (Hlast Hfollow). exact I.
      - apply trivia_bytes_nl_head. exact Hfollow. }
    destruct i as [c|b|b|b]; cbn [tritem_bytes tritem_ok is_line_comment] in *.
    + (* blank *)
      cbn [app lex_trivia]. rewrite Hi, IH. reflexivity.
    + (* // body *)
      cbn [app lex_trivia].
      assert (Hsl : is_space c_slash = false) by reflexivity.
      rewrite Hsl. assert (Hh : Byte.eqb c_slash c_hash = false) by reflexivity. rewrite Hh.
      rewrite !byte_eqb_refl.
      rewrite (span_line_body b (trivia_bytes r ++ rest) Hi (Hnl eq_refl)), IH. reflexivity.
    + (* # body *)
      cbn [app lex_trivia].
      assert (Hsl : is_space c_hash = false) by reflexivity. rewrite Hsl. rewrite byte_eqb_refl.
      rewrite (span_line_body b (trivia_bytes r ++ rest) Hi (Hnl eq_refl)), IH. reflexivity.
    + (* block comment *)
      cbn [app lex_trivia].
      assert (Hsl : is_space c_slash = false) by reflexivity. rewrite Hsl.
      assert (Hh : Byte.eqb c_slash c_hash = false) by reflexivity. rewrite Hh.
      rewrite byte_eqb_refl.
      assert (Hss : Byte.eqb c_star c_slash = false) by reflexivity. rewrite Hss. rewrite byte_eqb_refl.
      rewrite <- app_assoc. cbn [app].
      rewrite (block_body_end b _ Hi). rewrite IH. reflexivity.
Qed.

(* a byte after which a word or number has certainly ended *)
Definition safe_after (c : byte) : bool :=
  is_space c || Byte.eqb c c_slash || Byte.eqb c c_hash || is_punct c || is_quote c.
Definition stops (rest : bytes) : Prop :=
  match rest with [] => True | c :: _ => safe_after c = true end.

(* A fact about one byte and two of the lexer's classes is checked on the 256 bytes. *)
Definition all_bytes : list byte :=
  Eval vm_compute in map (fun n => match Byte.of_nat n with Some b => b | None => x00 end) (seq 0 256).

Lemma byte_cases (P Q : byte -> bool) :
  forallb (fun c => implb (P c) (negb (Q c))) all_bytes = true ->
  forall c, P c = true -> Q c = false.
Proof.
  intros H c Hc. rewrite forallb_forall in H. specialize (H c). rewrite Hc in H.
  apply negb_true_iff, H.
  change (In c (map (fun n => match Byte.of_nat n with Some b => b | None => x00 end) (seq 0 256))).
  apply in_map_iff. exists (Byte.to_nat c).
  rewrite Byte.of_to_nat, in_seq. split; [reflexivity|]. pose proof (Byte.to_nat_bounded c). lia.
Qed.

Lemma eqb_apart (p : byte -> bool) c k b : p c = b -> p k = negb b -> Byte.eqb c k = false.
Proof. intros Hc Hk. apply eqb_neq. intros ->. rewrite Hc in Hk. destruct b; discriminate. Qed.

Lemma safe_not_wordc c : safe_after c = true -> is_wordc c = false.
Proof. revert c. apply byte_cases. reflexivity. Qed.

Lemma wordc_false c : is_wordc c = false ->
  is_digit c = false /\ is_alnum c = false /\ is_exp c = false /\ Byte.eqb c c_dot = false /\
  Byte.eqb c c_x = false /\ Byte.eqb c c_o = false.
Proof.
  unfold is_wordc, is_alnum, is_exp. intro H.
  apply orb_false_iff in H. destruct H as [H Hdot]. apply orb_false_iff in H. destruct H as [Hl Hd].
  rewrite Hd, (eqb_apart is_letter c c_e false Hl eq_refl), (eqb_apart is_letter c c_E false Hl eq_refl),
    (eqb_apart is_letter c c_x false Hl eq_refl), (eqb_apart is_letter c c_o false Hl eq_refl).
  unfold is_letter in Hl. apply orb_false_iff in Hl. destruct Hl as [Hl _].
  apply orb_false_iff in Hl. destruct Hl as [-> ->]. repeat split; reflexivity || assumption.
Qed.

Lemma safe_not_digit c : safe_after c = true -> is_digit c = false.
Proof. intro H. apply wordc_false, safe_not_wordc, H. Qed.
Lemma safe_not_sign c : safe_after c = true -> is_sign c = false.
Proof. revert c. apply byte_cases. reflexivity. Qed.
Lemma digit_not_sign c : is_digit c = true -> is_sign c = false.
Proof.
  intro H. unfold is_sign.
  rewrite (eqb_apart is_digit c c_plus true H eq_refl), (eqb_apart is_digit c c_minus true H eq_refl). reflexivity.
Qed.
Lemma digit_not_dot c : is_digit c = true -> Byte.eqb c c_dot = false.
Proof. intro H. exact (eqb_apart is_digit c c_dot true H eq_refl). Qed.
Lemma digit_not_exp c : is_digit c = true -> is_exp c = false.
Proof.
  intro H. unfold is_exp.
  rewrite (eqb_apart is_digit c c_e true H eq_refl), (eqb_apart is_digit c c_E true H eq_refl). reflexivity.
Qed.
Lemma sign_not_digit c : is_sign c = true -> is_digit c = false.
Proof. intro H. destruct (is_digit c) eqn:E; [|reflexivity]. rewrite (digit_not_sign c E) in H. discriminate. Qed.
Lemma exp_not_digit c : is_exp c = true -> is_digit c = false.
Proof. intro H. destruct (is_digit c) eqn:E; [|reflexivity]. rewrite (digit_not_exp c E) in H. discriminate. Qed.

(* the tests of [lex_token], in its order: each class excludes the ones asked before it *)
Definition starts_number (c : byte) : bool := is_digit c || is_sign c || Byte.eqb c c_dot.
Definition starts_token (c : byte) : bool := is_letter c || starts_number c || is_quote c || is_punct c.
Definition starts_trivia (c : byte) : bool := is_space c || Byte.eqb c c_hash || Byte.eqb c c_slash.

Lemma number_not_letter c : starts_number c = true -> is_letter c = false.
Proof. revert c. apply byte_cases. reflexivity. Qed.
Lemma quote_classes c : is_quote c = true -> is_letter c = false /\ starts_number c = false.
Proof. intro H. apply orb_false_iff. revert c H. apply (byte_cases _ (fun c => is_letter c || starts_number c)). reflexivity. Qed.
Lemma punct_classes c : is_punct c = true -> is_letter c = false /\ starts_number c = false /\ is_quote c = false.
Proof.
  intro H. rewrite <- !orb_false_iff, orb_assoc. revert c H.
  apply (byte_cases _ (fun c => is_letter c || starts_number c || is_quote c)). reflexivity.
Qed.

Lemma digit_starts c : is_digit c = true -> starts_number c = true.
Proof. unfold starts_number. intros ->. reflexivity. Qed.
Lemma sign_starts c : is_sign c = true -> starts_number c = true.
Proof. unfold starts_number. intros ->. apply orb_true_iff. left. apply orb_true_r. Qed.

Lemma token_not_trivia c r : starts_token c = true -> not_trivia_start (c :: r).
Proof.
  intro H. apply (byte_cases starts_token starts_trivia eq_refl) in H.
  unfold starts_trivia in H. apply orb_false_iff in H. destruct H as [H Hs].
  apply orb_false_iff in H. destruct H as [H Hh].
  repeat split; [exact H | apply eqb_false_neq; exact Hh | apply eqb_false_neq; exact Hs].
Qed.

Lemma stops_not (p : byte -> bool) rest :
  (forall c, safe_after c = true -> p c = false) -> stops rest ->
  match rest with [] => True | c :: _ => p c = false end.
Proof. intros H Hs. destruct rest as [|c r]; [exact I | apply H; exact Hs]. Qed.

Lemma lex_word w rest :
  word_ok w = true -> stops rest -> lex_token (w ++ rest) = Some (TWord w, rest).
Proof.
  intros Hw Hs. destruct w as [|c r]; [discriminate|].
  cbn [word_ok] in Hw. apply andb_true_iff in Hw. destruct Hw as [Hc Hr].
  cbn [app lex_token]. rewrite Hc.
  rewrite (span_app is_wordc r rest Hr (stops_not _ _ safe_not_wordc Hs)). reflexivity.
Qed.

Lemma lex_punct c rest : is_punct c = true -> lex_token (c :: rest) = Some (TPunct c, rest).
Proof.
  intro H. destruct (punct_classes c H) as (H1 & H2 & H3). unfold starts_number in H2.
  cbn [lex_token]. rewrite H1, H2, H3, H. reflexivity.
Qed.

(* the raw text is closed: scanning it ends exactly at the quote printed after it *)
Definition lit_closed (q : byte) (raw : bytes) : bool :=
  match lex_lit q (raw ++ [q]) with
  | Some (raw', []) => beqb raw' raw
  | _ => false
  end.

Lemma lex_lit_cons q c r :
  lex_lit q (c :: r) =
  if Byte.eqb c c_bs then
    match r with
    | d :: r' =>
      if is_quote d then match lex_lit q r' with Some (raw, rest) => Some (c :: d :: raw, rest) | None => None end
      else match lex_lit q r with Some (raw, rest) => Some (c :: raw, rest) | None => None end
    | [] => None
    end
  else if Byte.eqb c q then Some ([], r)
  else match lex_lit q r with Some (raw, rest) => Some (c :: raw, rest) | None => None end.
Proof. reflexivity. Qed.

Lemma lex_lit_app q x : forall s raw r,
  lex_lit q s = Some (raw, r) -> lex_lit q (s ++ x) = Some (raw, r ++ x).
Proof.
  induction s as [|c|c d s' IH1 IH2] using list_ind2; intros raw r H; [discriminate | |];
    rewrite lex_lit_cons in H; cbn [app]; rewrite lex_lit_cons; destruct (Byte.eqb c c_bs).
  - discriminate.
  - destruct (Byte.eqb c q); [injection H as <- <-; reflexivity | discriminate].
  - destruct (is_quote d).
    + destruct (lex_lit q s') as [[raw0 r0]|] eqn:E; [|discriminate]. injection H as <- <-.
      rewrite (IH1 raw0 r0 eq_refl). reflexivity.
    + destruct (lex_lit q (d :: s')) as [[raw0 r0]|] eqn:E; [|discriminate]. injection H as <- <-.
      change (d :: s' ++ x) with ((d :: s') ++ x). rewrite (IH2 raw0 r0 eq_refl). reflexivity.
  - destruct (Byte.eqb c q); [injection H as <- <-; reflexivity|].
    destruct (lex_lit q (d :: s')) as [[raw0 r0]|] eqn:E; [|discriminate]. injection H as <- <-.
    change (d :: s' ++ x) with ((d :: s') ++ x). rewrite (IH2 raw0 r0 eq_refl). reflexivity.
Qed.

Lemma lex_literal q raw rest :
  is_quote q = true -> lit_closed q raw = true ->
  lex_token (q :: raw ++ q :: rest) = Some (TLit q raw, rest).
Proof.
  intros Hq Hc. destruct (quote_classes q Hq) as (H1 & H2). unfold starts_number in H2.
  cbn [lex_token]. rewrite H1, H2, Hq.
  unfold lit_closed in Hc.
  destruct (lex_lit q (raw ++ [q])) as [[raw' r]|] eqn:E; [|discriminate].
  destruct r; [|discriminate]. apply beqb_true in Hc. subst raw'.
  replace (raw ++ q :: rest) with ((raw ++ [q]) ++ rest) by (rewrite <- app_assoc; reflexivity).
  rewrite (lex_lit_app q rest _ _ _ E). reflexivity.
Qed.

Definition nonempty {A} (l : list A) : bool := match l with [] => false | _ => true end.

Definition sign_ok (sg : bytes) : bool :=
  match sg with [] => true | [c] => is_sign c | _ => false end.
Definition exp_ok (ex : bytes) : bool :=
  match ex with
  | [] => true
  | e :: r => is_exp e &&
              match r with
              | c :: r' => if is_sign c then nonempty r' && forallb is_digit r' else forallb is_digit r
              | [] => false
              end
  end.

Lemma lex_exponent_none rest : stops rest -> lex_exponent rest = ([], rest).
Proof.
  intro Hs. destruct rest as [|c r]; [reflexivity|]. cbn [lex_exponent].
  destruct (wordc_false c (safe_not_wordc c Hs)) as (_ & _ & -> & _). reflexivity.
Qed.

Lemma lex_exponent_some ex rest :
  exp_ok ex = true -> nonempty ex = true -> stops rest -> lex_exponent (ex ++ rest) = (ex, rest).
Proof.
  intros Hok Hne Hs. destruct ex as [|e r]; [discriminate|].
  cbn [exp_ok] in Hok. apply andb_true_iff in Hok. destruct Hok as [He Hr].
  cbn [app lex_exponent]. rewrite He.
  destruct r as [|c r']; [discriminate|].
  cbn [app]. destruct (is_sign c) eqn:Ec.
  - apply andb_true_iff in Hr. destruct Hr as [Hne' Hd].
    rewrite (span_app is_digit r' rest Hd (stops_not _ _ safe_not_digit Hs)).
    destruct r' as [|x r'']; [discriminate|]. reflexivity.
  - change (c :: r' ++ rest) with ((c :: r') ++ rest).
    rewrite (span_app is_digit (c :: r') rest Hr (stops_not _ _ safe_not_digit Hs)).
    reflexivity.
Qed.

Lemma split_sign_app sg body rest :
  sign_ok sg = true ->
  (sg = [] -> match body ++ rest with c :: _ => is_sign c = false | [] => True end) ->
  split_sign ((sg ++ body) ++ rest) = (sg, body ++ rest).
Proof.
  intros Hsg Hb. unfold split_sign. destruct sg as [|s0 sg'].
  - cbn [app]. specialize (Hb eq_refl). destruct (body ++ rest) as [|c r]; [reflexivity|].
    rewrite Hb. reflexivity.
  - destruct sg' as [|? ?]; [|discriminate]. cbn [sign_ok] in Hsg. cbn [app]. rewrite Hsg. reflexivity.
Qed.

Lemma lex_int_dec sg ds rest :
  sign_ok sg = true -> nonempty ds = true -> forallb is_digit ds = true -> stops rest ->
  lex_int ((sg ++ ds) ++ rest) = Some (TInt (sg ++ ds), rest).
Proof.
  intros Hsg Hne Hds Hs.
  assert (Hspan : span is_digit (ds ++ rest) = (ds, rest))
    by (apply span_app; [exact Hds | exact (stops_not _ _ safe_not_digit Hs)]).
  assert (Hsplit : split_sign ((sg ++ ds) ++ rest) = (sg, ds ++ rest)).
  { apply split_sign_app; [exact Hsg|]. intros _. destruct ds as [|d ds']; [discriminate|]. cbn [app].
    cbn in Hds. apply andb_true_iff in Hds. apply digit_not_sign. tauto. }
  assert (Hdec : (let (sg0, s1) := split_sign ((sg ++ ds) ++ rest) in
                  let (ds0, s2) := span is_digit s1 in
                  match ds0 with [] => None | _ => Some (TInt (sg0 ++ ds0), s2) end)
                 = Some (TInt (sg ++ ds), rest)).
  { rewrite Hsplit, Hspan. destruct ds; [discriminate | reflexivity]. }
  unfold lex_int.
  destruct ((sg ++ ds) ++ rest) as [|z [|p r]] eqn:E; try exact Hdec.
  (* at least two bytes: they are not the 0x / 0o prefixes *)
  assert (Hp : Byte.eqb z c_0 && Byte.eqb p c_x = false /\ Byte.eqb z c_0 && Byte.eqb p c_o = false).
  { destruct sg as [|s0 sg'].
    - destruct ds as [|d ds']; [discriminate|]. cbn [app] in E. injection E as -> E.
      destruct ds' as [|d2 ds'']; cbn [app] in E.
      + subst rest. cbn in Hs.
        destruct (wordc_false p (safe_not_wordc p Hs)) as (_ & _ & _ & _ & -> & ->).
        rewrite !andb_false_r. split; reflexivity.
      + injection E as -> _. cbn in Hds. apply andb_true_iff in Hds. destruct Hds as [_ Hds].
        apply andb_true_iff in Hds. destruct Hds as [Hd2 _].
        assert (Hl := number_not_letter p (digit_starts p Hd2)).
        rewrite (eqb_apart is_letter p c_x false Hl eq_refl), (eqb_apart is_letter p c_o false Hl eq_refl), !andb_false_r.
        split; reflexivity.
    - destruct sg' as [|? ?]; [|discriminate]. cbn [sign_ok] in Hsg. cbn [app] in E. injection E as -> _.
      rewrite (eqb_apart is_digit z c_0 false (sign_not_digit z Hsg) eq_refl). split; reflexivity. }
  destruct Hp as [Hx Ho]. rewrite Hx, Ho. exact Hdec.
Qed.

Lemma lex_int_hex hs rest :
  nonempty hs = true -> forallb is_alnum hs = true -> stops rest ->
  lex_int (c_0 :: c_x :: hs ++ rest) = Some (TInt (c_0 :: c_x :: hs), rest).
Proof.
  intros Hne Hhs Hs. unfold lex_int. rewrite !byte_eqb_refl. cbn [andb].
  rewrite (span_app is_alnum hs rest Hhs (stops_not _ _ (fun c H => proj1 (proj2 (wordc_false c (safe_not_wordc c H)))) Hs)).
  destruct hs; [discriminate | reflexivity].
Qed.

Lemma lex_int_oct os rest :
  nonempty os = true -> forallb is_digit os = true -> stops rest ->
  lex_int (c_0 :: c_o :: os ++ rest) = Some (TInt (c_0 :: c_o :: os), rest).
Proof.
  intros Hne Hos Hs. unfold lex_int. rewrite !byte_eqb_refl.
  assert (H : Byte.eqb c_o c_x = false) by reflexivity. rewrite H. cbn [andb].
  rewrite (span_app is_digit os rest Hos (stops_not _ _ safe_not_digit Hs)).
  destruct os; [discriminate | reflexivity].
Qed.

Inductive int_shape : bytes -> Prop :=
| int_dec sg ds : sign_ok sg = true -> nonempty ds = true -> forallb is_digit ds = true -> int_shape (sg ++ ds)
| int_hex hs : nonempty hs = true -> forallb is_alnum hs = true -> int_shape (c_0 :: c_x :: hs)
| int_oct os : nonempty os = true -> forallb is_digit os = true -> int_shape (c_0 :: c_o :: os).

Inductive double_shape : bytes -> Prop :=
| dbl_frac sg d1 d2 ex :
    sign_ok sg = true -> forallb is_digit d1 = true -> nonempty d2 = true -> forallb is_digit d2 = true ->
    exp_ok ex = true -> double_shape (sg ++ d1 ++ c_dot :: d2 ++ ex)
| dbl_exp sg d1 ex :
    sign_ok sg = true -> nonempty d1 = true -> forallb is_digit d1 = true ->
    exp_ok ex = true -> nonempty ex = true -> double_shape (sg ++ d1 ++ ex).

(* a zero followed by a radix mark: the scan for a double stops at the mark *)
Lemma lex_number_radix m t :
  is_digit m = false -> Byte.eqb m c_dot = false -> is_exp m = false ->
  lex_number (c_0 :: m :: t) = lex_int (c_0 :: m :: t).
Proof.
  intros Hd Hdot He. unfold lex_number, split_sign.
  assert (H0 : is_sign c_0 = false) by reflexivity. rewrite H0.
  assert (Hd0 : is_digit c_0 = true) by reflexivity.
  cbn [span]. rewrite Hd0, Hd, Hdot. cbn [lex_exponent]. rewrite He. reflexivity.
Qed.

Lemma lex_number_int s rest :
  int_shape s -> stops rest -> lex_number (s ++ rest) = Some (TInt s, rest).
Proof.
  intros Hsh Hs. destruct Hsh as [sg ds Hsg Hne Hds | hs Hne Hhs | os Hne Hos].
  - (* decimal *)
    unfold lex_number.
    rewrite (split_sign_app sg ds rest Hsg).
    2:{ intros _. destruct ds as [|d ds']; [discriminate|]. cbn [app].
        cbn in Hds. apply andb_true_iff in Hds. apply digit_not_sign. tauto. }
    rewrite (span_app is_digit ds rest Hds (stops_not _ _ safe_not_digit Hs)).
    assert (Hint : lex_int ((sg ++ ds) ++ rest) = Some (TInt (sg ++ ds), rest))
      by (apply lex_int_dec; assumption).
    rewrite (lex_exponent_none rest Hs).
    destruct ds as [|d ds']; [discriminate|].
    destruct rest as [|c r]; [exact Hint|].
    destruct (wordc_false c (safe_not_wordc c Hs)) as (_ & _ & _ & -> & _). exact Hint.
  - (* hex *)
    cbn [app]. rewrite lex_number_radix by reflexivity. apply lex_int_hex; assumption.
  - (* octal *)
    cbn [app]. rewrite lex_number_radix by reflexivity. apply lex_int_oct; assumption.
Qed.

Lemma exp_head_not_digit ex rest :
  exp_ok ex = true -> stops rest ->
  match ex ++ rest with [] => True | c :: _ => is_digit c = false end.
Proof.
  intros Hex Hs. destruct ex as [|e r].
  - exact (stops_not _ _ safe_not_digit Hs).
  - cbn [exp_ok] in Hex. apply andb_true_iff in Hex. cbn [app]. apply exp_not_digit. tauto.
Qed.

Lemma lex_number_double s rest :
  double_shape s -> stops rest -> lex_number (s ++ rest) = Some (TDouble s, rest).
Proof.
  intros Hsh Hs. destruct Hsh as [sg d1 d2 ex Hsg Hd1 Hne2 Hd2 Hex | sg d1 ex Hsg Hne1 Hd1 Hex Hnex].
  - (* with a fraction *)
    unfold lex_number.
    rewrite (split_sign_app sg (d1 ++ c_dot :: d2 ++ ex) rest Hsg).
    2:{ intros _. destruct d1 as [|d d1']; cbn [app]; [reflexivity|].
        cbn in Hd1. apply andb_true_iff in Hd1. apply digit_not_sign. tauto. }
    rewrite <- app_assoc. cbn [app].
    assert (Hdotd : is_digit c_dot = false) by reflexivity.
    rewrite (span_app is_digit d1 (c_dot :: (d2 ++ ex) ++ rest) Hd1 Hdotd).
    rewrite byte_eqb_refl. rewrite <- app_assoc.
    rewrite (span_app is_digit d2 (ex ++ rest) Hd2 (exp_head_not_digit ex rest Hex Hs)).
    destruct d2 as [|x d2']; [discriminate|].
    destruct ex as [|e exr].
    + cbn [app]. rewrite (lex_exponent_none rest Hs). rewrite !app_nil_r. reflexivity.
    + rewrite (lex_exponent_some (e :: exr) rest Hex eq_refl Hs). reflexivity.
  - (* digits and an exponent *)
    unfold lex_number.
    rewrite (split_sign_app sg (d1 ++ ex) rest Hsg).
    2:{ intros _. destruct d1 as [|d d1']; [discriminate|]. cbn [app].
        cbn in Hd1. apply andb_true_iff in Hd1. apply digit_not_sign. tauto. }
    rewrite <- app_assoc.
    rewrite (span_app is_digit d1 (ex ++ rest) Hd1 (exp_head_not_digit ex rest Hex Hs)).
    rewrite (lex_exponent_some ex rest Hex Hnex Hs).
    destruct d1 as [|d d1']; [discriminate|].
    destruct ex as [|e exr]; [discriminate|].
    cbn [exp_ok] in Hex. apply andb_true_iff in Hex. destruct Hex as [He _].
    cbn [app]. rewrite (eqb_apart is_exp e c_dot true He eq_refl). reflexivity.
Qed.

Lemma forallb_head {A} (p : A -> bool) x l : forallb p (x :: l) = true -> p x = true.
Proof. cbn [forallb]. intro H. apply andb_true_iff in H. tauto. Qed.

Lemma signed_first sg body : sign_ok sg = true ->
  (exists c r, body = c :: r /\ starts_number c = true) ->
  exists c r, sg ++ body = c :: r /\ starts_number c = true.
Proof.
  intros Hsg Hb. destruct sg as [|s0 [|? ?]]; [exact Hb | | discriminate].
  exists s0, body. split; [reflexivity | apply sign_starts, Hsg].
Qed.

Lemma digits_first ds x : nonempty ds = true -> forallb is_digit ds = true ->
  exists c r, ds ++ x = c :: r /\ starts_number c = true.
Proof.
  intros Hne Hds. destruct ds as [|d ds']; [discriminate|].
  exists d, (ds' ++ x). split; [reflexivity | apply digit_starts, (forallb_head _ _ _ Hds)].
Qed.

Lemma int_shape_first s : int_shape s -> exists c r, s = c :: r /\ starts_number c = true.
Proof.
  intros [sg ds Hsg Hne Hds | hs _ _ | os _ _].
  - apply signed_first; [exact Hsg|]. rewrite <- (app_nil_r ds). apply digits_first; assumption.
  - exists c_0, (c_x :: hs). split; reflexivity.
  - exists c_0, (c_o :: os). split; reflexivity.
Qed.

Lemma double_shape_first s : double_shape s -> exists c r, s = c :: r /\ starts_number c = true.
Proof.
  intros [sg d1 d2 ex Hsg Hd1 _ _ _ | sg d1 ex Hsg Hne1 Hd1 _ _]; (apply signed_first; [exact Hsg|]).
  - destruct d1 as [|d d1'].
    + eexists _, _. split; reflexivity.
    + apply (digits_first (d :: d1')); [reflexivity | exact Hd1].
  - apply digits_first; assumption.
Qed.

Lemma lex_token_number c r t rest :
  starts_number c = true ->
  lex_number ((c :: r) ++ rest) = Some (t, rest) ->
  lex_token ((c :: r) ++ rest) = Some (t, rest).
Proof.
  intros Hc H. cbn [app lex_token]. rewrite (number_not_letter c Hc).
  unfold starts_number in Hc. rewrite Hc. exact H.
Qed.

Inductive token_wf : token -> Prop :=
| twf_word w : word_ok w = true -> token_wf (TWord w)
| twf_int s : int_shape s -> token_wf (TInt s)
| twf_double s : double_shape s -> token_wf (TDouble s)
| twf_lit q raw : is_quote q = true -> lit_closed q raw = true -> token_wf (TLit q raw)
| twf_punct c : is_punct c = true -> token_wf (TPunct c).

Definition wordlike (t : token) : bool :=
  match t with TWord _ | TInt _ | TDouble _ => true | _ => false end.

(* admissible token sequences with their trivia: every token and every trivia run is well
   formed, and two word-like tokens (word, integer, double) are separated by at least one
   blank or comment *)
Fixpoint lts_wf (lts : list ltok) (fin : trivia) : Prop :=
  match lts with
  | [] => trivia_ok true fin = true
  | (tr, t) :: r =>
    trivia_ok false tr = true /\ token_wf t /\
    (wordlike t = true ->
     match r with (tr', t') :: _ => tr' <> [] \/ wordlike t' = false | [] => True end) /\
    lts_wf r fin
  end.

Lemma token_bytes_first t : token_wf t -> exists c r, token_bytes t = c :: r /\ not_trivia_start (c :: r).
Proof.
  assert (N : forall s, (exists c r, s = c :: r /\ starts_number c = true) ->
                        exists c r, s = c :: r /\ not_trivia_start (c :: r)).
  { intros s (c & r & -> & H). exists c, r. split; [reflexivity|]. apply token_not_trivia.
    unfold starts_token. rewrite H, orb_true_r. reflexivity. }
  intros [w Hw | s Hs | s Hs | q raw Hq _ | c Hc]; cbn [token_bytes].
  - destruct w as [|c r]; [discriminate|]. cbn in Hw. apply andb_true_iff in Hw. destruct Hw as [Hw _].
    exists c, r. split; [reflexivity|]. apply token_not_trivia. unfold starts_token. rewrite Hw. reflexivity.
  - apply N, int_shape_first, Hs.
  - apply N, double_shape_first, Hs.
  - exists q, (raw ++ [q]). split; [reflexivity|]. apply token_not_trivia.
    unfold starts_token. rewrite Hq, orb_true_r. reflexivity.
  - exists c, []. split; [reflexivity|]. apply token_not_trivia. unfold starts_token. rewrite Hc. apply orb_true_r.
Qed.

Lemma tritem_first_safe i r : tritem_ok i = true ->
  exists c s, trivia_bytes (i :: r) = c :: s /\ safe_after c = true.
Proof.
  destruct i as [c|b|b|b]; cbn [tritem_ok]; intro H; rewrite trivia_bytes_cons; cbn [tritem_bytes app].
  - exists c, (trivia_bytes r). split; [reflexivity|]. unfold safe_after. rewrite H. reflexivity.
  - eexists _, _. split; [reflexivity | reflexivity].
  - eexists _, _. split; [reflexivity | reflexivity].
  - eexists _, _. split; [reflexivity | reflexivity].
Qed.

Lemma trivia_ok_head last i r : trivia_ok last (i :: r) = true -> tritem_ok i = true.
Proof. cbn [trivia_ok]. intro H. apply andb_true_iff in H. destruct H as [H _]. apply andb_true_iff in H. tauto. Qed.

Lemma ltoks_bytes_cons tr t r fin :
  ltoks_bytes ((tr, t) :: r) fin = trivia_bytes tr ++ token_bytes t ++ ltoks_bytes r fin.
Proof. unfold ltoks_bytes, ltok_bytes. cbn [map List.concat fst snd]. rewrite <- !app_assoc. reflexivity. Qed.

(* after a word-like token the printed text goes on with a byte that ends the token *)
Lemma stops_after r fin :
  lts_wf r fin ->
  match r with (tr', t') :: _ => tr' <> [] \/ wordlike t' = false | [] => True end ->
  stops (ltoks_bytes r fin).
Proof.
  intros Hwf Hsep. destruct r as [|[tr' t'] r'].
  - cbn in Hwf. unfold ltoks_bytes. cbn [map List.concat app].
    destruct fin as [|i fr]; [exact I|].
    destruct (tritem_first_safe i fr (trivia_ok_head _ _ _ Hwf)) as (c & s & -> & Hc). exact Hc.
  - cbn [lts_wf] in Hwf. destruct Hwf as (Htr & Htok & _ & _).
    rewrite ltoks_bytes_cons.
    destruct tr' as [|i tr''].
    + destruct Hsep as [H|H]; [contradiction|]. cbn [trivia_bytes map List.concat app].
      destruct Htok as [w Hw | s Hs | s Hs | q raw Hq _ | c Hc]; try discriminate; cbn [token_bytes app].
      * unfold stops, safe_after. rewrite Hq. rewrite !orb_true_r. reflexivity.
      * unfold stops, safe_after. rewrite Hc. rewrite !orb_true_r. reflexivity.
    + destruct (tritem_first_safe i tr'' (trivia_ok_head _ _ _ Htr)) as (c & s & -> & Hc). exact Hc.
Qed.

Lemma lex_token_printed t rest :
  token_wf t -> (wordlike t = true -> stops rest) ->
  lex_token (token_bytes t ++ rest) = Some (t, rest).
Proof.
  intros Hwf Hs. destruct Hwf as [w Hw | s Hsh | s Hsh | q raw Hq Hc | c Hc]; cbn [token_bytes].
  - apply lex_word; [exact Hw | exact (Hs eq_refl)].
  - destruct (int_shape_first s Hsh) as (c & r & -> & Hc).
    apply lex_token_number; [exact Hc|]. apply lex_number_int; [exact Hsh | exact (Hs eq_refl)].
  - destruct (double_shape_first s Hsh) as (c & r & -> & Hc).
    apply lex_token_number; [exact Hc|]. apply lex_number_double; [exact Hsh | exact (Hs eq_refl)].
  - cbn [app]. rewrite <- app_assoc. apply lex_literal; assumption.
  - apply lex_punct. exact Hc.
Qed.

Lemma trivia_len tr : List.length tr <= List.length (trivia_bytes tr).
Proof.
  induction tr as [|i r IH]; [cbn; lia|].
  rewrite trivia_bytes_cons, app_length. cbn [List.length].
  assert (1 <= List.length (tritem_bytes i)) by (destruct i; cbn; lia). lia.
Qed.

Lemma lex_all_printed : forall lts fin fuel,
  lts_wf lts fin -> List.length lts < fuel ->
  lex_all fuel (ltoks_bytes lts fin) = Some (lts, fin).
Proof.
  induction lts as [|[tr t] r IH]; intros fin fuel Hwf Hf.
  - destruct fuel as [|f]; [lia|]. cbn [lts_wf] in Hwf.
    unfold ltoks_bytes. cbn [map List.concat app lex_all].
    assert (H := lex_trivia_printed true fin (S (List.length (trivia_bytes fin))) [] Hwf).
    rewrite app_nil_r in H. rewrite H; [reflexivity | | exact I | reflexivity].
    assert (Hl := trivia_len fin). lia.
  - destruct fuel as [|f]; [cbn in Hf; lia|].
    cbn [lts_wf] in Hwf. destruct Hwf as (Htr & Htok & Hsep & Hr).
    rewrite ltoks_bytes_cons. cbn [lex_all].
    destruct (token_bytes_first t Htok) as (c & tb & Etb & Hnts).
    set (REST := ltoks_bytes r fin).
    assert (Hlt : lex_trivia (S (List.length (trivia_bytes tr ++ token_bytes t ++ REST)))
                             (trivia_bytes tr ++ token_bytes t ++ REST) = Some (tr, token_bytes t ++ REST)).
    { apply (lex_trivia_printed false); [exact Htr | | | discriminate].
      - rewrite app_length. assert (Hl := trivia_len tr). lia.
      - rewrite Etb. cbn [app]. exact Hnts. }
    rewrite Hlt.
    destruct (token_bytes t ++ REST) as [|c0 X] eqn:EX; [rewrite Etb in EX; discriminate|].
    rewrite <- EX.
    rewrite (lex_token_printed t REST Htok).
    2:{ intro Hw. apply (stops_after r fin Hr). exact (Hsep Hw). }
    unfold REST. rewrite (IH fin f Hr); [reflexivity | cbn in Hf; lia].
Qed.

Lemma ltoks_bytes_length lts fin : lts_wf lts fin -> List.length lts <= List.length (ltoks_bytes lts fin).
Proof.
  induction lts as [|[tr t] r IH]; intro Hwf; [cbn; lia|].
  cbn [lts_wf] in Hwf. destruct Hwf as (_ & Htok & _ & Hr).
  rewrite ltoks_bytes_cons, !app_length. cbn [List.length].
  destruct (token_bytes_first t Htok) as (c & tb & -> & _). specialize (IH Hr). cbn [List.length]. lia.
Qed.

(* lex_render: lexing the printed form of an admissible token sequence gives it back,
   trivia included *)
Theorem lex_ltoks_bytes lts fin : lts_wf lts fin -> lex (ltoks_bytes lts fin) = Some (lts, fin).
Proof.
  intro Hwf. unfold lex. apply lex_all_printed; [exact Hwf|].
  assert (H := ltoks_bytes_length lts fin Hwf). lia.
Qed.

Lemma span_spec p : forall s a b, span p s = (a, b) -> s = a ++ b /\ forallb p a = true.
Proof.
  induction s as [|c s IH]; intros a b H.
  - cbn in H. injection H as <- <-. split; reflexivity.
  - cbn [span] in H. destruct (p c) eqn:Ec.
    + destruct (span p s) as [a' b'] eqn:E. injection H as <- <-.
      destruct (IH a' b' eq_refl) as [-> Ha]. split; [reflexivity|]. cbn. rewrite Ec, Ha. reflexivity.
    + injection H as <- <-. split; reflexivity.
Qed.

Lemma split_sign_spec s sg r : split_sign s = (sg, r) -> s = sg ++ r /\ sign_ok sg = true.
Proof.
  unfold split_sign. destruct s as [|c s'].
  - intros [= <- <-]. split; reflexivity.
  - destruct (is_sign c) eqn:Ec; intros [= <- <-]; split; try reflexivity. cbn. exact Ec.
Qed.

Definition dec_okb (s : bytes) : bool :=
  let (sg, ds) := split_sign s in nonempty ds && forallb is_digit ds.

Definition int_text_okb (s : bytes) : bool :=
  match s with
  | z :: p :: r =>
    if Byte.eqb z c_0 && Byte.eqb p c_x then nonempty r && forallb is_alnum r
    else if Byte.eqb z c_0 && Byte.eqb p c_o then nonempty r && forallb is_digit r
    else dec_okb s
  | _ => dec_okb s
  end.

Lemma dec_okb_shape s : dec_okb s = true -> int_shape s.
Proof.
  unfold dec_okb. destruct (split_sign s) as [sg ds] eqn:E. intro H.
  apply andb_true_iff in H. destruct H as [H1 H2].
  destruct (split_sign_spec _ _ _ E) as [-> Hsg]. apply int_dec; assumption.
Qed.

Lemma int_text_okb_shape s : int_text_okb s = true -> int_shape s.
Proof.
  unfold int_text_okb. destruct s as [|z [|p r]]; try apply dec_okb_shape.
  destruct (Byte.eqb z c_0 && Byte.eqb p c_x) eqn:Ex.
  - apply andb_true_iff in Ex. destruct Ex as [Ez Ep]. apply byte_eqb_eq in Ez, Ep. subst.
    intro H. apply andb_true_iff in H. destruct H. apply int_hex; assumption.
  - destruct (Byte.eqb z c_0 && Byte.eqb p c_o) eqn:Eo; [|apply dec_okb_shape].
    apply andb_true_iff in Eo. destruct Eo as [Ez Ep]. apply byte_eqb_eq in Ez, Ep. subst.
    intro H. apply andb_true_iff in H. destruct H. apply int_oct; assumption.
Qed.

Definition double_text_okb (s : bytes) : bool :=
  let (sg, s1) := split_sign s in
  let (d1, s2) := span is_digit s1 in
  match s2 with
  | c :: s3 =>
    if Byte.eqb c c_dot then
      let (d2, ex) := span is_digit s3 in nonempty d2 && exp_ok ex
    else nonempty d1 && exp_ok s2
  | [] => false
  end.

Lemma double_text_okb_shape s : double_text_okb s = true -> double_shape s.
Proof.
  unfold double_text_okb. destruct (split_sign s) as [sg s1] eqn:E1.
  destruct (span is_digit s1) as [d1 s2] eqn:E2. intro H.
  destruct (split_sign_spec _ _ _ E1) as [-> Hsg]. destruct (span_spec _ _ _ _ E2) as [-> Hd1].
  destruct s2 as [|c s3]; [discriminate|].
  destruct (Byte.eqb c c_dot) eqn:Ec.
  - apply byte_eqb_eq in Ec. subst c. destruct (span is_digit s3) as [d2 ex] eqn:E3.
    destruct (span_spec _ _ _ _ E3) as [-> Hd2]. apply andb_true_iff in H. destruct H as [Hn Hex].
    apply dbl_frac; assumption.
  - apply andb_true_iff in H. destruct H as [Hn Hex]. apply dbl_exp; try assumption. reflexivity.
Qed.

Definition token_okb (t : token) : bool :=
  match t with
  | TWord w => word_ok w
  | TInt s => int_text_okb s
  | TDouble s => double_text_okb s
  | TLit q raw => is_quote q && lit_closed q raw
  | TPunct c => is_punct c
  end.

Lemma token_okb_wf t : token_okb t = true -> token_wf t.
Proof.
  destruct t; cbn [token_okb]; intro H.
  - apply twf_word. exact H.
  - apply twf_int. apply int_text_okb_shape. exact H.
  - apply twf_double. apply double_text_okb_shape. exact H.
  - apply andb_true_iff in H. destruct H. apply twf_lit; assumption.
  - apply twf_punct. exact H.
Qed.

Fixpoint lts_wfb (lts : list ltok) (fin : trivia) : bool :=
  match lts with
  | [] => trivia_ok true fin
  | (tr, t) :: r =>
    trivia_ok false tr && token_okb t &&
    (negb (wordlike t) ||
     match r with (tr', t') :: _ => nonempty tr' || negb (wordlike t') | [] => true end) &&
    lts_wfb r fin
  end.

Lemma lts_wfb_wf lts fin : lts_wfb lts fin = true -> lts_wf lts fin.
Proof.
  induction lts as [|[tr t] r IH]; cbn [lts_wfb lts_wf]; intro H; [exact H|].
  apply andb_true_iff in H. destruct H as [H Hr].
  apply andb_true_iff in H. destruct H as [H Hsep].
  apply andb_true_iff in H. destruct H as [Htr Htok].
  repeat split; [exact Htr | apply token_okb_wf; exact Htok | | apply IH; exact Hr].
  intro Hw. rewrite Hw in Hsep. cbn [negb orb] in Hsep.
  destruct r as [|[tr' t'] r']; [exact I|].
  apply orb_true_iff in Hsep. destruct Hsep as [Hs|Hs].
  - left. destruct tr'; [discriminate | discriminate].
  - right. apply negb_true_iff. exact Hs.
Qed.
