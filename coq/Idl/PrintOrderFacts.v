(* Idl/PrintOrderFacts.v — what [file_of] of parse_tokens_any_order (Idl/PrintFacts.v) holds:
   the per-kind lists are the definitions of that kind in source order. *)
From Coq Require Import List.
From Verif Require Import Idl.Ast Idl.Parse.
Import ListNotations.

Lemma file_of_structs n hs ds :
  f_structs (file_of n hs ds) =
  flat_map (fun d => match d with
                     | DStructLike s => match sl_category s with SKStruct => [s] | _ => [] end
                     | _ => [] end) ds.
Proof. reflexivity. Qed.
Lemma file_of_enums n hs ds :
  f_enums (file_of n hs ds) = flat_map (fun d => match d with DEnum e => [e] | _ => [] end) ds.
Proof. reflexivity. Qed.
