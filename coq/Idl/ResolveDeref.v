(* Idl/ResolveDeref.v — the specification is functional, the executable denotation is
   sound for it, and what it means that semantic.Deref arrives at a definition
   ([deref_to]; proved in Idl/ResolveFuel.v). *)
From Coq Require Import List.
From Verif Require Import Base.Bytes Idl.Ast Idl.AstUtil Idl.Resolve Idl.ResolveSpec Idl.ResolvableSpec.
Import ListNotations.
Local Open Scope resolve_scope.

Scheme def_denotes_min := Minimality for def_denotes Sort Prop
  with name_denotes_min := Minimality for name_denotes Sort Prop.
Combined Scheme denotes_mutind from def_denotes_min, name_denotes_min.

Lemma denotes_fun p :
  (forall fn n d, def_denotes p fn n d -> forall d', def_denotes p fn n d' -> d = d') /\
  (forall fn n d, name_denotes p fn n d -> forall d', name_denotes p fn n d' -> d = d').
Proof.
  apply denotes_mutind.
  - intros fn n vs H d' H'. inversion H'; subst; congruence.
  - intros fn n k H d' H'. inversion H'; subst; congruence.
  - intros fn n tgt d H _ IH d' H'. inversion H'; subst; try congruence.
    match goal with H2 : def_of p fn n = Some (DkTypedef ?t) |- _ => assert (t = tgt) by congruence; subst end. auto.
  - intros fn n c H d' H'. inversion H'; subst; congruence.
  - intros fn n a d Hb Hs _ IH d' H'. inversion H'; subst; try congruence.
    match goal with H2 : split_type n = [?x] |- _ => assert (x = a) by congruence; subst end. auto.
  - intros fn f n pre m i gn d Hb Hs Hf Hi _ IH d' H'. inversion H'; subst; try congruence.
    match goal with H2 : split_type n = [?x; ?y] |- _ => assert (x = pre /\ y = m) as (-> & ->) by (split; congruence) end.
    match goal with H2 : prog_file p fn = Some ?x |- _ => assert (x = f) by congruence; subst end.
    match goal with H2 : spec_include _ _ _ _ _ _ = Some (_, ?x) |- _ => assert (x = gn) by congruence; subst end. auto.
Qed.

Definition def_denotes_fun p := proj1 (denotes_fun p).
Definition name_denotes_fun p := proj2 (denotes_fun p).

Lemma denote_def_sound p (rec : bytes -> bytes -> option tdef) fn a d :
  (forall gn n, rec gn n = Some d -> name_denotes p gn n d) ->
  denote_def rec p fn a = Some d -> def_denotes p fn a d.
Proof.
  intros Hrec. unfold denote_def. destruct (def_of p fn a) as [kd|] eqn:Dk; [|discriminate].
  destruct kd as [tgt| |vs|s|]; try discriminate.
  - intros H. eapply dd_typedef; eauto.
  - intros [= <-]. eapply dd_enum; eauto.
  - intros [= <-]. eapply dd_struct; eauto.
Qed.

Lemma denote_sound p : forall fuel fn n d, denote fuel p fn n = Some d -> name_denotes p fn n d.
Proof.
  induction fuel as [|k IH]; intros fn n d H; cbn [denote] in H; [discriminate|].
  pose proof (fun gn a => denote_def_sound p (denote k p) gn a d (fun gn n => IH gn n d)) as Hdef.
  destruct (builtin_category n) as [c|] eqn:Bn; [injection H as <-; apply nd_builtin; exact Bn|].
  destruct (split_type n) as [|a [|m [|? ?]]] eqn:Sn; try discriminate.
  - eapply nd_local; eauto.
  - destruct (prog_file p fn) as [f|] eqn:Pf; [|discriminate].
    destruct (spec_include p is_type_kind a m (file_incs f) 0) as [[i gn]|] eqn:Si; [|discriminate].
    eapply nd_qualified; eauto.
Qed.

Definition deref_to (r : program) (g' : file) (t : ty) (d : tdef) : Prop :=
  exists fuel0 h' t',
    (forall fuel, fuel0 <= fuel -> deref fuel r g' t = Ok (h', t')) /\
    ty_category t' = kind d /\ ty_ref t' = None /\ ty_is_typedef t' <> Some true /\
    match d with
    | TBuiltin c => builtin_category (ty_name t') = Some c
    | TEnum gn m | TStruct gn m _ => prog_file r gn = Some h' /\ ty_name t' = m
    end.
