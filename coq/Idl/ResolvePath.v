(* Idl/ResolvePath.v — the typedefs a denotation passes through: pairwise distinct, hence
   never more than the program has.  This is what makes the concrete fuels of the model
   sufficient. *)
From Coq Require Import List Arith Lia.
From Verif Require Import Base.Bytes Idl.Ast Idl.AstUtil Idl.AstFacts Idl.Resolve Idl.ResolveSpec Idl.ResolveTd Idl.ResolveLemmas Idl.ResolveInv
  Idl.ResolveDeref Idl.ResolvableSpec.
Import ListNotations.

(* [def_path p fn n d l]: [def_denotes p fn n d], and [l] lists the typedefs (file, alias)
   the chain passes through, in order *)
Inductive def_path (p : program) : bytes -> bytes -> tdef -> list (bytes * bytes) -> Prop :=
| dp_enum fn n vs : def_of p fn n = Some (DkEnum vs) -> def_path p fn n (TEnum fn n) []
| dp_struct fn n k : def_of p fn n = Some (DkStruct k) -> def_path p fn n (TStruct fn n k) []
| dp_typedef fn n tgt d l :
    def_of p fn n = Some (DkTypedef tgt) -> name_path p fn tgt d l -> def_path p fn n d ((fn, n) :: l)
with name_path (p : program) : bytes -> bytes -> tdef -> list (bytes * bytes) -> Prop :=
| np_builtin fn n c : builtin_category n = Some c -> name_path p fn n (TBuiltin c) []
| np_local fn n a d l :
    builtin_category n = None -> split_type n = [a] -> def_path p fn a d l -> name_path p fn n d l
| np_qualified fn f n pre m i gn d l :
    builtin_category n = None -> split_type n = [pre; m] -> prog_file p fn = Some f ->
    spec_include p is_type_kind pre m (file_incs f) 0 = Some (i, gn) ->
    def_path p gn m d l -> name_path p fn n d l.

Scheme def_path_min := Minimality for def_path Sort Prop
  with name_path_min := Minimality for name_path Sort Prop.
Combined Scheme path_mutind from def_path_min, name_path_min.

Lemma denotes_path p :
  (forall fn n d, def_denotes p fn n d -> exists l, def_path p fn n d l) /\
  (forall fn n d, name_denotes p fn n d -> exists l, name_path p fn n d l).
Proof.
  apply denotes_mutind.
  - intros. eexists. eapply dp_enum; eauto.
  - intros. eexists. eapply dp_struct; eauto.
  - intros fn n tgt d H _ (l & Hl). eexists. eapply dp_typedef; eauto.
  - intros. eexists. eapply np_builtin; eauto.
  - intros fn n a d Hb Hs _ (l & Hl). eexists. eapply np_local; eauto.
  - intros fn f n pre m i gn d Hb Hs Hf Hi _ (l & Hl). eexists. eapply np_qualified; eauto.
Qed.

Lemma path_denotes p :
  (forall fn n d l, def_path p fn n d l -> def_denotes p fn n d) /\
  (forall fn n d l, name_path p fn n d l -> name_denotes p fn n d).
Proof.
  apply path_mutind; intros.
  - eapply dd_enum; eauto.
  - eapply dd_struct; eauto.
  - eapply dd_typedef; eauto.
  - eapply nd_builtin; eauto.
  - eapply nd_local; eauto.
  - eapply nd_qualified; eauto.
Qed.

Lemma path_fun p :
  (forall fn n d l, def_path p fn n d l -> forall d' l', def_path p fn n d' l' -> l' = l) /\
  (forall fn n d l, name_path p fn n d l -> forall d' l', name_path p fn n d' l' -> l' = l).
Proof.
  apply path_mutind.
  - intros fn n vs H d' l' H'. inversion H'; subst; congruence.
  - intros fn n k H d' l' H'. inversion H'; subst; congruence.
  - intros fn n tgt d l H _ IH d' l' H'. inversion H'; subst; try congruence.
    match goal with H2 : def_of p fn n = Some (DkTypedef ?t) |- _ => assert (t = tgt) by congruence; subst end.
    f_equal. eapply IH; eauto.
  - intros fn n c H d' l' H'. inversion H'; subst; congruence.
  - intros fn n a d l Hb Hs _ IH d' l' H'. inversion H'; subst; try congruence.
    match goal with H2 : split_type n = [?x] |- _ => assert (x = a) by congruence; subst end. eapply IH; eauto.
  - intros fn f n pre m i gn d l Hb Hs Hf Hi _ IH d' l' H'. inversion H'; subst; try congruence.
    match goal with H2 : split_type n = [?x; ?y] |- _ => assert (x = pre /\ y = m) as (-> & ->) by (split; congruence) end.
    match goal with H2 : prog_file p fn = Some ?x |- _ => assert (x = f) by congruence; subst end.
    match goal with H2 : spec_include _ _ _ _ _ _ = Some (_, ?x) |- _ => assert (x = gn) by congruence; subst end.
    eapply IH; eauto.
Qed.

Lemma path_suffix p :
  (forall fn n d l, def_path p fn n d l -> forall l1 gn m l2, l = l1 ++ (gn, m) :: l2 -> def_path p gn m d ((gn, m) :: l2)) /\
  (forall fn n d l, name_path p fn n d l -> forall l1 gn m l2, l = l1 ++ (gn, m) :: l2 -> def_path p gn m d ((gn, m) :: l2)).
Proof.
  apply path_mutind.
  - intros fn n vs H l1 gn m l2 E. destruct l1; discriminate.
  - intros fn n k H l1 gn m l2 E. destruct l1; discriminate.
  - intros fn n tgt d l H Hn IH l1 gn m l2 E. destruct l1 as [|x l1]; cbn [app] in E.
    + injection E as <- <- <-. eapply dp_typedef; eauto.
    + injection E as _ E. eapply IH; eauto.
  - intros fn n c H l1 gn m l2 E. destruct l1; discriminate.
  - intros fn n a d l Hb Hs _ IH l1 gn m l2 E. eapply IH; eauto.
  - intros fn f n pre m i gn d l Hb Hs Hf Hi _ IH l1 gn' m' l2 E. eapply IH; eauto.
Qed.

Lemma def_path_NoDup p fn n d l : def_path p fn n d l -> NoDup l.
Proof.
  (* a typedef occurring twice would start two suffixes of the path, of different lengths,
     and both are the path of that typedef ([path_suffix]): against [path_fun] *)
  intros H. remember (length l) as k eqn:Hk. revert fn n d l H Hk.
  induction k as [k IHk] using lt_wf_ind. intros fn n d l H Hk.
  destruct l as [|[gn m] l2]; [constructor|]. constructor.
  - intros Hin. apply in_split in Hin. destruct Hin as (l3 & l4 & E).
    pose proof (proj1 (path_suffix p) _ _ _ _ H [] gn m l2 eq_refl) as H1.
    pose proof (proj1 (path_suffix p) _ _ _ _ H ((gn, m) :: l3) gn m l4 ltac:(cbn [app]; rewrite E; reflexivity)) as H2.
    pose proof (proj1 (path_fun p) _ _ _ _ H1 _ _ H2) as E2. injection E2 as E2.
    assert (length l4 = length l2) by (rewrite E2; reflexivity). rewrite E, app_length in H0. cbn [length] in H0. lia.
  - destruct l2 as [|[gn2 m2] l3]; [constructor|].
    pose proof (proj1 (path_suffix p) _ _ _ _ H [(gn, m)] gn2 m2 l3 eq_refl) as H1.
    eapply (IHk (length ((gn2, m2) :: l3))); [subst k; cbn [length]; lia | exact H1 | reflexivity].
Qed.

Definition all_typedefs (p : program) : list (bytes * bytes) :=
  flat_map' (fun e => map (fun td => (fst e, td_alias td)) (f_typedefs (snd e))) p.

Lemma all_typedefs_length p : length (all_typedefs p) = prog_typedef_count p.
Proof.
  unfold all_typedefs, flat_map', prog_typedef_count. induction p as [|e p IH]; cbn [map concat fold_right]; [reflexivity|].
  rewrite app_length, map_length, IH. reflexivity.
Qed.

Lemma in_all_typedefs r gn g' m td' : prog_file r gn = Some g' -> find_typedef g' m = Some td' -> In (gn, m) (all_typedefs r).
Proof.
  intros Hg Ft. unfold prog_file in Hg. apply lookup_In in Hg. unfold find_typedef in Ft.
  destruct (find_by_In _ _ _ _ Ft) as (Hin & Ha). unfold all_typedefs. apply in_flat_map'. exists (gn, g'). split; [exact Hg|].
  cbn [fst snd]. apply in_map_iff. exists td'. rewrite Ha. auto.
Qed.

Lemma def_of_typedef_in p fn n tgt : def_of p fn n = Some (DkTypedef tgt) -> In (fn, n) (all_typedefs p).
Proof.
  unfold def_of, prog_file. destruct (lookup fn p) as [f|] eqn:L; [|discriminate]. intros H.
  apply lookup_In in L. unfold all_typedefs. apply in_flat_map'. exists (fn, f). split; [exact L|].
  cbn [fst snd]. destruct (file_defs_typedef_inv f n tgt H) as (td & Hin & <- & _). apply in_map_iff. exists td. auto.
Qed.

Lemma path_incl p :
  (forall fn n d l, def_path p fn n d l -> incl l (all_typedefs p)) /\
  (forall fn n d l, name_path p fn n d l -> incl l (all_typedefs p)).
Proof.
  apply path_mutind; intros; try (intros x []; fail); auto.
  intros x [<-|Hx]; [eapply def_of_typedef_in; eauto | auto].
Qed.

(* the pigeonhole: a chain passes through at most as many typedefs as the program has *)
Theorem def_path_bound p fn n d l : def_path p fn n d l -> length l <= prog_typedef_count p.
Proof.
  intros H. rewrite <- all_typedefs_length. apply NoDup_incl_length; [eapply def_path_NoDup; eauto | eapply (proj1 (path_incl p)); eauto].
Qed.

Theorem name_path_bound p fn n d l : name_path p fn n d l -> length l <= prog_typedef_count p.
Proof.
  intros H. destruct H as [| fn n a d l Hb Hs Hd | fn f n pre m i gn d l Hb Hs Hf Hi Hd]; [cbn; lia | |]; eapply def_path_bound; eauto.
Qed.

Lemma denote_path p :
  (forall fn n d l, def_path p fn n d l -> forall k, length l <= k -> denote_def (denote k p) p fn n = Some d) /\
  (forall fn n d l, name_path p fn n d l -> forall k, length l < k -> denote k p fn n = Some d).
Proof.
  apply path_mutind.
  - intros fn n vs H k _. unfold denote_def. rewrite H. reflexivity.
  - intros fn n kk H k _. unfold denote_def. rewrite H. reflexivity.
  - intros fn n tgt d l H _ IH k Hk. unfold denote_def. rewrite H. apply IH. cbn [length] in Hk. lia.
  - intros fn n c H k Hk. destruct k; [lia|]. cbn [denote]. rewrite H. reflexivity.
  - intros fn n a d l Hb Hs _ IH k Hk. destruct k; [lia|]. cbn [denote]. rewrite Hb, Hs. apply IH. lia.
  - intros fn f n pre m i gn d l Hb Hs Hf Hi _ IH k Hk. destruct k; [lia|]. cbn [denote]. rewrite Hb, Hs, Hf, Hi. apply IH. lia.
Qed.

Theorem denote_complete p fn n d : name_denotes p fn n d -> denote (denote_fuel p) p fn n = Some d.
Proof.
  intros H. destruct (proj2 (denotes_path p) _ _ _ H) as (l & Hl).
  apply (proj2 (denote_path p) _ _ _ _ Hl). pose proof (name_path_bound _ _ _ _ _ Hl). unfold denote_fuel. lia.
Qed.

Theorem denotes_b_iff p fn n : denotes_b p fn n = true <-> exists d, name_denotes p fn n d.
Proof.
  split.
  - unfold denotes_b. destruct (denote (denote_fuel p) p fn n) as [d|] eqn:E; [|discriminate].
    intros _. exists d. exact (denote_sound p _ _ _ _ E).
  - intros (d & H). unfold denotes_b. rewrite (denote_complete _ _ _ _ H). reflexivity.
Qed.
