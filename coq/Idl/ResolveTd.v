(* Idl/ResolveTd.v — facts about the typedef fixpoint of Idl/Resolve.v
   (te_step / te_round / te_fix) against the abstract chain relation [te_chain] of
   Idl/ResolveSpec.v: soundness, completeness on resolvable states (with the fuel
   resolve_file_in uses), independence of the order of the entries. *)
From Coq Require Import List Arith Lia Permutation.
From Verif Require Import Base.Bytes Idl.AstUtil Idl.Resolve Idl.ResolveSpec.
Import ListNotations.

Definition pend (e : tde) : bool := is_typedef_cat (te_cat e).

Lemma te_step_cases st e :
  te_step st e = e \/
  (pend e = true /\ exists a c, te_local e = Some a /\ te_lookup st a = Some c /\
     is_typedef_cat c = false /\ te_step st e = Tde (te_alias e) (te_local e) c).
Proof.
  unfold te_step, pend. destruct (is_typedef_cat (te_cat e)) eqn:P; [|auto].
  destruct (te_local e) as [a|] eqn:L; [|auto].
  destruct (te_lookup st a) as [c|] eqn:K; [|auto].
  destruct (is_typedef_cat c) eqn:C; [auto|].
  right. split; [reflexivity|]. exists a, c. auto.
Qed.

Lemma te_step_alias st e : te_alias (te_step st e) = te_alias e.
Proof. destruct (te_step_cases st e) as [->|(_ & a & c & _ & _ & _ & ->)]; reflexivity. Qed.

Lemma te_step_local st e : te_local (te_step st e) = te_local e.
Proof. destruct (te_step_cases st e) as [->|(_ & a & c & _ & _ & _ & ->)]; reflexivity. Qed.

Lemma te_step_resolved st e : pend e = false -> te_step st e = e.
Proof. unfold te_step, pend. intros ->. reflexivity. Qed.

Definition mono (e e' : tde) : Prop :=
  te_alias e' = te_alias e /\ te_local e' = te_local e /\ (e' = e \/ (pend e = true /\ pend e' = false)).

Lemma mono_refl e : mono e e.
Proof. unfold mono. auto. Qed.

Lemma te_step_mono st x e : mono x e -> mono x (te_step st e).
Proof.
  intros M. destruct (te_step_cases st e) as [->|(Hp & a & c & Hl & Hk & Hc & ->)]; [exact M|].
  destruct M as (Ma & Ml & Mc). unfold mono. cbn [te_alias te_local]. split; [exact Ma|]. split; [exact Ml|].
  right. split; [|exact Hc]. destruct Mc as [->|(Hpx & Hpe)]; [exact Hp | congruence].
Qed.

Lemma te_round_ind (J : list tde -> list tde -> Prop) :
  (forall pre e r, J pre (e :: r) -> J (pre ++ [te_step (pre ++ e :: r) e]) r) ->
  forall rest pre, J pre rest -> J (te_round pre rest) [].
Proof.
  intros Hstep rest. induction rest as [|e r IH]; intros pre HJ; cbn [te_round]; [exact HJ|].
  apply IH. apply Hstep. exact HJ.
Qed.

Lemma te_round_whole (I : list tde -> Prop) :
  (forall pre e r, I (pre ++ e :: r) -> I (pre ++ te_step (pre ++ e :: r) e :: r)) ->
  forall st, I st -> I (te_round [] st).
Proof.
  intros Hstep st HI.
  pose proof (te_round_ind (fun pre rest => I (pre ++ rest))) as H.
  cbn beta in H. specialize (H ltac:(intros pre e r HJ; rewrite <- app_assoc; cbn [app]; apply Hstep; exact HJ) st [] HI).
  rewrite app_nil_r in H. exact H.
Qed.

Lemma find_by_In {A} (key : A -> bytes) k l x : find_by key k l = Some x -> In x l /\ key x = k.
Proof.
  induction l as [|y l IH]; cbn [find_by]; [discriminate|].
  destruct (beqb (key y) k) eqn:E.
  - intros [= ->]. apply beqb_true in E. split; [left; reflexivity | exact E].
  - intros H. destruct (IH H). split; [right; assumption | assumption].
Qed.

Lemma find_by_NoDup {A} (key : A -> bytes) l x :
  NoDup (map key l) -> In x l -> find_by key (key x) l = Some x.
Proof.
  induction l as [|y l IH]; cbn [find_by map]; [intros _ []|].
  intros ND [->|Hin].
  - rewrite beqb_refl. reflexivity.
  - inversion ND as [|? ? Hn ND']; subst.
    destruct (beqb (key y) (key x)) eqn:E.
    + apply beqb_true in E. exfalso. apply Hn. rewrite E. apply in_map. exact Hin.
    + apply IH; assumption.
Qed.

Lemma find_by_none {A} (key : A -> bytes) k l : find_by key k l = None -> ~ In k (map key l).
Proof.
  induction l as [|y l IH]; cbn [find_by map]; [auto|].
  destruct (beqb (key y) k) eqn:E; [discriminate|].
  intros H [H1|H1]; [apply beqb_false in E; auto | exact (IH H H1)].
Qed.

Lemma te_lookup_In st a c : te_lookup st a = Some c -> exists e, In e st /\ te_alias e = a /\ te_cat e = c.
Proof.
  unfold te_lookup. destruct (find_by te_alias a st) as [e|] eqn:F; [|discriminate].
  intros [= <-]. destruct (find_by_In _ _ _ _ F). eauto.
Qed.

Lemma te_lookup_NoDup st e : NoDup (map te_alias st) -> In e st -> te_lookup st (te_alias e) = Some (te_cat e).
Proof. intros ND Hin. unfold te_lookup. rewrite (find_by_NoDup te_alias st e ND Hin). reflexivity. Qed.

Definition te_inv (st0 st : list tde) : Prop :=
  Forall2 (fun e0 e => mono e0 e /\ (pend e = false -> te_chain st0 (te_alias e0) (te_cat e))) st0 st.

Lemma Forall2_diag {A} (R : A -> A -> Prop) l : (forall x, In x l -> R x x) -> Forall2 R l l.
Proof.
  induction l as [|x l IH]; intros H; constructor; [apply H; left; reflexivity|].
  apply IH. intros y Hy. apply H. right. exact Hy.
Qed.

Lemma Forall2_impl_r {A B} (R S : A -> B -> Prop) l l' :
  Forall2 R l l' -> (forall x y, In y l' -> R x y -> S x y) -> Forall2 S l l'.
Proof.
  induction 1 as [|x y l l' Rxy _ IH]; intros H; constructor; [apply H; [left; reflexivity | exact Rxy]|].
  apply IH. intros a b Hb. apply H. right. exact Hb.
Qed.

Lemma te_inv_refl st0 : te_inv st0 st0.
Proof. apply Forall2_diag. intros e Hin. split; [apply mono_refl | exact (tc_done st0 e Hin)]. Qed.

Lemma Forall2_app_inv_r' {A B} (R : A -> B -> Prop) l pre e r :
  Forall2 R l (pre ++ e :: r) ->
  exists l1 e0 l2, l = l1 ++ e0 :: l2 /\ Forall2 R l1 pre /\ R e0 e /\ Forall2 R l2 r.
Proof.
  intros H. apply Forall2_app_inv_r in H. destruct H as (l1 & l2' & H1 & H2 & ->).
  inversion H2 as [|e0 ? l2 ? Re H2']; subst. exists l1, e0, l2. auto.
Qed.

Lemma Forall2_len {A B} (R : A -> B -> Prop) l l' : Forall2 R l l' -> length l = length l'.
Proof. induction 1; cbn; congruence. Qed.

Lemma Forall2_In_r {A B} (R : A -> B -> Prop) l l' y :
  Forall2 R l l' -> In y l' -> exists x, In x l /\ R x y.
Proof.
  induction 1 as [|a b l l' Rab _ IH]; [intros []|].
  intros [<-|Hin]; [exists a; cbn; auto|]. destruct (IH Hin) as (x & ? & ?). exists x. cbn. auto.
Qed.

Lemma Forall2_In_l {A B} (R : A -> B -> Prop) l l' x :
  Forall2 R l l' -> In x l -> exists y, In y l' /\ R x y.
Proof.
  induction 1 as [|a b l l' Rab _ IH]; [intros []|].
  intros [<-|Hin]; [exists b; cbn; auto|]. destruct (IH Hin) as (y & ? & ?). exists y. cbn. auto.
Qed.

Lemma te_inv_step st0 pre e r :
  te_inv st0 (pre ++ e :: r) -> te_inv st0 (pre ++ te_step (pre ++ e :: r) e :: r).
Proof.
  intros Hinv. pose proof Hinv as Hinv0.
  apply Forall2_app_inv_r' in Hinv. destruct Hinv as (l1 & e0 & l2 & -> & H1 & (Me & He) & H2).
  apply Forall2_app; [exact H1|]. constructor; [|exact H2]. split; [apply te_step_mono; exact Me|].
  destruct (te_step_cases (pre ++ e :: r) e) as [->|(Hp & a & c & Hl & Hk & Hc & ->)]; [exact He|].
  intros _. cbn [te_cat].
  (* the target [a] is resolved in the current state, so it carries the end of its chain; [e0] is one hop before it *)
  destruct (te_lookup_In _ _ _ Hk) as (x & Hx & Hxa & Hxc).
  destruct (Forall2_In_r _ _ _ _ Hinv0 Hx) as (x0 & Hx0 & ((Hxa0 & _) & Hch)).
  rewrite <- Hxc in Hc. specialize (Hch Hc). rewrite <- Hxa0, Hxa, Hxc in Hch.
  destruct Me as (_ & Ml & Mc).
  apply tc_step with (b := a); [apply in_elt | | congruence | exact Hch].
  destruct Mc as [->|(Hp0 & Hpe)]; [exact Hp | congruence].
Qed.

Lemma te_inv_round st0 st : te_inv st0 st -> te_inv st0 (te_round [] st).
Proof. apply (te_round_whole (te_inv st0)). intros pre e r. apply te_inv_step. Qed.

Lemma te_pending_zero st : te_pending st = 0 -> forall e, In e st -> pend e = false.
Proof.
  unfold te_pending. intros H e Hin. destruct (pend e) eqn:P; [|reflexivity].
  assert (In e (filter (fun e => is_typedef_cat (te_cat e)) st)) as Hf by (apply filter_In; auto).
  destruct (filter _ st); [destruct Hf | discriminate].
Qed.

Lemma te_fix_inv st0 : forall fuel st st', te_inv st0 st -> te_fix fuel st = Ok st' ->
  te_inv st0 st' /\ te_pending st' = 0.
Proof.
  induction fuel as [|k IH]; intros st st' Hinv; cbn [te_fix].
  - destruct (te_pending st =? 0) eqn:E; [|discriminate]. intros [= <-]. apply Nat.eqb_eq in E. auto.
  - destruct (te_pending st =? 0) eqn:E; [intros [= <-]; apply Nat.eqb_eq in E; auto|].
    destruct (te_pending (te_round [] st) =? te_pending st); [discriminate|].
    apply IH. apply te_inv_round. exact Hinv.
Qed.

Theorem te_fix_sound st0 fuel st :
  te_fix fuel st0 = Ok st ->
  Forall2 (fun e0 e => te_alias e = te_alias e0 /\ te_local e = te_local e0 /\
                       is_typedef_cat (te_cat e) = false /\ te_chain st0 (te_alias e0) (te_cat e)) st0 st.
Proof.
  intros H. destruct (te_fix_inv st0 fuel st0 st (te_inv_refl st0) H) as (Hinv & Hz).
  apply (Forall2_impl_r _ _ _ _ Hinv). intros e0 e Hin ((Ha & Hl & _) & Hch).
  pose proof (te_pending_zero st Hz e Hin) as Hp. split; [exact Ha|]. split; [exact Hl|]. split; [exact Hp | exact (Hch Hp)].
Qed.

Lemma NoDup_alias_eq st e1 e2 :
  NoDup (map te_alias st) -> In e1 st -> In e2 st -> te_alias e1 = te_alias e2 -> e1 = e2.
Proof.
  intros ND H1 H2 E. pose proof (find_by_NoDup te_alias st e1 ND H1) as F1.
  pose proof (find_by_NoDup te_alias st e2 ND H2) as F2. rewrite E in F1. congruence.
Qed.

Lemma te_chain_fun st0 a c : NoDup (map te_alias st0) ->
  te_chain st0 a c -> forall c', te_chain st0 a c' -> c = c'.
Proof.
  intros ND H. induction H as [e Hin Hp | e b c Hin Hp Hl Hch IH]; intros c' H'.
  - inversion H' as [e' Hin' Hp' Ea | e' b' c2 Hin' Hp' Hl' Hch' Ea]; subst.
    + rewrite (NoDup_alias_eq st0 e' e ND Hin' Hin Ea). reflexivity.
    + rewrite (NoDup_alias_eq st0 e' e ND Hin' Hin Ea) in Hp'. congruence.
  - inversion H' as [e' Hin' Hp' Ea | e' b' c2 Hin' Hp' Hl' Hch' Ea]; subst.
    + rewrite (NoDup_alias_eq st0 e' e ND Hin' Hin Ea) in Hp'. congruence.
    + pose proof (NoDup_alias_eq st0 e' e ND Hin' Hin Ea) as ->.
      assert (b' = b) as -> by congruence. apply IH. exact Hch'.
Qed.

Lemma te_chain_perm st0 st1 a c : Permutation st0 st1 -> te_chain st0 a c -> te_chain st1 a c.
Proof.
  intros P H. induction H as [e Hin Hp | e b c Hin Hp Hl Hch IH].
  - apply tc_done; [eapply Permutation_in; eauto | exact Hp].
  - apply tc_step with (b := b); [eapply Permutation_in; eauto | exact Hp | exact Hl | exact IH].
Qed.

Lemma te_chain_entry st0 a c : te_chain st0 a c -> exists e, In e st0 /\ te_alias e = a.
Proof. destruct 1; eauto. Qed.

Lemma te_chain_end st0 a c : te_chain st0 a c -> is_typedef_cat c = false.
Proof. induction 1; assumption. Qed.

Lemma te_lookup_mono st st' b c :
  Forall2 mono st st' -> te_lookup st b = Some c -> is_typedef_cat c = false -> te_lookup st' b = Some c.
Proof.
  unfold te_lookup. induction 1 as [|e e' l l' M _ IH]; cbn [find_by]; [discriminate|].
  destruct M as (Ma & _ & Mc). rewrite Ma.
  destruct (beqb (te_alias e) b) eqn:E.
  - intros [= <-] Hc. destruct Mc as [->|(Hp & _)]; [reflexivity|]. unfold pend in Hp. congruence.
  - exact IH.
Qed.

Definition ready (st : list tde) (x : tde) : Prop :=
  pend x = false \/ exists b c, te_local x = Some b /\ te_lookup st b = Some c /\ is_typedef_cat c = false.

(* what [te_round_ind] carries through one round over [st], with [pre] already stepped and [rest] to come:
   entries only move forward, and an entry that was ready in [st] is resolved once the round has passed it *)
Definition progJ (st : list tde) (pre rest : list tde) : Prop :=
  Forall2 mono st (pre ++ rest) /\
  forall i x, nth_error st i = Some x -> i < length pre -> ready st x ->
              exists x', nth_error pre i = Some x' /\ pend x' = false.

Lemma Forall2_nth {A B} (R : A -> B -> Prop) l l' i y :
  Forall2 R l l' -> nth_error l' i = Some y -> exists x, nth_error l i = Some x /\ R x y.
Proof.
  intros H. revert i. induction H as [|a b l l' Rab _ IH]; intros [|i]; cbn; try discriminate.
  - intros [= <-]. eauto.
  - apply IH.
Qed.

Lemma Forall2_nth_l {A B} (R : A -> B -> Prop) l l' i x :
  Forall2 R l l' -> nth_error l i = Some x -> exists y, nth_error l' i = Some y /\ R x y.
Proof.
  intros H. revert i. induction H as [|a b l l' Rab _ IH]; intros [|i]; cbn; try discriminate.
  - intros [= <-]. eauto.
  - apply IH.
Qed.

Lemma progJ_step st pre e r :
  progJ st pre (e :: r) -> progJ st (pre ++ [te_step (pre ++ e :: r) e]) r.
Proof.
  intros (HM & HR). set (whole := pre ++ e :: r) in *. set (e' := te_step whole e).
  assert (Hex : exists x, nth_error st (length pre) = Some x /\ mono x e).
  { apply (Forall2_nth mono st whole (length pre) e HM). unfold whole.
    rewrite nth_error_app2 by lia. rewrite Nat.sub_diag. reflexivity. }
  destruct Hex as (x & Hx & Mxe).
  pose proof (te_step_mono whole x e Mxe) as Mxe'. fold e' in Mxe'.
  split.
  - rewrite <- app_assoc. cbn [app].
    apply Forall2_app_inv_r' in HM. destruct HM as (l1 & e0 & l2 & -> & H1 & He & H2).
    apply Forall2_app; [exact H1|]. constructor; [|exact H2].
    assert (length l1 = length pre) as Hlen by (eapply Forall2_len; eauto).
    rewrite nth_error_app2 in Hx by lia. rewrite Hlen, Nat.sub_diag in Hx. cbn in Hx.
    injection Hx as ->. exact Mxe'.
  - intros i y Hy Hi Hry. rewrite app_length in Hi. cbn [length] in Hi.
    destruct (Nat.eq_dec i (length pre)) as [->|Hne].
    + rewrite nth_error_app2 by lia. rewrite Nat.sub_diag. cbn.
      exists e'. split; [reflexivity|]. assert (y = x) as -> by congruence.
      destruct Hry as [Hpx|(b & c & Hl & Hk & Hc)].
      * destruct Mxe' as (_ & _ & [->|(Hp & _)]); [exact Hpx | congruence].
      * unfold e'. destruct Mxe as (Ma & Ml & [->|(_ & Hpe)]).
        -- unfold te_step. destruct (is_typedef_cat (te_cat x)) eqn:Px; [|exact Px].
           rewrite Hl. rewrite (te_lookup_mono st whole b c HM Hk Hc). rewrite Hc. exact Hc.
        -- rewrite te_step_resolved by exact Hpe. exact Hpe.
    + assert (i < length pre) as Hi' by lia.
      destruct (HR i y Hy Hi' Hry) as (y' & Hy' & Py'). exists y'. split; [|exact Py'].
      rewrite nth_error_app1 by lia. exact Hy'.
Qed.

Lemma te_round_progress st :
  Forall2 mono st (te_round [] st) /\
  forall i x, nth_error st i = Some x -> ready st x ->
              exists x', nth_error (te_round [] st) i = Some x' /\ pend x' = false.
Proof.
  pose proof (te_round_ind (progJ st) (progJ_step st) st []) as H.
  assert (progJ st [] st) as H0.
  { split; [apply Forall2_diag; intros; apply mono_refl|]. intros i x _ Hi. cbn in Hi. lia. }
  specialize (H H0). destruct H as (HM & HR). rewrite app_nil_r in HM. split; [exact HM|].
  intros i x Hx Hr. apply (HR i x Hx); [|exact Hr].
  rewrite <- (Forall2_len _ _ _ HM). apply nth_error_Some. congruence.
Qed.

Lemma pending_mono st st' : Forall2 mono st st' -> te_pending st' <= te_pending st.
Proof.
  unfold te_pending. induction 1 as [|e e' l l' M _ IH]; cbn [filter length]; [lia|].
  destruct M as (_ & _ & [->|(Hp & Hp')]).
  - destruct (is_typedef_cat (te_cat e)); cbn [length]; lia.
  - unfold pend in *. rewrite Hp, Hp'. cbn [length]. lia.
Qed.

Lemma pending_mono_strict st st' i x x' :
  Forall2 mono st st' -> nth_error st i = Some x -> nth_error st' i = Some x' ->
  pend x = true -> pend x' = false -> te_pending st' < te_pending st.
Proof.
  intros H. revert i. induction H as [|e e' l l' M HF IH]; intros [|i]; cbn [nth_error]; try discriminate.
  - intros [= ->] [= ->] Hp Hp'. pose proof (pending_mono _ _ HF) as Hle.
    unfold te_pending in *. cbn [filter]. unfold pend in *. rewrite Hp, Hp'. cbn [length]. lia.
  - intros Hx Hx' Hp Hp'. specialize (IH i Hx Hx' Hp Hp').
    unfold te_pending in *. cbn [filter]. destruct M as (_ & _ & [->|(Hq & Hq')]).
    + destruct (is_typedef_cat (te_cat e)); cbn [length]; lia.
    + unfold pend in *. rewrite Hq, Hq'. cbn [length]. lia.
Qed.

Lemma Forall2_aliases (R : tde -> tde -> Prop) st0 st :
  (forall e0 e, R e0 e -> te_alias e = te_alias e0) -> Forall2 R st0 st -> map te_alias st = map te_alias st0.
Proof. intros HR. induction 1 as [|a b l l' Hab _ IH]; [reflexivity|]. cbn [map]. rewrite (HR a b Hab), IH. reflexivity. Qed.

Lemma te_inv_origin st0 st e0 e :
  te_inv st0 st -> NoDup (map te_alias st0) -> In e0 st0 -> In e st -> te_alias e = te_alias e0 -> mono e0 e.
Proof.
  intros Hinv ND Hin0 Hin Ha. destruct (Forall2_In_r _ _ _ _ Hinv Hin) as (e1 & Hin1 & (M & _)).
  rewrite <- (NoDup_alias_eq st0 e1 e0 ND Hin1 Hin0); [exact M|]. rewrite <- Ha. symmetry. exact (proj1 M).
Qed.

Lemma exists_ready st0 st a c :
  te_inv st0 st -> NoDup (map te_alias st0) -> te_chain st0 a c ->
  forall e, In e st -> te_alias e = a -> pend e = true ->
  exists x, In x st /\ pend x = true /\ ready st x.
Proof.
  intros Hinv ND Hch.
  assert (NDs : NoDup (map te_alias st)) by (rewrite (Forall2_aliases _ _ _ (fun e0 e H => proj1 (proj1 H)) Hinv); exact ND).
  induction Hch as [e0 Hin0 Hp0 | e0 b c Hin0 Hp0 Hl0 Hch IH]; intros e Hin Ha Hp.
  - exfalso. destruct (te_inv_origin _ _ _ _ Hinv ND Hin0 Hin Ha) as (_ & _ & [->|(Hp1 & _)]); unfold pend in *; congruence.
  - destruct (te_inv_origin _ _ _ _ Hinv ND Hin0 Hin Ha) as (_ & Hl1 & _).
    destruct (te_chain_entry _ _ _ Hch) as (b0 & Hb0 & Hb0a).
    destruct (Forall2_In_l _ _ _ _ Hinv Hb0) as (eb & Hbin & ((Hba & _) & _)).
    destruct (pend eb) eqn:Pb.
    + apply (IH eb); [exact Hbin | congruence | exact Pb].
    + exists e. split; [exact Hin|]. split; [exact Hp|]. right. exists b, (te_cat eb).
      split; [congruence|]. split; [|exact Pb].
      replace b with (te_alias eb) by congruence. apply te_lookup_NoDup; assumption.
Qed.

Lemma te_round_decreases st0 st :
  te_inv st0 st -> NoDup (map te_alias st0) -> te_resolvable st0 -> te_pending st <> 0 ->
  te_pending (te_round [] st) < te_pending st.
Proof.
  intros Hinv ND Hres Hne.
  assert (exists e, In e st /\ pend e = true) as (e & Hin & Hp).
  { unfold te_pending in Hne. destruct (filter (fun e => is_typedef_cat (te_cat e)) st) as [|e l] eqn:F; [cbn in Hne; congruence|].
    exists e. assert (In e (e :: l)) as H by (cbn; auto). rewrite <- F in H. apply filter_In in H. exact H. }
  destruct (Forall2_In_r _ _ _ _ Hinv Hin) as (e0 & Hin0 & ((Ha & _) & _)).
  destruct (Hres e0 Hin0) as (c & Hch).
  destruct (exists_ready st0 st _ c Hinv ND Hch e Hin Ha Hp) as (x & Hx & Hpx & Hrx).
  destruct (In_nth_error _ _ Hx) as (i & Hi).
  destruct (te_round_progress st) as (HM & HR).
  destruct (HR i x Hi Hrx) as (x' & Hx' & Hpx').
  exact (pending_mono_strict st _ i x x' HM Hi Hx' Hpx Hpx').
Qed.

Lemma te_pending_le st : te_pending st <= length st.
Proof.
  unfold te_pending. induction st as [|e l IH]; cbn [filter length]; [lia|].
  destruct (is_typedef_cat (te_cat e)); cbn [length]; lia.
Qed.

Lemma te_fix_complete_gen st0 : NoDup (map te_alias st0) -> te_resolvable st0 ->
  forall fuel st, te_inv st0 st -> te_pending st < fuel \/ te_pending st = 0 ->
  exists st', te_fix fuel st = Ok st'.
Proof.
  intros ND Hres. induction fuel as [|k IH]; intros st Hinv Hlt; cbn [te_fix].
  - destruct (te_pending st =? 0) eqn:E; [eauto|]. apply Nat.eqb_neq in E. lia.
  - destruct (te_pending st =? 0) eqn:E; [eauto|]. apply Nat.eqb_neq in E.
    pose proof (te_round_decreases st0 st Hinv ND Hres E) as Hdec.
    destruct (te_pending (te_round [] st) =? te_pending st) eqn:E2; [apply Nat.eqb_eq in E2; lia|].
    apply IH; [apply te_inv_round; exact Hinv | lia].
Qed.

(* the fixpoint reaches every chain end: with the fuel resolve_file_in gives it, it
   succeeds on every resolvable state, and the result maps every alias to the end of
   its chain *)
Theorem te_fix_complete st0 :
  NoDup (map te_alias st0) -> te_resolvable st0 ->
  exists st, te_fix (S (length st0)) st0 = Ok st /\
             forall a c, te_chain st0 a c -> te_lookup st a = Some c.
Proof.
  intros ND Hres.
  destruct (te_fix_complete_gen st0 ND Hres (S (length st0)) st0 (te_inv_refl st0)) as (st & Hfix).
  { left. pose proof (te_pending_le st0). lia. }
  exists st. split; [exact Hfix|]. intros a c Hch.
  pose proof (te_fix_sound _ _ _ Hfix) as HS.
  destruct (te_chain_entry _ _ _ Hch) as (e0 & Hin0 & Ha0).
  destruct (Forall2_In_l _ _ _ _ HS Hin0) as (e & Hin & (Ha & _ & _ & Hche)).
  assert (NDs : NoDup (map te_alias st)) by (rewrite (Forall2_aliases _ _ _ (fun e0 e H => proj1 H) HS); exact ND).
  rewrite Ha0 in Hche. rewrite (te_chain_fun st0 a c ND Hch _ Hche).
  rewrite <- Ha0, <- Ha. apply te_lookup_NoDup; assumption.
Qed.

Lemma te_fix_resolvable st0 fuel st : te_fix fuel st0 = Ok st -> te_resolvable st0.
Proof.
  intros H e0 Hin0. pose proof (te_fix_sound _ _ _ H) as HS.
  destruct (Forall2_In_l _ _ _ _ HS Hin0) as (e & _ & (_ & _ & _ & Hch)). eauto.
Qed.

Lemma te_fix_lookup st0 fuel st a c :
  NoDup (map te_alias st0) -> te_fix fuel st0 = Ok st -> te_lookup st a = Some c -> te_chain st0 a c.
Proof.
  intros ND H Hk. pose proof (te_fix_sound _ _ _ H) as HS.
  destruct (te_lookup_In _ _ _ Hk) as (e & Hin & Ha & Hc).
  destruct (Forall2_In_r _ _ _ _ HS Hin) as (e0 & _ & (Ha0 & _ & _ & Hch)). congruence.
Qed.

Lemma option_ext {A} (x y : option A) : (forall c, x = Some c <-> y = Some c) -> x = y.
Proof.
  intros H. destruct x as [a|]; [symmetry; apply H; reflexivity|]. destruct y as [b|]; [apply H; reflexivity | reflexivity].
Qed.

(* with distinct aliases the fixpoint, run with the fuel resolve_file_in gives it, succeeds
   exactly on the resolvable states and then maps every alias to the end of its chain *)
Theorem te_fix_iff st0 : NoDup (map te_alias st0) ->
  (te_resolvable st0 <-> exists st, te_fix (S (length st0)) st0 = Ok st) /\
  forall st, te_fix (S (length st0)) st0 = Ok st -> forall a c, te_lookup st a = Some c <-> te_chain st0 a c.
Proof.
  intros ND. split.
  - split; [intros R; destruct (te_fix_complete st0 ND R) as (st & H & _); eauto|].
    intros (st & H). exact (te_fix_resolvable _ _ _ H).
  - intros st H a c. split; [exact (te_fix_lookup st0 _ st a c ND H)|].
    destruct (te_fix_complete st0 ND (te_fix_resolvable _ _ _ H)) as (st2 & H2 & Hall).
    rewrite H in H2. injection H2 as <-. apply Hall.
Qed.

(* order independence of the fixpoint: permuting the entries changes neither whether
   it succeeds nor the category any alias ends with *)
Theorem te_fix_perm st0 st1 st :
  NoDup (map te_alias st0) -> Permutation st0 st1 ->
  te_fix (S (length st0)) st0 = Ok st ->
  exists st', te_fix (S (length st1)) st1 = Ok st' /\ forall a, te_lookup st' a = te_lookup st a.
Proof.
  intros ND P H.
  assert (ND1 : NoDup (map te_alias st1)) by (eapply Permutation_NoDup; [apply Permutation_map; exact P | exact ND]).
  assert (Hch : forall a c, te_chain st0 a c <-> te_chain st1 a c)
    by (intros a c; split; apply te_chain_perm; [exact P | apply Permutation_sym; exact P]).
  destruct (te_fix_iff st0 ND) as (R0 & L0). destruct (te_fix_iff st1 ND1) as (R1 & L1).
  destruct (proj1 R1) as (st' & H').
  { intros e Hin. destruct (proj2 R0 (ex_intro _ st H) e (Permutation_in _ (Permutation_sym P) Hin)) as (c & Hc).
    exists c. apply Hch. exact Hc. }
  exists st'. split; [exact H'|]. intros a. apply option_ext. intros c. split; intros Hx.
  - apply (L0 st H). apply Hch. apply (L1 st' H'). exact Hx.
  - apply (L1 st' H'). apply Hch. apply (L0 st H). exact Hx.
Qed.
