(* Idl/ResolveLemmas.v — basic facts about the functions of Idl/Resolve.v: the result
   monad, mapM, RegisterNames, the shape of a type after ResolveType ([head1]) and
   after the typedef pass ([head2]), the unfolding of resolve_rec and the intermediate results of
   resolve_file_in ([resolve_file_in_ok]). *)
From Coq Require Import List ZArith.
From Verif Require Import Base.Bytes Idl.Ast Idl.AstUtil Idl.AstFacts Idl.Resolve Idl.ResolveSpec.
Import ListNotations.
Local Open Scope resolve_scope.

Lemma bind_ok {A B} (r : result A) (k : A -> result B) b :
  bind r k = Ok b -> exists a, r = Ok a /\ k a = Ok b.
Proof. destruct r as [a|e]; cbn [bind]; [eauto | discriminate]. Qed.

Ltac inv_bind H :=
  repeat (let a := fresh "x" in let E := fresh "E" in
          apply bind_ok in H; destruct H as (a & E & H)).

Lemma mapM_Forall2 {A B} (f : A -> result B) l l' :
  mapM f l = Ok l' -> Forall2 (fun x y => f x = Ok y) l l'.
Proof.
  revert l'. induction l as [|x l IH]; intros l' H; cbn [mapM] in H.
  - injection H as <-. constructor.
  - inv_bind H. injection H as <-. constructor; auto.
Qed.

Lemma Forall2_mapM {A B} (f : A -> result B) l l' :
  Forall2 (fun x y => f x = Ok y) l l' -> mapM f l = Ok l'.
Proof. induction 1 as [|x y l l' H _ IH]; cbn [mapM]; [reflexivity|]. rewrite H. cbn [bind]. rewrite IH. reflexivity. Qed.

Lemma mapM_ext {A B} (f g : A -> result B) l : (forall x, In x l -> f x = g x) -> mapM f l = mapM g l.
Proof.
  induction l as [|x l IH]; intros H; cbn [mapM]; [reflexivity|].
  rewrite (H x (or_introl eq_refl)). rewrite IH; [reflexivity|]. intros y Hy. apply H. right. exact Hy.
Qed.

Lemma Forall2_map_eq {A B C} (f : A -> C) (g : B -> C) (R : A -> B -> Prop) l l' :
  Forall2 R l l' -> (forall x y, R x y -> g y = f x) -> map g l' = map f l.
Proof. induction 1 as [|x y l l' Rxy _ IH]; intros H; cbn [map]; [reflexivity|]. rewrite (H x y Rxy), IH; auto. Qed.

Lemma Forall2_flat_map {A B C} (R : A -> B -> Prop) (Q : C -> Prop) (g : B -> list C) l l' :
  Forall2 R l l' -> (forall x y, R x y -> Forall Q (g y)) -> Forall Q (flat_map' g l').
Proof.
  unfold flat_map'. induction 1 as [|x y l l' Rxy _ IH]; intros H; cbn [map concat]; [constructor|].
  apply Forall_app. split; [eapply H; eauto | apply IH; exact H].
Qed.

Lemma Forall2_compose {A B C} (R : A -> B -> Prop) (S : B -> C -> Prop) l1 l2 l3 :
  Forall2 R l1 l2 -> Forall2 S l2 l3 -> Forall2 (fun x z => exists y, R x y /\ S y z) l1 l3.
Proof.
  intros H. revert l3. induction H as [|x y l l' Rxy _ IH]; intros l3 H2; inversion H2; subst; constructor; eauto.
Qed.

Lemma Forall_flat_map' {A B} (Q : B -> Prop) (g : A -> list B) l :
  Forall Q (flat_map' g l) <-> Forall (fun x => Forall Q (g x)) l.
Proof. unfold flat_map'. rewrite Forall_concat, Forall_map. reflexivity. Qed.

Lemma two_mapM {A B C} (r : A -> result B) (fx : B -> result C) l l1 l2 :
  mapM r l = Ok l1 -> mapM fx l1 = Ok l2 ->
  Forall2 (fun x z => exists y, r x = Ok y /\ fx y = Ok z) l l2.
Proof. intros H1 H2. exact (Forall2_compose _ _ _ _ _ (mapM_Forall2 _ _ _ H1) (mapM_Forall2 _ _ _ H2)). Qed.

Lemma two_mapM_Forall {A B C} (r : A -> result B) (fx : B -> result C) (Q : C -> Prop) l l1 l2 :
  mapM r l = Ok l1 -> mapM fx l1 = Ok l2 ->
  (forall x y z, r x = Ok y -> fx y = Ok z -> Q z) -> Forall Q l2.
Proof.
  intros H1 H2 HQ. pose proof (two_mapM _ _ _ _ _ H1 H2) as H. clear H1 H2.
  induction H as [|x z ? ? (y & Hxy & Hyz) _ IH]; constructor; eauto.
Qed.

Lemma lookup_app {A} k (l1 l2 : list (bytes * A)) :
  lookup k (l1 ++ l2) = match lookup k l1 with Some v => Some v | None => lookup k l2 end.
Proof. induction l1 as [|[k' v] l IH]; cbn [lookup app]; [reflexivity|]. destruct (beqb k k'); auto. Qed.

Lemma lookup_map_snd {A B} (g : A -> B) k (l : list (bytes * A)) :
  lookup k (map (fun x => (fst x, g (snd x))) l) = option_map g (lookup k l).
Proof. induction l as [|[k' v] l IH]; cbn [lookup map fst snd]; [reflexivity|]. destruct (beqb k k'); auto. Qed.

Lemma lookup_Some_In_fst {A} k (v : A) l : lookup k l = Some v -> In k (map fst l).
Proof. intros H. apply lookup_In in H. change k with (fst (k, v)). apply in_map. exact H. Qed.

Lemma Forall2_lookup {A B} (R : A -> B -> Prop) (l : list (bytes * A)) (l' : list (bytes * B)) k :
  Forall2 (fun x y => fst x = fst y /\ R (snd x) (snd y)) l l' ->
  match lookup k l, lookup k l' with
  | Some a, Some b => R a b
  | None, None => True
  | _, _ => False
  end.
Proof.
  induction 1 as [|[k1 a] [k2 b] ? ? (Hk & HR) _ IH]; cbn [lookup]; [exact I|].
  cbn [fst snd] in *. subst k2. destruct (beqb k k1); [exact HR | exact IH].
Qed.

Lemma lookup_n2c_insert k c m n :
  lookup k m = None -> lookup n (n2c_insert k c m) = if beqb n k then Some c else lookup n m.
Proof.
  induction m as [|[k' c'] m IH]; cbn [n2c_insert lookup]; intros Hk; [reflexivity|].
  destruct (beqb k k') eqn:Ekk; [discriminate|].
  destruct (bytes_ltb k k'); cbn [lookup].
  - reflexivity.
  - rewrite (IH Hk). destruct (beqb n k') eqn:Enk; [|reflexivity].
    destruct (beqb n k) eqn:Enk2; [|reflexivity].
    apply beqb_true in Enk, Enk2. subst. rewrite beqb_refl in Ekk. discriminate.
Qed.

Lemma register_spec defs : forall acc m, register defs acc = Ok m ->
  NoDup (map fst defs) /\ (forall n, In n (map fst defs) -> lookup n acc = None) /\
  forall n, lookup n m = match lookup n acc with Some c => Some c | None => lookup n defs end.
Proof.
  induction defs as [|[k c] defs IH]; intros acc m H; cbn [register] in H.
  - injection H as <-. split; [constructor|]. split; [intros n []|]. intros n. cbn [lookup]. destruct (lookup n acc); reflexivity.
  - destruct (lookup k acc) eqn:Hk; [discriminate|].
    destruct (IH _ _ H) as (ND & Hfresh & Hm). cbn [map fst].
    assert (Hk' : ~ In k (map fst defs)).
    { intros Hin. specialize (Hfresh k Hin). rewrite (lookup_n2c_insert k c acc k Hk), beqb_refl in Hfresh. discriminate. }
    split; [constructor; assumption|]. split.
    + intros n [<-|Hin]; [exact Hk|]. specialize (Hfresh n Hin).
      rewrite (lookup_n2c_insert k c acc n Hk) in Hfresh. destruct (beqb n k); [discriminate | exact Hfresh].
    + intros n. rewrite Hm, (lookup_n2c_insert k c acc n Hk). cbn [lookup].
      destruct (beqb n k) eqn:E; [|reflexivity].
      apply beqb_true in E. subst. rewrite Hk. reflexivity.
Qed.

Lemma file_def_names_defs f :
  file_def_names f = map (fun x => (fst x, dkind_cat (snd x))) (file_defs f).
Proof.
  unfold file_def_names, file_defs. rewrite !map_app, !map_map. cbn [fst snd dkind_cat]. reflexivity.
Qed.

Lemma map_fst_def_names f : map fst (file_def_names f) = map fst (file_defs f).
Proof. rewrite file_def_names_defs, map_map. reflexivity. Qed.

Lemma register_file f m : register (file_def_names f) [] = Ok m ->
  NoDup (map fst (file_defs f)) /\ forall n, lookup n m = option_map dkind_cat (lookup n (file_defs f)).
Proof.
  intros H. destruct (register_spec _ _ _ H) as (ND & _ & Hm). rewrite map_fst_def_names in ND.
  split; [exact ND|]. intros n. rewrite Hm. cbn [lookup]. rewrite file_def_names_defs. apply lookup_map_snd.
Qed.

Lemma builtin_cases n c : builtin_category n = Some c ->
  is_typedef_cat c = false /\ is_type_cat c = false.
Proof.
  unfold builtin_category. cbn [lookup].
  repeat match goal with |- context [beqb n ?x] => destruct (beqb n x) end;
    intros H; try discriminate; injection H as <-; split; reflexivity.
Qed.

Lemma split_type_single n a : split_type n = [a] -> a = n.
Proof.
  unfold split_type. destruct n as [|b n]; [discriminate|].
  destruct (last_index_split dot (b :: n)) as [[x y]|]; [discriminate|]. intros [= <-]. reflexivity.
Qed.

Lemma type_cat_cases c : is_type_cat c = true ->
  c = CatEnum \/ c = CatStruct \/ c = CatUnion \/ c = CatException \/ c = CatTypedef.
Proof. destruct c; cbn; intros H; try discriminate; auto. Qed.

Definition head1 (done : program) (f : file) (t : ty) : Prop :=
  match builtin_category (ty_name t) with
  | Some c => ty_category t = c /\ ty_ref t = None /\ ty_is_typedef t = None
  | None =>
    match split_type (ty_name t) with
    | [a] => exists c, lookup a (n2c_of f) = Some c /\ is_type_cat c = true /\ ty_category t = c /\
                       ty_ref t = None /\ ty_is_typedef t = typedef_flag c
    | [pre; m] => exists idx c, find_include done is_type_cat pre m (f_includes f) 0 = Some (idx, c) /\
                       ty_category t = c /\ ty_ref t = Some (Ref m (Z.of_nat idx)) /\
                       ty_is_typedef t = typedef_flag c
    | _ => False
    end
  end.

Lemma resolve_ty_head1 done f : forall t t', resolve_ty done f t = Ok t' ->
  ty_name t' = ty_name t /\ Forall (head1 done f) (ty_occs t').
Proof.
  induction t as [n k v cpp an cat r td IHk IHv] using ty_ind'. intros t' H.
  cbn [resolve_ty] in H. destruct (builtin_category n) as [c|] eqn:Bn.
  - assert (Hb : forall k' v', head1 done f (Ty n k' v' cpp an c None None))
      by (intros; unfold head1; cbn [ty_name ty_category ty_ref ty_is_typedef]; rewrite Bn; auto).
    destruct c; try (injection H as <-; cbn [ty_name ty_occs]; rewrite Bn; split; [reflexivity|]; constructor; [apply Hb | constructor]).
    + (* map *)
      destruct k as [kt|]; [|discriminate]. destruct v as [vt|]; [|cbn [bind] in H; inv_bind H; discriminate].
      inv_bind H. injection H as <-. cbn [ty_name ty_occs]. rewrite Bn. split; [reflexivity|]. constructor; [apply Hb|].
      apply Forall_app. split; [exact (proj2 (IHk kt eq_refl _ E)) | exact (proj2 (IHv vt eq_refl _ E0))].
    + (* list *)
      destruct v as [vt|]; [|discriminate]. inv_bind H. injection H as <-. cbn [ty_name ty_occs]. rewrite Bn.
      split; [reflexivity|]. constructor; [apply Hb | exact (proj2 (IHv vt eq_refl _ E))].
    + (* set *)
      destruct v as [vt|]; [|discriminate]. inv_bind H. injection H as <-. cbn [ty_name ty_occs]. rewrite Bn.
      split; [reflexivity|]. constructor; [apply Hb | exact (proj2 (IHv vt eq_refl _ E))].
  - destruct (split_type n) as [|a [|m [|? ?]]] eqn:Sn; try discriminate.
    + destruct (lookup a (n2c_of f)) as [c|] eqn:La; [|discriminate].
      destruct (is_type_cat c) eqn:Tc; [|discriminate]. injection H as <-.
      cbn [ty_name ty_occs]. rewrite Bn. split; [reflexivity|]. constructor; [|constructor].
      unfold head1. cbn [ty_name ty_category ty_ref ty_is_typedef]. rewrite Bn, Sn. exists c. auto.
    + destruct (find_include done is_type_cat a m (f_includes f) 0) as [[idx c]|] eqn:Fi; [|discriminate].
      injection H as <-. cbn [ty_name ty_occs]. rewrite Bn. split; [reflexivity|]. constructor; [|constructor].
      unfold head1. cbn [ty_name ty_category ty_ref ty_is_typedef]. rewrite Bn, Sn. exists idx, c. auto.
Qed.

(* ResolveType reads of the file its name table and its includes, and of the finished files
   the search through those includes *)
Lemma resolve_ty_ext d d' g g' :
  n2c_of g = n2c_of g' -> f_includes g = f_includes g' ->
  (forall pre m, find_include d is_type_cat pre m (f_includes g') 0 = find_include d' is_type_cat pre m (f_includes g') 0) ->
  forall t, resolve_ty d g t = resolve_ty d' g' t.
Proof.
  intros Hn Hi Hfi. induction t as [n k v cpp an cat r td IHk IHv] using ty_ind'.
  cbn [resolve_ty]. rewrite Hn, Hi.
  assert (Ek : match k with Some kt => resolve_ty d g kt | None => Error ErrInternal end =
               match k with Some kt => resolve_ty d' g' kt | None => Error ErrInternal end)
    by (destruct k; [apply IHk|]; reflexivity).
  assert (Ev : match v with Some kt => resolve_ty d g kt | None => Error ErrInternal end =
               match v with Some kt => resolve_ty d' g' kt | None => Error ErrInternal end)
    by (destruct v; [apply IHv|]; reflexivity).
  rewrite Ek, Ev. destruct (builtin_category n); [reflexivity|].
  destruct (split_type n) as [|a [|m [|? ?]]]; try reflexivity. rewrite Hfi. reflexivity.
Qed.

Lemma resolve_ty_ctx done fa fb : n2c_of fa = n2c_of fb -> f_includes fa = f_includes fb ->
  forall t, resolve_ty done fa t = resolve_ty done fb t.
Proof. intros Hn Hi. exact (resolve_ty_ext done done fa fb Hn Hi (fun _ _ => eq_refl)). Qed.

Definition head2 (done : program) (f : file) (st : list tde) (t : ty) : Prop :=
  match builtin_category (ty_name t) with
  | Some c => ty_category t = c /\ ty_ref t = None /\ ty_is_typedef t = None
  | None =>
    match split_type (ty_name t) with
    | [a] => exists c, lookup a (n2c_of f) = Some c /\ is_type_cat c = true /\
                       ty_ref t = None /\ ty_is_typedef t = typedef_flag c /\
                       (if is_typedef_cat c
                        then te_lookup st (ty_name t) = Some (ty_category t) /\ is_typedef_cat (ty_category t) = false
                        else ty_category t = c)
    | [pre; m] => exists idx c, find_include done is_type_cat pre m (f_includes f) 0 = Some (idx, c) /\
                       ty_ref t = Some (Ref m (Z.of_nat idx)) /\ ty_is_typedef t = typedef_flag c /\
                       (if is_typedef_cat c
                        then ext_typedef_cat done f (Ref m (Z.of_nat idx)) = Some (ty_category t) /\
                             is_typedef_cat (ty_category t) = false
                        else ty_category t = c)
    | _ => False
    end
  end.

Definition opt_occs (k : option ty) : list ty := match k with Some x => ty_occs x | None => [] end.

Lemma ty_occs_unfold n k v cpp an c r td :
  ty_occs (Ty n k v cpp an c r td) =
  Ty n k v cpp an c r td ::
     match builtin_category n with
     | Some CatMap => opt_occs k ++ opt_occs v
     | Some CatList | Some CatSet => opt_occs v
     | _ => []
     end.
Proof. reflexivity. Qed.

Lemma fix_ty_ok done f st n k v cpp an c r td t' :
  fix_ty done f st (Ty n k v cpp an c r td) = Ok t' ->
  exists k' v' c', t' = Ty n k' v' cpp an c' r td /\
    match k with Some x => exists y, fix_ty done f st x = Ok y /\ k' = Some y | None => k' = None end /\
    match v with Some x => exists y, fix_ty done f st x = Ok y /\ v' = Some y | None => v' = None end /\
    if is_typedef_cat c
    then match r with Some rf => ext_typedef_cat done f rf | None => te_lookup st n end = Some c' /\ is_typedef_cat c' = false
    else c' = c.
Proof.
  cbn [fix_ty]. intros H. inv_bind H. rename x into k', x0 into v'. exists k', v'.
  assert (Hk : match k with Some x => exists y, fix_ty done f st x = Ok y /\ k' = Some y | None => k' = None end)
    by (destruct k as [x|]; [inv_bind E; injection E as <-; eauto | injection E as <-; reflexivity]).
  assert (Hv : match v with Some x => exists y, fix_ty done f st x = Ok y /\ v' = Some y | None => v' = None end)
    by (destruct v as [x|]; [inv_bind E0; injection E0 as <-; eauto | injection E0 as <-; reflexivity]).
  destruct (is_typedef_cat c); [|injection H as <-; eauto].
  destruct (match r with Some rf => ext_typedef_cat done f rf | None => te_lookup st n end) as [c'|]; [|discriminate].
  destruct (is_typedef_cat c') eqn:Td'; [discriminate|]. injection H as <-. exists c'. auto.
Qed.

Lemma head1_head2 done f st n k v k' v' cpp an c c' r td :
  head1 done f (Ty n k v cpp an c r td) ->
  (if is_typedef_cat c
   then match r with Some rf => ext_typedef_cat done f rf | None => te_lookup st n end = Some c' /\ is_typedef_cat c' = false
   else c' = c) ->
  head2 done f st (Ty n k' v' cpp an c' r td).
Proof.
  unfold head1, head2. cbn [ty_name ty_category ty_ref ty_is_typedef].
  destruct (builtin_category n) as [cb|] eqn:Bn.
  - intros (-> & -> & ->). rewrite (proj1 (builtin_cases n cb Bn)). intros ->. auto.
  - destruct (split_type n) as [|a [|m [|? ?]]]; try contradiction.
    + intros (c0 & La & Tc & -> & -> & ->) Hc. exists c0. destruct (is_typedef_cat c0); auto 10.
    + intros (idx & c0 & Fi & -> & -> & ->) Hc. exists idx, c0. destruct (is_typedef_cat c0); auto 10.
Qed.

Lemma fix_ty_head2 done f st : forall t t', Forall (head1 done f) (ty_occs t) ->
  fix_ty done f st t = Ok t' ->
  ty_name t' = ty_name t /\ Forall (head2 done f st) (ty_occs t').
Proof.
  induction t as [n k v cpp an cat r td IHk IHv] using ty_ind'. intros t' Hocc H.
  destruct (fix_ty_ok _ _ _ _ _ _ _ _ _ _ _ _ H) as (k' & v' & c' & -> & Hk & Hv & Hc). split; [reflexivity|].
  rewrite ty_occs_unfold in Hocc |- *. pose proof (Forall_inv Hocc) as Hh. apply Forall_inv_tail in Hocc.
  constructor; [exact (head1_head2 _ _ _ _ _ _ _ _ _ _ _ _ _ _ Hh Hc)|].
  assert (Ok' : Forall (head1 done f) (opt_occs k) -> Forall (head2 done f st) (opt_occs k')).
  { destruct k as [x|]; [destruct Hk as (y & Ey & ->) | subst k'; intros _; constructor].
    intros Ho. exact (proj2 (IHk x eq_refl _ Ho Ey)). }
  assert (Ov : Forall (head1 done f) (opt_occs v) -> Forall (head2 done f st) (opt_occs v')).
  { destruct v as [x|]; [destruct Hv as (y & Ey & ->) | subst v'; intros _; constructor].
    intros Ho. exact (proj2 (IHv x eq_refl _ Ho Ey)). }
  destruct (builtin_category n) as [[]|]; try constructor; [|auto..].
  apply Forall_app in Hocc. destruct Hocc. apply Forall_app. auto.
Qed.

Lemma te_init_alias d g td : te_alias (te_init d g td) = td_alias td.
Proof.
  unfold te_init. destruct (is_typedef_cat _); [|reflexivity]. destruct (ty_ref _); [|reflexivity].
  destruct (ext_typedef_cat _ _ _); reflexivity.
Qed.

Lemma te_init_aliases d g tds : map te_alias (map (te_init d g) tds) = map td_alias tds.
Proof. rewrite map_map. apply map_ext. intros td. apply te_init_alias. Qed.

Lemma resolve_typedefs_alias d g tds tds1 :
  mapM (resolve_typedef d g) tds = Ok tds1 -> map td_alias tds1 = map td_alias tds.
Proof.
  intros H. eapply Forall2_map_eq; [exact (mapM_Forall2 _ _ _ H)|].
  intros x y Hxy. unfold resolve_typedef in Hxy. inv_bind Hxy. injection Hxy as <-. reflexivity.
Qed.

Lemma fix_typedefs_alias d g st tds1 tds2 :
  mapM (fix_typedef d g st) tds1 = Ok tds2 -> map td_alias tds2 = map td_alias tds1.
Proof.
  intros H. eapply Forall2_map_eq; [exact (mapM_Forall2 _ _ _ H)|].
  intros x y Hxy. unfold fix_typedef in Hxy. inv_bind Hxy. injection Hxy as <-. reflexivity.
Qed.

Lemma typedefs_nodup f n2c : register (file_def_names f) [] = Ok n2c -> NoDup (map td_alias (f_typedefs f)).
Proof.
  intros H. pose proof (proj1 (register_file f n2c H)) as ND. unfold file_defs in ND.
  rewrite map_app, map_map in ND. exact (NoDup_app_l _ _ ND).
Qed.

(* the loop of [resolve_rec] over the includes of a file *)
Definition go_includes (k : nat) (p : program) :=
  fix go (incs : list include) (d : program) {struct incs} : result program :=
    match incs with
    | [] => Ok d
    | i :: r => match in_ref i with
                | Some g => d' <- resolve_rec k p d g;; go r d'
                | None => Error ErrNotParsed
                end
    end.

Lemma resolve_rec_unfold k p d a :
  resolve_rec (S k) p d a =
  match lookup a d with
  | Some _ => Ok d
  | None =>
    match prog_file p a with
    | None => Error ErrNotParsed
    | Some f =>
      done1 <- go_includes k p (f_includes f) d;;
      match lookup a done1 with
      | Some _ => Error ErrIncludeCycle
      | None => f' <- resolve_file_in done1 f;; Ok ((a, f') :: done1)
      end
    end
  end.
Proof. reflexivity. Qed.

(* What a successful run of resolve_file_in went through: [n2c] the registered names; [tds1]..[sv1]
   the declarations after ResolveType, resolved against [f1]; [st] the table of the typedef pass;
   [tds2]..[sv2] the declarations after that pass. *)
Lemma resolve_file_in_ok done f f' : resolve_file_in done f = Ok f' ->
  exists n2c tds1 cs1 ss1 us1 es1 sv1 st tds2 cs2 ss2 us2 es2 sv2,
    let f1 := with_typedefs (with_name2cat f (Some n2c)) tds1 in
    let fuel := enum_fuel done f1 in
    let f2 := File (f_filename f) (f_includes f) (f_cpp_includes f) (f_namespaces f)
                   tds2 cs2 (f_enums f) ss2 us2 es2 sv2 (Some n2c) in
    register (file_def_names f) [] = Ok n2c /\
    mapM (resolve_typedef done (with_name2cat f (Some n2c))) (f_typedefs f) = Ok tds1 /\
    mapM (resolve_constant fuel done f1) (f_constants f) = Ok cs1 /\
    mapM (resolve_struct_like fuel done f1) (f_structs f) = Ok ss1 /\
    mapM (resolve_struct_like fuel done f1) (f_unions f) = Ok us1 /\
    mapM (resolve_struct_like fuel done f1) (f_exceptions f) = Ok es1 /\
    mapM (resolve_service fuel done f1) (f_services f) = Ok sv1 /\
    te_fix (S (length tds1)) (map (te_init done f1) tds1) = Ok st /\
    mapM (fix_typedef done f1 st) tds1 = Ok tds2 /\
    mapM (fix_constant done f1 st) cs1 = Ok cs2 /\
    mapM (fix_struct_like done f1 st) ss1 = Ok ss2 /\
    mapM (fix_struct_like done f1 st) us1 = Ok us2 /\
    mapM (fix_struct_like done f1 st) es1 = Ok es2 /\
    mapM (fix_service done f1 st) sv1 = Ok sv2 /\
    f' = with_includes f2 (mark_includes (file_marks f2) (f_includes f) 0).
Proof.
  unfold resolve_file_in. intros H. inv_bind H. injection H as <-.
  do 14 eexists. cbv zeta. repeat (split; [eassumption|]). reflexivity.
Qed.
