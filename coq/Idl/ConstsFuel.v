(* Idl/ConstsFuel.v — the value of an initializer does not depend on the fuel (property C06):
   once [eval] answers with a value, every larger fuel gives the same value.  Proofs only. *)
From Coq Require Import List Bool ZArith Arith.
From Coq.Strings Require Import Byte.
From Verif Require Import Base.Bytes Idl.Ast Idl.AstUtil Idl.Consts Idl.ConstsFacts.
Import ListNotations.
Local Open Scope Z_scope.
Local Open Scope consts_scope.

Lemma mapM_mono {A B} (f g : A -> result B) l vs :
  (forall x y, f x = Ok y -> g x = Ok y) -> mapM f l = Ok vs -> mapM g l = Ok vs.
Proof. intros H Hm. apply mapM_ok. apply mapM_ok in Hm. revert Hm. apply Forall2_impl. exact H. Qed.

Lemma expect_S k p tf t v w : expect k p tf t v = Ok w -> expect (S k) p tf t v = Ok w.
Proof.
  unfold expect. destruct (ty_category t); try (intros H; exact H);
    (destruct (has_type k p tf t v) eqn:E; [|discriminate]; intros H; rewrite (has_type_S _ _ _ _ _ E); exact H).
Qed.

Lemma struct_literal_mono q (ev ev' : file -> ty -> const_value -> result cval) p tf t l v :
  (forall g t c v, ev g t c = Ok v -> ev' g t c = Ok v) ->
  (gs <- get_struct_like p tf t ;; fs <- struct_slots q (ev (fst gs)) (snd gs) l ;; Ok (VStruct fs)) = Ok v ->
  (gs <- get_struct_like p tf t ;; fs <- struct_slots q (ev' (fst gs)) (snd gs) l ;; Ok (VStruct fs)) = Ok v.
Proof.
  intros H He. apply bind_ok in He as ([g s] & Hg & He). rewrite Hg. cbn [bind fst snd] in *.
  apply bind_ok in He as (fs & Hs & He). unfold struct_slots in *. destruct (negb (keys_ok s l)); [discriminate|].
  erewrite mapM_mono; [exact He | | exact Hs].
  intros fd e. cbn beta. destruct (filter (key_names fd) l) as [|kv [|? ?]]; try (intros Hfd; exact Hfd).
  intros Hfd. apply bind_ok in Hfd as (w & Hw & Hfd). rewrite (H _ _ _ _ Hw). exact Hfd.
Qed.

Lemma eval_fuel_S q n : forall p vf tf t c v,
  eval q n p vf tf t c = Ok v -> eval q (S n) p vf tf t c = Ok v.
Proof.
  induction n as [|k IH]; intros p vf tf t c v H; [discriminate|].
  remember (S k) as k1 eqn:Ek. cbn [eval]. rewrite Ek in H. cbn [eval] in H.
  destruct (negb (value_category (ty_category t))); [discriminate|].
  destruct c as [b|z|s|s extra|l|l]; try exact H.
  - (* identifier *)
    destruct (bool_word (ty_category t) s); [exact H|]. destruct extra as [ex|]; [|exact H].
    destruct (denotes p vf ex) as [d|e]; [|exact H].
    apply bind_ok in H as (w & Hw & He).
    assert (Hw' : match d with DEnum z => Ok (VInt z) | DConst g co => eval q k1 p g g (co_type co) (co_value co) end = Ok w).
    { destruct d; [exact Hw | apply IH; exact Hw]. }
    rewrite Hw'. cbn [bind]. rewrite Ek. apply expect_S. exact He.
  - (* list literal *)
    destruct (ty_category t); try exact H; destruct l as [|c0 l0]; try exact H;
      destruct (ty_value t) as [et|]; try exact H;
      apply bind_ok in H as (vs & Hm & H); rewrite (mapM_mono _ (eval q k1 p vf tf et) _ _ (fun x y => IH p vf tf et x y) Hm); exact H.
  - (* map literal: a map, or one of the three struct-likes *)
    destruct (ty_category t); try exact H;
      [| exact (struct_literal_mono q (eval q k p vf) (eval q k1 p vf) p tf t l v (IH p vf) H) ..].
    destruct l as [|kv0 l0]; [exact H|]. destruct (ty_key t) as [kt|]; [|exact H]. destruct (ty_value t) as [vt|]; [|exact H].
    apply bind_ok in H as (kvs & Hm & H).
    erewrite mapM_mono; [exact H | | exact Hm].
    intros kv ab Hab. apply bind_ok in Hab as (a & Ha & Hab). apply bind_ok in Hab as (b & Hb & Hab).
    rewrite (IH _ _ _ _ _ _ Ha). cbn [bind]. rewrite (IH _ _ _ _ _ _ Hb). exact Hab.
Qed.

Lemma eval_fuel_mono q n m p vf tf t c v :
  (n <= m)%nat -> eval q n p vf tf t c = Ok v -> eval q m p vf tf t c = Ok v.
Proof. induction 1 as [|m _ IH]; intros H; [exact H | apply eval_fuel_S, IH, H]. Qed.

Lemma eval_fuel_irrelevant q n m p vf tf t c v w :
  eval q n p vf tf t c = Ok v -> eval q m p vf tf t c = Ok w -> v = w.
Proof.
  intros Hn Hm. destruct (Nat.le_ge_cases n m) as [H|H].
  - rewrite (eval_fuel_mono q n m p vf tf t c v H Hn) in Hm. congruence.
  - rewrite (eval_fuel_mono q m n p vf tf t c w H Hm) in Hn. congruence.
Qed.

(* NewX(): what it constructs with some fuel it constructs with every larger fuel *)
Lemma new_struct_fuel_mono q n m p f s x :
  (n <= m)%nat -> new_struct q n p f s = Ok x -> new_struct q m p f s = Ok x.
Proof.
  intros Hle. unfold new_struct. intros H. apply bind_ok in H as (fs & Hm & H).
  erewrite mapM_mono; [exact H | | exact Hm].
  intros fd e He. apply bind_ok in He as (v & Hv & He).
  assert (Hv' : init_slot q m p f fd = Ok v).
  { unfold init_slot, default_value in *. destruct (fd_default fd) as [c|]; [|exact Hv].
    apply bind_ok in Hv as (d & Hd & Hv). apply bind_ok in Hd as (w & Hw & Hd). injection Hd as <-.
    unfold eval_top in *. rewrite (eval_fuel_mono q n m p f f _ _ _ Hle Hw). cbn [bind]. exact Hv. }
  rewrite Hv'. exact He.
Qed.
