(* Idl/AcceptBackend.v — proofs about the accept / reject model Idl/Accept.v against the
   catalogue Idl/Rules.v (property C04), file by file: include cycles; the rules symbol
   resolution enforces (duplicate global names including enums, undefined / non-type
   names used as types, unknown base service, typedef cycles); identifiers used as
   values; the kind errors of constant and default values that the Go backend reports.
   The facts about Idl/Resolve.v come from the files of property C05 ([inv], [good],
   [resolve_rec_inv], [resolve_rec_files], [find_include_spec], [resolve_ident_good], ...).
   The theorems about accepted programs are in Idl/AcceptSound.v. *)
From Coq Require Import List Bool Arith Lia ZArith.
From Coq.Strings Require Import Byte.
From Verif Require Import Base.Bytes Idl.Ast Idl.AstUtil Idl.AstFacts Idl.Resolve Idl.ResolveSpec Idl.ResolveTd
     Idl.ResolveLemmas Idl.ResolveInv Idl.ResolveConst Idl.ResolveProg Idl.ResolveDeref
     Idl.Check Idl.Rules Idl.CheckFacts Idl.Accept.
Import ListNotations.
Local Open Scope resolve_scope.

Lemma search_circle_step p k path x f :
  search_circle k p path x = false -> prog_file p x = Some f ->
  exists k0, k = S k0 /\ memb x path = false /\
             forall h, In h (inc_refs f) -> search_circle k0 p (x :: path) h = false.
Proof.
  destruct k as [|k0]; cbn [search_circle]; [discriminate|]. intros H Pf. rewrite Pf in H.
  destruct (memb x path) eqn:M; [discriminate|]. exists k0. split; [reflexivity|]. split; [reflexivity|].
  exact (proj1 (existsb_false _ _) H).
Qed.

(* a search that finds nothing at [x] finds nothing at anything reachable from [x],
   with a path that has grown by [x] *)
Lemma search_circle_reach p : forall n x y k path,
  search_circle k p path x = false -> reach_b n p x y = true ->
  exists k' path', search_circle k' p path' y = false /\ incl path path'.
Proof.
  induction n as [|n IH]; intros x y k path Hs Hr; cbn [reach_b] in Hr.
  - rewrite orb_false_r in Hr. apply beqb_true in Hr. subst. exists k, path. split; [exact Hs | apply incl_refl].
  - apply orb_true_iff in Hr. destruct Hr as [Hr|Hr].
    { apply beqb_true in Hr. subst. exists k, path. split; [exact Hs | apply incl_refl]. }
    destruct (prog_file p x) as [f|] eqn:Pf; [|discriminate].
    apply existsb_exists in Hr. destruct Hr as (h & Hin & Hr).
    destruct (search_circle_step _ _ _ _ _ Hs Pf) as (k0 & -> & _ & Hall).
    destruct (IH h y k0 (x :: path) (Hall h Hin) Hr) as (k' & path' & S' & I').
    exists k', path'. split; [exact S'|]. intros z Hz. apply I'. right. exact Hz.
Qed.

(* A reachable file [fn] that includes [h] from which [fn] is reached again: the search
   comes to [fn], goes on through [h], and comes to [fn] a second time with [fn] on its path. *)
Theorem circle_detect_complete p : circle_detect p = false -> include_cycle p = false.
Proof.
  intros Hc. destruct (include_cycle p) eqn:Hi; [|reflexivity]. exfalso.
  unfold include_cycle, some_file in Hi. apply existsb_exists in Hi. destruct Hi as (fn & _ & Hi).
  apply andb_true_iff in Hi. destruct Hi as (Hr & Hi).
  destruct (prog_file p fn) as [f|] eqn:Pf; [|discriminate].
  apply existsb_exists in Hi. destruct Hi as (h & Hin & Hback).
  unfold circle_detect in Hc. unfold reachable in Hr. destruct p as [|[m mf] rest] eqn:Ep; [discriminate|].
  rewrite <- Ep in *.
  destruct (search_circle_reach p _ _ _ _ _ Hc Hr) as (k1 & path1 & S1 & _).
  destruct (search_circle_step _ _ _ _ _ S1 Pf) as (k2 & -> & _ & Hall).
  destruct (search_circle_reach p _ _ _ _ _ (Hall h Hin) Hback) as (k3 & path3 & S3 & I3).
  destruct (search_circle_step _ _ _ _ _ S3 Pf) as (k4 & -> & M & _).
  assert (In fn path3) by (apply I3; left; reflexivity).
  apply memb_true in H. congruence.
Qed.

Lemma accepts_front p b : accepts p b = AOk ->
  exists r order, front_end p = FrontOk r order /\ backend_stage r order b = None.
Proof.
  unfold accepts. destruct (front_end p) as [r order|why]; [|discriminate].
  destruct (backend_stage r order b) eqn:E; [discriminate|]. eauto.
Qed.

Lemma front_end_ok p r order : front_end p = FrontOk r order ->
  circle_detect p = false /\ dfs_order p = Some order /\ call_all (check_named p) order = COk /\
  resolve_program p = Ok r.
Proof.
  unfold front_end. destruct (circle_detect p); [discriminate|].
  destruct (dfs_order p) as [o|]; [|discriminate].
  destruct (call_all (check_named p) o) eqn:Hc; [|discriminate].
  destruct (resolve_program p) as [r'|e]; [|discriminate]. intros [= <- <-]. auto.
Qed.

(* [f'] is the result of resolve_file_in on the parsed file [f], with an accumulator that
   satisfied the invariant of C05 and held every include target.  The file name is not
   used: [files_are] (Idl/ResolveProg.v) takes a relation over name, parsed and resolved file. *)
Definition stepped (p : program) (_ : bytes) (f f' : file) : Prop :=
  exists d1, inv p d1 /\
    (forall i, In i (f_includes f) -> exists hn, in_ref i = Some hn /\ lookup hn d1 <> None) /\
    resolve_file_in d1 f = Ok f'.

Lemma in_inc_targets f h : In h (inc_targets f) <-> exists i, In i (f_includes f) /\ in_ref i = Some h.
Proof.
  unfold inc_targets. rewrite in_flat_map. split.
  - intros (i & Hi & Hh). exists i. split; [exact Hi|]. destruct (in_ref i) as [g|]; [|destruct Hh].
    destruct Hh as [<-|[]]. reflexivity.
  - intros (i & Hi & Hr). exists i. split; [exact Hi|]. rewrite Hr. left. reflexivity.
Qed.

(* the accumulator of a successful run: invariant, every file in it went through
   resolve_file_in, it holds every reachable file, and the resolved program holds what it holds *)
Lemma resolve_program_run p r : resolve_program p = Ok r ->
  exists done, inv p done /\ files_are p (stepped p) done /\
    (forall fn, reach p fn -> exists f', lookup fn done = Some f') /\
    (forall fn, prog_file r fn = match lookup fn done with Some f' => Some f' | None => prog_file p fn end).
Proof.
  intros H. unfold resolve_program in H. destruct p as [|[mainfn mf] p'] eqn:Ep.
  { injection H as <-. exists []. split; [apply inv_nil|]. split; [intros ? ? [=]|]. split; [|reflexivity].
    intros fn Hr. exfalso. inversion Hr; subst; discriminate. }
  rewrite <- Ep in *. inv_bind H. injection H as <-. rename x into done.
  destruct (resolve_rec_inv p _ _ _ _ (inv_nil p) E) as (Hinv & _ & Lm).
  assert (Htr : files_are p (stepped p) done).
  { refine (resolve_rec_files p _ _ _ _ _ _ (inv_nil p) (fun _ _ (L : None = Some _) => _) E); [|discriminate L].
    intros d1 gn g g' I1 _ T1 R1. exists d1. auto. }
  exists done. split; [exact Hinv|]. split; [exact Htr|]. split.
  - intros fn Hr. induction Hr as [m' f' rest' E'|a f h Ha IHa Pa Hh].
    + rewrite Ep in E'. injection E' as <- _ _. destruct (lookup mainfn done) as [g|]; [eauto | congruence].
    + destruct IHa as (g' & La). destruct (Hinv a g' La) as (g & Pg & Gd).
      assert (g = f) by congruence. subst g. apply in_inc_targets in Hh. destruct Hh as (i & Hi & Hri).
      destruct (gd_targets _ _ _ _ _ Gd i Hi) as (hn & Hrn & Hl). assert (hn = h) by congruence. subst hn.
      destruct (lookup h done) as [h'|]; [eauto | congruence].
  - intros fn. unfold prog_file. rewrite lookup_map_done. destruct (lookup fn done) as [f'|] eqn:L; [|destruct (lookup fn p); reflexivity].
    destruct (Hinv fn f' L) as (g & Pg & _). unfold prog_file in Pg. rewrite Pg. reflexivity.
Qed.

Lemma stepped_at p done fn f f' :
  files_are p (stepped p) done -> prog_file p fn = Some f -> lookup fn done = Some f' -> stepped p fn f f'.
Proof.
  intros Htr Pf L. destruct (Htr fn f' L) as (f0 & Pf0 & St). assert (f0 = f) by congruence. subst f0. exact St.
Qed.

Corollary reachable_stepped p r : resolve_program p = Ok r ->
  forall fn f, reach p fn -> prog_file p fn = Some f -> exists f', stepped p fn f f'.
Proof.
  intros H fn f Hr Pf. destruct (resolve_program_run p r H) as (done & _ & Htr & Hall & _).
  destruct (Hall fn Hr) as (f' & L). exists f'. exact (stepped_at p done fn f f' Htr Pf L).
Qed.

Lemma nodup_dup_global f : NoDup (map fst (file_defs f)) -> dup_global f = false.
Proof. intros H. unfold dup_global. apply dupb_NoDup. rewrite map_fst_def_names. exact H. Qed.

Lemma Forall2_flat_map' {A B C D} (R : A -> B -> Prop) (S : C -> D -> Prop) h h' l l' :
  Forall2 R l l' -> (forall x y, R x y -> Forall2 S (h x) (h' y)) -> Forall2 S (flat_map' h l) (flat_map' h' l').
Proof.
  intros H Hh. unfold flat_map'. induction H as [|x y l l' Rxy _ IH]; cbn [map concat]; [constructor|].
  apply Forall2_app; auto.
Qed.

Lemma Forall2_Forall_l {A B} (R : A -> B -> Prop) (Q : A -> Prop) l l' :
  Forall2 R l l' -> (forall x y, R x y -> Q x) -> Forall Q l.
Proof. induction 1; constructor; eauto. Qed.

Lemma two_mapM_rel {A B C} (r : A -> result B) (fx : B -> result C) (R : A -> C -> Prop) l l1 l2 :
  (forall x y z, r x = Ok y -> fx y = Ok z -> R x z) -> mapM r l = Ok l1 -> mapM fx l1 = Ok l2 -> Forall2 R l l2.
Proof.
  intros H H1 H2. eapply Forall2_impl'; [|exact (two_mapM _ _ _ _ _ H1 H2)]. intros x z (y & Hy & Hz). eauto.
Qed.

(* What resolve_file_in does to each declaration of the parsed file: the resolved file
   has the same declarations in the same order, each type went through ResolveType and
   the typedef pass, each value through ResolveConstValue. *)
Section Kept.
  Variables (d1 : program) (g : file) (st : list tde) (fuel : nat).

  Definition ty_kept (t t2 : ty) : Prop :=
    exists t1, resolve_ty d1 g t = Ok t1 /\ fix_ty d1 g st t1 = Ok t2.

  Definition fd_kept (fd fd2 : field) : Prop :=
    fd_name fd2 = fd_name fd /\ ty_kept (fd_type fd) (fd_type fd2) /\
    match fd_default fd with
    | Some v => exists v2, fd_default fd2 = Some v2 /\ resolve_cv fuel d1 g v = Ok v2
    | None => fd_default fd2 = None
    end.

  Lemma field_kept b fd fd1 fd2 :
    resolve_field fuel d1 g b fd = Ok fd1 -> fix_field d1 g st fd1 = Ok fd2 -> fd_kept fd fd2.
  Proof.
    unfold resolve_field, fix_field. intros H1 H2. inv_bind H1. inv_bind H2.
    injection H1 as <-. injection H2 as <-. unfold fd_kept, ty_kept. cbn [fd_type fd_name fd_default] in *. split; [reflexivity|].
    split; [exists x; auto|]. destruct (fd_default fd) as [v|]; [inv_bind E0; injection E0 as <-; eauto | injection E0 as <-; reflexivity].
  Qed.

  Definition sl_kept (s s2 : struct_like) : Prop :=
    sl_name s2 = sl_name s /\ Forall2 fd_kept (sl_fields s) (sl_fields s2).

  Lemma struct_kept s s1 s2 :
    resolve_struct_like fuel d1 g s = Ok s1 -> fix_struct_like d1 g st s1 = Ok s2 -> sl_kept s s2.
  Proof.
    unfold resolve_struct_like, fix_struct_like. intros H1 H2. inv_bind H1. inv_bind H2.
    injection H1 as <-. injection H2 as <-. unfold sl_kept. cbn [sl_name sl_fields] in *. split; [reflexivity|].
    exact (two_mapM_rel _ _ _ _ _ _ (field_kept _) E E0).
  Qed.

  Definition fn_kept (fu fu2 : function) : Prop :=
    (fn_void fu = false -> exists t1, resolve_ty d1 g (fn_type fu) = Ok t1) /\
    Forall2 fd_kept (fn_args fu) (fn_args fu2) /\ Forall2 fd_kept (fn_throws fu) (fn_throws fu2).
  Definition sv_kept (sv sv2 : service) : Prop :=
    (exists rb, resolve_base d1 g sv = Ok rb) /\ Forall2 fn_kept (sv_functions sv) (sv_functions sv2).

  Lemma function_kept fu fu1 fu2 :
    resolve_function fuel d1 g fu = Ok fu1 -> fix_function d1 g st fu1 = Ok fu2 -> fn_kept fu fu2.
  Proof.
    unfold resolve_function, fix_function. intros H1 H2. inv_bind H1. inv_bind H2.
    injection H1 as <-. injection H2 as <-. unfold fn_kept. cbn [fn_args fn_throws] in *.
    split; [intros Hv; rewrite Hv in E; eauto|]. split; eapply two_mapM_rel; eauto using field_kept.
  Qed.

  Lemma service_kept sv sv1 sv2 :
    resolve_service fuel d1 g sv = Ok sv1 -> fix_service d1 g st sv1 = Ok sv2 -> sv_kept sv sv2.
  Proof.
    unfold resolve_service, fix_service. intros H1 H2. inv_bind H1. inv_bind H2.
    injection H1 as <-. injection H2 as <-. unfold sv_kept. cbn [sv_functions] in *.
    split; [eauto | exact (two_mapM_rel _ _ _ _ _ _ function_kept E E1)].
  Qed.

  Definition co_kept (c c2 : constant) : Prop :=
    ty_kept (co_type c) (co_type c2) /\ resolve_cv fuel d1 g (co_value c) = Ok (co_value c2).

  Lemma constant_kept c c1 c2 :
    resolve_constant fuel d1 g c = Ok c1 -> fix_constant d1 g st c1 = Ok c2 -> co_kept c c2.
  Proof.
    unfold resolve_constant, fix_constant. intros H1 H2. inv_bind H1. inv_bind H2.
    injection H1 as <-. injection H2 as <-. unfold co_kept, ty_kept. cbn [co_type co_value] in *. split; [exists x; auto | exact E0].
  Qed.

  Definition decls_kept (f f' : file) : Prop :=
    Forall2 sl_kept (struct_likes f) (struct_likes f') /\ Forall2 co_kept (f_constants f) (f_constants f') /\
    Forall2 sv_kept (f_services f) (f_services f').

  Lemma file_fields_kept f f' : decls_kept f f' -> Forall2 fd_kept (file_fields f) (file_fields f').
  Proof.
    intros (Hs & _ & Hv). unfold file_fields. apply Forall2_app.
    - eapply Forall2_flat_map'; [exact Hs|]. intros s s2 (_ & H). exact H.
    - eapply Forall2_flat_map'; [exact Hv|]. intros sv sv2 (_ & H). unfold service_fields.
      eapply Forall2_flat_map'; [exact H|]. intros fu fu2 (_ & Ha & Ht). unfold function_fields. apply Forall2_app; assumption.
  Qed.

  (* a property of every type ResolveType accepts holds of every type occurrence the
     declarations are written with *)
  Section Types.
    Variable Q : ty -> Prop.
    Hypothesis HQ : forall t t1, resolve_ty d1 g t = Ok t1 -> Q t.

    Lemma fields_types l l2 : Forall2 fd_kept l l2 -> Forall Q (map fd_type l).
    Proof.
      intros H. rewrite Forall_map. eapply Forall2_Forall_l; [exact H|].
      intros fd fd2 (_ & (t1 & Ht & _) & _). exact (HQ _ _ Ht).
    Qed.

    Lemma decls_types f f' : decls_kept f f' ->
      Forall Q (map co_type (f_constants f) ++ map fd_type (flat_map' sl_fields (struct_likes f)) ++
                flat_map' (fun s => flat_map' function_top_types (sv_functions s)) (f_services f)).
    Proof.
      intros (Hs & Hc & Hv). rewrite !Forall_app. split; [|split].
      - rewrite Forall_map. eapply Forall2_Forall_l; [exact Hc|]. intros c c2 ((t1 & Ht & _) & _). exact (HQ _ _ Ht).
      - eapply fields_types, Forall2_flat_map'; [exact Hs|]. intros s s2 (_ & H). exact H.
      - rewrite Forall_flat_map'. eapply Forall2_Forall_l; [exact Hv|]. intros sv sv2 (_ & Hf).
        rewrite Forall_flat_map'. eapply Forall2_Forall_l; [exact Hf|]. intros fu fu2 (Hrt & Ha & Ht).
        unfold function_top_types, function_fields. rewrite map_app, !Forall_app.
        split; [|split; eapply fields_types; eassumption].
        destruct (fn_void fu); constructor; [|constructor]. destruct (Hrt eq_refl) as (t1 & H1). exact (HQ _ _ H1).
    Qed.
  End Types.

  (* the pair handed to the backend for a typed value of the parsed file *)
  Definition tv_kept (tv tv2 : ty * const_value) : Prop :=
    ty_kept (fst tv) (fst tv2) /\ resolve_cv fuel d1 g (snd tv) = Ok (snd tv2).

  (* the function [typed_values] (Idl/Rules.v) and [backend_values] (Idl/Accept.v) map
     over the fields *)
  Definition field_values (fd : field) : list (ty * const_value) :=
    match fd_default fd with Some v => [(fd_type fd, v)] | None => [] end.

  Lemma fields_values l l2 : Forall2 fd_kept l l2 ->
    forall tv, In tv (flat_map field_values l) -> exists tv2, In tv2 (flat_map field_values l2) /\ tv_kept tv tv2.
  Proof.
    induction 1 as [|fd fd2 l l2 (Hn & Ht & Hd) _ IH]; intros tv Hin; cbn [flat_map] in *; [destruct Hin|].
    apply in_app_or in Hin. destruct Hin as [Hin|Hin].
    - unfold field_values in Hin. destruct (fd_default fd) as [v|]; [|destruct Hin]. destruct Hin as [<-|[]].
      destruct Hd as (v2 & Hd2 & Hv). exists (fd_type fd2, v2). split; [|split; assumption].
      apply in_or_app. left. unfold field_values. rewrite Hd2. left. reflexivity.
    - destruct (IH tv Hin) as (tv2 & Hi & Hk). exists tv2. split; [apply in_or_app; right; exact Hi | exact Hk].
  Qed.

  Lemma values_kept f f' : decls_kept f f' ->
    forall tv, In tv (typed_values f) -> exists tv2, In tv2 (backend_values f') /\ tv_kept tv tv2.
  Proof.
    intros K tv Hin. unfold typed_values in Hin. unfold backend_values. apply in_app_or in Hin. destruct Hin as [Hin|Hin].
    - apply in_map_iff in Hin. destruct Hin as (c & <- & Hc).
      destruct (Forall2_In_l _ _ _ _ (proj1 (proj2 K)) Hc) as (c2 & Hc2 & Kc).
      exists (co_type c2, co_value c2). split; [apply in_or_app; right; apply in_map_iff; eauto | exact Kc].
    - destruct (fields_values _ _ (file_fields_kept f f' K) tv Hin) as (tv2 & Hi & Hk).
      exists tv2. split; [apply in_or_app; left; exact Hi | exact Hk].
  Qed.
End Kept.

(* [n2c]: the registered names; [tds1]: the typedefs after ResolveType, which the
   later declarations are resolved against; [st]: the table of the typedef pass *)
Lemma resolve_file_in_kept d1 f f' : resolve_file_in d1 f = Ok f' ->
  exists n2c tds1 st,
    register (file_def_names f) [] = Ok n2c /\
    mapM (resolve_typedef d1 (with_name2cat f (Some n2c))) (f_typedefs f) = Ok tds1 /\
    let g := with_typedefs (with_name2cat f (Some n2c)) tds1 in
    decls_kept d1 g st (enum_fuel d1 g) f f'.
Proof.
  intros H. destruct (resolve_file_in_ok _ _ _ H) as
    (n2c & tds1 & cs1 & ss1 & us1 & es1 & sv1 & st & tds2 & cs2 & ss2 & us2 & es2 & sv2 &
     E & E0 & E1 & E2 & E3 & E4 & E5 & _ & _ & E8 & E9 & E10 & E11 & E12 & ->).
  exists n2c, tds1, st. split; [exact E|]. split; [exact E0|]. unfold decls_kept, struct_likes.
  cbn [with_includes f_structs f_unions f_exceptions f_services f_constants].
  split; [repeat apply Forall2_app|split].
  - exact (two_mapM_rel _ _ _ _ _ _ (struct_kept _ _ _ _) E2 E9).
  - exact (two_mapM_rel _ _ _ _ _ _ (struct_kept _ _ _ _) E3 E10).
  - exact (two_mapM_rel _ _ _ _ _ _ (struct_kept _ _ _ _) E4 E11).
  - exact (two_mapM_rel _ _ _ _ _ _ (constant_kept _ _ _ _) E1 E8).
  - exact (two_mapM_rel _ _ _ _ _ _ (service_kept _ _ _ _) E5 E12).
Qed.

Definition name_ok (done : program) (f : file) (n : bytes) : Prop :=
  match builtin_category n with
  | Some _ => True
  | None =>
    match split_type n with
    | [a] => exists c, lookup a (n2c_of f) = Some c /\ is_type_cat c = true
    | [pre; m] => exists idx c, find_include done is_type_cat pre m (f_includes f) 0 = Some (idx, c)
    | _ => False
    end
  end.

Lemma resolve_ty_names done f : forall t t', resolve_ty done f t = Ok t' ->
  Forall (fun o => name_ok done f (ty_name o)) (ty_occs t).
Proof.
  induction t as [n k v cpp an cat r td IHk IHv] using ty_ind'. intros t' H.
  cbn [resolve_ty] in H. cbn [ty_occs]. destruct (builtin_category n) as [c|] eqn:Bn.
  - assert (Hh : name_ok done f (ty_name (Ty n k v cpp an cat r td))) by (unfold name_ok; cbn [ty_name]; rewrite Bn; exact I).
    destruct c; try (constructor; [exact Hh | constructor]).
    + (* map *)
      destruct k as [kt|]; [|discriminate]. destruct v as [vt|]; [|cbn [bind] in H; inv_bind H; discriminate].
      inv_bind H. constructor; [exact Hh|]. apply Forall_app. split; [eapply IHk; eauto | eapply IHv; eauto].
    + destruct v as [vt|]; [|discriminate]. inv_bind H. constructor; [exact Hh | eapply IHv; eauto].
    + destruct v as [vt|]; [|discriminate]. inv_bind H. constructor; [exact Hh | eapply IHv; eauto].
  - constructor; [|constructor]. unfold name_ok. cbn [ty_name]. rewrite Bn.
    destruct (split_type n) as [|a [|m [|? ?]]] eqn:Sn; try discriminate.
    + destruct (lookup a (n2c_of f)) as [c|] eqn:La; [|discriminate].
      destruct (is_type_cat c) eqn:Tc; [|discriminate]. eauto.
    + destruct (find_include done is_type_cat a m (f_includes f) 0) as [[idx c]|] eqn:Fi; [|discriminate]. eauto.
Qed.

Lemma td_iter_unfold j p nd :
  td_iter (S j) p nd = match td_step p nd with Some n' => td_iter j p n' | None => None end.
Proof. reflexivity. Qed.

Lemma td_iter_succ k p : forall node, td_iter (S k) p node =
  match td_iter k p node with Some n' => td_step p n' | None => None end.
Proof.
  induction k as [|k IH]; intros node.
  - rewrite td_iter_unfold. cbn [td_iter]. destruct (td_step p node); reflexivity.
  - rewrite (td_iter_unfold (S k)), (td_iter_unfold k). destruct (td_step p node) as [n'|]; [apply IH | reflexivity].
Qed.

Lemma denotes_no_cycle p :
  (forall fn a d, def_denotes p fn a d -> forall k, td_iter (S k) p (fn, a) <> Some (fn, a)) /\
  (forall fn n d, name_denotes p fn n d ->
     forall node, resolve_name p fn n = Some node -> forall k, td_iter (S k) p node <> Some node).
Proof.
  apply denotes_mutind.
  - intros fn n vs Hd k. rewrite td_iter_unfold. unfold td_step. cbn [fst snd]. rewrite Hd. discriminate.
  - intros fn n s Hd k. rewrite td_iter_unfold. unfold td_step. cbn [fst snd]. rewrite Hd. discriminate.
  - intros fn n tgt d Hd _ IH k Hc.
    assert (Hs : td_step p (fn, n) = resolve_name p fn tgt) by (unfold td_step; cbn [fst snd]; rewrite Hd; reflexivity).
    destruct (resolve_name p fn tgt) as [node|] eqn:Rn.
    + apply (IH node eq_refl k). rewrite td_iter_succ.
      rewrite td_iter_unfold, Hs in Hc. rewrite Hc. exact Hs.
    + rewrite td_iter_unfold, Hs in Hc. discriminate.
  - intros fn n c Hb node Hr. unfold resolve_name in Hr. rewrite Hb in Hr. discriminate.
  - intros fn n a d Hb Hs _ IH node Hr. unfold resolve_name in Hr. rewrite Hb, Hs in Hr. injection Hr as <-. exact IH.
  - intros fn f n pre m i gn d Hb Hs Hf Hi _ IH node Hr. unfold resolve_name in Hr.
    rewrite Hb, Hs, Hf, Hi in Hr. injection Hr as <-. exact IH.
Qed.

Lemma good_typedef_denotes p done fn f f' td :
  prog_file p fn = Some f -> good p done fn f f' -> In td (f_typedefs f) ->
  exists d, def_denotes p fn (td_alias td) d.
Proof.
  intros Hf Gd Hin.
  destruct (Forall2_In_l _ _ _ _ (gd_tds _ _ _ _ _ Gd) Hin) as (td' & Hin' & (_ & Hn)).
  assert (Ho : occ_good p fn f (td_type td')).
  { pose proof (gd_occs _ _ _ _ _ Gd) as Ho. rewrite Forall_forall in Ho. apply Ho.
    apply (In_top_occs_file_occs f' (td_type td')); [|apply ty_occs_head].
    unfold file_top_occs. apply in_or_app. left. apply in_map. exact Hin'. }
  destruct (occ_good_denotes p fn f _ Hf Ho) as (d & Hd & _). rewrite Hn in Hd.
  exists d. eapply dd_typedef; [|exact Hd].
  rewrite (def_of_file p fn f _ Hf). apply file_defs_typedef; [exact (gd_nodup _ _ _ _ _ Gd) | exact Hin].
Qed.

Lemma good_no_typedef_cycle p done fn f f' :
  prog_file p fn = Some f -> good p done fn f f' -> typedef_cycle p fn f = false.
Proof.
  intros Hf Gd. unfold typedef_cycle. apply existsb_false. intros td Hin.
  destruct (good_typedef_denotes p done fn f f' td Hf Gd Hin) as (d & Hd).
  unfold on_typedef_cycle. apply existsb_false. intros k _.
  destruct (td_iter (S k) p (fn, td_alias td)) as [n'|] eqn:E; [|reflexivity].
  destruct (node_eqb n' (fn, td_alias td)) eqn:En; [|reflexivity]. exfalso.
  unfold node_eqb in En. apply andb_true_iff in En. destruct En as (E1 & E2). apply beqb_true in E1, E2.
  destruct n' as [a b]. cbn [fst snd] in E1, E2. subst a b.
  exact (proj1 (denotes_no_cycle p) fn (td_alias td) d Hd k E).
Qed.

Lemma spec_enum_sound p : forall k fn n efn vs i,
  spec_enum k p fn n = Some (Some (efn, vs, i)) -> enum_denotes p fn n efn vs i.
Proof.
  induction k as [|k IH]; intros fn n efn vs i H; cbn [spec_enum] in H; [discriminate|].
  destruct (def_of p fn n) as [[tgt| |vs0|s|]|] eqn:Dn; try discriminate.
  - destruct (builtin_category tgt) eqn:Bt; [discriminate|].
    destruct (split_type tgt) as [|a [|m [|? ?]]] eqn:St; try discriminate.
    + eapply ed_local; eauto.
    + destruct (prog_file p fn) as [f|] eqn:Pf; [|discriminate].
      destruct (spec_include p is_type_kind a m (file_incs f) 0) as [[j gn]|] eqn:Si; [|discriminate].
      destruct (spec_enum k p gn m) as [[[[efn' vs'] j']|]|] eqn:Se; try discriminate. injection H as <- <- <-.
      eapply ed_qualified; eauto.
  - injection H as <- <- <-. apply ed_enum. exact Dn.
Qed.

(* the relation is a function of (fn, n): whatever the search answers is its value *)
Lemma spec_enum_complete p fn n efn vs i : enum_denotes p fn n efn vs i ->
  forall k res, spec_enum k p fn n = Some res -> res = Some (efn, vs, i).
Proof.
  induction 1 as [fn n vs H | fn n tgt a efn vs i H Hb Hs _ IH | fn f n tgt pre m i gn efn vs j H Hb Hs Hf Hi _ IH];
    intros [|k] res Hk; try discriminate; cbn [spec_enum] in Hk; rewrite H in Hk.
  - congruence.
  - rewrite Hb, Hs in Hk. exact (IH k res Hk).
  - rewrite Hb, Hs, Hf, Hi in Hk. destruct (spec_enum k p gn m) as [r|] eqn:Se; [|discriminate].
    rewrite (IH k r Se) in Hk. congruence.
Qed.

Lemma mem_bytes_true x l : mem_bytes x l = true <-> In x l.
Proof. rewrite mem_bytes_memb. apply memb_true. Qed.

Lemma inc_expl_spec h pre : forall incs idx l, inc_expl h pre incs idx = Some l ->
  forall x, In x l <->
    exists i gn li, idx <= i /\ nth_error incs (i - idx) = Some (pre, Some gn) /\ h i gn = Some li /\ In x li.
Proof.
  induction incs as [|[pre' ref] incs IH]; intros idx l H x; cbn [inc_expl] in H.
  - injection H as <-. split; [intros []|]. intros (i & gn & li & _ & Hn & _). destruct (i - idx); discriminate.
  - destruct (if beqb pre' pre then match ref with Some gn => h idx gn | None => Some [] end else Some []) as [a|] eqn:Ha; [|discriminate].
    destruct (inc_expl h pre incs (S idx)) as [b|] eqn:Hb; [|discriminate]. injection H as <-.
    rewrite in_app_iff, (IH _ _ Hb x). split.
    + intros [Hx|(i & gn & li & Hle & Hn & Hh & Hx)].
      * destruct (beqb pre' pre) eqn:Ep; [|injection Ha as <-; destruct Hx]. apply beqb_true in Ep. subst pre'.
        destruct ref as [gn|]; [|injection Ha as <-; destruct Hx].
        exists idx, gn, a. rewrite Nat.sub_diag. cbn. auto.
      * exists i, gn, li. split; [lia|]. replace (i - idx) with (S (i - S idx)) by lia. cbn. auto.
    + intros (i & gn & li & Hle & Hn & Hh & Hx). destruct (Nat.eq_dec i idx) as [->|Hne].
      * left. rewrite Nat.sub_diag in Hn. cbn in Hn. injection Hn as -> ->. rewrite beqb_refl, Hh in Ha. injection Ha as <-. exact Hx.
      * right. exists i, gn, li. split; [lia|]. replace (i - idx) with (S (i - S idx)) in Hn by lia. cbn in Hn. auto.
Qed.

Lemma inc_expl_call h pre : forall incs idx l i gn, inc_expl h pre incs idx = Some l ->
  nth_error incs i = Some (pre, Some gn) -> exists li, h (idx + i) gn = Some li.
Proof.
  induction incs as [|[pre' ref] incs IH]; intros idx l i gn H Hn; [destruct i; discriminate|].
  cbn [inc_expl] in H.
  destruct (if beqb pre' pre then match ref with Some g => h idx g | None => Some [] end else Some []) as [a|] eqn:Ha; [|discriminate].
  destruct (inc_expl h pre incs (S idx)) as [b|] eqn:Hb; [|discriminate].
  destruct i as [|i]; cbn [nth_error] in Hn.
  - injection Hn as -> ->. rewrite beqb_refl in Ha. rewrite Nat.add_0_r. eauto.
  - destruct (IH _ _ _ _ Hb Hn) as (li & Hl). exists li. replace (idx + S i) with (S idx + i) by lia. exact Hl.
Qed.

Lemma alt_expl_spec p fuel fn f ss l : prog_file p fn = Some f ->
  alt_expl fuel p fn f ss = Some l -> forall x, In x l <-> alt_denotes p fn ss x.
Proof.
  intros Pf H x. destruct ss as [|a [|b [|c [|? ?]]]]; cbn [alt_expl] in H; cbn [alt_denotes].
  - injection H as <-. split; [intros [] | tauto].
  - injection H as <-. destruct (def_of p fn a) as [k|] eqn:Da.
    + destruct k; split; try (intros []; fail); try (intros (E & _); discriminate).
      * intros [<-|[]]. auto.
      * intros (_ & ->). left. reflexivity.
    + split; [intros [] | intros (E & _); discriminate].
  - destruct (spec_enum fuel p fn a) as [r|] eqn:Se; [|discriminate].
    set (ie := inc_expl _ a (file_incs f) 0) in H. destruct ie as [c2|] eqn:Hc2; [|discriminate]. subst ie.
    injection H as <-.
    rewrite in_app_iff, (inc_expl_spec _ _ _ _ _ Hc2 x). split.
    + intros [H1|(i & gn & li & _ & Hn & Hh & Hx)].
      * left. destruct r as [[[efn vs] i]|]; [|destruct H1]. destruct (mem_bytes b vs) eqn:M; [|destruct H1].
        destruct H1 as [<-|[]]. apply mem_bytes_true in M. apply spec_enum_sound in Se. eauto 6.
      * right. rewrite Nat.sub_0_r in Hn. injection Hh as <-. destruct (def_of p gn b) as [k|] eqn:Db; [|destruct Hx].
        destruct k; try (destruct Hx; fail). destruct Hx as [<-|[]]. exists f, i, gn. auto.
    + intros [(efn & vs & i & Hd & Hv & ->)|(f0 & i & gn & Pf0 & Hn & Hd & ->)].
      * left. rewrite (spec_enum_complete _ _ _ _ _ _ Hd _ _ Se). apply mem_bytes_true in Hv. rewrite Hv. left. reflexivity.
      * right. assert (f0 = f) by congruence. subst f0. exists i, gn, [Extra false (Z.of_nat i) b a].
        split; [lia|]. rewrite Nat.sub_0_r. split; [exact Hn|]. rewrite Hd. split; [reflexivity | left; reflexivity].
  - rewrite (inc_expl_spec _ _ _ _ _ H x). split.
    + intros (i & gn & li & _ & Hn & Hh & Hx). rewrite Nat.sub_0_r in Hn.
      destruct (spec_enum fuel p gn b) as [[[[efn vs] j]|]|] eqn:Se; [|injection Hh as <-; destruct Hx|discriminate].
      injection Hh as <-. apply spec_enum_sound in Se.
      destruct (mem_bytes c vs) eqn:M; [|destruct Hx]. destruct Hx as [<-|[]]. apply mem_bytes_true in M.
      exists f, i, gn, efn, vs, j. auto.
    + intros (f0 & i & gn & efn & vs & j & Pf0 & Hn & Hd & Hv & ->). assert (f0 = f) by congruence. subst f0.
      destruct (inc_expl_call _ _ _ _ _ _ _ H Hn) as (li & Hl). cbn [plus] in Hl.
      exists i, gn, li. split; [lia|]. rewrite Nat.sub_0_r. split; [exact Hn|]. split; [exact Hl|].
      destruct (spec_enum fuel p gn b) as [r|] eqn:Se; [|discriminate].
      rewrite (spec_enum_complete _ _ _ _ _ _ Hd _ _ Se) in Hl. injection Hl as <-.
      apply mem_bytes_true in Hv. rewrite Hv. left. reflexivity.
  - injection H as <-. split; [intros [] | tauto].
Qed.

Lemma all_expl_spec p fuel fn f : prog_file p fn = Some f -> forall sss l,
  all_expl fuel p fn f sss = Some l ->
  forall x, In x l <-> exists ss, In ss sss /\ alt_denotes p fn ss x.
Proof.
  intros Pf. induction sss as [|ss sss IH]; intros l H x; cbn [all_expl] in H.
  - injection H as <-. split; [intros [] | intros (? & [] & _)].
  - destruct (alt_expl fuel p fn f ss) as [a|] eqn:Ha; [|discriminate].
    destruct (all_expl fuel p fn f sss) as [b|] eqn:Hb; [|discriminate]. injection H as <-.
    rewrite in_app_iff, (alt_expl_spec p _ _ _ _ _ Pf Ha x), (IH _ eq_refl x). split.
    + intros [Hx|(ss' & Hin & Hx)]; [exists ss; cbn; auto | exists ss'; cbn; auto].
    + intros (ss' & [<-|Hin] & Hx); [left; exact Hx | right; eauto].
Qed.

(* when the enumeration answers, it lists exactly the explanations of the relation *)
Theorem explanations_spec p fn f s l : prog_file p fn = Some f -> explanations p fn f s = Some l ->
  forall x, In x l <-> const_denotes p fn s x.
Proof.
  intros Pf H x. unfold explanations in H. rewrite (all_expl_spec p _ _ _ Pf _ _ H x).
  symmetry. apply const_denotes_alt.
Qed.

(* the identifiers ResolveConstValue must bind *)
Definition cv_idents (c : const_value) : list bytes :=
  flat_map (fun c => match c with
                     | CIdent s _ => if ident_is_bool s then [] else [s]
                     | _ => []
                     end) (cv_subvalues c).

Lemma resolve_cv_idents fuel done g : forall c c', resolve_cv fuel done g c = Ok c' ->
  forall s, In s (cv_idents c) -> exists e, resolve_ident fuel done g s = Ok (Some e).
Proof.
  unfold cv_idents.
  induction c as [b|z|s0|s0 e0|l IHl|l IHl] using const_value_ind'; intros c' H s Hs; cbn [cv_subvalues flat_map app] in Hs.
  - destruct Hs.
  - destruct Hs.
  - destruct Hs.
  - rewrite app_nil_r in Hs. destruct (ident_is_bool s0) eqn:Bs; [destruct Hs|]. destruct Hs as [<-|[]].
    cbn [resolve_cv] in H. inv_bind H. destruct x as [e1|]; [eauto|]. exfalso.
    unfold resolve_ident in E. rewrite Bs in E. inv_bind E. destruct x as [|e1 [|? ?]]; discriminate.
  - cbn [resolve_cv] in H. inv_bind H. clear H. rename x into l'. revert l' E Hs.
    induction IHl as [|y l Hy _ IH2]; intros l' E Hs; cbn [map concat flat_map] in Hs; [destruct Hs|].
    inv_bind E. rewrite flat_map_app in Hs. apply in_app_or in Hs. destruct Hs as [Hs|Hs].
    + eapply Hy; eauto.
    + eapply IH2; eauto.
  - cbn [resolve_cv] in H. inv_bind H. clear H. rename x into l'. revert l' E Hs.
    induction IHl as [|[k v] l (Hk & Hv) _ IH2]; intros l' E Hs; cbn [map concat flat_map fst snd] in Hs; [destruct Hs|].
    inv_bind E. rewrite !flat_map_app in Hs. apply in_app_or in Hs. destruct Hs as [Hs|Hs].
    + apply in_app_or in Hs. destruct Hs as [Hs|Hs]; [eapply Hk; eauto | eapply Hv; eauto].
    + eapply IH2; eauto.
Qed.

Lemma file_idents_in f s : In s (file_idents f) ->
  exists c, In c (file_top_const_values f) /\ In s (cv_idents c).
Proof.
  unfold file_idents, file_const_values, cv_idents. intros H. apply in_flat_map in H.
  destruct H as (c0 & Hc0 & Hs). apply in_flat_map' in Hc0. destruct Hc0 as (c & Hc & Hsub).
  exists c. split; [exact Hc|]. apply in_flat_map. eauto.
Qed.

Definition lit_key (c : const_value) : option bytes := match c with CLiteral n => Some n | _ => None end.

Inductive cshape := SInt | SDouble | SLit | SIdent (isbool : bool) | SList | SMap (keys : list (option bytes)).

Definition shape (c : const_value) : cshape :=
  match c with
  | CInt _ => SInt
  | CDouble _ => SDouble
  | CLiteral _ => SLit
  | CIdent s _ => SIdent (ident_is_bool s)
  | CList _ => SList
  | CMap l => SMap (map (fun kv => lit_key (fst kv)) l)
  end.

(* resolving a value only adds the bindings of identifiers *)
Lemma resolve_cv_strip fuel d g : forall c c', resolve_cv fuel d g c = Ok c' -> cv_strip c' = cv_strip c.
Proof.
  induction c as [b|z|s0|s0 e0|l IHl|l IHl] using const_value_ind'; intros c' H; cbn [resolve_cv] in H.
  - injection H as <-. reflexivity.
  - injection H as <-. reflexivity.
  - injection H as <-. reflexivity.
  - inv_bind H. injection H as <-. reflexivity.
  - inv_bind H. injection H as <-. cbn [cv_strip]. f_equal. clear -IHl E. revert x E.
    induction IHl as [|y l Hy _ IH2]; intros l' E.
    + injection E as <-. reflexivity.
    + inv_bind E. injection E as <-. cbn [map]. rewrite (Hy _ E0), (IH2 _ E1). reflexivity.
  - inv_bind H. injection H as <-. cbn [cv_strip]. f_equal. clear -IHl E. revert x E.
    induction IHl as [|[k v] l (Hk & Hv) _ IH2]; intros l' E.
    + injection E as <-. reflexivity.
    + inv_bind E. injection E as <-. cbn [map fst snd] in *. rewrite (Hk _ E0), (Hv _ E1), (IH2 _ E2). reflexivity.
Qed.

Lemma strip_shape c c' : cv_strip c' = cv_strip c -> shape c' = shape c.
Proof.
  destruct c as [b|z|s|s e|l|l], c' as [b'|z'|s'|s' e'|l'|l']; cbn [cv_strip shape]; intros H; try discriminate H; try reflexivity.
  - injection H as ->. reflexivity.
  - f_equal. injection H as H. revert l' H. induction l as [|[k v] l IH]; intros [|[k' v'] l'] H; cbn [map] in *; try discriminate H; [reflexivity|].
    injection H as Hk _ Hl. cbn [fst snd] in *. rewrite (IH _ Hl). f_equal.
    destruct k, k'; cbn [cv_strip lit_key] in *; try discriminate Hk; try reflexivity. injection Hk as ->. reflexivity.
Qed.

Lemma first_err_none {A} (chk : A -> option const_error) l : first_err chk l = None -> forall x, In x l -> chk x = None.
Proof.
  induction l as [|y l IH]; intros H x Hin; [destruct Hin|]. cbn [first_err] in H.
  destruct (chk y) eqn:E; [discriminate|]. destruct Hin as [<-|Hin]; auto.
Qed.

Lemma kind_check_scalar k r g t2 v2 c v :
  ty_category t2 = c -> shape v2 = shape v -> scalar_holds c v = false -> kind_check (S k) r g t2 v2 <> None.
Proof.
  intros Hc Hs Hh. cbn [kind_check]. rewrite Hc.
  (* the scalar categories, and for each the forms of [v] it does not hold *)
  destruct c; cbn [scalar_holds] in Hh; try discriminate.
  all: destruct v as [b|z|s|s e|l|l]; try discriminate.
  (* [v2] has the form of [v], and that branch of kind_check is an error *)
  all: destruct v2 as [b2|z2|s2|s2 e2|l2|l2]; cbn [shape] in Hs; try discriminate.
  all: try (intros X; discriminate X).
  (* what remains: bool from an identifier that is not true / false *)
  all: apply negb_false_iff in Hh; injection Hs as Hs; rewrite Hs, Hh; discriminate.
Qed.

Lemma kind_check_struct_form k r g t2 v2 v :
  is_struct_like_category (ty_category t2) = true -> shape v2 = shape v ->
  match v with CMap _ | CIdent _ _ => False | _ => True end -> kind_check (S k) r g t2 v2 <> None.
Proof.
  intros Hc Hs Hv. cbn [kind_check].
  destruct (ty_category t2); try discriminate;
    destruct v as [b|z|s|s e|l|l]; try contradiction;
    destruct v2 as [b2|z2|s2|s2 e2|l2|l2]; cbn [shape] in Hs; try discriminate; intros X; discriminate X.
Qed.

(* a struct literal: the struct-like the backend finds has the fields of [s] *)
Lemma kind_check_bad_key k r g t2 (l l2 : list (const_value * const_value)) s s2 :
  is_struct_like_category (ty_category t2) = true -> ty_ref t2 = None -> ty_is_typedef t2 = None ->
  find_struct_like g (ty_name t2) = Some s2 ->
  (forall n, find_field s2 n = None <-> find_field s n = None) ->
  map (fun kv => lit_key (fst kv)) l2 = map (fun kv => lit_key (fst kv)) l ->
  existsb (fun kv => bad_key s (fst kv)) l = true ->
  kind_check (S k) r g t2 (CMap l2) <> None.
Proof.
  intros Hc Hr Ht Hf Hfields Hkeys Hbad X. cbn [kind_check] in X.
  assert (Hd : deref (deref_fuel r) r g t2 = Ok (g, t2)).
  { unfold deref_fuel. rewrite Nat.add_comm. cbn [plus deref]. rewrite Hr, Ht. reflexivity. }
  apply existsb_exists in Hbad. destruct Hbad as (kv & Hin & Hb).
  assert (Hin2 : exists kv2, In kv2 l2 /\ lit_key (fst kv2) = lit_key (fst kv)).
  { assert (Hm : In (lit_key (fst kv)) (map (fun kv => lit_key (fst kv)) l2)) by (rewrite Hkeys; apply in_map_iff; eauto).
    apply in_map_iff in Hm. destruct Hm as (kv2 & E & Hi). eauto. }
  destruct Hin2 as (kv2 & Hi2 & Ek).
  (* struct, union, exception: kind_check walks the entries of [l2]; [Y] is what it says of [kv2] *)
  destruct (ty_category t2); try discriminate.
  all: rewrite Hd, Hf in X; pose proof (first_err_none _ _ X kv2 Hi2) as Y; cbv beta in Y.
  (* the key of [kv2] is a literal, since a key of another form is EBadKey; so is that of [kv], the same one *)
  all: destruct (fst kv2) as [b2|z2|n2|s0 e0|l0|l0]; try discriminate Y.
  all: cbn [lit_key] in Ek; destruct (fst kv) as [b1|z1|n1|s1 e1|l1|l1]; cbn [lit_key] in Ek; try discriminate Ek.
  all: injection Ek as ->; cbn [bad_key] in Hb.
  (* [bad_key]: [s] has no such field; then neither has [s2], which is EUnknownField *)
  all: destruct (find_field s n1) eqn:Fs; try discriminate Hb.
  all: apply Hfields in Fs; rewrite Fs in Y; discriminate Y.
Qed.

Lemma find_by_rel {A} (key : A -> bytes) (R : A -> A -> Prop) l l' :
  Forall2 R l l' -> (forall x y, R x y -> key y = key x) ->
  forall k x, find_by key k l = Some x -> exists y, find_by key k l' = Some y /\ R x y.
Proof.
  intros H Hk. induction H as [|a b l l' Rab _ IH]; intros k x Hf; cbn [find_by] in *; [discriminate|].
  rewrite (Hk _ _ Rab). destruct (beqb (key a) k); [injection Hf as <-; eauto | auto].
Qed.

Lemma find_by_rel_none {A} (key : A -> bytes) (R : A -> A -> Prop) l l' :
  Forall2 R l l' -> (forall x y, R x y -> key y = key x) ->
  forall k, find_by key k l' = None <-> find_by key k l = None.
Proof.
  intros H Hk. induction H as [|a b l l' Rab _ IH]; intros k; cbn [find_by]; [tauto|].
  rewrite (Hk _ _ Rab). destruct (beqb (key a) k); [split; discriminate | apply IH].
Qed.

Lemma ty_kept_head d1 g st t t2 : ty_kept d1 g st t t2 -> ty_name t2 = ty_name t /\ head2 d1 g st t2.
Proof.
  intros (t1 & H1 & H2). destruct (resolve_ty_head1 d1 g t t1 H1) as (N1 & O1).
  destruct (fix_ty_head2 d1 g st t1 t2 O1 H2) as (N2 & O2). split; [congruence|].
  rewrite Forall_forall in O2. apply O2. apply ty_occs_head.
Qed.

Lemma flat_map_flat_map' {A B} (h : A -> list B) l : flat_map h l = flat_map' h l.
Proof. unfold flat_map'. apply flat_map_concat_map. Qed.

Section OneFile.
  Variables (p d1 : program) (fn : bytes) (f f' : file).
  Hypothesis Hinv : inv p d1.
  Hypothesis Hplain : plain_names p = true.
  Hypothesis Hf : prog_file p fn = Some f.
  Hypothesis Htg : forall i, In i (f_includes f) -> exists hn, in_ref i = Some hn /\ lookup hn d1 <> None.
  Hypothesis Hres : resolve_file_in d1 f = Ok f'.

  (* the context ResolveType runs in: registered names, unchanged includes *)
  Definition is_ctx (g : file) : Prop :=
    f_includes g = f_includes f /\
    forall n, lookup n (n2c_of g) = option_map dkind_cat (lookup n (file_defs f)).

  Lemma name_ok_status g n : is_ctx g -> name_ok d1 g n -> type_name_status p fn f n = NsOk.
  Proof.
    intros (Hi & Hn) H. unfold name_ok in H. unfold type_name_status.
    destruct (builtin_category n); [reflexivity|].
    destruct (split_type n) as [|a [|m [|? ?]]]; try contradiction.
    - destruct H as (c & La & Tc). rewrite Hn in La. rewrite (def_of_file p fn f a Hf).
      destruct (lookup a (file_defs f)) as [k|]; [|discriminate]. cbn [option_map] in La. injection La as <-.
      unfold is_type_kind. rewrite Tc. reflexivity.
    - destruct H as (idx & c & Fi). rewrite Hi in Fi.
      destruct (find_include_spec p d1 is_type_cat is_type_kind a m Hinv (fun k => eq_refl) _ _ _ _ Htg Fi) as (gn & k & Hs & _).
      change (map inc_key (f_includes f)) with (file_incs f) in Hs. rewrite Hs. reflexivity.
  Qed.

  Lemma ty_status g t t' : is_ctx g -> resolve_ty d1 g t = Ok t' ->
    forall o, In o (ty_occs t) -> type_name_status p fn f (ty_name o) = NsOk.
  Proof.
    intros Hc H o Ho. pose proof (resolve_ty_names d1 g t t' H) as Hall. rewrite Forall_forall in Hall.
    exact (name_ok_status g _ Hc (Hall o Ho)).
  Qed.

  Lemma base_status g sv r : is_ctx g -> resolve_base d1 g sv = Ok r -> base_known p fn f sv = true.
  Proof.
    intros (Hi & Hn) H. unfold resolve_base in H. unfold base_known.
    destruct (split_type (sv_extends sv)) as [|a [|m [|? ?]]]; try reflexivity.
    - rewrite Hn in H. rewrite (def_of_file p fn f a Hf).
      destruct (lookup a (file_defs f)) as [k|]; [|discriminate]. cbn [option_map] in H.
      destruct k as [t| |vs|s|]; cbn [dkind_cat] in H; try discriminate; [destruct s; discriminate | reflexivity].
    - rewrite Hi in H. destruct (find_include d1 is_service_cat a m (f_includes f) 0) as [[idx c]|] eqn:Fi; [|discriminate].
      destruct (find_include_spec p d1 is_service_cat is_service_kind a m Hinv (fun k => eq_refl) _ _ _ _ Htg Fi) as (gn & k & Hs & _).
      change (map inc_key (f_includes f)) with (file_incs f) in Hs. rewrite Hs. reflexivity.
  Qed.

  Lemma kept_status g st t t2 : is_ctx g -> ty_kept d1 g st t t2 ->
    forall o, In o (ty_occs t) -> type_name_status p fn f (ty_name o) = NsOk.
  Proof. intros Hc (t1 & H & _). exact (ty_status g t t1 Hc H). Qed.

  Lemma file_types_ok :
    (forall o, In o (file_occs f) -> type_name_status p fn f (ty_name o) = NsOk) /\
    unknown_base_service p fn f = false.
  Proof.
    destruct (resolve_file_in_kept d1 f f' Hres) as (n2c & tds1 & st & E & E0 & K). cbv zeta in K.
    set (f0 := with_name2cat f (Some n2c)) in *. set (g := with_typedefs f0 tds1) in *.
    assert (C0 : is_ctx f0) by (split; [reflexivity | exact (proj2 (register_file f n2c E))]).
    assert (C1 : is_ctx g) by (split; [reflexivity | exact (proj2 (register_file f n2c E))]).
    assert (Hall : Forall (fun t => forall o, In o (ty_occs t) -> type_name_status p fn f (ty_name o) = NsOk) (file_top_occs f)).
    { unfold file_top_occs. apply Forall_app. split.
      - rewrite Forall_map. eapply Forall2_Forall_l; [exact (mapM_Forall2 _ _ _ E0)|]. intros td td1 H1.
        unfold resolve_typedef in H1. apply bind_ok in H1. destruct H1 as (t1 & Ht1 & _). exact (ty_status f0 _ _ C0 Ht1).
      - exact (decls_types d1 g st _ _ (fun t t1 => ty_status g t t1 C1) f f' K). }
    split.
    - intros o Ho. unfold file_occs in Ho. apply in_flat_map' in Ho. destruct Ho as (t & Ht & Ho).
      rewrite Forall_forall in Hall. exact (Hall t Ht o Ho).
    - unfold unknown_base_service. apply existsb_false. intros sv Hsv.
      destruct (Forall2_In_l _ _ _ _ (proj2 (proj2 K)) Hsv) as (sv2 & _ & ((rb & Hrb) & _)).
      rewrite (base_status g sv rb C1 Hrb). reflexivity.
  Qed.

  Lemma file_idents_bound : forall s, In s (file_idents f) ->
    exists e, forall x, const_denotes p fn s x <-> x = e.
  Proof.
    destruct (resolve_file_in_kept d1 f f' Hres) as (n2c & tds1 & st & E & E0 & K). cbv zeta in K.
    set (g := with_typedefs (with_name2cat f (Some n2c)) tds1) in *. set (fuel := enum_fuel d1 g) in *.
    pose proof (cur_ectx p d1 fn f n2c tds1 Hinv Hf Htg E E0) as Hctx.
    pose proof (file_fields_kept _ _ _ _ _ _ K) as Kf. destruct K as (_ & Kc & _).
    intros s Hs. destruct (file_idents_in f s Hs) as (c & Hc & Hid).
    assert (Hcv : exists c', resolve_cv fuel d1 g c = Ok c').
    { unfold file_top_const_values in Hc. apply in_app_or in Hc. destruct Hc as [Hc|Hc].
      - apply in_map_iff in Hc. destruct Hc as (co & <- & Hco).
        destruct (Forall2_In_l _ _ _ _ Kc Hco) as (co2 & _ & (_ & Hv)). eauto.
      - apply in_flat_map' in Hc. destruct Hc as (fd & Hfd & Hc).
        destruct (Forall2_In_l _ _ _ _ Kf Hfd) as (fd2 & _ & (_ & _ & Hd)).
        destruct (fd_default fd) as [c0|]; [|destruct Hc]. destruct Hc as [<-|[]]. destruct Hd as (v2 & _ & Hv). eauto. }
    destruct Hcv as (c' & Hc'). destruct (resolve_cv_idents fuel d1 g c c' Hc' s Hid) as (e & He). exists e. intros x.
    destruct (resolve_ident_good p d1 Hinv Hplain fn f g Hctx eq_refl Htg fuel s e He) as (Hd & Hu).
    split; [apply Hu | intros ->; exact Hd].
  Qed.

  Lemma file_consts_ok : undefined_const p fn f = false /\ ambiguous_const p fn f = false.
  Proof.
    split.
    - unfold undefined_const. apply existsb_false. intros s Hs. destruct (file_idents_bound s Hs) as (e & He).
      destruct (explanations p fn f s) as [l|] eqn:Ex; [|reflexivity]. destruct l as [|x l]; [|reflexivity].
      exfalso. exact (proj2 (explanations_spec p fn f s [] Hf Ex e) (proj2 (He e) eq_refl)).
    - unfold ambiguous_const. apply existsb_false. intros s Hs. destruct (file_idents_bound s Hs) as (e & He).
      destruct (explanations p fn f s) as [l|] eqn:Ex; [|reflexivity].
      unfold two_distinct. apply existsb_false. intros x Hx. apply existsb_false. intros y Hy.
      apply (explanations_spec p fn f s l Hf Ex) in Hx, Hy. apply He in Hx, Hy. subst x y.
      rewrite (proj2 (const_extra_eqb_eq e e) eq_refl). reflexivity.
  Qed.

  (* every typed value of the parsed file reaches the backend with its written form,
     a directly named scalar type with its category, and a directly named struct-like
     as a plain reference to the struct-like of the same fields *)
  Lemma typed_values_kept : forall tv, In tv (typed_values f) ->
    exists tv2, In tv2 (backend_values f') /\ shape (snd tv2) = shape (snd tv) /\
      (forall c, builtin_category (ty_name (fst tv)) = Some c -> ty_category (fst tv2) = c) /\
      (forall s, direct_struct p fn f (fst tv) = Some s ->
         is_struct_like_category (ty_category (fst tv2)) = true /\ ty_ref (fst tv2) = None /\
         ty_is_typedef (fst tv2) = None /\
         exists s2, find_struct_like f' (ty_name (fst tv2)) = Some s2 /\
                    forall n, find_field s2 n = None <-> find_field s n = None).
  Proof.
    destruct (resolve_file_in_kept d1 f f' Hres) as (n2c & tds1 & st & E & _ & K). cbv zeta in K.
    set (g := with_typedefs (with_name2cat f (Some n2c)) tds1) in *. set (fuel := enum_fuel d1 g) in *.
    intros tv Hin. destruct (values_kept _ _ _ _ _ _ K tv Hin) as (tv2 & Hi2 & (Kt & Kv)). destruct K as (Ksl & _).
    exists tv2. split; [exact Hi2|]. split; [exact (strip_shape _ _ (resolve_cv_strip _ _ _ _ _ Kv))|].
    destruct (ty_kept_head _ _ _ _ _ Kt) as (Hn & Hh). unfold head2 in Hh. rewrite Hn in Hh. split.
    - intros c Hb. rewrite Hb in Hh. exact (proj1 Hh).
    - intros s Hds. unfold direct_struct in Hds. destruct (builtin_category (ty_name (fst tv))) eqn:Hb; [discriminate|].
      destruct (split_type (ty_name (fst tv))) as [|a [|? ?]] eqn:Hsp; try discriminate.
      destruct (def_of p fn a) as [k|] eqn:Da; [|discriminate]. destruct k as [| | |k|]; try discriminate.
      destruct Hh as (c & La & Tc & Hr & Htd & Hcat).
      assert (Hc : c = sl_kind_category k).
      { change (n2c_of g) with n2c in La. rewrite (proj2 (register_file f n2c E) a) in La.
        rewrite (def_of_file p fn f a Hf) in Da. rewrite Da in La. cbn [option_map dkind_cat] in La. congruence. }
      assert (Ntd : is_typedef_cat c = false) by (rewrite Hc; destruct k; reflexivity).
      rewrite Ntd in Hcat. split; [rewrite Hcat, Hc; destruct k; reflexivity|]. split; [exact Hr|].
      split; [rewrite Htd; unfold typedef_flag; rewrite Ntd; reflexivity|].
      pose proof (split_type_single _ _ Hsp) as Ea. rewrite Hn, <- Ea. unfold find_struct_like in *.
      destruct (find_by_rel sl_name (sl_kept d1 g st fuel) _ _ Ksl (fun x y HR => proj1 HR) a s Hds) as (s2 & Hf2 & (_ & Hfs)).
      exists s2. split; [exact Hf2|]. intros n. unfold find_field.
      exact (find_by_rel_none fd_name (fd_kept d1 g st fuel) _ _ Hfs (fun x y HR => proj1 HR) n).
  Qed.

  Lemma check_scope_kinds r : prog_file r fn = Some f' -> check_scope r fn = None ->
    kind_mismatch p fn f = false /\ struct_literal_bad_key p fn f = false.
  Proof.
    intros Pr Hc. unfold check_scope in Hc. rewrite Pr in Hc. pose proof (first_err_none _ _ Hc) as Hall. cbv beta in Hall.
    split.
    - unfold kind_mismatch. apply existsb_false. intros tv Hin.
      destruct (typed_values_kept tv Hin) as (tv2 & Hi2 & Hs & Hb & Hd). specialize (Hall tv2 Hi2).
      destruct tv as [t v]. destruct tv2 as [t2 v2]. cbn [fst snd] in *.
      destruct (builtin_category (ty_name t)) as [c|] eqn:Bc.
      + destruct (scalar_holds c v) eqn:Sh; [reflexivity|]. exfalso.
        exact (kind_check_scalar _ r f' _ _ c _ (Hb c eq_refl) Hs Sh Hall).
      + destruct (direct_struct p fn f t) as [s|] eqn:Ds; [|reflexivity].
        destruct (Hd s eq_refl) as (Hcat & _).
        destruct v as [b|z|s0|s0 e0|l0|l0]; try reflexivity; exfalso;
          exact (kind_check_struct_form _ r f' _ _ _ Hcat Hs I Hall).
    - unfold struct_literal_bad_key. apply existsb_false. intros tv Hin.
      destruct (typed_values_kept tv Hin) as (tv2 & Hi2 & Hs & _ & Hd). specialize (Hall tv2 Hi2).
      destruct tv as [t v]. destruct tv2 as [t2 v2]. cbn [fst snd] in *.
      destruct (direct_struct p fn f t) as [s|] eqn:Ds; [|reflexivity].
      destruct v as [b|z|s0|s0 e0|l0|l]; try reflexivity.
      destruct (existsb (fun kv => bad_key s (fst kv)) l) eqn:Hb; [|reflexivity]. exfalso.
      destruct (Hd s eq_refl) as (Hcat & Hr & Ht & s2 & Hf2 & Hfields).
      destruct v2 as [b2|z2|s2'|s2' e2|l2|l2]; cbn [shape] in Hs; try discriminate Hs.
      injection Hs as Hk.
      exact (kind_check_bad_key _ r f' _ l l2 s s2 Hcat Hr Ht Hf2 Hfields Hk Hb Hall).
  Qed.
End OneFile.
