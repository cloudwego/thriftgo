(* Idl/ResolveFacts.v — what the resolved program says about each type occurrence and
   include (Category, IsTypedef, Reference.Index, Include.Used, Deref), and the
   uniqueness of the explanation of an identifier constant, with the program that refutes
   it when names are not plain. *)
From Coq Require Import List Bool Lia ZArith.
From Coq.Strings Require Import Byte String.
From Verif Require Import Base.Bytes Idl.Ast Idl.AstUtil Idl.AstFacts Idl.Resolve Idl.ResolveSpec Idl.ResolveLemmas Idl.ResolveInv
  Idl.ResolveProg Idl.ResolveDeref Idl.ResolveFuel.
Import ListNotations.
Local Open Scope resolve_scope.

Lemma spec_include_first p ok pre m : forall incs idx i gn,
  spec_include p ok pre m incs idx = Some (i, gn) ->
  forall j gn' k', idx <= j -> j < i -> nth_error incs (j - idx) = Some (pre, Some gn') ->
                   def_of p gn' m = Some k' -> ok k' = false.
Proof.
  induction incs as [|[pre' ref] incs IH]; intros idx i gn H j gn' k' Hle Hlt Hn Hd; cbn [spec_include] in H; [discriminate|].
  destruct (Nat.eq_dec j idx) as [->|Hne].
  - rewrite Nat.sub_diag in Hn. cbn in Hn. injection Hn as -> ->. rewrite beqb_refl, Hd in H.
    destruct (ok k'); [|reflexivity]. injection H as <- _. lia.
  - assert (Hn' : nth_error incs (j - S idx) = Some (pre, Some gn')).
    { replace (j - idx) with (S (j - S idx)) in Hn by lia. exact Hn. }
    assert (Hnext : spec_include p ok pre m incs (S idx) = Some (i, gn) -> ok k' = false)
      by (intros Hs; eapply (IH (S idx) i gn Hs j gn' k'); eauto; lia).
    destruct (beqb pre' pre); [|auto]. destruct ref as [hn|]; [|auto].
    destruct (def_of p hn m) as [k|]; [|auto]. destruct (ok k); [|auto].
    injection H as <- _. lia.
Qed.

Lemma resolved_occ p r :
  parsed_program p = true -> resolve_program p = Ok r ->
  forall fn f' t, prog_file r fn = Some f' -> f_name2cat f' <> None -> In t (file_occs f') ->
  exists f, prog_file p fn = Some f /\ occ_good p fn f t.
Proof.
  intros Hp Hr fn f' t Hf Hn Ht. destruct (resolve_program_good p r Hp Hr) as (done & _ & H).
  destruct (H fn f' Hf Hn) as (f & Hpf & Gd). exists f. split; [exact Hpf|].
  pose proof (gd_occs _ _ _ _ _ Gd) as Ho. rewrite Forall_forall in Ho. auto.
Qed.

Theorem resolve_category p r :
  parsed_program p = true -> resolve_program p = Ok r ->
  forall fn f' t, prog_file r fn = Some f' -> f_name2cat f' <> None -> In t (file_occs f') ->
  exists d, name_denotes p fn (ty_name t) d /\ ty_category t = kind d.
Proof.
  intros Hp Hr fn f' t Hf Hn Ht. destruct (resolved_occ p r Hp Hr fn f' t Hf Hn Ht) as (f & Hpf & Ho).
  exact (occ_good_denotes p fn f t Hpf Ho).
Qed.

Lemma typedef_flag_true k : typedef_flag (dkind_cat k) = Some true <-> exists tgt, k = DkTypedef tgt.
Proof.
  split.
  - destruct k as [t| |vs|s|]; cbn; try discriminate; [eauto | destruct s; discriminate].
  - intros (tgt & ->). reflexivity.
Qed.

Lemma typedef_flag_cases c : typedef_flag c = Some true \/ typedef_flag c = None.
Proof. unfold typedef_flag. destruct (is_typedef_cat c); auto. Qed.

Theorem resolve_is_typedef_iff p r :
  parsed_program p = true -> resolve_program p = Ok r ->
  forall fn f' t, prog_file r fn = Some f' -> f_name2cat f' <> None -> In t (file_occs f') ->
  (ty_is_typedef t = Some true <-> names_typedef p fn (ty_name t)) /\
  (ty_is_typedef t = Some true \/ ty_is_typedef t = None).
Proof.
  intros Hp Hr fn f' t Hf Hn Ht. destruct (resolved_occ p r Hp Hr fn f' t Hf Hn Ht) as (f & Hpf & Ho).
  unfold occ_good in Ho. unfold names_typedef.
  destruct (builtin_category (ty_name t)) as [c|] eqn:Bn.
  - destruct Ho as (_ & _ & ->). split; [|auto]. split; [discriminate | intros (? & _); discriminate].
  - destruct (split_type (ty_name t)) as [|a [|m [|? ?]]] eqn:Sn; try contradiction.
    + destruct Ho as (k & d & Hk & _ & _ & _ & _ & ->). split; [|apply typedef_flag_cases].
      rewrite typedef_flag_true. split.
      * intros (tgt & ->). split; [reflexivity|]. left. eauto.
      * intros (_ & [(a' & tgt & [= <-] & Hd)|(? & ? & ? & ? & ? & ? & Hs & _)]); [|discriminate].
        rewrite Hk in Hd. injection Hd as ->. eauto.
    + destruct Ho as (i & gn & k & d & Hs & Hk & _ & _ & _ & ->). split; [|apply typedef_flag_cases].
      rewrite typedef_flag_true. split.
      * intros (tgt & ->). split; [reflexivity|]. right. exists f, a, m, i, gn, tgt. auto.
      * intros (_ & [(a' & tgt & Hs' & _)|(f2 & pre2 & m2 & i2 & gn2 & tgt & [= <- <-] & Hf2 & Hs2 & Hd)]); [discriminate|].
        rewrite Hpf in Hf2. injection Hf2 as <-. rewrite Hs in Hs2. injection Hs2 as <- <-.
        rewrite Hk in Hd. injection Hd as ->. eauto.
Qed.

Theorem resolve_reference_index p r :
  parsed_program p = true -> resolve_program p = Ok r ->
  forall fn f' t, prog_file r fn = Some f' -> f_name2cat f' <> None -> In t (file_occs f') ->
  match builtin_category (ty_name t), split_type (ty_name t) with
  | None, [pre; m] =>
    exists f i gn k,
      prog_file p fn = Some f /\ ty_ref t = Some (Ref m (Z.of_nat i)) /\
      nth_error (file_incs f) i = Some (pre, Some gn) /\
      def_of p gn m = Some k /\ is_type_kind k = true /\
      forall j gn' k', j < i -> nth_error (file_incs f) j = Some (pre, Some gn') ->
                       def_of p gn' m = Some k' -> is_type_kind k' = false
  | _, _ => ty_ref t = None
  end.
Proof.
  intros Hp Hr fn f' t Hf Hn Ht. destruct (resolved_occ p r Hp Hr fn f' t Hf Hn Ht) as (f & Hpf & Ho).
  unfold occ_good in Ho. destruct (builtin_category (ty_name t)) as [c|] eqn:Bn.
  - destruct Ho as (_ & Hr0 & _). exact Hr0.
  - destruct (split_type (ty_name t)) as [|a [|m [|? ?]]] eqn:Sn; try contradiction.
    + destruct Ho as (k & d & _ & _ & _ & _ & Hr0 & _). exact Hr0.
    + destruct Ho as (i & gn & k & d & Hs & Hk & _ & _ & Hr0 & _).
      destruct (spec_include_nth _ _ _ _ _ _ _ _ Hs) as (_ & Hnth & (k' & Hk' & Tk)).
      rewrite Nat.sub_0_r in Hnth. rewrite Hk in Hk'. injection Hk' as <-.
      exists f, i, gn, k. repeat split; auto.
      intros j gn' k2 Hlt Hnj Hd. eapply (spec_include_first _ _ _ _ _ _ _ _ Hs j gn' k2); eauto; [lia|].
      rewrite Nat.sub_0_r. exact Hnj.
Qed.

Lemma file_marks_spec f z : (0 <= z)%Z -> In z (file_marks f) <-> refers_through f z.
Proof.
  intros Hz. unfold file_marks, refers_through. rewrite !in_app_iff, !in_flat_map'. split.
  - intros [(t & Ht & Hm)|[(c & Hc & Hm)|(sv & Hs & Hm)]].
    + left. unfold ty_mark in Hm. destruct (ty_ref t) as [r|] eqn:R; [|destruct Hm].
      destruct Hm as [<-|[]]. eauto.
    + right. left. unfold cv_mark in Hm. destruct c as [| | |s [e|]| |]; try destruct Hm.
      destruct (0 <=? ex_index e)%Z; [|destruct Hm]. destruct Hm as [<-|[]]. eauto 6.
    + right. right. unfold sv_mark in Hm. destruct (sv_ref sv) as [r|] eqn:R; [|destruct Hm].
      destruct Hm as [<-|[]]. eauto.
  - intros [(t & r & Ht & Hr & <-)|[(c & s & e & Hc & -> & <-)|(sv & r & Hs & Hr & <-)]].
    + left. exists t. split; [exact Ht|]. unfold ty_mark. rewrite Hr. left. reflexivity.
    + right. left. exists (CIdent s (Some e)). split; [exact Hc|]. unfold cv_mark.
      apply Z.leb_le in Hz. rewrite Hz. left. reflexivity.
    + right. right. exists sv. split; [exact Hs|]. unfold sv_mark. rewrite Hr. left. reflexivity.
Qed.

Lemma mark_includes_nth marks : forall incs base idx i,
  nth_error (mark_includes marks incs base) idx = Some i ->
  exists i0, nth_error incs idx = Some i0 /\
    in_used i = if existsb (Z.eqb (Z.of_nat (base + idx))) marks then Some true else in_used i0.
Proof.
  induction incs as [|x incs IH]; intros base idx i H; cbn [mark_includes] in H; [destruct idx; discriminate|].
  destruct idx as [|idx]; cbn [nth_error] in *.
  - injection H as <-. exists x. split; [reflexivity|]. cbn [in_used]. rewrite Nat.add_0_r. reflexivity.
  - destruct (IH _ _ _ H) as (i0 & H0 & Hu). exists i0. split; [exact H0|].
    replace (base + S idx) with (S base + idx) by lia. exact Hu.
Qed.

Lemma existsb_Zeqb z l : existsb (Z.eqb z) l = true <-> In z l.
Proof.
  rewrite existsb_exists. split.
  - intros (x & Hx & E). apply Z.eqb_eq in E. subst. exact Hx.
  - intros H. exists z. split; [exact H | apply Z.eqb_refl].
Qed.

Theorem used_iff p r :
  parsed_program p = true -> resolve_program p = Ok r ->
  forall fn f', prog_file r fn = Some f' -> f_name2cat f' <> None ->
  forall idx i, nth_error (f_includes f') idx = Some i ->
    (in_used i = Some true <-> refers_through f' (Z.of_nat idx)) /\
    (in_used i = Some true \/ in_used i = None).
Proof.
  intros Hp Hr fn f' Hf Hn idx i Hi. destruct (resolve_program_good p r Hp Hr) as (done & _ & H).
  destruct (H fn f' Hf Hn) as (f & Hpf & Gd). rewrite (gd_used _ _ _ _ _ Gd) in Hi.
  destruct (mark_includes_nth _ _ _ _ _ Hi) as (i0 & Hi0 & Hu). cbn [plus] in Hu.
  assert (U0 : in_used i0 = None).
  { pose proof (parsed_file p fn f Hp Hpf) as Hpar. unfold unresolved_file in Hpar.
    apply andb_true_iff in Hpar. destruct Hpar as (_ & Hall). rewrite forallb_forall in Hall.
    specialize (Hall i0 (nth_error_In _ _ Hi0)). destruct (in_used i0); [discriminate | reflexivity]. }
  rewrite U0 in Hu. rewrite <- (file_marks_spec f' (Z.of_nat idx) (Nat2Z.is_nonneg idx)), <- existsb_Zeqb.
  rewrite Hu. destruct (existsb (Z.eqb (Z.of_nat idx)) (file_marks f')); split; auto; split; congruence.
Qed.

Theorem deref_spec p r :
  parsed_program p = true -> resolve_program p = Ok r ->
  forall fn f' t, prog_file r fn = Some f' -> f_name2cat f' <> None -> In t (file_occs f') ->
  exists d, name_denotes p fn (ty_name t) d /\ deref_to r f' t d.
Proof.
  intros Hp Hr fn f' t Hf Hn Ht. destruct (deref_spec_fuel p r Hp Hr fn f' t Hf Hn Ht) as (d & Hd & Hw).
  exists d. split; [exact Hd | exact (deref_within_to _ _ _ _ _ Hw)].
Qed.

Theorem resolve_const_unique p r :
  parsed_program p = true -> plain_names p = true -> resolve_program p = Ok r ->
  forall fn f' c s e, prog_file r fn = Some f' -> f_name2cat f' <> None ->
  In c (file_const_values f') -> c = CIdent s (Some e) ->
  const_denotes p fn s e /\ forall e', const_denotes p fn s e' -> e' = e.
Proof.
  intros Hp Hpl Hr fn f' c s e Hf Hn Hc ->. destruct (resolve_program_good p r Hp Hr) as (done & _ & H).
  destruct (H fn f' Hf Hn) as (f & Hpf & Gd).
  pose proof (gd_consts _ _ _ _ _ Gd Hpl) as Hall. rewrite Forall_forall in Hall. exact (Hall _ Hc).
Qed.

Local Open Scope string_scope.

(* enum i32 { A }   typedef i32 T   const T c = T.A
   The parser of thriftgo accepts an enum called like a base type; getEnum then looks
   the target "i32" of the typedef T up as a LOCAL name and binds T.A to the value A
   of that enum, although T is a typedef of the base type i32. *)
Definition refute_file : file :=
  File (B "main.thrift") [] [] []
       [Typedef (ty_named (B "i32")) (B "T") [] []]
       [Constant (B "c") (ty_named (B "T")) (CIdent (B "T.A") None) [] []]
       [Enum (B "i32") [EnumValue (B "A") 0 [] []] [] []] [] [] [] [] None.
Definition refute_p : program := [(B "main.thrift", refute_file)].
Definition refute_extra : const_extra := Extra true (-1) (B "A") (B "T").

Theorem resolve_const_unique_refuted :
  exists p r fn f' s e,
    parsed_program p = true /\ plain_names p = false /\ resolve_program p = Ok r /\
    prog_file r fn = Some f' /\ f_name2cat f' <> None /\
    In (CIdent s (Some e)) (file_const_values f') /\ ~ const_denotes p fn s e.
Proof.
  destruct (resolve_program refute_p) as [r|] eqn:E; vm_compute in E; [|discriminate]. injection E as <-.
  eexists refute_p, _, (B "main.thrift"), _, (B "T.A"), refute_extra.
  split; [vm_compute; reflexivity|]. split; [vm_compute; reflexivity|]. split; [reflexivity|].
  split; [vm_compute; reflexivity|]. split; [vm_compute; discriminate|]. split; [vm_compute; left; reflexivity|].
  intros H.
  assert (Hsv : split_value (B "T.A") = [[B "T"; B "A"]]) by (vm_compute; reflexivity).
  inversion H; subst.
  - match goal with He : enum_denotes _ _ _ _ _ _ |- _ => inversion He; subst end;
      match goal with Hd : def_of _ _ _ = Some _ |- _ => vm_compute in Hd; try discriminate; injection Hd as <- end;
      match goal with Hb : builtin_category _ = None |- _ => vm_compute in Hb; discriminate end.
  - match goal with Hz : Z.of_nat _ = _ |- _ => lia end.
Qed.
