(* Idl/TrimResolved.v — C16: the trimmed program resolves, stated for the OUTPUT of the
   resolver.  The hypotheses of [trim_resolves] about type occurrences and base-service
   References are derived from C05 ([resolved_occ], [resolve_service_ref]) and carried from
   the parsed program to the resolved one with [resolution_preserves_definitions]. *)
From Coq Require Import List Bool.
From Verif Require Import Base.Bytes Idl.Ast Idl.AstUtil Idl.Trim Idl.TrimSpec Idl.TrimFacts.
From Verif Require Import Idl.ResolveSpec Idl.ResolvableSpec Idl.ResolvableConst Idl.ResolveInv Idl.ResolveLemmas Idl.ResolveDeref.
From Verif Require Idl.Resolve Idl.ResolveFacts Idl.ResolveService Idl.ResolveSyntax Idl.TrimResolves.
Import ListNotations.

Lemma spec_include_ext p r ok pre m incs :
  (forall fn n, def_of r fn n = def_of p fn n) ->
  forall idx, spec_include r ok pre m incs idx = spec_include p ok pre m incs idx.
Proof.
  intros Hd. induction incs as [|[pre' ref] incs IH]; intros idx; cbn [spec_include]; [reflexivity|].
  rewrite IH. destruct ref as [gn|]; [rewrite Hd|]; reflexivity.
Qed.

Section Transfer.
  Context (p r : program).
  Context (Hfiles : forall fn f, prog_file p fn = Some f ->
             exists f', prog_file r fn = Some f' /\ file_incs f' = file_incs f).
  Context (Hd : forall fn n, def_of r fn n = def_of p fn n).

  Lemma denotes_transfer :
    (forall fn n d, def_denotes p fn n d -> def_denotes r fn n d) /\
    (forall fn n d, name_denotes p fn n d -> name_denotes r fn n d).
  Proof.
    apply denotes_mutind.
    - intros fn n vs H. eapply dd_enum. rewrite Hd. exact H.
    - intros fn n k H. eapply dd_struct. rewrite Hd. exact H.
    - intros fn n tgt d H _ IH. eapply dd_typedef; [rewrite Hd; exact H | exact IH].
    - intros fn n c H. apply nd_builtin. exact H.
    - intros fn n a d Hb Hs _ IH. eapply nd_local; eauto.
    - intros fn f n pre m i gn d Hb Hs Hf Hi _ IH.
      destruct (Hfiles fn f Hf) as (f' & Hf' & Hi').
      eapply nd_qualified; [exact Hb | exact Hs | exact Hf' | | exact IH].
      rewrite Hi', (spec_include_ext p r) by exact Hd. exact Hi.
  Qed.

  Lemma occ_good_transfer fn f f' t :
    file_incs f' = file_incs f -> occ_good p fn f t -> occ_good r fn f' t.
  Proof.
    intros Hi H. unfold occ_good in *. destruct (builtin_category (ty_name t)); [exact H|].
    destruct (split_type (ty_name t)) as [|a [|m [|x l]]]; try exact H.
    - destruct H as (k & d & H1 & H2 & H3 & H4). exists k, d. rewrite Hd.
      split; [exact H1|]. split; [exact H2|]. split; [apply (proj1 denotes_transfer); exact H3 | exact H4].
    - destruct H as (i & gn & k & d & H1 & H2 & H3 & H4). exists i, gn, k, d.
      rewrite Hi, (spec_include_ext p r) by exact Hd. rewrite Hd.
      split; [exact H1|]. split; [exact H2|]. split; [apply (proj1 denotes_transfer); exact H3 | exact H4].
  Qed.
End Transfer.

Theorem trim_resolves_of_resolved matches cp c p0 r q fin :
  parsed_program p0 = true ->
  Resolve.resolve_program p0 = Resolve.Ok r ->
  (forall fn f', prog_file r fn = Some f' -> f_name2cat f' <> None) ->
  resolvable r = true ->
  wf r ->
  (forall fn f k s, prog_file r fn = Some f -> In s (sl_list k f) -> sl_category s = k) ->
  mark_ast matches cp c r (prog_size r) = Ok fin ->
  reach cp c r false (prog_size r) fin (main_name r) nil = Ok q ->
  resolvable q = true /\ exists r', Resolve.resolve_program q = Resolve.Ok r'.
Proof.
  intros Hp Hr Hn Hres Hwf Hk Hm Hq.
  destruct (ResolveSyntax.resolution_preserves_definitions p0 r Hr) as (G & N & Hd).
  assert (Hfiles : forall fn f, prog_file p0 fn = Some f ->
             exists f', prog_file r fn = Some f' /\ file_incs f' = file_incs f).
  { intros fn f Hf. destruct (prog_file r fn) as [f'|] eqn:Rf.
    - destruct (G fn f' Rf) as (f1 & Hf1 & _ & Hi). exists f'. split; [reflexivity|]. congruence.
    - apply N in Rf. congruence. }
  apply (TrimResolves.trim_resolves matches cp c r q fin Hwf Hm Hq Hres).
  - intros fn f' Hf' t Ht.
    destruct (ResolveFacts.resolved_occ p0 r Hp Hr fn f' t Hf' (Hn fn f' Hf') Ht) as (f & Hf & Ho).
    destruct (G fn f' Hf') as (f1 & Hf1 & _ & Hi). assert (f1 = f) by congruence. subst f1.
    exact (occ_good_transfer p0 r Hfiles Hd fn f f' t Hi Ho).
  - exact Hk.
  - intros fn f' s Hf' Hs.
    destruct (ResolveService.resolve_service_ref p0 r Hp Hr fn f' s Hf' (Hn fn f' Hf') Hs) as (f & Hf & Hg).
    destruct (G fn f' Hf') as (f1 & Hf1 & _ & Hi). assert (f1 = f) by congruence. subst f1.
    unfold ResolveService.sv_good in Hg.
    destruct (split_type (sv_extends s)) as [|a [|m [|x l]]]; try exact Hg.
    + exact (proj2 Hg).
    + destruct Hg as (i & gn & H1 & _ & H3). exists i, gn.
      rewrite Hi, (spec_include_ext p0 r) by exact Hd. split; assumption.
Qed.
