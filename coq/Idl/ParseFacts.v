(* Idl/ParseFacts.v — facts about the tree layer Idl/Parse.v (property C03):
   numbering of fields and enum values, accumulation of annotations. *)
From Coq Require Import List Bool ZArith.
From Coq.Strings Require Import Byte.
From Verif Require Import Base.Bytes Idl.Ast Idl.Parse.
Import ListNotations.

Definition field_sans_id (f : field) : field := set_id f 0%Z.

(* the id the i-th field receives, given the ids handed out before it *)
Definition expected_id (written : Z) (prev : option Z) : Z :=
  if Z.eqb written NOTSET
  then match prev with Some p => wrap32 (p + 1) | None => 1%Z end
  else written.

Lemma assign_ids_length prev l : List.length (assign_ids prev l) = List.length l.
Proof. revert prev. induction l as [|f r IH]; intro prev; cbn; [reflexivity | rewrite IH; reflexivity]. Qed.

(* previous id seen from position i of the output (None before the first field) *)
Definition prev_id (prev0 : option Z) (out : list field) (i : nat) : option Z :=
  match i with
  | O => prev0
  | S j => option_map fd_id (nth_error out j)
  end.

Lemma assign_ids_nth prev l : forall i f,
  nth_error l i = Some f ->
  exists g, nth_error (assign_ids prev l) i = Some g /\
            field_sans_id g = field_sans_id f /\
            fd_id g = expected_id (fd_id f) (prev_id prev (assign_ids prev l) i).
Proof.
  revert prev. induction l as [|x r IH]; intros prev i f Hn.
  - destruct i; discriminate.
  - destruct i as [|i].
    + cbn in Hn. injection Hn as ->. cbn [assign_ids nth_error].
      eexists. split; [reflexivity|]. split; reflexivity.
    + cbn in Hn. cbn [assign_ids].
      destruct (IH (Some (expected_id (fd_id x) prev)) i f Hn) as (g & Hg & Hs & Hid).
      exists g. cbn [nth_error]. split; [exact Hg|]. split; [exact Hs|].
      rewrite Hid. f_equal.
      destruct i as [|i]; cbn [prev_id nth_error option_map]; reflexivity.
Qed.

Definition expected_enum_value (written : option Z) (prev : option Z) : Z :=
  match written with
  | Some x => x
  | None => match prev with Some p => wrap64 (p + 1) | None => 0%Z end
  end.

Lemma assign_enum_values_length prev l : List.length (assign_enum_values prev l) = List.length l.
Proof.
  revert prev. induction l as [|[v ov] r IH]; intro prev; cbn; [reflexivity | rewrite IH; reflexivity].
Qed.

Definition prev_value (prev0 : option Z) (out : list enum_value) (i : nat) : option Z :=
  match i with
  | O => prev0
  | S j => option_map ev_value (nth_error out j)
  end.

Lemma assign_enum_values_nth prev l : forall i v ov,
  nth_error l i = Some (v, ov) ->
  exists w, nth_error (assign_enum_values prev l) i = Some w /\
            ev_name w = ev_name v /\ ev_annos w = ev_annos v /\ ev_comments w = ev_comments v /\
            ev_value w = expected_enum_value ov (prev_value prev (assign_enum_values prev l) i).
Proof.
  revert prev. induction l as [|[x ox] r IH]; intros prev i v ov Hn.
  - destruct i; discriminate.
  - destruct i as [|i].
    + cbn in Hn. injection Hn as -> ->. cbn [assign_enum_values nth_error].
      eexists. split; [reflexivity|]. repeat split; reflexivity.
    + cbn in Hn. cbn [assign_enum_values].
      destruct (IH (Some (expected_enum_value ox prev)) i v ov Hn) as (w & Hw & H1 & H2 & H3 & Hval).
      exists w. cbn [nth_error]. split; [exact Hw|]. repeat split; try assumption.
      rewrite Hval. f_equal.
      destruct i as [|i]; cbn [prev_value nth_error option_map]; reflexivity.
Qed.

Fixpoint first_keys (seen : list bytes) (l : list bytes) : list bytes :=
  match l with
  | [] => []
  | k :: r => if existsb (beqb k) seen then first_keys seen r else k :: first_keys (k :: seen) r
  end.

Definition values_of (k : bytes) (l : list (bytes * bytes)) : list bytes :=
  map snd (filter (fun kv => beqb (fst kv) k) l).

Definition grouped (l : list (bytes * bytes)) : annotations :=
  map (fun k => Anno k (values_of k l)) (first_keys [] (map fst l)).

Lemma anno_append_in (a : annotations) k v :
  In k (map an_key a) -> NoDup (map an_key a) ->
  anno_append a k v =
  map (fun x => if beqb (an_key x) k then Anno (an_key x) (an_values x ++ [v]) else x) a.
Proof.
  induction a as [|x r IH]; intros Hin Hnd; [contradiction|].
  cbn [map] in Hnd. inversion Hnd as [|? ? Hx Hnd']; subst.
  cbn [anno_append map]. destruct (beqb (an_key x) k) eqn:E.
  - (* the first entry has the key: no later one has it *)
    apply beqb_true in E. subst k. f_equal. symmetry.
    transitivity (map (fun y => y) r); [apply map_ext_in | apply map_id]. intros y Hy.
    destruct (beqb (an_key y) (an_key x)) eqn:Ey; [|reflexivity].
    apply beqb_true in Ey. exfalso. apply Hx. rewrite <- Ey. apply in_map. exact Hy.
  - f_equal. apply IH; [|exact Hnd']. destruct Hin as [Hk|Hr]; [|exact Hr].
    cbn in Hk. subst k. rewrite beqb_refl in E. discriminate.
Qed.

Lemma anno_append_notin (a : annotations) k v :
  ~ In k (map an_key a) -> anno_append a k v = a ++ [Anno k [v]].
Proof.
  induction a as [|x r IH]; intro Hn; [reflexivity|].
  cbn [anno_append]. destruct (beqb (an_key x) k) eqn:E.
  - apply beqb_true in E. exfalso. apply Hn. left. exact E.
  - cbn [app]. f_equal. apply IH. intro H. apply Hn. right. exact H.
Qed.

Lemma first_keys_app seen l1 l2 :
  first_keys seen (l1 ++ l2) = first_keys seen l1 ++ first_keys (rev l1 ++ seen) l2.
Proof.
  revert seen. induction l1 as [|k r IH]; intro seen; [reflexivity|].
  cbn [app first_keys rev]. destruct (existsb (beqb k) seen) eqn:E.
  - rewrite IH. f_equal.
    (* seen-sets agree as sets: k is already in seen *)
    clear IH. revert E. generalize (rev r). intros rr E.
    assert (Hset : forall x, existsb (beqb x) ((rr ++ [k]) ++ seen) = existsb (beqb x) (rr ++ seen)).
    { intro x. rewrite <- app_assoc. rewrite !existsb_app. cbn [existsb app].
      destruct (beqb x k) eqn:Ex; [|reflexivity].
      apply beqb_true in Ex. subst x. rewrite E. rewrite !orb_true_r. reflexivity. }
    revert Hset. generalize ((rr ++ [k]) ++ seen) (rr ++ seen). intros s1 s2 Hset.
    revert s1 s2 Hset. induction l2 as [|x l2 IH2]; intros s1 s2 Hset; [reflexivity|].
    cbn [first_keys]. rewrite Hset. destruct (existsb (beqb x) s2); [apply IH2; exact Hset|].
    f_equal. apply IH2. intro y. cbn [existsb]. rewrite Hset. reflexivity.
  - cbn [app]. f_equal. rewrite IH. f_equal. rewrite <- app_assoc. reflexivity.
Qed.

Lemma first_keys_seen_spec seen l k : In k (first_keys seen l) -> ~ In k seen /\ In k l.
Proof.
  revert seen. induction l as [|x r IH]; intros seen H; [contradiction|].
  cbn [first_keys] in H. destruct (existsb (beqb x) seen) eqn:E.
  - destruct (IH _ H) as [H1 H2]. split; [exact H1 | right; exact H2].
  - destruct H as [->|H].
    + split; [|left; reflexivity]. intro Hin. apply existsb_beqb_In in Hin. congruence.
    + destruct (IH _ H) as [H1 H2]. split; [|right; exact H2]. intro Hin. apply H1. right. exact Hin.
Qed.

Lemma first_keys_complete seen l k : In k l -> ~ In k seen -> In k (first_keys seen l).
Proof.
  revert seen. induction l as [|x r IH]; intros seen Hin Hns; [contradiction|].
  cbn [first_keys]. destruct (existsb (beqb x) seen) eqn:E.
  - destruct Hin as [->|Hin]; [apply existsb_beqb_In in E; contradiction | apply IH; assumption].
  - destruct (list_eq_dec Byte.byte_eq_dec x k) as [->|Hne]; [left; reflexivity|].
    right. destruct Hin as [->|Hin]; [contradiction|]. apply IH; [exact Hin|].
    intros [H|H]; [congruence | contradiction].
Qed.

Lemma first_keys_nodup seen l : NoDup (first_keys seen l).
Proof.
  revert seen. induction l as [|x r IH]; intro seen; [constructor|].
  cbn [first_keys]. destruct (existsb (beqb x) seen); [apply IH|].
  constructor; [|apply IH]. intro H. apply first_keys_seen_spec in H. destruct H as [H _]. apply H. left. reflexivity.
Qed.

Lemma values_of_app k l1 l2 : values_of k (l1 ++ l2) = values_of k l1 ++ values_of k l2.
Proof. unfold values_of. rewrite filter_app, map_app. reflexivity. Qed.

Lemma grouped_snoc l k v : grouped (l ++ [(k, v)]) = anno_append (grouped l) k v.
Proof.
  unfold grouped. rewrite map_app. cbn [map fst].
  rewrite first_keys_app. rewrite app_nil_r.
  assert (Hkeys : map an_key (map (fun k0 => Anno k0 (values_of k0 l)) (first_keys [] (map fst l))) = first_keys [] (map fst l)).
  { rewrite map_map. cbn. apply map_id. }
  destruct (in_dec (list_eq_dec Byte.byte_eq_dec) k (map fst l)) as [Hin|Hnin].
  - (* the key occurred before: no new key, its entry gets one more value *)
    assert (E : first_keys (rev (map fst l)) [k] = []).
    { cbn [first_keys]. replace (existsb (beqb k) (rev (map fst l))) with true; [reflexivity|].
      symmetry. apply existsb_beqb_In. apply in_rev. rewrite rev_involutive. exact Hin. }
    rewrite E, app_nil_r.
    rewrite anno_append_in.
    2:{ rewrite Hkeys. apply first_keys_complete; [exact Hin | intros []]. }
    2:{ rewrite Hkeys. apply first_keys_nodup. }
    rewrite map_map. apply map_ext. intro k0. cbn [an_key an_values].
    rewrite values_of_app. unfold values_of at 2. cbn. rewrite (beqb_sym k k0).
    destruct (beqb k0 k); cbn; [reflexivity | rewrite app_nil_r; reflexivity].
  - (* a new key: appended at the end with this one value *)
    assert (E : first_keys (rev (map fst l)) [k] = [k]).
    { cbn [first_keys]. replace (existsb (beqb k) (rev (map fst l))) with false; [reflexivity|].
      symmetry. apply not_true_is_false. intro H. apply existsb_beqb_In in H. apply in_rev in H. contradiction. }
    rewrite E. rewrite anno_append_notin.
    2:{ rewrite Hkeys. intro H. apply first_keys_seen_spec in H. tauto. }
    rewrite map_app. cbn [map]. f_equal.
    + apply map_ext_in. intros k1 Hk1. f_equal. rewrite values_of_app. unfold values_of at 2. cbn.
      replace (beqb k k1) with false; [cbn; rewrite app_nil_r; reflexivity|].
      symmetry. apply beqb_false. intros ->. apply first_keys_seen_spec in Hk1. tauto.
    + f_equal. f_equal. rewrite values_of_app. unfold values_of. cbn. rewrite beqb_refl.
      replace (filter (fun kv => beqb (fst kv) k) l) with (@nil (bytes * bytes)); [reflexivity|].
      symmetry. clear E Hkeys. induction l as [|[k1 v1] l IHl]; [reflexivity|].
      cbn. destruct (beqb k1 k) eqn:Ek.
      * apply beqb_true in Ek. subst. exfalso. apply Hnin. left. reflexivity.
      * apply IHl. intro H. apply Hnin. right. exact H.
Qed.

(* annotations_accumulate: folding Annotations.Append over the pairs in source order
   yields the keys in order of first occurrence, each with its values in source order *)
Theorem annos_of_pairs_grouped l : annos_of_pairs l = grouped l.
Proof.
  unfold annos_of_pairs.
  induction l as [|[k v] l IH] using rev_ind; [reflexivity|].
  rewrite fold_left_app. cbn [fold_left fst snd]. rewrite IH. symmetry. apply grouped_snoc.
Qed.
