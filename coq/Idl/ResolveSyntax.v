(* Idl/ResolveSyntax.v — resolution only fills in resolution fields: the symbol table of
   every file ([file_defs], [file_incs], hence [def_of]) is the same before and after. *)
From Coq Require Import List.
From Verif Require Import Base.Bytes Idl.Ast Idl.AstUtil Idl.Resolve Idl.ResolveSpec Idl.ResolveLemmas Idl.ResolveProg.
Import ListNotations.
Local Open Scope resolve_scope.

Lemma fix_ty_name done f st t t' : fix_ty done f st t = Ok t' -> ty_name t' = ty_name t.
Proof.
  destruct t as [n k v cpp an c r td]. intros H.
  destruct (fix_ty_ok _ _ _ _ _ _ _ _ _ _ _ _ H) as (k' & v' & c' & -> & _). reflexivity.
Qed.

Lemma two_pass_map {A B C K} (r : A -> result B) (fx : B -> result C) (ka : A -> K) (kc : C -> K) l l1 l2 :
  mapM r l = Ok l1 -> mapM fx l1 = Ok l2 ->
  (forall x y z, r x = Ok y -> fx y = Ok z -> kc z = ka x) -> map kc l2 = map ka l.
Proof.
  intros H1 H2 Hk. eapply Forall2_map_eq; [exact (two_mapM _ _ _ _ _ H1 H2)|].
  intros x z (y & Hxy & Hyz). eapply Hk; eauto.
Qed.

Lemma resolve_file_syntax done f f' :
  resolve_file_in done f = Ok f' -> file_defs f' = file_defs f /\ file_incs f' = file_incs f.
Proof.
  intros H.
  destruct (resolve_file_in_ok _ _ _ H) as
    (n2c & tds1 & cs1 & ss1 & us1 & es1 & sv1 & st & tds2 & cs2 & ss2 & us2 & es2 & sv2 &
     _ & E0 & E1 & E2 & E3 & E4 & E5 & _ & E7 & E8 & E9 & E10 & E11 & E12 & ->).
  set (f1 := with_typedefs (with_name2cat f (Some n2c)) tds1) in *. clearbody f1. split.
  - unfold file_defs, struct_likes. cbn [with_includes f_typedefs f_constants f_enums f_structs f_unions f_exceptions f_services].
    rewrite !map_app.
    rewrite (two_pass_map _ _ (fun t => (td_alias t, DkTypedef (ty_name (td_type t)))) (fun t => (td_alias t, DkTypedef (ty_name (td_type t)))) _ _ _ E0 E7).
    2:{ intros a b c Hab Hbc. unfold resolve_typedef in Hab. apply bind_ok in Hab. destruct Hab as (t1 & Ht1 & Hab). injection Hab as <-.
        unfold fix_typedef in Hbc. apply bind_ok in Hbc. destruct Hbc as (t2 & Ht2 & Hbc). injection Hbc as <-. cbn [td_alias td_type] in *.
        rewrite (fix_ty_name _ _ _ _ _ Ht2), (proj1 (resolve_ty_head1 _ _ _ _ Ht1)). reflexivity. }
    rewrite (two_pass_map _ _ (fun c => (co_name c, DkConst)) (fun c => (co_name c, DkConst)) _ _ _ E1 E8).
    2:{ intros a b c Hab Hbc. unfold resolve_constant in Hab. inv_bind Hab. injection Hab as <-.
        unfold fix_constant in Hbc. inv_bind Hbc. injection Hbc as <-. reflexivity. }
    assert (Hsl : forall l l1 l2, mapM (resolve_struct_like (enum_fuel done f1) done f1) l = Ok l1 ->
              mapM (fix_struct_like done f1 st) l1 = Ok l2 ->
              map (fun s => (sl_name s, DkStruct (sl_category s))) l2 = map (fun s => (sl_name s, DkStruct (sl_category s))) l).
    { intros l l1 l2 H1 H2. eapply two_pass_map; eauto. intros a b c Hab Hbc.
      unfold resolve_struct_like in Hab. inv_bind Hab. injection Hab as <-.
      unfold fix_struct_like in Hbc. inv_bind Hbc. injection Hbc as <-. reflexivity. }
    rewrite (Hsl _ _ _ E2 E9), (Hsl _ _ _ E3 E10), (Hsl _ _ _ E4 E11).
    rewrite (two_pass_map _ _ (fun s => (sv_name s, DkService)) (fun s => (sv_name s, DkService)) _ _ _ E5 E12).
    2:{ intros a b c Hab Hbc. unfold resolve_service in Hab. inv_bind Hab. injection Hab as <-.
        unfold fix_service in Hbc. inv_bind Hbc. injection Hbc as <-. reflexivity. }
    reflexivity.
  - unfold file_incs. cbn [with_includes f_includes]. apply (mark_includes_map (fun pa r => (idl_prefix pa, r))).
Qed.

(* resolution preserves the definitions: every file of the result has the symbol table of
   the file of the same name of the input (for ALL programs, reached files or not) *)
Theorem resolution_preserves_definitions p r :
  resolve_program p = Ok r ->
  (forall fn f', prog_file r fn = Some f' ->
     exists f, prog_file p fn = Some f /\ file_defs f' = file_defs f /\ file_incs f' = file_incs f) /\
  (forall fn, prog_file r fn = None <-> prog_file p fn = None) /\
  (forall fn n, def_of r fn n = def_of p fn n).
Proof.
  intros H.
  destruct (resolve_program_inv p (fun _ f f' => file_defs f' = file_defs f /\ file_incs f' = file_incs f)
              (fun done _ f f' _ _ _ => resolve_file_syntax done f f') r H) as (done & _ & Hs & Hr).
  assert (G : forall fn f', prog_file r fn = Some f' ->
     exists f, prog_file p fn = Some f /\ file_defs f' = file_defs f /\ file_incs f' = file_incs f).
  { intros fn f' Hf. rewrite Hr in Hf. destruct (lookup fn done) as [f2|] eqn:Ld; [|eauto].
    injection Hf as ->. exact (Hs fn f' Ld). }
  assert (N : forall fn, prog_file r fn = None <-> prog_file p fn = None).
  { intros fn. rewrite Hr. destruct (lookup fn done) as [f2|] eqn:Ld; [|tauto].
    destruct (Hs fn f2 Ld) as (f & Hf & _). rewrite Hf. split; discriminate. }
  split; [exact G|]. split; [exact N|].
  intros fn n. unfold def_of. destruct (prog_file r fn) as [f'|] eqn:Rf.
  - destruct (G fn f' Rf) as (f & -> & -> & _). reflexivity.
  - rewrite (proj1 (N fn) Rf). reflexivity.
Qed.
