(* Idl/DumpResolveFacts.v — property C17: the program re-read from the dumped texts
   passes symbol resolution (Idl/Resolve.v, property C05) whenever the original does.
   Resolution does not look at recorded comments, cpp_type, or the spelling of numbers:
   [resolve_program] commutes with the transformation [sem_view] that the dumper applies. *)
From Coq Require Import List Bool ZArith.
From Coq.Strings Require Import Byte String.
From Verif Require Import Base.Bytes Idl.Ast Idl.AstUtil Idl.AstFacts Idl.Lex Idl.Parse Idl.Resolve Idl.ResolveLemmas
  Idl.Dump Idl.DumpFacts.
Import ListNotations.
Local Open Scope resolve_scope.

Definition rmap {A B} (h : A -> B) (r : result A) : result B :=
  match r with Ok a => Ok (h a) | Error e => Error e end.

Lemma bind_rmap {A B C} (h : A -> B) (r : result A) (k : B -> result C) :
  bind (rmap h r) k = bind r (fun a => k (h a)).
Proof. destruct r; reflexivity. Qed.
Lemma rmap_bind {A B C} (h : B -> C) (r : result A) (k : A -> result B) :
  rmap h (bind r k) = bind r (fun a => rmap h (k a)).
Proof. destruct r; reflexivity. Qed.
Lemma bind_ext {A B} (r : result A) (k k' : A -> result B) : (forall a, k a = k' a) -> bind r k = bind r k'.
Proof. intro H. destruct r; cbn; auto. Qed.

Lemma mapM_map {A A' B B'} (f : A -> result B) (f' : A' -> result B') (h : A -> A') (h' : B -> B') l :
  (forall x, In x l -> f' (h x) = rmap h' (f x)) -> mapM f' (map h l) = rmap (map h') (mapM f l).
Proof.
  induction l as [|x r IH]; intro H; [reflexivity|].
  cbn [map mapM]. rewrite (H x (or_introl eq_refl)), bind_rmap, rmap_bind. apply bind_ext. intro y.
  rewrite IH by (intros z Hz; apply H; right; exact Hz).
  rewrite bind_rmap, rmap_bind. apply bind_ext. intro ys. reflexivity.
Qed.

(* one step of two parallel runs: the same loop over a mapped list, then continuations that agree *)
Lemma bind_mapM_map {A A' B B' C C'} (f : A -> result B) (f' : A' -> result B') (h : A -> A') (h' : B -> B')
      (g : C -> C') l k k' :
  (forall x, f' (h x) = rmap h' (f x)) -> (forall ys, k' (map h' ys) = rmap g (k ys)) ->
  bind (mapM f' (map h l)) k' = rmap g (bind (mapM f l) k).
Proof.
  intros Hf Hk. rewrite (mapM_map f f' h h' l (fun x _ => Hf x)), bind_rmap, rmap_bind. apply bind_ext. exact Hk.
Qed.

Lemma find_by_map {A} (key : A -> bytes) (h : A -> A) k l :
  (forall x, key (h x) = key x) -> find_by key k (map h l) = option_map h (find_by key k l).
Proof.
  intro H. induction l as [|x r IH]; [reflexivity|]. cbn [map find_by]. rewrite H.
  destruct (beqb (key x) k); [reflexivity | exact IH].
Qed.

Section SemView.
  Variable fmt : N -> bytes.
  Let NC := fun _ : bytes => @nil byte.

  (* cpp_type is not written *)
  Fixpoint cty (t : ty) : ty :=
    match t with
    | Ty n k v _ an c r td =>
      Ty n (match k with Some x => Some (cty x) | None => None end)
           (match v with Some x => Some (cty x) | None => None end) [] an c r td
    end.
  (* a double comes back as the number its text denotes *)
  Fixpoint dv (c : const_value) : const_value :=
    match c with
    | CDouble d => num_view (fmt d)
    | CList l => CList (map dv l)
    | CMap l => CMap (map (fun kv => (dv (fst kv), dv (snd kv))) l)
    | other => other
    end.

  Definition sem_view (f : file) : file := map_file cty dv NC false f.
  Definition sem_view_program (p : program) : program := map (fun e => (fst e, sem_view (snd e))) p.

  (* T, Tp: the view of a file, of a program; Ttd, Tfd, Tco, Tsl, Tfn, Tsv: of one typedef, field, constant,
     struct-like, function, service *)
  Notation T := sem_view.
  Notation Tp := sem_view_program.
  Notation Ttd := (map_typedef cty NC).
  Notation Tfd := (map_field cty dv NC).

  Lemma num_view_leaf text : (exists z, num_view text = CInt z) \/ (exists b, num_view text = CDouble b).
  Proof.
    unfold num_view. destruct (num_token text); eauto. destruct (int_value s); eauto.
  Qed.

  Lemma map_include_false i : map_include false i = i.
  Proof. destruct i; reflexivity. Qed.
  Lemma T_includes f : f_includes (T f) = f_includes f.
  Proof. destruct f. apply (map_id_ext _ _ map_include_false). Qed.
  Lemma T_n2c f : n2c_of (T f) = n2c_of f.
  Proof. destruct f. reflexivity. Qed.
  Lemma T_typedefs f : f_typedefs (T f) = map Ttd (f_typedefs f).
  Proof. destruct f. reflexivity. Qed.
  Lemma T_enums f : f_enums (T f) = map (map_enum NC) (f_enums f).
  Proof. destruct f. reflexivity. Qed.
  Lemma T_filename f : f_filename (T f) = f_filename f.
  Proof. destruct f. reflexivity. Qed.

  Lemma T_find_typedef f a : find_typedef (T f) a = option_map Ttd (find_typedef f a).
  Proof. unfold find_typedef. rewrite T_typedefs. apply find_by_map. intros []; reflexivity. Qed.
  Lemma T_find_enum f a : find_enum (T f) a = option_map (map_enum NC) (find_enum f a).
  Proof. unfold find_enum. rewrite T_enums. apply find_by_map. intros []; reflexivity. Qed.

  Lemma Tp_prog_file p fn : prog_file (Tp p) fn = option_map T (prog_file p fn).
  Proof. unfold prog_file, sem_view_program. apply lookup_map_snd. Qed.
  Lemma Tp_lookup p fn : lookup fn (Tp p) = option_map T (lookup fn p).
  Proof. apply lookup_map_snd. Qed.
  Lemma Tp_include_target p i : include_target (Tp p) i = option_map T (include_target p i).
  Proof. unfold include_target. destruct (in_ref i); [apply Tp_prog_file | reflexivity]. Qed.
  Lemma Tp_reference_target p f r : reference_target (Tp p) (T f) r = option_map T (reference_target p f r).
  Proof.
    unfold reference_target, nth_include. rewrite T_includes.
    destruct (ref_index r <? 0)%Z; [reflexivity|].
    destruct (nth_error (f_includes f) (Z.to_nat (ref_index r))); [apply Tp_include_target | reflexivity].
  Qed.

  Lemma T_def_names f : file_def_names (T f) = file_def_names f.
  Proof.
    destruct f. unfold file_def_names, struct_likes. cbn. rewrite !map_app, !map_map.
    repeat f_equal; apply map_ext; intros []; reflexivity.
  Qed.

  Lemma Tp_typedef_count p : prog_typedef_count (Tp p) = prog_typedef_count p.
  Proof.
    induction p as [|[n f] r IH]; [reflexivity|]. cbn [sem_view_program map prog_typedef_count fold_right fst snd].
    fold (Tp r). unfold prog_typedef_count in IH. rewrite IH, T_typedefs, map_length. reflexivity.
  Qed.

  Lemma Tp_find_include done ok pre m : forall incs idx,
    find_include (Tp done) ok pre m incs idx = find_include done ok pre m incs idx.
  Proof.
    induction incs as [|i r IH]; intro idx; [reflexivity|]. cbn [find_include]. rewrite IH, Tp_include_target.
    destruct (include_target done i) as [g|]; cbn [option_map]; [rewrite T_n2c|]; reflexivity.
  Qed.

  Lemma resolve_ty_cty done f : forall t, resolve_ty (Tp done) (T f) (cty t) = rmap cty (resolve_ty done f t).
  Proof.
    induction t as [n k v c an cat r td IHk IHv] using ty_ind'.
    cbn [cty resolve_ty]. rewrite T_n2c, T_includes.
    destruct (builtin_category n) as [[]|]; try reflexivity.
    - destruct k as [kt|]; [|reflexivity]. rewrite (IHk kt eq_refl).
      destruct (resolve_ty done f kt) as [k'|]; [|reflexivity]. cbn [rmap bind].
      destruct v as [vt|]; [|reflexivity]. rewrite (IHv vt eq_refl).
      destruct (resolve_ty done f vt) as [v'|]; reflexivity.
    - destruct v as [vt|]; [|reflexivity]. rewrite (IHv vt eq_refl).
      destruct (resolve_ty done f vt) as [v'|]; [|reflexivity]. cbn [rmap bind]. destruct k; reflexivity.
    - destruct v as [vt|]; [|reflexivity]. rewrite (IHv vt eq_refl).
      destruct (resolve_ty done f vt) as [v'|]; [|reflexivity]. cbn [rmap bind]. destruct k; reflexivity.
    - destruct (split_type n) as [|a [|m [|x y]]]; try reflexivity.
      + destruct (lookup a (n2c_of f)) as [c0|]; [|reflexivity]. destruct (is_type_cat c0); reflexivity.
      + rewrite Tp_find_include. destruct (find_include done is_type_cat a m (f_includes f) 0) as [[idx c0]|]; reflexivity.
  Qed.

  Definition Tez (ez : enum * Z) : enum * Z := (map_enum NC (fst ez), snd ez).

  Lemma get_enum_T done : forall k g name,
    get_enum k (Tp done) (T g) name = rmap (option_map Tez) (get_enum k done g name).
  Proof.
    induction k as [|k IH]; intros g name; [reflexivity|].
    cbn [get_enum]. rewrite T_n2c.
    destruct (lookup name (n2c_of g)) as [[]|]; try reflexivity.
    - rewrite T_find_enum. destruct (find_enum g name); reflexivity.
    - rewrite T_find_typedef. destruct (find_typedef g name) as [x|]; [|reflexivity]. cbn [option_map].
      assert (E1 : ty_ref (td_type (Ttd x)) = ty_ref (td_type x)) by (destruct x as [[] ? ? ?]; reflexivity).
      assert (E2 : ty_name (td_type (Ttd x)) = ty_name (td_type x)) by (destruct x as [[] ? ? ?]; reflexivity).
      rewrite E1, E2.
      destruct (ty_ref (td_type x)) as [r|].
      + rewrite Tp_reference_target. destruct (reference_target done g r) as [h|]; [|reflexivity]. cbn [option_map].
        rewrite IH. destruct (get_enum k done h (ref_name r)) as [[[en z]|]|]; cbn [rmap bind option_map Tez fst snd]; try reflexivity.
        apply IH.
      + cbn [bind]. apply IH.
  Qed.

  Lemma enum_cands_T e v x : enum_cands (map_enum NC e) v x = enum_cands e v x.
  Proof.
    destruct e as [n vs an cm]. unfold enum_cands, map_enum. cbn [en_values].
    induction vs as [|w r IH]; [reflexivity|]. cbn [map filter].
    destruct w as [wn wv wa wc]. cbn [map_enum_value ev_name].
    destruct (beqb wn v); cbn [map]; rewrite IH; reflexivity.
  Qed.

  Lemma inc_cands_T done (h h' : nat -> file -> result (list const_extra)) pre :
    (forall idx g, h' idx (T g) = h idx g) ->
    forall incs idx, inc_cands (Tp done) h' pre incs idx = inc_cands done h pre incs idx.
  Proof.
    intro Hh. induction incs as [|i r IH]; intro idx; [reflexivity|].
    cbn [inc_cands]. rewrite IH, Tp_include_target.
    destruct (beqb (idl_prefix (in_path i)) pre); [|reflexivity].
    destruct (include_target done i) as [g|]; cbn [option_map]; [rewrite Hh|]; reflexivity.
  Qed.

  Lemma alt_cands_T fuel done f ss : alt_cands fuel (Tp done) (T f) ss = alt_cands fuel done f ss.
  Proof.
    destruct ss as [|a [|b [|c [|d r]]]]; try reflexivity; cbn [alt_cands].
    - rewrite get_enum_T, T_includes.
      rewrite (inc_cands_T done
                 (fun idx g => Ok (match lookup b (n2c_of g) with
                                   | Some CatConstant => [Extra false (Z.of_nat idx) b a]
                                   | _ => [] end))); [|intros idx g; rewrite T_n2c; reflexivity].
      destruct (get_enum fuel done f a) as [[[e z]|]|]; cbn [rmap bind option_map Tez fst snd]; try reflexivity.
      rewrite enum_cands_T. reflexivity.
    - rewrite T_includes. apply inc_cands_T. intros idx g. rewrite get_enum_T.
      destruct (get_enum fuel done g b) as [[[e z]|]|]; cbn [rmap bind option_map Tez fst snd]; try reflexivity.
      rewrite enum_cands_T. reflexivity.
  Qed.

  Lemma all_cands_T fuel done f : forall sss, all_cands fuel (Tp done) (T f) sss = all_cands fuel done f sss.
  Proof. induction sss as [|ss r IH]; [reflexivity|]. cbn [all_cands]. rewrite alt_cands_T, IH. reflexivity. Qed.

  Lemma resolve_ident_T fuel done f s : resolve_ident fuel (Tp done) (T f) s = resolve_ident fuel done f s.
  Proof. unfold resolve_ident. rewrite all_cands_T. reflexivity. Qed.

  Lemma resolve_cv_dv fuel done f : forall c,
    resolve_cv fuel (Tp done) (T f) (dv c) = rmap dv (resolve_cv fuel done f c).
  Proof.
    induction c as [d|z|s|s e|l IH|l IH] using const_value_ind'; cbn [dv resolve_cv rmap]; try reflexivity.
    - destruct (num_view_leaf (fmt d)) as [[z ->]|[b ->]]; reflexivity.
    - rewrite resolve_ident_T. destruct (resolve_ident fuel done f s); reflexivity.
    - (* the list recursion is a local fix of resolve_cv: the two sides are named, not written out *)
      match goal with |- bind ?a _ = rmap _ (bind ?b _) => assert (E : a = rmap (map dv) b) end.
      { induction IH as [|x r Hx _ IHr]; [reflexivity|]. cbn [map]. rewrite Hx, bind_rmap, rmap_bind.
        apply bind_ext. intro x'. rewrite IHr, bind_rmap, rmap_bind. apply bind_ext. intro r'. reflexivity. }
      rewrite E, bind_rmap, rmap_bind. apply bind_ext. intro l'. reflexivity.
    - match goal with |- bind ?a _ = rmap _ (bind ?b _) =>
        assert (E : a = rmap (map (fun kv => (dv (fst kv), dv (snd kv)))) b) end.
      { induction IH as [|[k v] r [Hk Hv] _ IHr]; [reflexivity|]. cbn [map fst snd] in *.
        rewrite Hk, bind_rmap, rmap_bind. apply bind_ext. intro k'.
        rewrite Hv, bind_rmap, rmap_bind. apply bind_ext. intro v'.
        rewrite IHr, bind_rmap, rmap_bind. apply bind_ext. intro r'. reflexivity. }
      rewrite E, bind_rmap, rmap_bind. apply bind_ext. intro l'. reflexivity.
  Qed.

  Notation Tco := (map_constant cty dv NC).
  Notation Tsl := (map_struct_like cty dv NC).
  Notation Tfn := (map_function cty dv NC).
  Notation Tsv := (map_service cty dv NC false).

  Ltac rb := rewrite ?bind_rmap, ?rmap_bind; apply bind_ext; intro.
  Tactic Notation "rb" "as" ident(x) := rewrite ?bind_rmap, ?rmap_bind; apply bind_ext; intro x.

  Lemma resolve_typedef_T done f td :
    resolve_typedef (Tp done) (T f) (Ttd td) = rmap Ttd (resolve_typedef done f td).
  Proof.
    destruct td as [t al an cm]. unfold resolve_typedef, map_typedef. cbn [td_type td_alias td_annos td_comments].
    rewrite resolve_ty_cty. rb. reflexivity.
  Qed.

  Lemma resolve_constant_T fuel done f c :
    resolve_constant fuel (Tp done) (T f) (Tco c) = rmap Tco (resolve_constant fuel done f c).
  Proof.
    destruct c as [n t v an cm]. unfold resolve_constant, map_constant. cbn [co_name co_type co_value co_annos co_comments].
    rewrite resolve_ty_cty. rb.
    rewrite resolve_cv_dv. rb. reflexivity.
  Qed.

  Lemma resolve_field_T fuel done f b fd :
    resolve_field fuel (Tp done) (T f) b (Tfd fd) = rmap Tfd (resolve_field fuel done f b fd).
  Proof.
    destruct fd as [id n r t d an cm]. unfold resolve_field, map_field.
    cbn [fd_id fd_name fd_req fd_type fd_default fd_annos fd_comments].
    rewrite resolve_ty_cty. rb.
    destruct d as [c|]; cbn [option_map].
    - rewrite resolve_cv_dv. rewrite !bind_rmap, !rmap_bind.
      destruct (resolve_cv fuel done f c); reflexivity.
    - reflexivity.
  Qed.

  Lemma resolve_struct_like_T fuel done f s :
    resolve_struct_like fuel (Tp done) (T f) (Tsl s) = rmap Tsl (resolve_struct_like fuel done f s).
  Proof.
    destruct s as [k n fs an cm]. unfold resolve_struct_like, map_struct_like, is_union.
    cbn [sl_category sl_name sl_fields sl_annos sl_comments].
    eapply bind_mapM_map; [intro; apply resolve_field_T | intro]. reflexivity.
  Qed.

  Lemma resolve_function_T fuel done f fn :
    resolve_function fuel (Tp done) (T f) (Tfn fn) = rmap Tfn (resolve_function fuel done f fn).
  Proof.
    destruct fn as [n ow vd t args thr an cm]. unfold resolve_function, map_function.
    cbn [fn_name fn_oneway fn_void fn_type fn_args fn_throws fn_annos fn_comments].
    assert (E : (if vd then Ok (cty t) else resolve_ty (Tp done) (T f) (cty t)) =
                rmap cty (if vd then Ok t else resolve_ty done f t)).
    { destruct vd; [reflexivity|]. apply resolve_ty_cty. }
    rewrite E. rb.
    eapply bind_mapM_map; [intro; apply resolve_field_T | intro].
    eapply bind_mapM_map; [intro; apply resolve_field_T | intro].
    reflexivity.
  Qed.

  Lemma resolve_base_T done f sv : resolve_base (Tp done) (T f) (Tsv sv) = resolve_base done f sv.
  Proof.
    destruct sv as [n e fns an r cm]. unfold resolve_base, map_service. cbn [sv_extends].
    rewrite T_n2c, T_includes.
    destruct (split_type e) as [|a [|m [|x y]]]; try reflexivity.
    rewrite Tp_find_include. reflexivity.
  Qed.

  Lemma resolve_service_T fuel done f sv :
    resolve_service fuel (Tp done) (T f) (Tsv sv) = rmap Tsv (resolve_service fuel done f sv).
  Proof.
    unfold resolve_service. rewrite resolve_base_T.
    destruct sv as [n e fns an r cm]. unfold map_service.
    cbn [sv_name sv_extends sv_functions sv_annos sv_ref sv_comments].
    eapply bind_mapM_map; [intro; apply resolve_function_T | intro].
    rb. reflexivity.
  Qed.

  Lemma ext_typedef_cat_T done f r : ext_typedef_cat (Tp done) (T f) r = ext_typedef_cat done f r.
  Proof.
    unfold ext_typedef_cat. rewrite Tp_reference_target.
    destruct (reference_target done f r) as [g|]; [|reflexivity]. cbn [option_map].
    rewrite T_find_typedef. destruct (find_typedef g (ref_name r)) as [[[] ? ? ?]|]; reflexivity.
  Qed.

  Lemma te_init_T done f td : te_init (Tp done) (T f) (Ttd td) = te_init done f td.
  Proof.
    destruct td as [[n k v c an cat r tdf] al an2 cm]. unfold te_init, map_typedef.
    cbn [td_type td_alias cty ty_category ty_ref ty_name].
    destruct (is_typedef_cat cat); [|reflexivity]. destruct r as [rf|]; [|reflexivity].
    rewrite ext_typedef_cat_T. reflexivity.
  Qed.

  Lemma fix_ty_cty done f st : forall t, fix_ty (Tp done) (T f) st (cty t) = rmap cty (fix_ty done f st t).
  Proof.
    induction t as [n k v c an cat r td IHk IHv] using ty_ind'. cbn [cty fix_ty].
    destruct k as [kt|]; [rewrite (IHk kt eq_refl); destruct (fix_ty done f st kt) as [k'|]; [|reflexivity]|];
      cbn [rmap bind];
      (destruct v as [vt|]; [rewrite (IHv vt eq_refl); destruct (fix_ty done f st vt) as [v'|]; [|reflexivity]|];
       cbn [rmap bind];
       (destruct (is_typedef_cat cat); [|reflexivity];
        destruct r as [rf|]; [rewrite ext_typedef_cat_T; destruct (ext_typedef_cat done f rf) as [c'|]
                             | destruct (te_lookup st n) as [c'|]]; try reflexivity;
        destruct (is_typedef_cat c'); reflexivity)).
  Qed.

  Lemma fix_typedef_T done f st td : fix_typedef (Tp done) (T f) st (Ttd td) = rmap Ttd (fix_typedef done f st td).
  Proof. destruct td. unfold fix_typedef, map_typedef. cbn. rewrite fix_ty_cty. rb. reflexivity. Qed.
  Lemma fix_constant_T done f st c : fix_constant (Tp done) (T f) st (Tco c) = rmap Tco (fix_constant done f st c).
  Proof. destruct c. unfold fix_constant, map_constant. cbn. rewrite fix_ty_cty. rb. reflexivity. Qed.
  Lemma fix_field_T done f st fd : fix_field (Tp done) (T f) st (Tfd fd) = rmap Tfd (fix_field done f st fd).
  Proof. destruct fd. unfold fix_field, map_field. cbn. rewrite fix_ty_cty. rb. reflexivity. Qed.
  Lemma fix_struct_like_T done f st s :
    fix_struct_like (Tp done) (T f) st (Tsl s) = rmap Tsl (fix_struct_like done f st s).
  Proof.
    destruct s. unfold fix_struct_like, map_struct_like. cbn.
    eapply bind_mapM_map; [intro; apply fix_field_T | intro]. reflexivity.
  Qed.
  Lemma fix_function_T done f st fn :
    fix_function (Tp done) (T f) st (Tfn fn) = rmap Tfn (fix_function done f st fn).
  Proof.
    destruct fn. unfold fix_function, map_function. cbn. rewrite fix_ty_cty. rb.
    eapply bind_mapM_map; [intro; apply fix_field_T | intro].
    eapply bind_mapM_map; [intro; apply fix_field_T | intro]. reflexivity.
  Qed.
  Lemma fix_service_T done f st sv :
    fix_service (Tp done) (T f) st (Tsv sv) = rmap Tsv (fix_service done f st sv).
  Proof.
    destruct sv. unfold fix_service, map_service. cbn.
    eapply bind_mapM_map; [intro; apply fix_function_T | intro]. reflexivity.
  Qed.

  Lemma flat_map'_map {A B C} (g : B -> list C) (h : A -> B) l : flat_map' g (map h l) = flat_map' (fun x => g (h x)) l.
  Proof. unfold flat_map'. rewrite map_map. reflexivity. Qed.
  Lemma flat_map'_ext {A B} (g g' : A -> list B) l : (forall x, g x = g' x) -> flat_map' g l = flat_map' g' l.
  Proof. intro H. unfold flat_map'. rewrite (map_ext _ _ H). reflexivity. Qed.
  Lemma flat_map'_app {A B} (g : A -> list B) l1 l2 : flat_map' g (l1 ++ l2) = flat_map' g l1 ++ flat_map' g l2.
  Proof. unfold flat_map'. rewrite map_app, concat_app. reflexivity. Qed.
  Lemma flat_map'_flat_map' {A B C} (g : B -> list C) (h : A -> list B) l :
    flat_map' g (flat_map' h l) = flat_map' (fun x => flat_map' g (h x)) l.
  Proof.
    induction l as [|x r IH]; [reflexivity|]. unfold flat_map' in *. cbn [map List.concat].
    rewrite map_app, concat_app, IH. reflexivity.
  Qed.

  Lemma ty_marks_cty : forall t, flat_map' ty_mark (ty_subtypes (cty t)) = flat_map' ty_mark (ty_subtypes t).
  Proof.
    induction t as [n k v c an cat r td IHk IHv] using ty_ind'. cbn [cty ty_subtypes].
    unfold flat_map' in *. cbn [map List.concat]. rewrite !map_app, !concat_app.
    f_equal. f_equal.
    - destruct k as [kt|]; [apply (IHk kt eq_refl) | reflexivity].
    - destruct v as [vt|]; [apply (IHv vt eq_refl) | reflexivity].
  Qed.

  Lemma cv_marks_dv : forall c, flat_map' cv_mark (cv_subvalues (dv c)) = flat_map' cv_mark (cv_subvalues c).
  Proof.
    induction c as [d|z|s|s e|l IH|l IH] using const_value_ind'; try reflexivity.
    - cbn [dv]. destruct (num_view_leaf (fmt d)) as [[z ->]|[b ->]]; reflexivity.
    - cbn [dv cv_subvalues]. unfold flat_map' in *. cbn [map List.concat cv_mark app]. rewrite map_map.
      induction IH as [|x r Hx _ IHr]; [reflexivity|]. cbn [map List.concat]. rewrite !map_app, !concat_app, Hx, IHr. reflexivity.
    - cbn [dv cv_subvalues]. unfold flat_map' in *. cbn [map List.concat cv_mark app]. rewrite map_map.
      induction IH as [|[k v] r [Hk Hv] _ IHr]; [reflexivity|]. cbn [map List.concat fst snd] in *.
      rewrite !map_app, !concat_app, Hk, Hv, IHr. reflexivity.
  Qed.

  Lemma flat_map'_comm {A B C D} (g : B -> list D) (g0 : A -> list C) (h : A -> B) (k : C -> D) l :
    (forall x, g (h x) = map k (g0 x)) -> flat_map' g (map h l) = map k (flat_map' g0 l).
  Proof.
    intro H. induction l as [|x r IH]; [reflexivity|]. unfold flat_map' in *. cbn [map List.concat].
    rewrite map_app, H, IH. reflexivity.
  Qed.

  Lemma T_struct_likes f : struct_likes (T f) = map Tsl (struct_likes f).
  Proof. destruct f. unfold struct_likes. cbn. rewrite !map_app. reflexivity. Qed.
  Lemma T_services f : f_services (T f) = map Tsv (f_services f).
  Proof. destruct f. reflexivity. Qed.
  Lemma T_constants f : f_constants (T f) = map Tco (f_constants f).
  Proof. destruct f. reflexivity. Qed.

  Lemma T_file_fields f : file_fields (T f) = map Tfd (file_fields f).
  Proof.
    unfold file_fields. rewrite T_struct_likes, T_services, map_app. apply (f_equal2 (@app _)).
    - apply flat_map'_comm. intros []. reflexivity.
    - apply flat_map'_comm. intros [n e fns an r cm]. unfold service_fields, map_service. cbn [sv_functions].
      apply flat_map'_comm. intros []. unfold function_fields, map_function. cbn. rewrite map_app. reflexivity.
  Qed.

  Lemma T_top_types f : file_top_types (T f) = map cty (file_top_types f).
  Proof.
    unfold file_top_types. rewrite T_typedefs, T_constants, T_struct_likes, T_services, !map_app, !map_map.
    apply (f_equal2 (@app _)); [|apply (f_equal2 (@app _)); [|apply (f_equal2 (@app _))]].
    - apply map_ext. intros []. reflexivity.
    - apply map_ext. intros []. reflexivity.
    - rewrite (flat_map'_comm sl_fields sl_fields Tsl Tfd) by (intros []; reflexivity).
      rewrite map_map. apply map_ext. intros []. reflexivity.
    - apply flat_map'_comm. intros [n e fns an r cm]. unfold map_service. cbn [sv_functions].
      apply flat_map'_comm. intros [fnn ow vd t args thr fan fcm]. unfold map_function, function_fields.
      cbn [fn_type fn_args fn_throws map]. f_equal. rewrite <- map_app, !map_map. apply map_ext. intros []. reflexivity.
  Qed.

  Lemma T_top_const_values f : file_top_const_values (T f) = map dv (file_top_const_values f).
  Proof.
    unfold file_top_const_values. rewrite T_constants, T_file_fields, map_app, !map_map. apply (f_equal2 (@app _)).
    - apply map_ext. intros []. reflexivity.
    - apply flat_map'_comm. intros [id n r t [d|] an cm]; reflexivity.
  Qed.

  Lemma file_marks_T f : file_marks (T f) = file_marks f.
  Proof.
    unfold file_marks, file_types, file_const_values.
    rewrite !flat_map'_flat_map', T_top_types, T_top_const_values, T_services, !flat_map'_map.
    apply (f_equal2 (@app _)); [|apply (f_equal2 (@app _))].
    - apply flat_map'_ext. apply ty_marks_cty.
    - apply flat_map'_ext. apply cv_marks_dv.
    - apply flat_map'_ext. intros []. reflexivity.
  Qed.

  Lemma T_with_name2cat f m : T (with_name2cat f m) = with_name2cat (T f) m.
  Proof. destruct f. reflexivity. Qed.
  Lemma T_with_typedefs f tds : T (with_typedefs f tds) = with_typedefs (T f) (map Ttd tds).
  Proof. destruct f. reflexivity. Qed.
  Lemma T_with_includes f l : T (with_includes f l) = with_includes (T f) (map (map_include false) l).
  Proof. destruct f. reflexivity. Qed.
  Lemma enum_fuel_T done f : enum_fuel (Tp done) (T f) = enum_fuel done f.
  Proof. unfold enum_fuel. rewrite Tp_typedef_count, T_typedefs, map_length. reflexivity. Qed.

  Lemma mark_includes_id marks : forall incs idx,
    map (map_include false) (mark_includes marks incs idx) = mark_includes marks incs idx.
  Proof. intros. apply map_id_ext, map_include_false. Qed.

  (* both sides run the same sequence of binds; every loop is one [bind_mapM_map] step with the
     lemma for its elements *)
  Lemma resolve_file_in_T done f :
    resolve_file_in (Tp done) (T f) = rmap T (resolve_file_in done f).
  Proof.
    unfold resolve_file_in. rewrite T_def_names. rb as n2c.
    rewrite <- T_with_name2cat. set (f0 := with_name2cat f (Some n2c)).
    rewrite T_typedefs.
    eapply bind_mapM_map; [intro; apply resolve_typedef_T | intro tds1].
    rewrite <- T_with_typedefs. set (f1 := with_typedefs f0 tds1).
    rewrite enum_fuel_T. set (fuel := enum_fuel done f1).
    destruct f as [fname incs cpp nss tds cs es ss us xs svs n2c0].
    cbn [sem_view map_file f_filename f_includes f_cpp_includes f_namespaces f_typedefs f_constants f_enums
         f_structs f_unions f_exceptions f_services f_name2cat] in *.
    eapply bind_mapM_map; [intro; apply resolve_constant_T | intro cs1].
    eapply bind_mapM_map; [intro; apply resolve_struct_like_T | intro ss1].
    eapply bind_mapM_map; [intro; apply resolve_struct_like_T | intro us1].
    eapply bind_mapM_map; [intro; apply resolve_struct_like_T | intro es1].
    eapply bind_mapM_map; [intro; apply resolve_service_T | intro sv1].
    rewrite map_length, map_map, (map_ext _ _ (te_init_T done f1)). rb as st.
    eapply bind_mapM_map; [intro; apply fix_typedef_T | intro tds2].
    eapply bind_mapM_map; [intro; apply fix_constant_T | intro cs2].
    eapply bind_mapM_map; [intro; apply fix_struct_like_T | intro ss2].
    eapply bind_mapM_map; [intro; apply fix_struct_like_T | intro us2].
    eapply bind_mapM_map; [intro; apply fix_struct_like_T | intro es2].
    eapply bind_mapM_map; [intro; apply fix_service_T | intro sv2].
    cbn [rmap]. f_equal.
    set (f2 := File fname incs cpp nss tds2 cs2 es ss2 us2 es2 sv2 (Some n2c)).
    change (File fname (map (map_include false) incs) cpp nss (map Ttd tds2) (map Tco cs2) (map (map_enum NC) es)
                 (map Tsl ss2) (map Tsl us2) (map Tsl es2) (map Tsv sv2) (Some n2c)) with (T f2).
    rewrite file_marks_T.
    rewrite (map_id_ext _ _ map_include_false).
    rewrite T_with_includes, mark_includes_id. reflexivity.
  Qed.

  Lemma resolve_rec_T p : forall fuel done fn,
    resolve_rec fuel (Tp p) (Tp done) fn = rmap Tp (resolve_rec fuel p done fn).
  Proof.
    induction fuel as [|k IH]; intros done fn; [cbn [resolve_rec]; rewrite Tp_lookup; destruct (lookup fn done); reflexivity|].
    rewrite !resolve_rec_unfold, Tp_lookup. destruct (lookup fn done) as [x|]; cbn [option_map]; [reflexivity|].
    rewrite Tp_prog_file. destruct (prog_file p fn) as [f|]; [|reflexivity]. cbn [option_map].
    rewrite T_includes.
    assert (Hgo : forall incs d, go_includes k (Tp p) incs (Tp d) = rmap Tp (go_includes k p incs d)).
    { induction incs as [|i r IHr]; intro d; [reflexivity|]. cbn [go_includes].
      destruct (in_ref i) as [g|]; [|reflexivity]. rewrite IH.
      destruct (resolve_rec k p d g) as [d'|e]; [|reflexivity]. cbn [rmap bind]. apply IHr. }
    rewrite Hgo. destruct (go_includes k p (f_includes f) done) as [done1|e]; [|reflexivity]. cbn [rmap bind].
    rewrite Tp_lookup. destruct (lookup fn done1); cbn [option_map]; [reflexivity|].
    rewrite resolve_file_in_T. destruct (resolve_file_in done1 f); reflexivity.
  Qed.

  Lemma final_map_T done p :
    map (fun e => (fst e, match lookup (fst e) (Tp done) with Some f' => f' | None => snd e end)) (Tp p) =
    Tp (map (fun e => (fst e, match lookup (fst e) done with Some f' => f' | None => snd e end)) p).
  Proof.
    unfold sem_view_program at 2 3. rewrite !map_map. apply map_ext. intros [n f]. cbn [fst snd].
    rewrite Tp_lookup. destruct (lookup n done); reflexivity.
  Qed.

  Theorem resolve_program_sem_view p :
    resolve_program (Tp p) = rmap Tp (resolve_program p).
  Proof.
    destruct p as [|[mainfn f0] r]; [reflexivity|].
    set (P := (mainfn, f0) :: r).
    assert (E : resolve_program (Tp P) =
                done <- resolve_rec (S (List.length (Tp P))) (Tp P) (Tp []) mainfn ;;
                Ok (map (fun e => (fst e, match lookup (fst e) done with Some f' => f' | None => snd e end)) (Tp P)))
      by reflexivity.
    rewrite E. unfold sem_view_program at 1. rewrite map_length. fold (Tp P).
    rewrite resolve_rec_T.
    assert (E2 : resolve_program P =
                 done <- resolve_rec (S (List.length P)) P [] mainfn ;;
                 Ok (map (fun e => (fst e, match lookup (fst e) done with Some f' => f' | None => snd e end)) P))
      by reflexivity.
    rewrite E2.
    destruct (resolve_rec (S (List.length P)) P [] mainfn) as [done|e]; [|reflexivity].
    cbn [rmap bind]. rewrite final_map_T. reflexivity.
  Qed.

  Corollary sem_view_program_resolves p r :
    resolve_program p = Ok r -> resolve_program (Tp p) = Ok (Tp r).
  Proof. intro H. rewrite resolve_program_sem_view, H. reflexivity. Qed.
End SemView.

(* The program re-read from the dumped texts: every file is its [dump_view]; the recursive
   parser finds for every include statement the file it found before (the tree keeps its
   layout), so the includes point to the same files again. *)
Definition relink (f v : file) : file :=
  with_includes v (map (fun i => Include (in_path i) (in_ref i) None) (f_includes f)).
Definition dumped_program (fmt : N -> bytes) (p : program) : program :=
  map (fun e => (fst e, relink (snd e) (dump_view fmt (snd e)))) p.

Section Link.
  Variable fmt : N -> bytes.

  Lemma view_ty_sty : forall t, ty_ok t = true -> view_ty t = cty (ty_strip t).
  Proof.
    induction t as [n k v c an cat r td IHk IHv] using ty_ind'. intro H.
    cbn [ty_ok] in H. apply andb_true_iff in H. destruct H as [Han H].
    destruct k as [kt|], v as [vt|]; cbn [view_ty ty_plain ty_strip cty]; unfold ty_plain;
      rewrite (view_annos_id an Han).
    - apply andb_true_iff in H. destruct H as [Hk Hv].
      rewrite (IHk kt eq_refl Hk), (IHv vt eq_refl Hv). reflexivity.
    - discriminate.
    - rewrite (IHv vt eq_refl H). reflexivity.
    - reflexivity.
  Qed.

  Lemma view_cv_scv : forall c, cv_ok fmt c = true -> view_cv fmt c = dv fmt (cv_strip c).
  Proof.
    induction c as [d|z|s|s e|l IH|l IH] using const_value_ind'; intro H; cbn [cv_ok] in H;
      cbn [view_cv cv_strip dv]; try reflexivity.
    - rewrite (view_lit_id s H). reflexivity.
    - f_equal. rewrite map_map.
      induction IH as [|x r Hx _ IHr]; [reflexivity|].
      cbn [forallb] in H. apply andb_true_iff in H. destruct H as [H1 H2].
      cbn [map]. rewrite (Hx H1), (IHr H2). reflexivity.
    - f_equal. rewrite map_map.
      induction IH as [|[k v] r [Hk Hv] _ IHr]; [reflexivity|].
      cbn [forallb fst snd] in H. apply andb_true_iff in H. destruct H as [H1 H2].
      apply andb_true_iff in H1. destruct H1 as [H1k H1v].
      cbn [map fst snd] in *. rewrite (Hk H1k), (Hv H1v), (IHr H2). reflexivity.
  Qed.

  (* the re-read file is the original with comments, cpp_type and resolution info removed and
     doubles replaced by what their texts denote *)
  Lemma relink_dump_view f : view_ok fmt f = true ->
    relink f (dump_view fmt f) =
    map_file (fun t => cty (ty_strip t)) (fun c => dv fmt (cv_strip c)) (fun _ => []) true f.
  Proof.
    intro H. rewrite <- (map_file_id (dump_view fmt f)).
    rewrite (dump_view_gen fmt (fun t => t) _ (fun c => c) _ (fun c => c) eq_refl view_ty_sty view_cv_scv false f H).
    reflexivity.
  Qed.
End Link.

Section Passes.
  Variable fmt : N -> bytes.

  Lemma sem_view_strip f :
    sem_view fmt (strip_resolution f) =
    map_file (fun t => cty (ty_strip t)) (fun c => dv fmt (cv_strip c)) (fun _ => []) true f.
  Proof. exact (map_file_compose ty_strip cty cv_strip (dv fmt) (fun c => c) (fun _ => []) true false f). Qed.

  (* the files the property is about: what the parser produces (no resolution info yet), of the
     parser-built shape *)
  Definition parsed_ok (f : file) : bool := view_ok fmt f && file_eqb (strip_resolution f) f.

  Lemma relink_is_sem_view f : parsed_ok f = true -> relink f (dump_view fmt f) = sem_view fmt f.
  Proof.
    unfold parsed_ok. intro H. apply andb_true_iff in H. destruct H as [Hv Hs].
    apply file_eqb_eq in Hs. rewrite (relink_dump_view fmt f Hv), <- sem_view_strip, Hs. reflexivity.
  Qed.

  Lemma dumped_program_is_sem_view p :
    forallb (fun e => parsed_ok (snd e)) p = true -> dumped_program fmt p = sem_view_program fmt p.
  Proof.
    intro H. unfold dumped_program, sem_view_program.
    apply (map_ext_forallb _ _ (fun e => parsed_ok (snd e)) p); [|exact H].
    intros [n f] Hf. cbn [fst snd] in *. rewrite (relink_is_sem_view f Hf). reflexivity.
  Qed.

  (* dump_passes_semantic: the program re-read from the dumped texts resolves whenever the
     original does, and to the view of the original's resolution *)
  Theorem dump_passes_semantic p r :
    forallb (fun e => parsed_ok (snd e)) p = true ->
    resolve_program p = Ok r ->
    resolve_program (dumped_program fmt p) = Ok (sem_view_program fmt r).
  Proof.
    intros Hp Hr. rewrite (dumped_program_is_sem_view p Hp). apply sem_view_program_resolves. exact Hr.
  Qed.
End Passes.

(* the hypotheses are satisfiable: a two-file program (include, qualified type and enum
   constant, typedef chain, cpp_type, a double, recorded comments) that resolves *)
Local Open Scope string_scope.
Definition sem_sample_fmt (d : N) : bytes := if N.eqb d 4609434218613702656 then B "1.5" else [].
Definition sem_sample : program :=
  [ (B "a.thrift",
     File (B "a.thrift") [Include (B "b.thrift") (Some (B "b.thrift")) None] [] []
          [Typedef (ty_named (B "b.T")) (B "TT") [] (B "// a typedef of an included struct");
           Typedef (ty_named (B "TT")) (B "T3") [] []]
          [Constant (B "c") (ty_named (B "b.E")) (CIdent (B "b.E.A") None) [] [];
           Constant (B "d") (ty_named (B "double")) (CDouble 4609434218613702656) [] []]
          []
          [StructLike SKStruct (B "S")
             [Field 1 (B "x") ReqDefault (ty_plain kw_list None (Some (ty_named (B "T3"))) (B "std::list") []) None [] []]
             [] (B "/* doc */")]
          [] [] [] None);
    (B "b.thrift",
     File (B "b.thrift") [] [] [] [] [] [Enum (B "E") [EnumValue (B "A") 1 [] []] [] []]
          [StructLike SKStruct (B "T") [] [] []] [] [] [] None) ].

Example sem_sample_ok :
  forallb (fun e => parsed_ok sem_sample_fmt (snd e)) sem_sample = true /\
  (match resolve_program sem_sample with Ok _ => true | Error _ => false end) = true /\
  (match resolve_program (dumped_program sem_sample_fmt sem_sample) with Ok _ => true | Error _ => false end) = true.
Proof. repeat split; vm_compute; reflexivity. Qed.
