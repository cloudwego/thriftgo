(* Idl/ResolvePermFile.v — resolution only looks at a file through a few observations
   (name table, includes, typedef and enum lookups); files that agree on them are
   interchangeable, in particular permuted ones. *)
From Coq Require Import List ZArith Permutation.
From Verif Require Import Base.Bytes Idl.Ast Idl.AstUtil Idl.AstFacts Idl.Resolve Idl.ResolveSpec Idl.ResolveTd
     Idl.ResolveLemmas Idl.ResolvePerm.
Import ListNotations.
Local Open Scope resolve_scope.

Definition fobs_eq (g g' : file) : Prop :=
  f_name2cat g = f_name2cat g' /\ f_includes g = f_includes g' /\
  (forall n, find_typedef g n = find_typedef g' n) /\ (forall n, find_enum g n = find_enum g' n) /\
  length (f_typedefs g) = length (f_typedefs g').

Lemma fobs_n2c g g' : fobs_eq g g' -> n2c_of g = n2c_of g'.
Proof. intros (H & _). unfold n2c_of. rewrite H. reflexivity. Qed.

Lemma fobs_refl g : fobs_eq g g.
Proof. unfold fobs_eq. auto. Qed.

Definition dobs (d d' : program) : Prop :=
  Forall2 (fun x y => fst x = fst y /\ fobs_eq (snd x) (snd y)) d d'.

Lemma dobs_count d d' : dobs d d' -> prog_typedef_count d = prog_typedef_count d'.
Proof.
  induction 1 as [|x y l l' (_ & (_ & _ & _ & _ & Hl)) _ IH]; cbn [prog_typedef_count fold_right]; [reflexivity|].
  unfold prog_typedef_count in IH. rewrite IH, Hl. reflexivity.
Qed.

Section Congruence.
  Variables d d' : program.
  Hypothesis Hd : dobs d d'.

  Lemma include_target_obs i :
    match include_target d i, include_target d' i with
    | Some g, Some g' => fobs_eq g g' | None, None => True | _, _ => False end.
  Proof. unfold include_target, prog_file. destruct (in_ref i) as [fn|]; [exact (Forall2_lookup fobs_eq d d' fn Hd) | exact I]. Qed.

  Lemma reference_target_obs g g' r : fobs_eq g g' ->
    match reference_target d g r, reference_target d' g' r with
    | Some h, Some h' => fobs_eq h h' | None, None => True | _, _ => False end.
  Proof.
    intros (_ & Hi & _). unfold reference_target, nth_include. rewrite Hi.
    destruct (ref_index r <? 0)%Z; [exact I|]. destruct (nth_error (f_includes g') (Z.to_nat (ref_index r))); [|exact I].
    apply include_target_obs.
  Qed.

  Lemma find_include_obs ok pre m : forall incs idx,
    find_include d ok pre m incs idx = find_include d' ok pre m incs idx.
  Proof.
    induction incs as [|i incs IH]; intros idx; cbn [find_include]; [reflexivity|]. rewrite IH.
    destruct (beqb (idl_prefix (in_path i)) pre); [|reflexivity].
    pose proof (include_target_obs i) as H.
    destruct (include_target d i) as [g|], (include_target d' i) as [g'|]; try contradiction; [|reflexivity].
    rewrite (fobs_n2c _ _ H). reflexivity.
  Qed.

  Lemma resolve_ty_obs g g' : fobs_eq g g' -> forall t, resolve_ty d g t = resolve_ty d' g' t.
  Proof.
    intros Hg. pose proof Hg as (_ & Hi & _).
    exact (resolve_ty_ext d d' g g' (fobs_n2c _ _ Hg) Hi (fun pre m => find_include_obs _ pre m _ 0)).
  Qed.

  Lemma get_enum_obs : forall fuel g g' name, fobs_eq g g' ->
    get_enum fuel d g name = get_enum fuel d' g' name.
  Proof.
    induction fuel as [|k IH]; intros g g' name Hg; cbn [get_enum]; [reflexivity|].
    rewrite (fobs_n2c _ _ Hg). pose proof Hg as (_ & _ & Ht & He & _). rewrite Ht, He.
    destruct (lookup name (n2c_of g')) as [c|]; [|reflexivity]. destruct c; try reflexivity.
    destruct (find_typedef g' name) as [x|]; [|reflexivity].
    assert (E1 : match ty_ref (td_type x) with
                 | Some r => match reference_target d g r with
                             | Some h => e <- get_enum k d h (ref_name r);; Ok match e with Some (en, _) => Some (en, ref_index r) | None => None end
                             | None => Error ErrInternal end
                 | None => Ok None end =
                 match ty_ref (td_type x) with
                 | Some r => match reference_target d' g' r with
                             | Some h => e <- get_enum k d' h (ref_name r);; Ok match e with Some (en, _) => Some (en, ref_index r) | None => None end
                             | None => Error ErrInternal end
                 | None => Ok None end).
    { destruct (ty_ref (td_type x)) as [r|]; [|reflexivity]. pose proof (reference_target_obs g g' r Hg) as H.
      destruct (reference_target d g r) as [h|], (reference_target d' g' r) as [h'|]; try contradiction; [|reflexivity].
      rewrite (IH h h' _ H). reflexivity. }
    rewrite E1. rewrite (IH g g' _ Hg). reflexivity.
  Qed.

  Lemma inc_cands_obs h h' pre :
    (forall idx g g', fobs_eq g g' -> h idx g = h' idx g') ->
    forall incs idx, inc_cands d h pre incs idx = inc_cands d' h' pre incs idx.
  Proof.
    intros Hh. induction incs as [|i incs IH]; intros idx; cbn [inc_cands]; [reflexivity|]. rewrite IH.
    destruct (beqb (idl_prefix (in_path i)) pre); [|reflexivity].
    pose proof (include_target_obs i) as H.
    destruct (include_target d i) as [g|], (include_target d' i) as [g'|]; try contradiction; [|reflexivity].
    rewrite (Hh idx g g' H). reflexivity.
  Qed.

  Lemma alt_cands_obs fuel g g' ss : fobs_eq g g' -> alt_cands fuel d g ss = alt_cands fuel d' g' ss.
  Proof.
    intros Hg. destruct ss as [|a [|b [|c [|? ?]]]]; cbn [alt_cands]; try reflexivity.
    - rewrite (fobs_n2c _ _ Hg). reflexivity.
    - rewrite (get_enum_obs fuel g g' a Hg). pose proof Hg as (_ & -> & _).
      rewrite (inc_cands_obs _ (fun idx g0 => Ok match lookup b (n2c_of g0) with Some CatConstant => [Extra false (Z.of_nat idx) b a] | _ => [] end) a);
        [reflexivity|]. intros idx h h' Hh. rewrite (fobs_n2c _ _ Hh). reflexivity.
    - pose proof Hg as (_ & -> & _). apply inc_cands_obs. intros idx h h' Hh. rewrite (get_enum_obs fuel h h' b Hh). reflexivity.
  Qed.

  Lemma resolve_ident_obs fuel g g' s : fobs_eq g g' -> resolve_ident fuel d g s = resolve_ident fuel d' g' s.
  Proof.
    intros Hg. unfold resolve_ident. destruct (ident_is_bool s); [reflexivity|].
    assert (E : forall sss, all_cands fuel d g sss = all_cands fuel d' g' sss).
    { induction sss as [|ss sss IH]; cbn [all_cands]; [reflexivity|]. rewrite (alt_cands_obs fuel g g' ss Hg), IH. reflexivity. }
    rewrite E. reflexivity.
  Qed.

  Lemma resolve_cv_obs fuel g g' : fobs_eq g g' -> forall c, resolve_cv fuel d g c = resolve_cv fuel d' g' c.
  Proof.
    intros Hg. induction c as [b|z|s|s e|l IHl|l IHl] using const_value_ind'; cbn [resolve_cv]; try reflexivity.
    - rewrite (resolve_ident_obs fuel g g' s Hg). reflexivity.
    - f_equal. induction IHl as [|y l Hy _ IH2]; [reflexivity|]. rewrite Hy, IH2. reflexivity.
    - f_equal. induction IHl as [|[k v] l (Hk & Hv) _ IH2]; [reflexivity|]. cbn [fst snd] in *. rewrite Hk, Hv, IH2. reflexivity.
  Qed.

  Lemma mapM_ext_all {A B} (f1 f2 : A -> result B) l : (forall x, f1 x = f2 x) -> mapM f1 l = mapM f2 l.
  Proof. intros H. apply mapM_ext. intros x _. apply H. Qed.

  Lemma resolve_typedef_obs g g' td : fobs_eq g g' -> resolve_typedef d g td = resolve_typedef d' g' td.
  Proof. intros Hg. unfold resolve_typedef. rewrite (resolve_ty_obs g g' Hg). reflexivity. Qed.

  Lemma resolve_constant_obs fuel g g' c : fobs_eq g g' -> resolve_constant fuel d g c = resolve_constant fuel d' g' c.
  Proof. intros Hg. unfold resolve_constant. rewrite (resolve_ty_obs g g' Hg), (resolve_cv_obs fuel g g' Hg). reflexivity. Qed.

  Lemma resolve_field_obs fuel g g' b fd : fobs_eq g g' -> resolve_field fuel d g b fd = resolve_field fuel d' g' b fd.
  Proof.
    intros Hg. unfold resolve_field. rewrite (resolve_ty_obs g g' Hg).
    destruct (fd_default fd) as [c|]; [rewrite (resolve_cv_obs fuel g g' Hg)|]; reflexivity.
  Qed.

  Lemma resolve_struct_like_obs fuel g g' s : fobs_eq g g' -> resolve_struct_like fuel d g s = resolve_struct_like fuel d' g' s.
  Proof.
    intros Hg. unfold resolve_struct_like.
    rewrite (mapM_ext_all _ _ _ (fun fd => resolve_field_obs fuel g g' (is_union s) fd Hg)). reflexivity.
  Qed.

  Lemma resolve_function_obs fuel g g' fu : fobs_eq g g' -> resolve_function fuel d g fu = resolve_function fuel d' g' fu.
  Proof.
    intros Hg. unfold resolve_function. rewrite (resolve_ty_obs g g' Hg).
    rewrite (mapM_ext_all _ _ (fn_args fu) (fun fd => resolve_field_obs fuel g g' false fd Hg)).
    rewrite (mapM_ext_all _ _ (fn_throws fu) (fun fd => resolve_field_obs fuel g g' false fd Hg)). reflexivity.
  Qed.

  Lemma resolve_service_obs fuel g g' sv : fobs_eq g g' -> resolve_service fuel d g sv = resolve_service fuel d' g' sv.
  Proof.
    intros Hg. unfold resolve_service.
    rewrite (mapM_ext_all _ _ _ (fun fu => resolve_function_obs fuel g g' fu Hg)).
    assert (E : resolve_base d g sv = resolve_base d' g' sv).
    { unfold resolve_base. rewrite (fobs_n2c _ _ Hg). destruct Hg as (_ & -> & _).
      destruct (split_type (sv_extends sv)) as [|a [|m [|? ?]]]; try reflexivity. rewrite find_include_obs. reflexivity. }
    rewrite E. reflexivity.
  Qed.

  Lemma ext_typedef_cat_obs g g' r : fobs_eq g g' -> ext_typedef_cat d g r = ext_typedef_cat d' g' r.
  Proof.
    intros Hg. unfold ext_typedef_cat. pose proof (reference_target_obs g g' r Hg) as H.
    destruct (reference_target d g r) as [h|], (reference_target d' g' r) as [h'|]; try contradiction; [|reflexivity].
    destruct H as (_ & _ & Ht & _). rewrite Ht. reflexivity.
  Qed.

  Lemma te_init_obs g g' td : fobs_eq g g' -> te_init d g td = te_init d' g' td.
  Proof.
    intros Hg. unfold te_init. destruct (is_typedef_cat _); [|reflexivity].
    destruct (ty_ref (td_type td)) as [r|]; [|reflexivity]. rewrite (ext_typedef_cat_obs g g' r Hg). reflexivity.
  Qed.

  Section Fix.
    Variables (g g' : file) (st st' : list tde).
    Hypothesis Hg : fobs_eq g g'.
    Hypothesis Hst : forall a, te_lookup st a = te_lookup st' a.

    Lemma fix_ty_obs : forall t, fix_ty d g st t = fix_ty d' g' st' t.
    Proof.
      induction t as [n k v cpp an cat r td IHk IHv] using ty_ind'. cbn [fix_ty].
      assert (Ek : match k with Some x => y <- fix_ty d g st x;; Ok (Some y) | None => Ok None end =
                   match k with Some x => y <- fix_ty d' g' st' x;; Ok (Some y) | None => Ok None end)
        by (destruct k as [x|]; [rewrite (IHk x eq_refl)|]; reflexivity).
      assert (Ev : match v with Some x => y <- fix_ty d g st x;; Ok (Some y) | None => Ok None end =
                   match v with Some x => y <- fix_ty d' g' st' x;; Ok (Some y) | None => Ok None end)
        by (destruct v as [x|]; [rewrite (IHv x eq_refl)|]; reflexivity).
      rewrite Ek, Ev. destruct (is_typedef_cat cat); [|reflexivity].
      destruct r as [rf|]; [rewrite (ext_typedef_cat_obs g g' rf Hg) | rewrite Hst]; reflexivity.
    Qed.

    Lemma fix_typedef_obs td : fix_typedef d g st td = fix_typedef d' g' st' td.
    Proof. unfold fix_typedef. rewrite fix_ty_obs. reflexivity. Qed.
    Lemma fix_constant_obs c : fix_constant d g st c = fix_constant d' g' st' c.
    Proof. unfold fix_constant. rewrite fix_ty_obs. reflexivity. Qed.
    Lemma fix_field_obs fd : fix_field d g st fd = fix_field d' g' st' fd.
    Proof. unfold fix_field. rewrite fix_ty_obs. reflexivity. Qed.
    Lemma fix_struct_like_obs s : fix_struct_like d g st s = fix_struct_like d' g' st' s.
    Proof. unfold fix_struct_like. rewrite (mapM_ext_all _ _ _ fix_field_obs). reflexivity. Qed.
    Lemma fix_function_obs fu : fix_function d g st fu = fix_function d' g' st' fu.
    Proof.
      unfold fix_function. rewrite fix_ty_obs, (mapM_ext_all _ _ (fn_args fu) fix_field_obs),
        (mapM_ext_all _ _ (fn_throws fu) fix_field_obs). reflexivity.
    Qed.
    Lemma fix_service_obs sv : fix_service d g st sv = fix_service d' g' st' sv.
    Proof. unfold fix_service. rewrite (mapM_ext_all _ _ _ fix_function_obs). reflexivity. Qed.
  End Fix.
End Congruence.

Lemma find_by_not_in {A} (key : A -> bytes) k l : ~ In k (map key l) -> find_by key k l = None.
Proof.
  induction l as [|y l IH]; cbn [find_by map]; [reflexivity|]. intros H.
  destruct (beqb (key y) k) eqn:E; [apply beqb_true in E; exfalso; apply H; left; exact E|].
  apply IH. intros Hin. apply H. right. exact Hin.
Qed.

Lemma find_by_perm {A} (key : A -> bytes) k l l' :
  Permutation l l' -> NoDup (map key l) -> find_by key k l = find_by key k l'.
Proof.
  intros P ND. assert (ND' : NoDup (map key l')) by (eapply Permutation_NoDup; [apply Permutation_map; exact P | exact ND]).
  destruct (find_by key k l) as [x|] eqn:F.
  - destruct (find_by_In _ _ _ _ F) as (Hin & <-). symmetry. apply find_by_NoDup; [exact ND'|]. eapply Permutation_in; eauto.
  - symmetry. apply find_by_not_in. intros Hin. apply find_by_none in F. apply F.
    eapply Permutation_in; [apply Permutation_sym; apply Permutation_map; exact P | exact Hin].
Qed.

Lemma perm_flat_map' {A B} (g : A -> list B) l l' : Permutation l l' -> Permutation (flat_map' g l) (flat_map' g l').
Proof.
  unfold flat_map'. induction 1 as [|x l l' P IH|x y l|l l' l'' P1 IH1 P2 IH2]; cbn [map concat].
  - apply Permutation_refl.
  - apply Permutation_app_head. exact IH.
  - rewrite !app_assoc. apply Permutation_app_tail. apply Permutation_app_comm.
  - eapply Permutation_trans; eauto.
Qed.

Lemma NoDup_app_r {A} (l1 l2 : list A) : NoDup (l1 ++ l2) -> NoDup l2.
Proof. induction l1 as [|x l IH]; cbn [app]; intros H; [exact H|]. inversion H; auto. Qed.
Lemma struct_likes_perm a b : file_perm a b -> Permutation (struct_likes a) (struct_likes b).
Proof.
  intros (_ & _ & _ & _ & _ & _ & _ & Ps & Pu & Pe & _). unfold struct_likes.
  apply Permutation_app; [exact Ps|]. apply Permutation_app; assumption.
Qed.

Lemma file_def_names_perm a b : file_perm a b -> Permutation (file_def_names a) (file_def_names b).
Proof.
  intros H. pose proof (struct_likes_perm a b H) as Psl.
  destruct H as (_ & _ & _ & _ & Pt & Pc & Pe & Pst & Pun & Pex & Psv & _). unfold file_def_names.
  repeat apply Permutation_app; apply Permutation_map; assumption.
Qed.

Lemma file_marks_perm a b : file_perm a b -> Permutation (file_marks a) (file_marks b).
Proof.
  intros H. pose proof (struct_likes_perm a b H) as Psl.
  destruct H as (_ & _ & _ & _ & Pt & Pc & Pe & Pst & Pun & Pex & Psv & _).
  unfold file_marks, file_types, file_top_types, file_const_values, file_top_const_values, file_fields.
  repeat (apply Permutation_app || apply perm_flat_map' || apply Permutation_map); assumption.
Qed.

Lemma mark_includes_ext m1 m2 : (forall z, In z m1 <-> In z m2) ->
  forall incs idx, mark_includes m1 incs idx = mark_includes m2 incs idx.
Proof.
  intros H. induction incs as [|i incs IH]; intros idx; cbn [mark_includes]; [reflexivity|]. rewrite IH.
  assert (E : existsb (Z.eqb (Z.of_nat idx)) m1 = existsb (Z.eqb (Z.of_nat idx)) m2).
  { destruct (existsb (Z.eqb (Z.of_nat idx)) m1) eqn:E1; symmetry.
    - apply existsb_exists in E1. destruct E1 as (x & Hx & Ex). apply existsb_exists. exists x. split; [apply H; exact Hx | exact Ex].
    - destruct (existsb (Z.eqb (Z.of_nat idx)) m2) eqn:E2; [|reflexivity].
      apply existsb_exists in E2. destruct E2 as (x & Hx & Ex).
      assert (existsb (Z.eqb (Z.of_nat idx)) m1 = true) by (apply existsb_exists; exists x; split; [apply H; exact Hx | exact Ex]).
      congruence. }
  rewrite E. reflexivity.
Qed.

Lemma perm_step {A B} {f1 : A -> result B} f2 {l l' r} :
  (forall x, f1 x = f2 x) -> Permutation l l' -> mapM f1 l = Ok r ->
  exists r', mapM f2 l' = Ok r' /\ Permutation r r'.
Proof. intros He P H. rewrite (mapM_ext_all f1 f2 l He) in H. exact (mapM_perm f2 l l' r P H). Qed.

Lemma fobs_of_perm (a b : file) :
  f_name2cat a = f_name2cat b -> f_includes a = f_includes b ->
  Permutation (f_typedefs a) (f_typedefs b) -> Permutation (f_enums a) (f_enums b) ->
  NoDup (map td_alias (f_typedefs a)) -> NoDup (map en_name (f_enums a)) -> fobs_eq a b.
Proof.
  intros H1 H2 Pt Pe Nt Ne. unfold fobs_eq, find_typedef, find_enum. repeat split; auto.
  - intros n. apply find_by_perm; assumption.
  - intros n. apply find_by_perm; assumption.
  - apply Permutation_length. exact Pt.
Qed.

Lemma resolve_file_in_perm d d' f f2 r :
  dobs d d' -> file_perm f f2 -> resolve_file_in d f = Ok r ->
  exists r2, resolve_file_in d' f2 = Ok r2 /\ file_perm r r2 /\
             NoDup (map td_alias (f_typedefs r)) /\ NoDup (map en_name (f_enums r)).
Proof.
  intros Hd HP H. pose proof (file_def_names_perm f f2 HP) as Pdn.
  destruct HP as (Hfn & Hinc & Hcpp & Hns & Ptd & Pco & Pen & Pst & Pun & Pex & Psv & Hn2c).
  destruct (resolve_file_in_ok _ _ _ H) as
    (n2c & tds1 & cs1 & ss1 & us1 & es1 & sv1 & st & tds2 & cs2 & ss2 & us2 & es2 & sv2 &
    E & E0 & E1 & E2 & E3 & E4 & E5 & E6 & E7 & E8 & E9 & E10 & E11 & E12 & ->).
  pose proof (register_perm _ _ _ Pdn E) as E'.
  pose proof (typedefs_nodup f n2c E) as NDt.
  assert (NDe : NoDup (map en_name (f_enums f))).
  { destruct (register_spec _ _ _ E) as (ND & _). unfold file_def_names in ND. rewrite !map_app, !map_map in ND.
    apply NoDup_app_r in ND. apply NoDup_app_r in ND. exact (NoDup_app_l _ _ ND). }
  set (f0 := with_name2cat f (Some n2c)) in *. set (f0' := with_name2cat f2 (Some n2c)).
  assert (O0 : fobs_eq f0 f0') by (apply fobs_of_perm; auto).
  destruct (perm_step (resolve_typedef d' f0') (fun td => resolve_typedef_obs d d' Hd f0 f0' td O0) Ptd E0) as (tds1' & E0' & Ptd1).
  pose proof (resolve_typedefs_alias _ _ _ _ E0) as Al1.
  set (f1 := with_typedefs f0 tds1) in *. set (f1' := with_typedefs f0' tds1').
  assert (O1 : fobs_eq f1 f1') by (apply fobs_of_perm; cbn; auto; rewrite Al1; exact NDt).
  assert (Fu : enum_fuel d f1 = enum_fuel d' f1').
  { unfold enum_fuel. rewrite (dobs_count _ _ Hd). cbn [f1 f1' with_typedefs f_typedefs]. rewrite (Permutation_length Ptd1). reflexivity. }
  rewrite Fu in *.
  destruct (perm_step (resolve_constant _ d' f1') (fun c => resolve_constant_obs d d' Hd _ f1 f1' c O1) Pco E1) as (cs1' & E1' & Pcs1).
  destruct (perm_step (resolve_struct_like _ d' f1') (fun s => resolve_struct_like_obs d d' Hd _ f1 f1' s O1) Pst E2) as (ss1' & E2' & Pss1).
  destruct (perm_step (resolve_struct_like _ d' f1') (fun s => resolve_struct_like_obs d d' Hd _ f1 f1' s O1) Pun E3) as (us1' & E3' & Pus1).
  destruct (perm_step (resolve_struct_like _ d' f1') (fun s => resolve_struct_like_obs d d' Hd _ f1 f1' s O1) Pex E4) as (es1' & E4' & Pes1).
  destruct (perm_step (resolve_service _ d' f1') (fun sv => resolve_service_obs d d' Hd _ f1 f1' sv O1) Psv E5) as (sv1' & E5' & Psv1).
  assert (Est : exists st', te_fix (S (length tds1')) (map (te_init d' f1') tds1') = Ok st' /\ forall a, te_lookup st a = te_lookup st' a).
  { rewrite (map_ext _ _ (fun td => te_init_obs d d' Hd f1 f1' td O1)), <- (map_length (te_init d' f1') tds1) in E6.
    assert (NDa : NoDup (map te_alias (map (te_init d' f1') tds1))) by (rewrite te_init_aliases, Al1; exact NDt).
    destruct (te_fix_perm _ (map (te_init d' f1') tds1') _ NDa (Permutation_map _ Ptd1) E6) as (st' & Hf & Hl).
    rewrite map_length in Hf. exists st'. split; [exact Hf|]. intros a. symmetry. apply Hl. }
  destruct Est as (st' & E6' & Hst).
  destruct (perm_step (fix_typedef d' f1' st') (fix_typedef_obs d d' Hd f1 f1' st st' O1 Hst) Ptd1 E7) as (tds2' & E7' & Ptd2).
  destruct (perm_step (fix_constant d' f1' st') (fix_constant_obs d d' Hd f1 f1' st st' O1 Hst) Pcs1 E8) as (cs2' & E8' & Pcs2).
  destruct (perm_step (fix_struct_like d' f1' st') (fix_struct_like_obs d d' Hd f1 f1' st st' O1 Hst) Pss1 E9) as (ss2' & E9' & Pss2).
  destruct (perm_step (fix_struct_like d' f1' st') (fix_struct_like_obs d d' Hd f1 f1' st st' O1 Hst) Pus1 E10) as (us2' & E10' & Pus2).
  destruct (perm_step (fix_struct_like d' f1' st') (fix_struct_like_obs d d' Hd f1 f1' st st' O1 Hst) Pes1 E11) as (es2' & E11' & Pes2).
  destruct (perm_step (fix_service d' f1' st') (fix_service_obs d d' Hd f1 f1' st st' O1 Hst) Psv1 E12) as (sv2' & E12' & Psv2).
  unfold resolve_file_in. rewrite E'. cbn [bind]. fold f0'. rewrite E0'. cbn [bind]. fold f1'.
  rewrite E1', E2', E3', E4', E5'. cbn [bind]. rewrite E6'. cbn [bind].
  rewrite E7', E8', E9', E10', E11', E12'. cbn [bind].
  eexists. split; [reflexivity|].
  set (F := File (f_filename f) (f_includes f) (f_cpp_includes f) (f_namespaces f) tds2 cs2 (f_enums f) ss2 us2 es2 sv2 (Some n2c)).
  set (F' := File (f_filename f2) (f_includes f2) (f_cpp_includes f2) (f_namespaces f2) tds2' cs2' (f_enums f2) ss2' us2' es2' sv2' (Some n2c)).
  assert (PF : file_perm F F') by (unfold file_perm, F, F'; cbn; repeat split; auto).
  split; [|split].
  - unfold file_perm. cbn [with_includes f_filename f_includes f_cpp_includes f_namespaces f_typedefs f_constants f_enums f_structs f_unions f_exceptions f_services f_name2cat F F'].
    repeat split; auto.
    rewrite <- Hinc. apply mark_includes_ext. intros z.
    pose proof (file_marks_perm F F' PF) as PM. split; intros Hz; [eapply Permutation_in; eauto | eapply Permutation_in; [apply Permutation_sym; exact PM | exact Hz]].
  - cbn [with_includes f_typedefs F]. rewrite (fix_typedefs_alias _ _ _ _ _ E7), Al1. exact NDt.
  - exact NDe.
Qed.

(* the accumulators of the two runs: the same file names in the same order, the files permuted,
   and the distinctness that makes permuted files agree on find_typedef and find_enum *)
Definition drel (d d' : program) : Prop :=
  Forall2 (fun x y => fst x = fst y /\ file_perm (snd x) (snd y) /\
                      NoDup (map td_alias (f_typedefs (snd x))) /\ NoDup (map en_name (f_enums (snd x)))) d d'.

Lemma drel_dobs d d' : drel d d' -> dobs d d'.
Proof.
  induction 1 as [|x y l l' (Hk & HP & Nt & Ne) _ IH]; constructor; [|exact IH]. split; [exact Hk|].
  destruct HP as (_ & Hinc & _ & _ & Pt & _ & Pe & _ & _ & _ & _ & Hn). apply fobs_of_perm; auto.
Qed.

Lemma drel_lookup d d' k : drel d d' ->
  match lookup k d, lookup k d' with
  | Some g, Some g' => file_perm g g' | None, None => True | _, _ => False end.
Proof.
  intros H. pose proof (Forall2_lookup (fun g g' => file_perm g g' /\ NoDup (map td_alias (f_typedefs g)) /\ NoDup (map en_name (f_enums g))) d d' k H) as L.
  destruct (lookup k d), (lookup k d'); [exact (proj1 L) | exact L ..].
Qed.

Lemma resolve_rec_perm p p' : program_perm p p' -> forall fuel d d' fn d1,
  drel d d' -> resolve_rec fuel p d fn = Ok d1 ->
  exists d1', resolve_rec fuel p' d' fn = Ok d1' /\ drel d1 d1'.
Proof.
  intros HP. induction fuel as [|k IH]; intros d d' fn d1 Hd H; [cbn [resolve_rec] in * | rewrite resolve_rec_unfold in H |- *].
  - pose proof (drel_lookup d d' fn Hd) as L. destruct (lookup fn d), (lookup fn d'); try contradiction; try discriminate.
    injection H as <-. eauto.
  - pose proof (drel_lookup d d' fn Hd) as L. destruct (lookup fn d), (lookup fn d'); try contradiction.
    { injection H as <-. eauto. }
    clear L. pose proof (Forall2_lookup file_perm p p' fn HP) as L. unfold prog_file in *.
    destruct (lookup fn p) as [f|], (lookup fn p') as [f2|]; try contradiction; try discriminate.
    inv_bind H. rename x into done1.
    pose proof L as (_ & Hinc & _). rewrite <- Hinc.
    assert (Hgo : forall incs a a' a1, drel a a' -> go_includes k p incs a = Ok a1 ->
      exists a1', go_includes k p' incs a' = Ok a1' /\ drel a1 a1').
    { induction incs as [|i incs IHi]; intros a a' a1 Ha Hgo; cbn [go_includes] in *.
      - injection Hgo as <-. eauto.
      - destruct (in_ref i) as [g|]; [|discriminate]. inv_bind Hgo.
        destruct (IH _ _ _ _ Ha E0) as (b' & Hb & Hab). rewrite Hb. cbn [bind]. exact (IHi _ _ _ Hab Hgo). }
    destruct (Hgo _ _ _ _ Hd E) as (done1' & E' & Hd1). rewrite E'. cbn [bind].
    pose proof (drel_lookup done1 done1' fn Hd1) as L1.
    destruct (lookup fn done1), (lookup fn done1'); try contradiction; try discriminate.
    inv_bind H. injection H as <-.
    destruct (resolve_file_in_perm _ _ _ _ _ (drel_dobs _ _ Hd1) L E0) as (r2 & Hr2 & Pr & Nt & Ne).
    rewrite Hr2. cbn [bind]. eexists. split; [reflexivity|]. constructor; [|exact Hd1]. cbn [fst snd]. auto.
Qed.

Lemma file_perm_sym a b : file_perm a b -> file_perm b a.
Proof. unfold file_perm. intros H. decompose [and] H. repeat split; auto using Permutation_sym. Qed.

Lemma program_perm_sym p q : program_perm p q -> program_perm q p.
Proof. induction 1 as [|x y l l' (Hk & HP) _ IH]; constructor; [split; [auto | apply file_perm_sym; exact HP] | exact IH]. Qed.

Lemma map_done_perm done done' : drel done done' -> forall p p', program_perm p p' ->
  program_perm (map (fun e => (fst e, match lookup (fst e) done with Some f' => f' | None => snd e end)) p)
               (map (fun e => (fst e, match lookup (fst e) done' with Some f' => f' | None => snd e end)) p').
Proof.
  intros Hd. induction 1 as [|[k1 g] [k2 g'] a a' (Hk & HPg) _ IH]; cbn [map]; [constructor|].
  cbn [fst snd] in *. subst k2. constructor; [|exact IH]. cbn [fst snd]. split; [reflexivity|].
  pose proof (drel_lookup done done' k1 Hd) as L.
  destruct (lookup k1 done), (lookup k1 done'); try contradiction; [exact L | exact HPg].
Qed.

Lemma resolve_program_perm_ok p p' r :
  program_perm p p' -> resolve_program p = Ok r ->
  exists r', resolve_program p' = Ok r' /\ program_perm r r'.
Proof.
  intros HP H. unfold resolve_program in *.
  destruct HP as [|[mainfn mf] [mainfn' mf'] l l' (Hk & HPm) HPl].
  - injection H as <-. exists []. split; [reflexivity | constructor].
  - cbn [fst] in Hk. subst mainfn'.
    assert (HP : program_perm ((mainfn, mf) :: l) ((mainfn, mf') :: l')) by (constructor; auto).
    set (p := (mainfn, mf) :: l) in *. set (p' := (mainfn, mf') :: l') in *.
    inv_bind H. injection H as <-. rename x into done.
    assert (Hlen : length p = length p') by (eapply Forall2_len; exact HP).
    rewrite Hlen in E. destruct (resolve_rec_perm p p' HP _ [] [] mainfn done (Forall2_nil _) E) as (done' & E' & Hd).
    rewrite E'. cbn [bind]. eexists. split; [reflexivity|].
    exact (map_done_perm done done' Hd p p' HP).
Qed.

(* the outcome of resolution does not depend on the order of the definitions: permuting
   the definitions of any files (per kind: the AST keeps one list per kind) permutes
   the resolved definitions the same way and changes nothing else; and it fails on
   the one exactly when it fails on the other *)
Theorem resolve_perm p p' :
  program_perm p p' ->
  match resolve_program p, resolve_program p' with
  | Ok r, Ok r' => program_perm r r'
  | Error _, Error _ => True
  | _, _ => False
  end.
Proof.
  intros HP. destruct (resolve_program p) as [r|e] eqn:E.
  - destruct (resolve_program_perm_ok p p' r HP E) as (r' & -> & Pr). exact Pr.
  - destruct (resolve_program p') as [r'|e'] eqn:E'; [|exact I].
    destruct (resolve_program_perm_ok p' p r' (program_perm_sym _ _ HP) E') as (r2 & E2 & _). congruence.
Qed.
