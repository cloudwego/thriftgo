(* Idl/ResolvePerm.v — order independence: the name table and the per-definition
   passes do not depend on the order of the definitions. *)
From Coq Require Import List Bool Arith Lia NArith ZArith Permutation Sorting.Sorted.
From Verif Require Import Base.Bytes Idl.Ast Idl.Resolve Idl.ResolveLemmas.
Import ListNotations.
Local Open Scope resolve_scope.

Lemma byte_to_N_inj a b : Byte.to_N a = Byte.to_N b -> a = b.
Proof.
  intros H. pose proof (Byte.of_to_N a) as Ha. pose proof (Byte.of_to_N b) as Hb. rewrite H in Ha. congruence.
Qed.

Lemma bytes_ltb_irrefl a : bytes_ltb a a = false.
Proof. induction a as [|x a IH]; cbn [bytes_ltb]; [reflexivity|]. rewrite N.ltb_irrefl. exact IH. Qed.

Lemma bytes_ltb_trans a : forall b c, bytes_ltb a b = true -> bytes_ltb b c = true -> bytes_ltb a c = true.
Proof.
  induction a as [|x a IH]; intros [|y b] [|z c]; cbn [bytes_ltb]; try discriminate; try reflexivity.
  destruct (Byte.to_N x <? Byte.to_N y)%N eqn:Exy.
  - intros _. apply N.ltb_lt in Exy. destruct (Byte.to_N y <? Byte.to_N z)%N eqn:Eyz.
    + intros _. apply N.ltb_lt in Eyz. assert (Byte.to_N x <? Byte.to_N z = true)%N as -> by (apply N.ltb_lt; lia). reflexivity.
    + destruct (Byte.to_N z <? Byte.to_N y)%N eqn:Ezy; [discriminate|]. intros _.
      apply N.ltb_ge in Eyz, Ezy. assert (Byte.to_N x <? Byte.to_N z = true)%N as -> by (apply N.ltb_lt; lia). reflexivity.
  - destruct (Byte.to_N y <? Byte.to_N x)%N eqn:Eyx; [discriminate|]. apply N.ltb_ge in Exy, Eyx.
    assert (Byte.to_N x = Byte.to_N y) as Exy' by lia. rewrite Exy'. intros Hab.
    destruct (Byte.to_N y <? Byte.to_N z)%N; [reflexivity|]. destruct (Byte.to_N z <? Byte.to_N y)%N; [discriminate|].
    apply IH. exact Hab.
Qed.

Lemma bytes_ltb_total a : forall b, a <> b -> bytes_ltb a b = true \/ bytes_ltb b a = true.
Proof.
  induction a as [|x a IH]; intros [|y b] Hne; cbn [bytes_ltb].
  { congruence. } { auto. } { auto. }
  destruct (Byte.to_N x <? Byte.to_N y)%N eqn:Exy; [auto|].
  destruct (Byte.to_N y <? Byte.to_N x)%N eqn:Eyx; [auto|].
  apply N.ltb_ge in Exy, Eyx. assert (x = y) by (apply byte_to_N_inj; lia). subst.
  apply IH. congruence.
Qed.

Definition key_lt (x y : bytes * category) : Prop := bytes_ltb (fst x) (fst y) = true.

Lemma n2c_insert_In k c m x : In x (n2c_insert k c m) <-> x = (k, c) \/ In x m.
Proof.
  induction m as [|[k' c'] m IH]; cbn [n2c_insert]; [cbn; intuition|].
  destruct (bytes_ltb k k'); cbn [In]; [intuition|]. rewrite IH. cbn [In]. intuition.
Qed.

Lemma n2c_insert_sorted k c m :
  StronglySorted key_lt m -> lookup k m = None -> StronglySorted key_lt (n2c_insert k c m).
Proof.
  induction m as [|[k' c'] m IH]; intros Hs Hk; cbn [n2c_insert].
  - constructor; constructor.
  - cbn [lookup] in Hk. destruct (beqb k k') eqn:E; [discriminate|]. apply beqb_false in E.
    inversion Hs as [|? ? Hs' Hall]; subst. destruct (bytes_ltb k k') eqn:L.
    + constructor; [exact Hs|]. constructor; [exact L|].
      rewrite Forall_forall in *. intros y Hy. unfold key_lt in *. cbn [fst].
      eapply bytes_ltb_trans; [exact L | exact (Hall y Hy)].
    + constructor; [apply IH; assumption|]. rewrite Forall_forall in *. intros y Hy.
      apply n2c_insert_In in Hy. destruct Hy as [->|Hy]; [|exact (Hall y Hy)].
      unfold key_lt. cbn [fst]. destruct (bytes_ltb_total k k' E) as [H|H]; [congruence | exact H].
Qed.

Lemma register_sorted defs : forall acc m, register defs acc = Ok m -> StronglySorted key_lt acc ->
  StronglySorted key_lt m /\ forall x, In x m <-> In x acc \/ In x defs.
Proof.
  induction defs as [|[k c] defs IH]; intros acc m H Hs; cbn [register] in H.
  - injection H as <-. split; [exact Hs|]. intros x. cbn. intuition.
  - destruct (lookup k acc) eqn:Hk; [discriminate|].
    destruct (IH _ _ H (n2c_insert_sorted k c acc Hs Hk)) as (S1 & I1). split; [exact S1|].
    intros x. rewrite I1, n2c_insert_In. cbn [In]. intuition.
Qed.

Lemma register_complete defs : forall acc,
  NoDup (map fst defs) -> (forall n, In n (map fst defs) -> lookup n acc = None) ->
  exists m, register defs acc = Ok m.
Proof.
  induction defs as [|[k c] defs IH]; intros acc ND Hf; cbn [register]; [eauto|].
  cbn [map fst] in *. inversion ND as [|? ? Hn ND']; subst.
  rewrite (Hf k (or_introl eq_refl)). apply IH; [exact ND'|].
  intros n Hin. rewrite lookup_n2c_insert by (apply Hf; left; reflexivity).
  destruct (beqb n k) eqn:E; [apply beqb_true in E; subst; contradiction|]. apply Hf. right. exact Hin.
Qed.

Lemma sorted_unique (l1 l2 : list (bytes * category)) :
  StronglySorted key_lt l1 -> StronglySorted key_lt l2 -> (forall x, In x l1 <-> In x l2) -> l1 = l2.
Proof.
  revert l2. induction l1 as [|a l1 IH]; intros l2 S1 S2 Heq.
  - destruct l2 as [|b l2]; [reflexivity|]. exfalso. apply (Heq b). left. reflexivity.
  - destruct l2 as [|b l2]; [exfalso; apply (Heq a); left; reflexivity|].
    inversion S1 as [|? ? S1' A1]; inversion S2 as [|? ? S2' A2]; subst. rewrite Forall_forall in A1, A2.
    assert (a = b).
    { destruct (proj1 (Heq a) (or_introl eq_refl)) as [->|Hin]; [reflexivity|].
      destruct (proj2 (Heq b) (or_introl eq_refl)) as [->|Hin']; [reflexivity|].
      pose proof (A1 b Hin') as H1. pose proof (A2 a Hin) as H2. unfold key_lt in *.
      pose proof (bytes_ltb_trans _ _ _ H1 H2) as H3. rewrite bytes_ltb_irrefl in H3. discriminate. }
    subst b. f_equal. apply IH; [exact S1' | exact S2' |].
    intros x. split; intros Hx.
    + destruct (proj1 (Heq x) (or_intror Hx)) as [<-|H]; [|exact H]. exfalso.
      pose proof (A1 a Hx) as H1. unfold key_lt in H1. rewrite bytes_ltb_irrefl in H1. discriminate.
    + destruct (proj2 (Heq x) (or_intror Hx)) as [<-|H]; [|exact H]. exfalso.
      pose proof (A2 a Hx) as H1. unfold key_lt in H1. rewrite bytes_ltb_irrefl in H1. discriminate.
Qed.

(* RegisterNames does not depend on the order of the definitions *)
Theorem register_perm defs defs' m :
  Permutation defs defs' -> register defs [] = Ok m -> register defs' [] = Ok m.
Proof.
  intros P H. destruct (register_spec _ _ _ H) as (ND & _ & _).
  assert (ND' : NoDup (map fst defs')) by (eapply Permutation_NoDup; [apply Permutation_map; exact P | exact ND]).
  destruct (register_complete defs' [] ND' (fun _ _ => eq_refl)) as (m' & H'). rewrite H'. f_equal.
  destruct (register_sorted _ _ _ H (SSorted_nil _)) as (S1 & I1).
  destruct (register_sorted _ _ _ H' (SSorted_nil _)) as (S2 & I2).
  apply sorted_unique; [exact S2 | exact S1 |]. intros x. rewrite I1, I2. cbn [In].
  split; intros [[]|Hx]; right; [eapply Permutation_in; [apply Permutation_sym; exact P | exact Hx] | eapply Permutation_in; eauto].
Qed.

Lemma register_perm_error defs defs' e :
  Permutation defs defs' -> register defs [] = Error e -> exists e', register defs' [] = Error e'.
Proof.
  intros P H. destruct (register defs' []) as [m'|e'] eqn:H'; [|eauto].
  rewrite (register_perm defs' defs m' (Permutation_sym P) H') in H. discriminate.
Qed.

Lemma mapM_perm {A B} (f : A -> result B) l l' r :
  Permutation l l' -> mapM f l = Ok r -> exists r', mapM f l' = Ok r' /\ Permutation r r'.
Proof.
  intros P. revert r. induction P as [|x l l' P IH|x y l|l l' l'' P1 IH1 P2 IH2]; intros r H.
  - exists r. split; [exact H | apply Permutation_refl].
  - cbn [mapM] in *. inv_bind H. injection H as <-. destruct (IH _ E0) as (r' & -> & Pr).
    rewrite E. cbn [bind]. eexists. split; [reflexivity|]. apply perm_skip. exact Pr.
  - cbn [mapM] in *. inv_bind H. inv_bind E0. injection H as <-. injection E0 as <-.
    rewrite E1, E. cbn [bind]. rewrite E2. cbn [bind]. eexists. split; [reflexivity|]. apply perm_swap.
  - destruct (IH1 _ H) as (r1 & H1 & Pr1). destruct (IH2 _ H1) as (r2 & H2 & Pr2).
    exists r2. split; [exact H2 | eapply Permutation_trans; eauto].
Qed.
