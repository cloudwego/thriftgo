(* Idl/ResolveService.v — the analogue of [occ_good] for base services: the Reference of a
   resolved service is the include [spec_include is_service_kind] chooses. *)
From Coq Require Import List ZArith.
From Verif Require Import Base.Bytes Idl.Ast Idl.AstUtil Idl.Resolve Idl.ResolveSpec Idl.ResolveLemmas Idl.ResolveInv
  Idl.ResolveProg.
Import ListNotations.
Local Open Scope resolve_scope.

(* what the property says about the base service of one resolved service [sv] of file [fn] *)
Definition sv_good (p : program) (fn : bytes) (f : file) (sv : service) : Prop :=
  match split_type (sv_extends sv) with
  | [a] => def_of p fn a = Some DkService /\ sv_ref sv = None
  | [pre; m] => exists i gn,
      spec_include p is_service_kind pre m (file_incs f) 0 = Some (i, gn) /\
      def_of p gn m = Some DkService /\ sv_ref sv = Some (Ref m (Z.of_nat i))
  | _ => sv_ref sv = None
  end.

Lemma dkind_service k : is_service_kind k = true -> k = DkService.
Proof. destruct k as [t| |vs|s|]; cbn; try discriminate; [destruct s; discriminate | reflexivity]. Qed.

Lemma resolve_base_good p done fn f n2c tds1 sv r :
  inv p done -> prog_file p fn = Some f ->
  (forall i, In i (f_includes f) -> exists hn, in_ref i = Some hn /\ lookup hn done <> None) ->
  register (file_def_names f) [] = Ok n2c ->
  resolve_base done (cur1 f n2c tds1) sv = Ok r ->
  sv_good p fn f (Service (sv_name sv) (sv_extends sv) (sv_functions sv) (sv_annos sv) r (sv_comments sv)).
Proof.
  intros Hinv Hf Htg Hreg H. unfold resolve_base in H. unfold sv_good. cbn [sv_extends sv_ref].
  destruct (split_type (sv_extends sv)) as [|a [|m [|? ?]]] eqn:Ss; try (injection H as <-; reflexivity).
  - rewrite (cur_lookup p fn f Hf n2c Hreg tds1) in H. destruct (def_of p fn a) as [k|] eqn:Dk; [|discriminate].
    cbn [option_map] in H. destruct k as [t| |vs|s|]; cbn in H; try discriminate; [destruct s; discriminate|].
    injection H as <-. auto.
  - destruct (find_include done is_service_cat a m (f_includes (cur1 f n2c tds1)) 0) as [[idx c]|] eqn:Fi; [|discriminate].
    injection H as <-.
    destruct (cur_find_include p done f Hinv Htg n2c tds1 is_service_cat is_service_kind a m idx c (fun k => eq_refl) Fi) as (gn & k & Hs & Dk & _).
    destruct (spec_include_nth _ _ _ _ _ _ _ _ Hs) as (_ & _ & (k' & Dk' & Tk)).
    rewrite Dk in Dk'. injection Dk' as <-. rewrite (dkind_service k Tk) in Dk. exists idx, gn. auto.
Qed.

Lemma resolve_file_services p done fn f f' :
  inv p done -> prog_file p fn = Some f ->
  (forall i, In i (f_includes f) -> exists hn, in_ref i = Some hn /\ lookup hn done <> None) ->
  resolve_file_in done f = Ok f' -> Forall (sv_good p fn f) (f_services f').
Proof.
  intros Hinv Hf Htg H.
  destruct (resolve_file_in_ok _ _ _ H) as
    (n2c & tds1 & cs1 & ss1 & us1 & es1 & svs1 & st & tds2 & cs2 & ss2 & us2 & es2 & svs2 &
     Hn2c & _ & _ & _ & _ & _ & Hsvs1 & _ & _ & _ & _ & _ & _ & Hsvs2 & ->).
  cbn [with_includes f_services]. refine (two_mapM_Forall _ _ _ _ _ _ Hsvs1 Hsvs2 _). intros sv sv1 sv2 H1 H2.
  unfold resolve_service in H1. apply bind_ok in H1. destruct H1 as (fns & _ & H1).
  apply bind_ok in H1. destruct H1 as (r & Hr & H1). injection H1 as <-.
  unfold fix_service in H2. inv_bind H2. injection H2 as <-. cbn [sv_name sv_extends sv_annos sv_ref sv_comments sv_functions] in *.
  pose proof (resolve_base_good p done fn f n2c tds1 sv r Hinv Hf Htg Hn2c Hr) as G.
  unfold sv_good in *. cbn [sv_extends sv_ref] in *. exact G.
Qed.

Theorem resolve_service_ref p r :
  parsed_program p = true -> resolve_program p = Ok r ->
  forall fn f' sv, prog_file r fn = Some f' -> f_name2cat f' <> None -> In sv (f_services f') ->
  exists f, prog_file p fn = Some f /\ sv_good p fn f sv.
Proof.
  intros Hp H fn f' sv Hf Hn Hin.
  destruct (resolve_program_inv p (fun fn f f' => Forall (sv_good p fn f) (f_services f'))
              (fun done fn f f' Hinv Pf => resolve_file_services p done fn f f' Hinv Pf) r H) as (done & _ & Hsv & Hr).
  destruct (Hsv fn f' (resolved_in_done p r done Hp Hr fn f' Hf Hn)) as (g & Hg & Hall).
  rewrite Forall_forall in Hall. exists g. auto.
Qed.
