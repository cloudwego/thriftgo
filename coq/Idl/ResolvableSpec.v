(* Idl/ResolvableSpec.v — a decidable description of the programs symbol resolution
   accepts, written against the symbol table of the PARSED program only (Idl/ResolveSpec.v).
   Definitions only; Idl/ResolveComplete.v proves that the model succeeds on them.

     denote fuel p fn n     executable form of [name_denotes] (sound for every fuel,
                            complete with [denote_fuel p], see Idl/ResolvePath.v)
     ty_ok p fn t           the type has the shape the parser gives it (containers have
                            their element types, nothing else has children) and every
                            name in it denotes something
     base_ok p fn f sv      the base service of [sv] exists (locally / in the first include
                            with the prefix that defines a service of that name)
     includes_ok n p fn     every include below [fn] is present and the include tree below
                            [fn] is lower than [n] (no cycle)
     file_ok idok p fn f    global names distinct, every type occurrence [ty_ok], every base
                            service [base_ok], every identifier used as a value is a boolean
                            or accepted by [idok fn]
     resolvable_with idok p / resolvable_types p   ([resolvable p] is in Idl/ResolvableConst.v) *)
From Coq Require Import List Bool Arith NArith ZArith.
From Coq.Strings Require Import Byte.
From Verif Require Import Base.Bytes Idl.Ast Idl.AstUtil Idl.Resolve Idl.ResolveSpec.
Import ListNotations.

Definition denote_def (rec : bytes -> bytes -> option tdef) (p : program) (fn a : bytes) : option tdef :=
  match def_of p fn a with
  | Some (DkEnum _) => Some (TEnum fn a)
  | Some (DkStruct k) => Some (TStruct fn a k)
  | Some (DkTypedef tgt) => rec fn tgt
  | _ => None
  end.

Fixpoint denote (fuel : nat) (p : program) (fn n : bytes) : option tdef :=
  match fuel with
  | O => None
  | S k =>
    match builtin_category n with
    | Some c => Some (TBuiltin c)
    | None =>
      match split_type n with
      | [a] => denote_def (denote k p) p fn a
      | [pre; m] =>
        match prog_file p fn with
        | Some f =>
          match spec_include p is_type_kind pre m (file_incs f) 0 with
          | Some (_, gn) => denote_def (denote k p) p gn m
          | None => None
          end
        | None => None
        end
      | _ => None
      end
    end
  end.

(* one level per typedef hop and one for the end of the chain *)
Definition denote_fuel (p : program) : nat := prog_typedef_count p + 2.

Definition denotes_b (p : program) (fn n : bytes) : bool :=
  match denote (denote_fuel p) p fn n with Some _ => true | None => false end.

Fixpoint ty_ok (p : program) (fn : bytes) (t : ty) : bool :=
  match t with
  | Ty n k v _ _ _ _ _ =>
    match builtin_category n with
    | Some CatMap =>
      match k, v with Some a, Some b => ty_ok p fn a && ty_ok p fn b | _, _ => false end
    | Some CatList | Some CatSet =>
      match k, v with None, Some b => ty_ok p fn b | _, _ => false end
    | Some _ => match k, v with None, None => true | _, _ => false end
    | None => match k, v with None, None => denotes_b p fn n | _, _ => false end
    end
  end.

Definition base_ok (p : program) (fn : bytes) (f : file) (sv : service) : bool :=
  match split_type (sv_extends sv) with
  | [a] => match def_of p fn a with Some DkService => true | _ => false end
  | [pre; m] => match spec_include p is_service_kind pre m (file_incs f) 0 with Some _ => true | None => false end
  | _ => true
  end.

(* the type of a void function is the leaf the parser builds *)
Definition void_ok (fu : function) : bool :=
  if fn_void fu then
    match ty_key (fn_type fu), ty_value (fn_type fu) with
    | None, None => negb (is_typedef_cat (ty_category (fn_type fu)))
    | _, _ => false
    end
  else true.

Fixpoint nodupb (l : list bytes) : bool :=
  match l with
  | [] => true
  | x :: r => negb (existsb (beqb x) r) && nodupb r
  end.

(* every identifier of the value is "true" / "false" or accepted by [ok] *)
Fixpoint cv_idents_ok (ok : bytes -> bool) (c : const_value) : bool :=
  match c with
  | CIdent s _ => ident_is_bool s || ok s
  | CList l => forallb (cv_idents_ok ok) l
  | CMap l => forallb (fun kv => cv_idents_ok ok (fst kv) && cv_idents_ok ok (snd kv)) l
  | _ => true
  end.

Definition file_ok (idok : bytes -> bytes -> bool) (p : program) (fn : bytes) (f : file) : bool :=
  nodupb (map fst (file_defs f)) &&
  forallb (ty_ok p fn) (file_top_occs f) &&
  forallb (base_ok p fn f) (f_services f) &&
  forallb (fun sv => forallb void_ok (sv_functions sv)) (f_services f) &&
  forallb (cv_idents_ok (idok fn)) (file_top_const_values f).

Fixpoint includes_ok (fuel : nat) (p : program) (fn : bytes) : bool :=
  match fuel with
  | O => false
  | S k =>
    match prog_file p fn with
    | None => false
    | Some f =>
      forallb (fun i => match in_ref i with Some g => includes_ok k p g | None => false end) (f_includes f)
    end
  end.

Definition resolvable_with (idok : bytes -> bytes -> bool) (p : program) : bool :=
  match p with
  | [] => true
  | (mainfn, _) :: _ =>
    includes_ok (S (List.length p)) p mainfn && forallb (fun e => file_ok idok p (fst e) (snd e)) p
  end.

(* the type / service part alone: no identifier is used as a value except true / false *)
Definition resolvable_types (p : program) : bool := resolvable_with (fun _ _ => false) p.
