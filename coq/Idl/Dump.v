(* Idl/Dump.v — model of the IDL dumper (property C17):
   /repo/tool/trimmer/dump/dump.go, function DumpIDL (the function the trimmer calls for
   every file it writes; DumpIDL_V1 with the html/template texts of idl_template.go /
   field_template.go is deprecated and only reachable through UseOldDumpFunction).

   The model mirrors the REPAIRED code (proposed_fixes/C17-1..3):
     - printField writes struct fields, arguments and throws entries alike: id,
       requiredness, type, name, default, annotations; the throws separator is chosen by
       the throws list;
     - literals are written by quoteLiteral / quoteWith ([lit_token]); the former global
       rewriting passes (quote placeholders, html.UnescapeString) no longer exist;
     - doubles are written by strconv.FormatFloat(v, 'g', -1, 64).  That function enters
       as the Section variable [fmt] (bits -> text); theorems constrain it through the
       decidable predicate [fmt_ok], which the correspondence check evaluates on every
       double the implementation printed.

   The dumper is modelled as a list of PIECES (tokens of Idl/Lex.v, runs of white space,
   recorded comments); [dump] is the concatenation of the piece texts, byte for byte what
   DumpIDL returns.  The same pieces give the token list the parser model sees, which is
   what the round-trip proofs in Idl/DumpLexFacts.v and Idl/DumpParseFacts.v work on.

   [dump_view] says which AST the written text denotes (what a correct parser reads
   back); [c17_norm] forgets what property C17 does not constrain.

   Definitions only; the facts are in Idl/DumpFacts.v and the other Idl/Dump*Facts.v. *)
From Coq Require Import List Bool NArith ZArith.
From Coq.Strings Require Import Byte String.
From Verif Require Import Base.Bytes Idl.Ast Idl.Lex Idl.Parse.
Import ListNotations.

(* ---------------------------------------------------------------- pieces *)

Inductive piece :=
| PT (t : token)          (* a token, written as [token_bytes t] *)
| PN (text : bytes)       (* the text of a double as strconv wrote it *)
| PW (ws : bytes)         (* white space written by the dumper: blanks, tabs, line feeds *)
| PC (c : bytes).         (* a recorded comment, written as it is *)

Definition piece_text (p : piece) : bytes :=
  match p with PT t => token_bytes t | PN text => text | PW ws => ws | PC c => c end.
Definition pieces_text (ps : list piece) : bytes := List.concat (map piece_text ps).

Definition sp : piece := PW [x20].
Definition nl : piece := PW [x0a].
Definition indent4 : piece := PW [x20; x20; x20; x20].
Definition word (w : bytes) : piece := PT (TWord w).
Definition punct (c : byte) : piece := PT (TPunct c).
Definition comma_sp : list piece := [punct p_comma; sp].

(* ---------------------------------------------------------------- literals: quoteLiteral *)

(* quoteWith(s, q), the text between the quotes: a backslash in front of every q that
   follows an even number of backslashes; [ok] is false when a q follows an odd number.
   [even]: the number of backslashes directly in front of the current position is even. *)
Fixpoint quote_body (q : byte) (even : bool) (s : bytes) : bytes * bool :=
  match s with
  | [] => ([], true)
  | c :: r =>
    let (out, ok) := quote_body q (if Byte.eqb c c_bs then negb even else true) r in
    if Byte.eqb c q then
      if even then (c_bs :: c :: out, ok) else (c :: out, false)
    else (c :: out, ok)
  end.

(* quoteLiteral: double quotes unless a double quote follows an odd run of backslashes *)
Definition lit_token (s : bytes) : token :=
  let (b, ok) := quote_body c_dq true s in
  if ok then TLit c_dq b else TLit c_sq (fst (quote_body c_sq true s)).
Definition lit (s : bytes) : piece := PT (lit_token s).

(* what the parser reads back from that token (pegText) *)
Definition view_lit (s : bytes) : bytes :=
  match lit_token s with TLit q raw => unescape q raw | _ => s end.

(* ---------------------------------------------------------------- numbers *)

(* fmt.Sprintf("%d", z) *)
Definition print_Z (z : Z) : bytes :=
  match z with
  | Z0 => [x30]
  | Zpos p => digitsN (Npos p)
  | Zneg p => c_minus :: digitsN (Npos p)
  end.
Definition int_piece (z : Z) : piece := PT (TInt (print_Z z)).

(* the token a number text is read as *)
Definition num_token (text : bytes) : token :=
  match lex_number text with Some (t, _) => t | None => TInt text end.

(* the tokens among the pieces *)
Definition piece_toks (ps : list piece) : list token :=
  flat_map (fun p => match p with PT t => [t] | PN text => [num_token text] | _ => [] end) ps.
(* the constant it denotes *)
Definition num_view (text : bytes) : const_value :=
  match num_token text with
  | TDouble s => CDouble (double_value s)
  | TInt s => match int_value s with Some z => CInt z | None => CInt 0 end
  | _ => CInt 0
  end.

(* the integer a binary64 bit pattern denotes, when it is integral and finite *)
Definition double_to_Z (bits : N) : option Z :=
  let b := Z.of_N bits in
  let neg := (2 ^ 63 <=? b)%Z in
  let e := ((b / 2 ^ 52) mod 2048)%Z in
  let m := (b mod 2 ^ 52)%Z in
  if (e =? 2047)%Z then None
  else
    let '(mant, ex) := if (e =? 0)%Z then (m, -1074)%Z else (m + 2 ^ 52, e - 1075)%Z in
    let v :=
      if (0 <=? ex)%Z then Some (mant * 2 ^ ex)%Z
      else if (mant mod 2 ^ (- ex) =? 0)%Z then Some (mant / 2 ^ (- ex))%Z else None in
    match v with Some x => Some (if neg then (- x)%Z else x) | None => None end.

Definition in_i64 (z : Z) : bool := ((-9223372036854775808 <=? z) && (z <=? 9223372036854775807))%Z.
Definition in_i32 (z : Z) : bool := ((-2147483648 <=? z) && (z <=? 2147483647))%Z.

(* ---------------------------------------------------------------- the dumper *)

Section Dump.
  (* strconv.FormatFloat(math.Float64frombits(bits), 'g', -1, 64) *)
  Variable fmt : N -> bytes.

  (* printAnnotation: one  key = "value"  pair per value; a separator after every pair but
     the last value of the last annotation *)
  Fixpoint anno_values_pieces (k : bytes) (vs : list bytes) (last_anno : bool) : list piece :=
    match vs with
    | [] => []
    | v :: r =>
      [word k; sp; punct p_eq; sp; lit v] ++
      (if last_anno && match r with [] => true | _ => false end then [] else comma_sp) ++
      anno_values_pieces k r last_anno
    end.
  Fixpoint anno_list_pieces (a : annotations) : list piece :=
    match a with
    | [] => []
    | an :: r =>
      anno_values_pieces (an_key an) (an_values an) (match r with [] => true | _ => false end) ++
      anno_list_pieces r
    end.
  Definition annos_pieces (a : annotations) : list piece :=
    match a with
    | [] => []
    | _ => [punct p_lpar] ++ anno_list_pieces a ++ [punct p_rpar]
    end.

  (* typeName *)
  Fixpoint type_pieces (t : ty) : list piece :=
    match t with
    | Ty n k v _ an _ _ _ =>
      (match k, v with
       | Some kt, Some vt =>
         [word n; punct p_lpoint] ++ type_pieces kt ++ [punct p_comma] ++ type_pieces vt ++ [punct p_rpoint]
       | None, Some vt => [word n; punct p_lpoint] ++ type_pieces vt ++ [punct p_rpoint]
       | _, _ => [word n]
       end) ++ annos_pieces an
    end.

  (* printConstTypedValue *)
  Fixpoint cv_pieces (c : const_value) : list piece :=
    match c with
    | CDouble d => [PN (fmt d)]
    | CInt z => [int_piece z]
    | CLiteral s => [lit s]
    | CIdent s _ => [word s]
    | CList l =>
      [punct p_lbrk] ++
      (fix go (l : list const_value) : list piece :=
         match l with
         | [] => []
         | v :: r => cv_pieces v ++ (match r with [] => [] | _ => comma_sp end) ++ go r
         end) l ++
      [punct p_rbrk]
    | CMap l =>
      [punct p_lwing] ++
      (fix go (l : list (const_value * const_value)) : list piece :=
         match l with
         | [] => []
         | (k, v) :: r =>
           [PW [x0a; x09]] ++ cv_pieces k ++ [punct p_colon; sp] ++ cv_pieces v ++
           (match r with [] => [] | _ => comma_sp end) ++ go r
         end) l ++
      [nl; punct p_rwing]
    end.

  (* strings.TrimSpace(comment) is empty (ASCII white space; the parser's comments start
     with a slash) *)
  Definition go_space (c : byte) : bool :=
    Byte.eqb c x20 || Byte.eqb c x09 || Byte.eqb c x0a || Byte.eqb c x0b || Byte.eqb c x0c || Byte.eqb c x0d.
  (* printComment *)
  Definition comment_pieces (prefix : list piece) (c : bytes) : list piece :=
    if forallb go_space c then [] else prefix ++ [PC c; nl].

  Definition req_pieces (r : requiredness) : list piece :=
    match r with
    | ReqOptional => [word kw_optional; sp]
    | ReqRequired => [word kw_required; sp]
    | ReqDefault => []
    end.

  (* printField *)
  Definition field_pieces (f : field) : list piece :=
    [int_piece (fd_id f); punct p_colon; sp] ++ req_pieces (fd_req f) ++ type_pieces (fd_type f) ++
    [sp; word (fd_name f)] ++
    (match fd_default f with Some v => [sp; punct p_eq; sp] ++ cv_pieces v | None => [] end) ++
    annos_pieces (fd_annos f).

  (* printStruct; [kw] is the keyword of the list the definition is taken from *)
  Definition struct_pieces (kw : bytes) (s : struct_like) : list piece :=
    comment_pieces [] (sl_comments s) ++
    [word kw; sp; word (sl_name s); sp; punct p_lwing; nl] ++
    flat_map (fun f => comment_pieces [indent4] (fd_comments f) ++ [indent4] ++ field_pieces f ++ [nl])
             (sl_fields s) ++
    [punct p_rwing; sp] ++ annos_pieces (sl_annos s) ++ [nl; nl].

  Fixpoint sep_fields (l : list field) : list piece :=
    match l with
    | [] => []
    | f :: r => field_pieces f ++ (match r with [] => [] | _ => comma_sp end) ++ sep_fields r
    end.

  Definition function_pieces (f : function) : list piece :=
    comment_pieces [indent4] (fn_comments f) ++ [indent4] ++
    (if fn_oneway f then [word kw_oneway; sp] else []) ++
    type_pieces (fn_type f) ++ [sp; word (fn_name f); punct p_lpar] ++ sep_fields (fn_args f) ++ [punct p_rpar] ++
    (match fn_throws f with
     | [] => []
     | _ => [word kw_throws; sp; punct p_lpar] ++ sep_fields (fn_throws f) ++ [punct p_rpar]
     end) ++
    annos_pieces (fn_annos f) ++ [nl].

  Definition service_pieces (s : service) : list piece :=
    comment_pieces [] (sv_comments s) ++
    [word kw_service; sp; word (sv_name s); sp] ++
    (match sv_extends s with [] => [] | e => [word kw_extends; sp; word e; sp] end) ++
    [punct p_lwing; nl] ++ flat_map function_pieces (sv_functions s) ++
    [punct p_rwing; sp] ++ annos_pieces (sv_annos s) ++ [nl; nl].

  Fixpoint enum_values_pieces (l : list enum_value) : list piece :=
    match l with
    | [] => []
    | v :: r =>
      comment_pieces [indent4] (ev_comments v) ++
      [indent4; word (ev_name v); sp; punct p_eq; sp; int_piece (ev_value v); sp] ++ annos_pieces (ev_annos v) ++
      [nl] ++ (match r with [] => [] | _ => [nl] end) ++ enum_values_pieces r
    end.

  Definition enum_pieces (e : enum) : list piece :=
    comment_pieces [] (en_comments e) ++
    [word kw_enum; sp; word (en_name e); sp; punct p_lwing; nl] ++ enum_values_pieces (en_values e) ++
    [punct p_rwing; sp] ++ annos_pieces (en_annos e) ++ [nl; nl].

  Definition typedef_pieces (t : typedef) : list piece :=
    comment_pieces [] (td_comments t) ++
    [word kw_typedef; sp] ++ type_pieces (td_type t) ++ [sp; word (td_alias t); sp] ++
    annos_pieces (td_annos t) ++ [nl].

  Definition constant_pieces (c : constant) : list piece :=
    comment_pieces [] (co_comments c) ++
    [word kw_const; sp] ++ type_pieces (co_type c) ++ [sp; word (co_name c); sp; punct p_eq; sp] ++
    cv_pieces (co_value c) ++ annos_pieces (co_annos c) ++ [nl].

  (* namespace scope: an identifier or the star *)
  Definition scope_piece (l : bytes) : piece :=
    if beqb l [p_star] then punct p_star else word l.

  Definition namespace_pieces (n : namespace) : list piece :=
    [word kw_namespace; sp; scope_piece (ns_language n); sp; word (ns_name n)] ++ annos_pieces (ns_annos n) ++ [nl].

  (* a section of the file: its items, then one empty line when there are any *)
  Definition section {A} (f : A -> list piece) (l : list A) : list piece :=
    flat_map f l ++ (match l with [] => [] | _ => [nl] end).

  (* DumpIDL *)
  Definition dump_pieces (a : file) : list piece :=
    section (fun i => [word kw_include; sp; lit (in_path i); nl]) (f_includes a) ++
    section namespace_pieces (f_namespaces a) ++
    section (fun p => [word kw_cpp_include; sp; lit p; nl]) (f_cpp_includes a) ++
    section typedef_pieces (f_typedefs a) ++
    section constant_pieces (f_constants a) ++
    section enum_pieces (f_enums a) ++
    section (struct_pieces kw_struct) (f_structs a) ++
    section (struct_pieces kw_union) (f_unions a) ++
    section (struct_pieces kw_exception) (f_exceptions a) ++
    flat_map service_pieces (f_services a).

  Definition dump (a : file) : bytes := pieces_text (dump_pieces a).

  (* ---------------------------------------------------------------- the view *)

  (* one (key, value) pair per printed value, regrouped by the parser *)
  Definition anno_pairs (a : annotations) : list (bytes * bytes) :=
    flat_map (fun an => map (fun v => (an_key an, view_lit v)) (an_values an)) a.
  Definition view_annos (a : annotations) : annotations := annos_of_pairs (anno_pairs a).

  Fixpoint view_ty (t : ty) : ty :=
    match t with
    | Ty n k v _ an _ _ _ =>
      match k, v with
      | Some kt, Some vt => ty_plain n (Some (view_ty kt)) (Some (view_ty vt)) [] (view_annos an)
      | None, Some vt => ty_plain n None (Some (view_ty vt)) [] (view_annos an)
      | _, _ => ty_plain n None None [] (view_annos an)
      end
    end.

  Fixpoint view_cv (c : const_value) : const_value :=
    match c with
    | CDouble d => num_view (fmt d)
    | CInt z => CInt z
    | CLiteral s => CLiteral (view_lit s)
    | CIdent s _ => CIdent s None
    | CList l => CList (map view_cv l)
    | CMap l => CMap (map (fun kv => (view_cv (fst kv), view_cv (snd kv))) l)
    end.

  Definition view_field (f : field) : field :=
    Field (fd_id f) (fd_name f) (fd_req f) (view_ty (fd_type f)) (option_map view_cv (fd_default f))
          (view_annos (fd_annos f)) [].
  (* ids are always written; the parser takes the sentinel NOTSET as "not written" *)
  Definition view_fields (l : list field) : list field := assign_ids None (map view_field l).

  Definition view_struct (k : sl_kind) (s : struct_like) : struct_like :=
    StructLike k (sl_name s) (view_fields (sl_fields s)) (view_annos (sl_annos s)) [].

  Definition is_void_type (t : ty) : bool :=
    match t with Ty n None None _ [] _ _ _ => beqb n kw_void | _ => false end.

  Definition view_function (f : function) : function :=
    let void := is_void_type (fn_type f) in
    Function (fn_name f) (fn_oneway f) void (if void then ty_named kw_void else view_ty (fn_type f))
             (view_fields (fn_args f))
             (assign_ids None (map (fun x => set_req (view_field x) ReqOptional) (fn_throws f)))
             (view_annos (fn_annos f)) [].

  Definition view_service (s : service) : service :=
    Service (sv_name s) (sv_extends s) (map view_function (sv_functions s)) (view_annos (sv_annos s)) None [].

  Definition view_enum (e : enum) : enum :=
    Enum (en_name e) (map (fun v => EnumValue (ev_name v) (ev_value v) (view_annos (ev_annos v)) []) (en_values e))
         (view_annos (en_annos e)) [].

  Definition view_typedef (t : typedef) : typedef :=
    Typedef (view_ty (td_type t)) (td_alias t) (view_annos (td_annos t)) [].
  Definition view_constant (c : constant) : constant :=
    Constant (co_name c) (view_ty (co_type c)) (view_cv (co_value c)) (view_annos (co_annos c)) [].
  Definition view_namespace (n : namespace) : namespace :=
    Namespace (ns_language n) (ns_name n) (view_annos (ns_annos n)).

  Definition dump_view (a : file) : file :=
    File (f_filename a)
         (add_includes [] (map (fun i => HInclude (view_lit (in_path i))) (f_includes a)))
         (map view_lit (f_cpp_includes a))
         (map view_namespace (f_namespaces a))
         (map view_typedef (f_typedefs a))
         (map view_constant (f_constants a))
         (map view_enum (f_enums a))
         (map (view_struct SKStruct) (f_structs a))
         (map (view_struct SKUnion) (f_unions a))
         (map (view_struct SKException) (f_exceptions a))
         (map view_service (f_services a))
         None.
End Dump.

(* ---------------------------------------------------------------- what C17 compares *)

(* Property C17 lists: definitions, names, type expressions, field ids, requiredness,
   defaults and constant values, enum values, annotation key/value lists, includes,
   namespaces.  It does not constrain: recorded comments, the cpp_type of a container,
   what the semantic pass writes (resolution info), which parsed file an include refers
   to; a double may come back as the integer constant of equal value. *)

Definition norm_double (d : N) : const_value :=
  match double_to_Z d with
  | Some z => if in_i64 z then CInt z else CDouble d
  | None => CDouble d
  end.

Fixpoint norm_cv (c : const_value) : const_value :=
  match c with
  | CDouble d => norm_double d
  | CIdent s _ => CIdent s None
  | CList l => CList (map norm_cv l)
  | CMap l => CMap (map (fun kv => (norm_cv (fst kv), norm_cv (snd kv))) l)
  | other => other
  end.

Fixpoint norm_ty (t : ty) : ty :=
  match t with
  | Ty n k v _ an _ _ _ =>
    Ty n (match k with Some x => Some (norm_ty x) | None => None end)
         (match v with Some x => Some (norm_ty x) | None => None end) [] an CatConstant None None
  end.

Definition c17_norm (a : file) : file :=
  let b := map_file norm_ty norm_cv (fun _ => []) true a in
  File (f_filename b) (map (fun i => Include (in_path i) None None) (f_includes b)) (f_cpp_includes b)
       (f_namespaces b) (f_typedefs b) (f_constants b) (f_enums b) (f_structs b) (f_unions b)
       (f_exceptions b) (f_services b) None.

(* equality of what C17 constrains *)
Definition c17_eqb (a b : file) : bool := file_eqb (c17_norm a) (c17_norm b).

(* a double and its printed text denote the same constant up to that identification *)
Definition fmt_ok (fmt : N -> bytes) (d : N) : bool :=
  const_value_eqb (norm_cv (num_view (fmt d))) (norm_double d).
