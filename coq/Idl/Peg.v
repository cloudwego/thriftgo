(* Idl/Peg.v — parsing expression grammars: syntax, Ford's well-formedness check, and a
   fuelled interpreter (property C03, totality of the grammar).

   /repo/parser/thrift.peg is translated into a [grammar] by harness/cmd/translate-peg on
   every run of the check (Idl/PegGrammar.v).  [wf_peg] is the syntactic condition under
   which a PEG terminates on every input (B. Ford, "Parsing Expression Grammars", POPL
   2004, section 3.6): no nonterminal is reachable from itself in left position without
   consuming input (no left recursion), and no repetition e* / e+ has a body that can
   succeed without consuming input.  The interpreter [run] is total because of its fuel;
   that a well-formed grammar never exhausts suitable fuel is Ford's theorem and is NOT
   proved in this development (it is listed as an undischarged obligation).
   Definitions only. *)
From Coq Require Import List Bool NArith Arith.
From Coq.Strings Require Import Byte.
From Verif Require Import Base.Bytes.
Import ListNotations.

Inductive pexp :=
| PEps                         (* the empty string *)
| PAny                         (* .  any one byte / rune *)
| PChar (c : byte)
| PRange (lo hi : byte)        (* [lo-hi] *)
| PLit (s : bytes)             (* 'text' *)
| PNT (n : nat)                (* the n-th rule of the grammar *)
| PSeq (a b : pexp)
| PAlt (a b : pexp)            (* ordered choice *)
| PStar (e : pexp)
| PPlus (e : pexp)
| POpt (e : pexp)
| PNot (e : pexp)              (* !e *)
| PAnd (e : pexp)              (* &e *)
| PCap (e : pexp).             (* <e>  text capture, no effect on matching *)

Definition grammar := list (bytes * pexp).

Definition rule_body (g : grammar) (n : nat) : pexp :=
  match nth_error g n with Some (_, e) => e | None => PNot PEps end.   (* unknown rule: fails *)

(* ---------------------------------------------------------------- abstract behaviour *)

(* what an expression may do: succeed consuming nothing, succeed consuming something, fail *)
Record behav := Behav { b0 : bool; b1 : bool; bf : bool }.
Definition behav_none := Behav false false false.
Definition behav_or (x y : behav) := Behav (b0 x || b0 y) (b1 x || b1 y) (bf x || bf y).
Definition behav_eqb (x y : behav) :=
  Bool.eqb (b0 x) (b0 y) && Bool.eqb (b1 x) (b1 y) && Bool.eqb (bf x) (bf y).

(* one step of Ford's inductive definition, given the current knowledge about the rules *)
Fixpoint behav_of (tbl : list behav) (e : pexp) : behav :=
  match e with
  | PEps => Behav true false false
  | PAny | PChar _ | PRange _ _ => Behav false true true
  | PLit s => match s with [] => Behav true false false | _ => Behav false true true end
  | PNT n => nth n tbl behav_none
  | PSeq a b =>
    let x := behav_of tbl a in let y := behav_of tbl b in
    Behav (b0 x && b0 y)
          ((b1 x && (b0 y || b1 y)) || (b0 x && b1 y))
          (bf x || ((b0 x || b1 x) && bf y))
  | PAlt a b =>
    let x := behav_of tbl a in let y := behav_of tbl b in
    Behav (b0 x || (bf x && b0 y)) (b1 x || (bf x && b1 y)) (bf x && bf y)
  | PStar a =>
    let x := behav_of tbl a in
    Behav (bf x) (b1 x && bf x) false
  | PPlus a =>
    let x := behav_of tbl a in
    Behav (b0 x) (b1 x) (bf x)
  | POpt a =>
    let x := behav_of tbl a in
    Behav (b0 x || bf x) (b1 x) false
  | PNot a =>
    let x := behav_of tbl a in
    Behav (bf x) false (b0 x || b1 x)
  | PAnd a =>
    let x := behav_of tbl a in
    Behav (b0 x || b1 x) false (bf x)
  | PCap a => behav_of tbl a
  end.

Definition behav_step (g : grammar) (tbl : list behav) : list behav :=
  map (fun r => behav_of tbl (snd r)) g.

(* least fixpoint: 3 bits per rule can only be switched on, so 3 * #rules + 1 rounds suffice *)
Fixpoint iterate {A} (n : nat) (f : A -> A) (x : A) : A :=
  match n with O => x | S k => iterate k f (f x) end.

Definition behav_table (g : grammar) : list behav :=
  iterate (3 * List.length g + 1) (behav_step g) (map (fun _ => behav_none) g).

(* the table is a fixpoint (checked, not assumed) *)
Definition behav_table_stable (g : grammar) : bool :=
  let t := behav_table g in
  (fix eqs (a b : list behav) : bool :=
     match a, b with
     | [], [] => true
     | x :: a', y :: b' => behav_eqb x y && eqs a' b'
     | _, _ => false
     end) t (behav_step g t).

(* ---------------------------------------------------------------- well-formedness *)

(* WF(e) given the set of rules already known to be well formed *)
Fixpoint wf_exp (tbl : list behav) (wfset : list bool) (e : pexp) : bool :=
  match e with
  | PEps | PAny | PChar _ | PRange _ _ | PLit _ => true
  | PNT n => nth n wfset false
  | PSeq a b => wf_exp tbl wfset a && (if b0 (behav_of tbl a) then wf_exp tbl wfset b else true)
  | PAlt a b => wf_exp tbl wfset a && wf_exp tbl wfset b
  | PStar a | PPlus a => wf_exp tbl wfset a && negb (b0 (behav_of tbl a))
  | POpt a | PNot a | PAnd a | PCap a => wf_exp tbl wfset a
  end.

(* sub-expressions that are not in left position must be well formed too once reached;
   the last conjunct of [wf_peg] checks every sub-expression of every rule against the final set *)
Fixpoint wf_deep (tbl : list behav) (wfset : list bool) (e : pexp) : bool :=
  match e with
  | PEps | PAny | PChar _ | PRange _ _ | PLit _ => true
  | PNT n => nth n wfset false
  | PSeq a b | PAlt a b => wf_deep tbl wfset a && wf_deep tbl wfset b
  | PStar a | PPlus a => wf_deep tbl wfset a && negb (b0 (behav_of tbl a))
  | POpt a | PNot a | PAnd a | PCap a => wf_deep tbl wfset a
  end.

Definition wf_step (g : grammar) (tbl : list behav) (wfset : list bool) : list bool :=
  map (fun r => wf_exp tbl wfset (snd r)) g.

Definition wf_set (g : grammar) : list bool :=
  iterate (List.length g + 1) (wf_step g (behav_table g)) (map (fun _ => false) g).

(* every nonterminal that is used exists *)
Fixpoint refs_ok (n : nat) (e : pexp) : bool :=
  match e with
  | PNT k => k <? n
  | PSeq a b | PAlt a b => refs_ok n a && refs_ok n b
  | PStar a | PPlus a | POpt a | PNot a | PAnd a | PCap a => refs_ok n a
  | _ => true
  end.

Definition wf_peg (g : grammar) : bool :=
  forallb (fun r => refs_ok (List.length g) (snd r)) g &&
  behav_table_stable g &&
  forallb (fun b => b) (wf_set g) &&
  forallb (fun r => wf_deep (behav_table g) (wf_set g) (snd r)) g.

(* ---------------------------------------------------------------- interpreter *)

Inductive res :=
| ROk (rest : bytes)
| RFail
| RFuel.

Fixpoint run (fuel : nat) (g : grammar) (e : pexp) (s : bytes) : res :=
  match fuel with
  | O => RFuel
  | S f =>
    match e with
    | PEps => ROk s
    | PAny => match s with _ :: r => ROk r | [] => RFail end
    | PChar c => match s with d :: r => if Byte.eqb c d then ROk r else RFail | [] => RFail end
    | PRange lo hi =>
      match s with
      | d :: r => if (N.leb (Byte.to_N lo) (Byte.to_N d) && N.leb (Byte.to_N d) (Byte.to_N hi))%bool then ROk r else RFail
      | [] => RFail
      end
    | PLit t => if is_prefix t s then ROk (skipn (List.length t) s) else RFail
    | PNT n => run f g (rule_body g n) s
    | PSeq a b => match run f g a s with ROk r => run f g b r | x => x end
    | PAlt a b => match run f g a s with RFail => run f g b s | x => x end
    | PStar a => match run f g a s with
                 | ROk r => run f g (PStar a) r
                 | RFail => ROk s
                 | RFuel => RFuel
                 end
    | PPlus a => match run f g a s with ROk r => run f g (PStar a) r | x => x end
    | POpt a => match run f g a s with RFail => ROk s | x => x end
    | PNot a => match run f g a s with ROk _ => RFail | RFail => ROk s | RFuel => RFuel end
    | PAnd a => match run f g a s with ROk _ => ROk s | x => x end
    | PCap a => run f g a s
    end
  end.

(* the whole input is a sentence of the grammar's first rule *)
Definition accepts (fuel : nat) (g : grammar) (s : bytes) : option bool :=
  match run fuel g (PNT 0) s with
  | ROk _ => Some true
  | RFail => Some false
  | RFuel => None
  end.
