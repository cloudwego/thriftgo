(* Idl/CheckFacts.v — the checker model Idl/Check.v against the declarative predicates
   of Idl/Rules.v (property C04).  Every loop of the checker that carries a set of what
   it has seen decides [nodup_from]; from that, [check_file f = COk] holds exactly when
   the file has none of the defects CheckAll looks for.  The depth-first walk [dfs]
   delivers exactly the files reachable through include statements, so
   [check_program p = COk] speaks about every reachable file. *)
From Coq Require Import List Bool Arith Lia NArith ZArith.
From Coq.Strings Require Import Byte.
From Verif Require Import Base.Bytes Idl.Ast Idl.AstUtil Idl.AstFacts Idl.Check Idl.Rules.
Import ListNotations.
Local Open Scope check_scope.

Definition is_ok (c : cres) : bool := match c with COk => true | CErr _ => false end.

Lemma is_ok_true c : is_ok c = true <-> c = COk.
Proof. destruct c; cbn [is_ok]; split; congruence. Qed.

Lemma is_ok_seq a b : is_ok (a ;;; b) = is_ok a && is_ok b.
Proof. destruct a; reflexivity. Qed.

(* [g] is given pointwise so that a specification of [chk] can be used under the loop *)
Lemma is_ok_call_all {A} (chk : A -> cres) g l :
  (forall x, is_ok (chk x) = g x) -> is_ok (call_all chk l) = forallb g l.
Proof.
  intros H. induction l as [|x l IH]; [reflexivity|]. cbn [call_all forallb]. rewrite is_ok_seq, H, IH. reflexivity.
Qed.

Lemma cseq_ok a b : a ;;; b = COk <-> a = COk /\ b = COk.
Proof. rewrite <- !is_ok_true, is_ok_seq. apply andb_true_iff. Qed.

Lemma call_all_ok {A} (chk : A -> cres) l : call_all chk l = COk <-> forall x, In x l -> chk x = COk.
Proof.
  rewrite <- is_ok_true, (is_ok_call_all chk _ l (fun x => eq_refl)), forallb_forall.
  split; intros H x Hx; apply is_ok_true, H, Hx.
Qed.

Lemma memb_true x l : memb x l = true <-> In x l.
Proof.
  unfold memb. rewrite existsb_exists. split.
  - intros (y & Hin & E). apply beqb_true in E. subst. exact Hin.
  - intros Hin. exists x. split; [exact Hin | apply beqb_refl].
Qed.

(* Idl/Check.v and Idl/Rules.v each define the membership test and the int32 range test
   (the include targets: [inc_targets_refs] below); the definitions are convertible, and
   the proofs name the step where they pass from one to the other. *)
Lemma mem_bytes_memb x l : mem_bytes x l = memb x l.
Proof. reflexivity. Qed.

Lemma fits_int32_in z : fits_int32 z = in_int32 z.
Proof. reflexivity. Qed.

Lemma existsb_false {A} (g : A -> bool) l : existsb g l = false <-> forall y, In y l -> g y = false.
Proof.
  rewrite <- not_true_iff_false, existsb_exists. split.
  - intros H y Hy. apply not_true_iff_false. intros E. apply H. eauto.
  - intros H (y & Hy & E). rewrite (H y Hy) in E. discriminate.
Qed.

(* What every scan of the checker with a set of the names (ids, values) seen so far
   decides: no two elements of [l] are equal, and none is in [seen]. *)
Section Scan.
  Context {K : Type} (eqb : K -> K -> bool) (eqb_sym : forall a b, eqb a b = eqb b a).

  Definition nodup_from (seen l : list K) : bool :=
    negb (dupb eqb l) && forallb (fun y => negb (existsb (eqb y) seen)) l.

  Lemma nodup_from_cons seen x r :
    nodup_from seen (x :: r) = negb (existsb (eqb x) seen) && nodup_from (x :: seen) r.
  Proof.
    unfold nodup_from. cbn [dupb forallb existsb].
    assert (E : forallb (fun y => negb (eqb y x || existsb (eqb y) seen)) r =
                negb (existsb (eqb x) r) && forallb (fun y => negb (existsb (eqb y) seen)) r).
    { induction r as [|y r IH]; [reflexivity|]. cbn [forallb existsb]. rewrite IH, (eqb_sym y x).
      destruct (eqb x y), (existsb (eqb y) seen), (existsb (eqb x) r); reflexivity. }
    rewrite E. destruct (existsb (eqb x) r), (dupb eqb r), (existsb (eqb x) seen); reflexivity.
  Qed.

  Lemma nodup_from_nil l : nodup_from [] l = negb (dupb eqb l).
  Proof.
    unfold nodup_from. replace (forallb _ l) with true; [apply andb_true_r|].
    induction l as [|y l IH]; [reflexivity | exact IH].
  Qed.

  Lemma nodup_from_nil_true l : nodup_from [] l = true <-> dupb eqb l = false.
  Proof. rewrite nodup_from_nil. apply negb_true_iff. Qed.
End Scan.

Lemma first_dup_spec : forall l seen, first_dup seen l = negb (nodup_from beqb seen l).
Proof.
  induction l as [|x r IH]; intros seen; [reflexivity|]. cbn [first_dup].
  rewrite (nodup_from_cons beqb beqb_sym), IH. unfold memb. destruct (existsb (beqb x) seen); reflexivity.
Qed.

(* a global name that is an enum is not looked at by CheckGlobals: the predicate for
   what it does exclude *)
Definition dup_global_checked (f : file) : bool := dupb beqb (global_names f).

Lemma check_globals_ok f : check_globals f = COk <-> dup_global_checked f = false.
Proof.
  unfold check_globals, dup_global_checked. rewrite first_dup_spec, nodup_from_nil, negb_involutive.
  destruct (dupb beqb (global_names f)); split; congruence.
Qed.

Lemma dupb_NoDup l : dupb beqb l = false <-> NoDup l.
Proof.
  induction l as [|x l IH]; cbn [dupb]; [split; [constructor | reflexivity]|].
  rewrite orb_false_iff, IH, existsb_false. split.
  - intros (Hx & Hl). constructor; [|exact Hl]. intros Hin. specialize (Hx x Hin). rewrite beqb_refl in Hx. discriminate.
  - intros H. inversion H as [|? ? Hn Hl]; subst. split; [|exact Hl]. intros y Hy. apply beqb_false. intros ->. contradiction.
Qed.

Lemma dup_global_checked_le f : dup_global f = false -> dup_global_checked f = false.
Proof.
  unfold dup_global, dup_global_checked, global_names. rewrite !dupb_NoDup.
  replace (map fst (file_def_names f)) with
    ((map td_alias (f_typedefs f) ++ map co_name (f_constants f)) ++ map en_name (f_enums f) ++
     (map sl_name (struct_likes f) ++ map sv_name (f_services f)))
    by (unfold file_def_names; rewrite !map_app, !map_map, <- app_assoc; reflexivity).
  rewrite (app_assoc (map td_alias _)). generalize (map en_name (f_enums f)) as l.
  induction l as [|x l IH]; [auto|]. intros H. apply IH. exact (NoDup_remove_1 _ _ x H).
Qed.

Lemma zlookup_keys {A} z (m : list (Z * A)) :
  existsb (Z.eqb z) (map fst m) = match zlookup z m with Some _ => true | None => false end.
Proof.
  induction m as [|[k v] m IH]; [reflexivity|]. cbn [map fst existsb zlookup]. rewrite IH.
  destruct (Z.eqb z k); reflexivity.
Qed.

(* the invariant of CheckEnums: a value in the map was entered under a name in the set *)
Lemma check_enum_values_spec : forall vs exist v2n,
  (forall z n, zlookup z v2n = Some n -> memb n exist = true) ->
  is_ok (check_enum_values exist v2n vs) =
  nodup_from beqb exist (map ev_name vs) && nodup_from Z.eqb (map fst v2n) (map ev_value vs) &&
  forallb (fun v => in_int32 (ev_value v)) vs.
Proof.
  induction vs as [|v r IH]; intros exist v2n Inv; [reflexivity|]. cbn [check_enum_values map forallb].
  rewrite (nodup_from_cons beqb beqb_sym), (nodup_from_cons Z.eqb Z.eqb_sym), zlookup_keys.
  fold (memb (ev_name v) exist). destruct (memb (ev_name v) exist) eqn:Mn.
  { destruct (zlookup (ev_value v) v2n) as [n|]; [destruct (beqb n (ev_name v))|]; reflexivity. }
  destruct (zlookup (ev_value v) v2n) as [n|] eqn:Zl.
  { destruct (beqb n (ev_name v)) eqn:En; [|cbn [negb andb]; rewrite andb_false_r; reflexivity].
    apply beqb_true in En. subst n. rewrite (Inv _ _ Zl) in Mn. discriminate. }
  destruct (in_int32 (ev_value v)); cbn [negb andb]; [|rewrite andb_false_r; reflexivity].
  apply (IH (ev_name v :: exist) ((ev_value v, ev_name v) :: v2n)).
  intros z n Hz. cbn [zlookup] in Hz. unfold memb. cbn [existsb]. destruct (Z.eqb z (ev_value v)).
  - injection Hz as <-. rewrite beqb_refl. reflexivity.
  - rewrite (Inv _ _ Hz) at 1. apply orb_true_r.
Qed.

Lemma check_enum_ok vs : check_enum_values [] [] vs = COk <->
  dupb beqb (map ev_name vs) = false /\ dupb Z.eqb (map ev_value vs) = false /\
  forall w, In w vs -> fits_int32 (ev_value w) = true.
Proof.
  rewrite <- is_ok_true, check_enum_values_spec by (intros z n Hz; discriminate Hz).
  rewrite !andb_true_iff, !nodup_from_nil_true, forallb_forall, and_assoc.
  split; intros (Hn & Hv & Hr); (split; [exact Hn|]); (split; [exact Hv|]); intros w Hw.
  - rewrite fits_int32_in. exact (Hr w Hw).
  - rewrite <- fits_int32_in. exact (Hr w Hw).
Qed.

Lemma check_field_list_spec : forall fs ids names, is_ok (check_field_list ids names fs) =
  nodup_from Z.eqb ids (map fd_id fs) && nodup_from beqb names (map fd_name fs).
Proof.
  induction fs as [|x r IH]; intros ids names; [reflexivity|]. cbn [check_field_list map].
  rewrite (nodup_from_cons Z.eqb Z.eqb_sym), (nodup_from_cons beqb beqb_sym). unfold zmem, memb.
  destruct (existsb (Z.eqb (fd_id x)) ids); [reflexivity|].
  destruct (existsb (beqb (fd_name x)) names); cbn [negb andb is_ok]; [rewrite andb_false_r; reflexivity | apply IH].
Qed.

Lemma check_field_list_ok fs : check_field_list [] [] fs = COk <->
  dupb Z.eqb (map fd_id fs) = false /\ dupb beqb (map fd_name fs) = false.
Proof. rewrite <- is_ok_true, check_field_list_spec, andb_true_iff, !nodup_from_nil_true. reflexivity. Qed.

Lemma check_union_fields_spec : forall fs (hd : bool), is_ok (check_union_fields hd fs) =
  (List.length (filter has_default fs) + (if hd then 1 else 0) <=? 1).
Proof.
  induction fs as [|x r IH]; intros hd; cbn [check_union_fields filter]; [destruct hd; reflexivity|].
  unfold has_default at 1. destruct (fd_default x) as [d|]; [|apply IH].
  destruct hd; [symmetry; apply Nat.leb_gt; cbn [List.length]; lia|].
  rewrite IH. cbn [List.length]. f_equal. lia.
Qed.

Lemma check_union_ok fs : check_union_fields false fs = COk <-> (2 <=? List.length (filter has_default fs)) = false.
Proof. rewrite <- is_ok_true, check_union_fields_spec, Nat.leb_le, Nat.leb_gt. lia. Qed.

Definition function_clean (fn : function) : Prop :=
  (fn_oneway fn && negb (fn_void fn) = false) /\
  (fn_oneway fn && match fn_throws fn with [] => false | _ => true end = false) /\
  dupb Z.eqb (map fd_id (fn_args fn)) = false /\ dupb beqb (map fd_name (fn_args fn)) = false /\
  dupb beqb (map fd_name (fn_throws fn)) = false /\
  dupb Z.eqb ((if fn_void fn then [] else [0%Z]) ++ map fd_id (fn_throws fn)) = false.

Lemma check_function_ok fn : check_function fn = COk <-> function_clean fn.
Proof.
  unfold check_function, function_clean.
  replace (negb (is_nil (fn_throws fn))) with (match fn_throws fn with [] => false | _ => true end)
    by (destruct (fn_throws fn); reflexivity).
  destruct (fn_oneway fn && negb (fn_void fn)); [split; [discriminate | intros (E & _); discriminate E]|].
  destruct (fn_oneway fn && match fn_throws fn with [] => false | _ => true end);
    [split; [discriminate | intros (_ & E & _); discriminate E]|].
  rewrite !cseq_ok, !check_field_list_ok.
  assert (Hz : (if negb (fn_void fn) && existsb (fun a => Z.eqb (fd_id a) 0) (fn_throws fn) then CErr EThrowsIdZero else COk) = COk /\
               dupb Z.eqb (map fd_id (fn_throws fn)) = false <->
               dupb Z.eqb ((if fn_void fn then [] else [0%Z]) ++ map fd_id (fn_throws fn)) = false).
  { destruct (fn_void fn); cbn [negb andb app dupb]; [tauto|]. rewrite orb_false_iff.
    replace (existsb (Z.eqb 0) (map fd_id (fn_throws fn))) with (existsb (fun a => Z.eqb (fd_id a) 0) (fn_throws fn)).
    - destruct (existsb (fun a => Z.eqb (fd_id a) 0) (fn_throws fn)); split; intros (A & B); (discriminate || auto).
    - induction (fn_throws fn) as [|a l IH]; [reflexivity|]. cbn [map existsb]. rewrite IH, Z.eqb_sym. reflexivity. }
  tauto.
Qed.

Lemma check_functions_of_spec : forall fns d, is_ok (check_functions_of d fns) =
  nodup_from beqb d (map fn_name fns) && forallb (fun fn => is_ok (check_function fn)) fns.
Proof.
  induction fns as [|x r IH]; intros d; [reflexivity|]. cbn [check_functions_of map forallb].
  rewrite (nodup_from_cons beqb beqb_sym). unfold memb. destruct (existsb (beqb (fn_name x)) d); [reflexivity|].
  rewrite is_ok_seq, IH. cbn [negb andb].
  destruct (is_ok (check_function x)), (nodup_from beqb (fn_name x :: d) (map fn_name r)); reflexivity.
Qed.

Lemma check_service_ok fns : check_functions_of [] fns = COk <->
  dupb beqb (map fn_name fns) = false /\ forall fn, In fn fns -> function_clean fn.
Proof.
  rewrite <- is_ok_true, check_functions_of_spec, andb_true_iff, nodup_from_nil_true, forallb_forall.
  split; intros (H1 & H2); (split; [exact H1|]); intros fn Hfn.
  - apply check_function_ok, is_ok_true, H2, Hfn.
  - apply is_ok_true, check_function_ok, H2, Hfn.
Qed.

Lemma in_field_lists f l : In l (field_lists f) <->
  (exists s, sl_fields s = l /\ In s (struct_likes f)) \/
  exists sv fn, In sv (f_services f) /\ In fn (sv_functions sv) /\ In l [fn_args fn; fn_throws fn].
Proof.
  unfold field_lists. rewrite in_app_iff, in_map_iff, in_flat_map'. apply or_iff_compat_l. split.
  - intros (sv & Hsv & Hl). apply in_flat_map' in Hl. destruct Hl as (fn & Hfn & Hl). eauto.
  - intros (sv & fn & Hsv & Hfn & Hl). exists sv. split; [exact Hsv|]. apply in_flat_map'. eauto.
Qed.

Lemma in_id_lists f l : In l (id_lists f) <->
  (exists s, map fd_id (sl_fields s) = l /\ In s (struct_likes f)) \/
  exists sv fn, In sv (f_services f) /\ In fn (sv_functions sv) /\
    In l [map fd_id (fn_args fn); (if fn_void fn then [] else [0%Z]) ++ map fd_id (fn_throws fn)].
Proof.
  unfold id_lists. rewrite in_app_iff, in_map_iff, in_flat_map'. apply or_iff_compat_l. split.
  - intros (sv & Hsv & Hl). apply in_flat_map' in Hl. destruct Hl as (fn & Hfn & Hl). eauto.
  - intros (sv & fn & Hsv & Hfn & Hl). exists sv. split; [exact Hsv|]. apply in_flat_map'. eauto.
Qed.

(* the defects CheckAll looks for in a file; [dup_global_checked] is the part of
   DupGlobal it sees (no enum names) *)
Definition file_clean (f : file) : Prop :=
  dup_global_checked f = false /\ dup_enum_name f = false /\ dup_enum_number f = false /\
  enum_out_of_int32 f = false /\ dup_field_name f = false /\ dup_field_id f = false /\
  second_union_default f = false /\ dup_function f = false /\
  oneway_returns f = false /\ oneway_throws f = false.

Theorem check_file_ok f : check_file f = COk <-> file_clean f.
Proof.
  unfold check_file, check_enums, check_struct_likes, check_unions, check_functions, file_clean.
  rewrite !cseq_ok, !call_all_ok, check_globals_ok. cbv beta.
  unfold dup_enum_name, dup_enum_number, enum_out_of_int32, dup_field_name, dup_field_id, second_union_default,
    dup_function, oneway_returns, oneway_throws, some_function. rewrite !existsb_false.
  split.
  - intros (Hg & He & Hs & Hu & Hf).
    assert (F1 : forall sv, In sv (f_services f) -> dupb beqb (map fn_name (sv_functions sv)) = false)
      by (intros sv Hsv; exact (proj1 (proj1 (check_service_ok _) (Hf sv Hsv)))).
    assert (F2 : forall sv fn, In sv (f_services f) -> In fn (sv_functions sv) -> function_clean fn)
      by (intros sv fn Hsv; exact (proj2 (proj1 (check_service_ok _) (Hf sv Hsv)) fn)).
    pose proof (fun e Hin => proj1 (check_enum_ok (en_values e)) (He e Hin)) as He'.
    pose proof (fun s Hin => proj1 (check_field_list_ok (sl_fields s)) (Hs s Hin)) as Hs'.
    repeat split.
    + exact Hg.
    + intros e Hin. exact (proj1 (He' e Hin)).
    + intros e Hin. exact (proj1 (proj2 (He' e Hin))).
    + intros e Hin. apply existsb_false. intros w Hw. apply negb_false_iff. exact (proj2 (proj2 (He' e Hin)) w Hw).
    + intros l Hl. apply in_field_lists in Hl. destruct Hl as [(s & <- & Hin)|(sv & fn & Hsv & Hfn & Hl)]; [exact (proj2 (Hs' s Hin))|].
      destruct (F2 sv fn Hsv Hfn) as (_ & _ & _ & A2 & T2 & _). destruct Hl as [<-|[<-|[]]]; assumption.
    + intros l Hl. apply in_id_lists in Hl. destruct Hl as [(s & <- & Hin)|(sv & fn & Hsv & Hfn & Hl)]; [exact (proj1 (Hs' s Hin))|].
      destruct (F2 sv fn Hsv Hfn) as (_ & _ & A1 & _ & _ & T1). destruct Hl as [<-|[<-|[]]]; assumption.
    + intros u Hin. apply check_union_ok, Hu, Hin.
    + exact F1.
    + intros sv Hsv. apply existsb_false. intros fn Hfn. apply (F2 sv fn Hsv Hfn).
    + intros sv Hsv. apply existsb_false. intros fn Hfn. apply (F2 sv fn Hsv Hfn).
  - intros (Hg & E1 & E2 & E3 & Fn & Fi & U & Df & O1 & O2).
    repeat split.
    + exact Hg.
    + intros e Hin. apply check_enum_ok. split; [exact (E1 e Hin)|]. split; [exact (E2 e Hin)|].
      intros w Hw. apply negb_false_iff. exact (proj1 (existsb_false _ _) (E3 e Hin) w Hw).
    + intros s Hin. apply check_field_list_ok. split; [apply Fi, in_id_lists | apply Fn, in_field_lists]; eauto.
    + intros u Hin. apply check_union_ok, U, Hin.
    + intros sv Hsv. apply check_service_ok. split; [exact (Df sv Hsv)|]. intros fn Hfn.
      assert (Li : forall l, In l [map fd_id (fn_args fn); (if fn_void fn then [] else [0%Z]) ++ map fd_id (fn_throws fn)] ->
                             dupb Z.eqb l = false) by (intros l Hl; apply Fi, in_id_lists; eauto 6).
      assert (Ln : forall l, In l [fn_args fn; fn_throws fn] -> dupb beqb (map fd_name l) = false)
        by (intros l Hl; apply Fn, in_field_lists; eauto 6).
      split; [exact (proj1 (existsb_false _ _) (O1 sv Hsv) fn Hfn)|].
      split; [exact (proj1 (existsb_false _ _) (O2 sv Hsv) fn Hfn)|].
      cbn [In] in Li, Ln. repeat split; auto.
Qed.

(* reached from the main file through include statements whose target is part of
   the program *)
Inductive reach (p : program) : bytes -> Prop :=
| reach_main m f rest : p = (m, f) :: rest -> reach p m
| reach_inc a f h : reach p a -> prog_file p a = Some f -> In h (inc_targets f) -> reach p h.

Lemma inc_targets_refs f : inc_targets f = inc_refs f.
Proof. reflexivity. Qed.

Lemma reach_b_sound p : forall n a b, reach p a -> reach_b n p a b = true -> reach p b.
Proof.
  induction n as [|n IH]; intros a b Ha H; cbn [reach_b] in H.
  - rewrite orb_false_r in H. apply beqb_true in H. subst. exact Ha.
  - apply orb_true_iff in H. destruct H as [H|H]; [apply beqb_true in H; subst; exact Ha|].
    destruct (prog_file p a) as [f|] eqn:Pf; [|discriminate].
    apply existsb_exists in H. destruct H as (h & Hin & Hr).
    exact (IH h b (reach_inc p a f h Ha Pf Hin) Hr).
Qed.

Lemma reachable_reach p fn : reachable p fn = true -> reach p fn.
Proof.
  unfold reachable. destruct p as [|[m f] rest] eqn:Ep; [discriminate|]. rewrite <- Ep. intros H.
  eapply reach_b_sound; [|exact H]. eapply reach_main. exact Ep.
Qed.

(* the shape of every "some reachable file ..." predicate *)
Lemma some_file_false p (bad : bytes -> file -> bool) :
  (forall fn f, reach p fn -> prog_file p fn = Some f -> bad fn f = false) -> some_file p bad = false.
Proof.
  intros H. unfold some_file. apply existsb_false. intros fn _.
  destruct (reachable p fn) eqn:R; [|reflexivity]. cbn [andb].
  destruct (prog_file p fn) as [f|] eqn:Pf; [|reflexivity]. exact (H fn f (reachable_reach _ _ R) Pf).
Qed.

(* the new members of the set are sent, and are closed under include statements *)
Definition dfs_post (p : program) (st st' : list bytes * list bytes) : Prop :=
  incl (fst st) (fst st') /\ incl (snd st) (snd st') /\
  (forall g, In g (fst st') -> ~ In g (fst st) -> In g (snd st')) /\
  (forall g f h, In g (fst st') -> ~ In g (fst st) -> prog_file p g = Some f -> In h (inc_refs f) ->
                 prog_file p h <> None -> In h (fst st')).

Lemma dfs_post_refl p st : dfs_post p st st.
Proof. unfold dfs_post. repeat split; try apply incl_refl; intros; contradiction. Qed.

Lemma dfs_post_trans p a b c : dfs_post p a b -> dfs_post p b c -> dfs_post p a c.
Proof.
  intros (A1 & A2 & A3 & A4) (B1 & B2 & B3 & B4). unfold dfs_post. repeat split.
  - eapply incl_tran; eauto.
  - eapply incl_tran; eauto.
  - intros g Hg Hn. destruct (in_dec (list_eq_dec Byte.byte_eq_dec) g (fst b)) as [Hb|Hb].
    + apply B2. apply A3; assumption.
    + apply B3; assumption.
  - intros g f h Hg Hn Pf Hh Ph. destruct (in_dec (list_eq_dec Byte.byte_eq_dec) g (fst b)) as [Hb|Hb].
    + apply B1. eapply A4; eauto.
    + eapply B4; eauto.
Qed.

(* the loop of parser.dfs over the include references of one file *)
Definition dfs_list (k : nat) (p : program) : list bytes -> list bytes * list bytes -> option (list bytes * list bytes) :=
  fix go refs st :=
    match refs with
    | [] => Some st
    | h :: r => match dfs k p st h with Some st' => go r st' | None => None end
    end.

Lemma dfs_S k p st fn : dfs (S k) p st fn =
  match prog_file p fn with
  | None => Some st
  | Some f =>
    if memb fn (fst st) then Some st
    else match dfs_list k p (inc_refs f) (fn :: fst st, snd st) with
         | Some st' => Some (fst st', fn :: snd st')
         | None => None
         end
  end.
Proof. reflexivity. Qed.

(* One call of parser.dfs: the state grows as [dfs_post] says; [fn] itself is in the
   visited set afterwards if it is a file of the program; and when [fn] is reachable,
   whatever was newly sent is a reachable file of the program. *)
Lemma dfs_spec p : forall fuel st fn st', dfs fuel p st fn = Some st' ->
  dfs_post p st st' /\ (prog_file p fn <> None -> In fn (fst st')) /\
  (reach p fn -> forall g, In g (snd st') -> In g (snd st) \/ (reach p g /\ prog_file p g <> None)).
Proof.
  induction fuel as [|k IH]; intros st fn st' H; [discriminate|].
  rewrite dfs_S in H. destruct (prog_file p fn) as [f|] eqn:Pf.
  2:{ injection H as <-. split; [apply dfs_post_refl|]. split; [congruence | auto]. }
  destruct (memb fn (fst st)) eqn:Mv.
  { injection H as <-. split; [apply dfs_post_refl|]. split; [intros _; apply memb_true; exact Mv | auto]. }
  assert (Hgo : forall refs s s', dfs_list k p refs s = Some s' ->
            dfs_post p s s' /\ (forall h, In h refs -> prog_file p h <> None -> In h (fst s')) /\
            ((forall h, In h refs -> reach p h) ->
             forall g, In g (snd s') -> In g (snd s) \/ (reach p g /\ prog_file p g <> None))).
  { induction refs as [|h refs IHr]; intros s s' Hg; cbn [dfs_list] in Hg.
    - injection Hg as <-. split; [apply dfs_post_refl|]. split; [intros h [] | auto].
    - destruct (dfs k p s h) as [s1|] eqn:D1; [|discriminate].
      destruct (IH _ _ _ D1) as (P1 & I1 & S1). destruct (IHr _ _ Hg) as (P2 & I2 & S2).
      split; [eapply dfs_post_trans; eauto|]. split.
      + intros h' [<-|Hh] Ph; [|auto]. apply (proj1 P2). auto.
      + intros Hreach g Hg'. destruct (S2 (fun x Hx => Hreach x (or_intror Hx)) g Hg') as [H1|H1]; [|auto].
        exact (S1 (Hreach h (or_introl eq_refl)) g H1). }
  destruct (dfs_list k p (inc_refs f) (fn :: fst st, snd st)) as [s1|] eqn:G; [|discriminate]. injection H as <-.
  destruct (Hgo _ _ _ G) as ((P1 & P2 & P3 & P4) & Iall & Sall). cbn [fst snd] in *.
  assert (Mv' : ~ In fn (fst st)) by (intros Hin; apply memb_true in Hin; congruence).
  split; [|split].
  - unfold dfs_post. cbn [fst snd]. repeat split.
    + intros x Hx. apply P1. right. exact Hx.
    + intros x Hx. right. apply P2. exact Hx.
    + intros g Hg Hn. destruct (list_eq_dec Byte.byte_eq_dec g fn) as [->|Hne]; [left; reflexivity|].
      right. apply P3; [exact Hg|]. intros [E|Hin]; [congruence | contradiction].
    + intros g f0 h Hg Hn Pg Hh Ph. destruct (list_eq_dec Byte.byte_eq_dec g fn) as [->|Hne].
      * assert (f0 = f) by congruence. subst f0. apply Iall; assumption.
      * eapply P4; eauto. intros [E|Hin]; [congruence | contradiction].
  - intros _. apply P1. left. reflexivity.
  - intros Hr g [<-|Hg]; [right; split; [exact Hr | congruence]|]. apply Sall; [|exact Hg].
    intros h Hh. rewrite <- inc_targets_refs in Hh. exact (reach_inc p fn f h Hr Pf Hh).
Qed.

(* the files CheckAll walks through are exactly the reachable files of the program *)
Theorem dfs_order_spec p order : dfs_order p = Some order ->
  forall fn, In fn order <-> reach p fn /\ prog_file p fn <> None.
Proof.
  unfold dfs_order. destruct p as [|[m mf] rest] eqn:Ep.
  { intros [= <-] fn. split; [intros [] | intros (Hr & _); inversion Hr; subst; discriminate]. }
  rewrite <- Ep. destruct (dfs (S (List.length p)) p ([], []) m) as [st|] eqn:D; [|discriminate].
  intros [= <-] fn. rewrite <- in_rev. destruct (dfs_spec p _ _ _ _ D) as ((_ & _ & P3 & P4) & Hm & Hs). cbn [fst snd] in *.
  split.
  - intros Hin. destruct (Hs (reach_main p m mf rest Ep) fn Hin) as [[]|H]. exact H.
  - intros (Hr & Pn). apply P3; [|intros []]. induction Hr as [m' f' rest' E|a f h Ha IHa Pa Hh].
    + rewrite Ep in E. injection E as <- _ _. exact (Hm Pn).
    + rewrite inc_targets_refs in Hh. eapply P4; [apply IHa; congruence | intros [] | exact Pa | exact Hh | exact Pn].
Qed.

Theorem check_order_ok p order : dfs_order p = Some order ->
  call_all (check_named p) order = COk <->
  forall fn f, reach p fn -> prog_file p fn = Some f -> file_clean f.
Proof.
  intros D. rewrite call_all_ok. unfold check_named. split.
  - intros H fn f Hr Pf. apply check_file_ok.
    assert (Hin : In fn order) by (apply (dfs_order_spec p order D); split; [exact Hr | congruence]).
    specialize (H fn Hin). rewrite Pf in H. exact H.
  - intros H fn Hin. destruct (prog_file p fn) as [f|] eqn:Pf; [|reflexivity].
    apply check_file_ok, (H fn f); [|exact Pf]. exact (proj1 (proj1 (dfs_order_spec p order D fn) Hin)).
Qed.

Theorem check_program_ok p : check_program p = COk ->
  forall fn f, reach p fn -> prog_file p fn = Some f -> file_clean f.
Proof.
  unfold check_program. destruct (dfs_order p) as [order|] eqn:D; [|discriminate]. apply (check_order_ok p order D).
Qed.
