(* Idl/DumpNumFacts.v — property C17: what fmt.Sprintf("%d") writes is read back by
   strconv.ParseInt as the same number (constants and enum values: base 0, 64 bits; field ids:
   base 10 unless prefixed, 32 bits). *)
From Coq Require Import List Bool NArith ZArith Lia.
From Coq.Strings Require Import Byte.
From Verif Require Import Base.Bytes Idl.Lex Idl.LexFacts Idl.Dump.
Import ListNotations.

Definition digit_of (k : N) : byte := match Byte.of_N (48 + k)%N with Some b => b | None => x30 end.

Lemma ten_cases (k : N) : (k < 10)%N ->
  (k = 0 \/ k = 1 \/ k = 2 \/ k = 3 \/ k = 4 \/ k = 5 \/ k = 6 \/ k = 7 \/ k = 8 \/ k = 9)%N.
Proof. lia. Qed.

Lemma hex_val_digit k : (k < 10)%N -> hex_val (digit_of k) = Some (Z.of_N k).
Proof.
  intro H. destruct (ten_cases k H) as [->|[->|[->|[->|[->|[->|[->|[->|[->| ->]]]]]]]]]; reflexivity.
Qed.

Lemma digit_of_digit k : (k < 10)%N -> is_digit (digit_of k) = true.
Proof.
  intro H. destruct (ten_cases k H) as [->|[->|[->|[->|[->|[->|[->|[->|[->| ->]]]]]]]]]; reflexivity.
Qed.

Lemma lead_digit k : (1 <= k)%N -> (k < 10)%N ->
  Byte.eqb (digit_of k) c_minus = false /\ Byte.eqb (digit_of k) c_plus = false /\ Byte.eqb (digit_of k) c_0 = false.
Proof.
  intros H1 H. destruct (ten_cases k H) as [->|[->|[->|[->|[->|[->|[->|[->|[->| ->]]]]]]]]];
    try lia; repeat split; reflexivity.
Qed.

Lemma magnitude_digit a k rest : (k < 10)%N ->
  magnitude 10 a (digit_of k :: rest) = magnitude 10 (a * 10 + Z.of_N k) rest.
Proof.
  intro H. cbn [magnitude]. rewrite (hex_val_digit k H).
  assert (E : (Z.of_N k <? 10)%Z = true) by (apply Z.ltb_lt; lia). rewrite E. reflexivity.
Qed.

Lemma digits_pos_spec : forall f n acc, (0 < n)%N -> (n < 2 ^ N.of_nat f)%N ->
  exists k0 t kk,
    digits_pos f n acc = (digit_of k0 :: t) ++ acc /\ (1 <= k0)%N /\ (k0 < 10)%N /\
    forallb is_digit (digit_of k0 :: t) = true /\
    forall a rest, magnitude 10 a ((digit_of k0 :: t) ++ rest) = magnitude 10 (a * kk + Z.of_N n) rest.
Proof.
  induction f as [|f IH]; intros n acc Hpos Hlt.
  - cbn in Hlt. lia.
  - cbn [digits_pos]. fold (digit_of (n mod 10)).
    assert (Hm : (n mod 10 < 10)%N) by (apply N.mod_lt; discriminate).
    destruct (n <? 10)%N eqn:E.
    + apply N.ltb_lt in E. rewrite (N.mod_small n 10 E). exists n, [], 10%Z.
      split; [reflexivity|]. split; [lia|]. split; [exact E|].
      split; [cbn [forallb]; rewrite (digit_of_digit n E); reflexivity|].
      intros a rest. cbn [app]. apply magnitude_digit. exact E.
    + apply N.ltb_ge in E.
      assert (Hq : (0 < n / 10)%N) by (apply N.div_str_pos; lia).
      assert (Hql : (n / 10 < 2 ^ N.of_nat f)%N).
      { apply N.div_lt_upper_bound; [discriminate|].
        rewrite Nat2N.inj_succ, N.pow_succ_r' in Hlt. lia. }
      destruct (IH (n / 10)%N (digit_of (n mod 10) :: acc) Hq Hql) as (k0 & t & kk & Ed & H1 & H2 & Hd & Hmag).
      exists k0, (t ++ [digit_of (n mod 10)]), (kk * 10)%Z.
      split.
      { rewrite Ed. cbn [app]. rewrite <- app_assoc. reflexivity. }
      split; [exact H1|]. split; [exact H2|].
      split.
      { rewrite app_comm_cons, forallb_app, Hd. cbn [forallb]. rewrite (digit_of_digit _ Hm). reflexivity. }
      intros a rest.
      replace ((digit_of k0 :: t ++ [digit_of (n mod 10)]) ++ rest)
        with ((digit_of k0 :: t) ++ (digit_of (n mod 10) :: rest)) by (cbn [app]; rewrite <- app_assoc; reflexivity).
      rewrite Hmag, (magnitude_digit _ _ _ Hm). f_equal.
      assert (En : n = (10 * (n / 10) + n mod 10)%N) by (apply N.div_mod'; discriminate).
      rewrite En at 3. lia.
Qed.

Lemma digitsN_spec n : (0 < n)%N ->
  exists k0 t, digitsN n = digit_of k0 :: t /\ (1 <= k0)%N /\ (k0 < 10)%N /\
               forallb is_digit (digit_of k0 :: t) = true /\
               magnitude 10 0 (digit_of k0 :: t) = Some (Z.of_N n).
Proof.
  intro Hpos. unfold digitsN.
  assert (Hlt : (n < 2 ^ N.of_nat (S (N.to_nat (N.log2 n))))%N).
  { rewrite Nat2N.inj_succ, N2Nat.id. apply N.log2_spec. exact Hpos. }
  destruct (digits_pos_spec _ n [] Hpos Hlt) as (k0 & t & kk & Ed & H1 & H2 & Hd & Hmag).
  exists k0, t. rewrite Ed, app_nil_r. repeat split; try assumption.
  specialize (Hmag 0%Z []). rewrite app_nil_r in Hmag. rewrite Hmag. reflexivity.
Qed.

Lemma clamp_in_range bits v : (- 2 ^ (bits - 1) <= v <= 2 ^ (bits - 1) - 1)%Z ->
  (if (v >? 2 ^ (bits - 1) - 1)%Z then (2 ^ (bits - 1) - 1, false)
   else if (v <? - 2 ^ (bits - 1))%Z then (- 2 ^ (bits - 1), false) else (v, true))%Z = (v, true).
Proof.
  intro Hr. destruct (v >? 2 ^ (bits - 1) - 1)%Z eqn:G1; [apply Z.gtb_lt in G1; lia|].
  destruct (v <? - 2 ^ (bits - 1))%Z eqn:G2; [apply Z.ltb_lt in G2; lia|]. reflexivity.
Qed.

(* strconv.ParseInt on the decimal spelling of a non-zero number: the radix rules never see a
   prefix, the magnitude is the number *)
Lemma go_parse_int_digits rule bits (neg : bool) n :
  (0 < n)%N ->
  let v := if neg then (- Z.of_N n)%Z else Z.of_N n in
  (- 2 ^ (bits - 1) <= v <= 2 ^ (bits - 1) - 1)%Z ->
  go_parse_int rule bits ((if neg then [c_minus] else []) ++ digitsN n) = (v, true).
Proof.
  intros Hpos v Hr.
  destruct (digitsN_spec n Hpos) as (k0 & t & Ed & H1 & H2 & _ & Hmag).
  destruct (lead_digit k0 H1 H2) as (Em & Ep & E0).
  rewrite Ed. unfold go_parse_int.
  destruct neg; cbn [app]; [rewrite (byte_eqb_refl c_minus) | rewrite Em, Ep];
    (destruct t as [|p r]; [|rewrite E0; cbn [andb]; destruct rule]);
    rewrite Hmag; exact (clamp_in_range bits v Hr).
Qed.

Lemma go_parse_int_print_Z rule bits z :
  (- 2 ^ (bits - 1) <= z <= 2 ^ (bits - 1) - 1)%Z -> (1 < bits)%Z ->
  go_parse_int rule bits (print_Z z) = (z, true).
Proof.
  intros Hr Hb. destruct z as [|p|p]; cbn [print_Z].
  - assert (0 < 2 ^ (bits - 1))%Z by (apply Z.pow_pos_nonneg; lia).
    apply (clamp_in_range bits 0%Z). lia.
  - apply (go_parse_int_digits rule bits false (Npos p)); [reflexivity | exact Hr].
  - apply (go_parse_int_digits rule bits true (Npos p)); [reflexivity | exact Hr].
Qed.

Lemma go_parse_int_i64 z : in_i64 z = true -> go_parse_int Base0 64 (print_Z z) = (z, true).
Proof.
  unfold in_i64. intro H. apply andb_true_iff in H. destruct H as [H1 H2].
  apply Z.leb_le in H1. apply Z.leb_le in H2.
  apply go_parse_int_print_Z; [|lia]. change (2 ^ (64 - 1))%Z with 9223372036854775808%Z. lia.
Qed.

Theorem int_value_print_Z z : in_i64 z = true -> int_value (print_Z z) = Some z.
Proof. intro H. unfold int_value. rewrite (go_parse_int_i64 z H). reflexivity. Qed.

Theorem field_id_value_print_Z z : in_i32 z = true -> field_id_value (print_Z z) = z.
Proof.
  unfold in_i32. intro H. apply andb_true_iff in H. destruct H as [H1 H2].
  apply Z.leb_le in H1. apply Z.leb_le in H2.
  unfold field_id_value. rewrite (go_parse_int_print_Z Base10Prefixed 32 z); [reflexivity | | lia].
  change (2 ^ (32 - 1))%Z with 2147483648%Z. lia.
Qed.

Corollary enum_int_value_print_Z z : in_i64 z = true -> enum_int_value (print_Z z) = z.
Proof. intro H. unfold enum_int_value. rewrite (go_parse_int_i64 z H). reflexivity. Qed.
