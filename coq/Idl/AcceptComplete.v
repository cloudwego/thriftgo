(* Idl/AcceptComplete.v — property C04, the converse direction for the front end:
   on a program inside C05's [resolvable] (every include present, no include cycle,
   global names distinct, every type name denotes, base services exist, identifiers
   have exactly one explanation) that violates none of the rules the CHECKER enforces,
   CircleDetect, CheckAll and ResolveSymbols all succeed: the front end of thriftgo
   rejects nothing that the catalogue does not list. *)
From Coq Require Import List Bool Arith Lia.
From Coq.Strings Require Import Byte.
From Verif Require Import Base.Bytes Idl.Ast Idl.AstUtil Idl.Resolve Idl.ResolvableSpec Idl.ResolvableConst
     Idl.ResolveComplete Idl.ResolveCompleteConst
     Idl.Check Idl.Rules Idl.CheckFacts Idl.Accept Idl.AcceptBackend.
Import ListNotations.
Local Open Scope check_scope.
Local Open Scope resolve_scope.

Lemma inc_refs_step p a f h : prog_file p a = Some f -> In h (inc_refs f) -> inc_step p a h.
Proof.
  intros Pf Hh. rewrite <- inc_targets_refs in Hh. apply in_inc_targets in Hh.
  destruct Hh as (i & Hi & Hr). exists f, i. auto.
Qed.

Lemma search_no_circle p : forall k fn, includes_ok k p fn = true ->
  forall k' path, k <= k' ->
  (forall x, In x path -> exists y, inc_step p x y /\ reaches p y fn) ->
  search_circle k' p path fn = false.
Proof.
  induction k as [|j IH]; intros fn H k' path Hle Hpath; [discriminate|].
  destruct k' as [|j']; [lia|]. pose proof H as H0. cbn [includes_ok] in H. cbn [search_circle].
  destruct (prog_file p fn) as [f|] eqn:Pf; [|discriminate].
  destruct (memb fn path) eqn:M.
  { exfalso. apply memb_true in M. destruct (Hpath fn M) as (y & Hs & Hr).
    exact (includes_ok_acyclic p _ fn H0 y Hs Hr). }
  apply existsb_false. intros h Hh. pose proof (inc_refs_step p fn f h Pf Hh) as Hst.
  apply (IH h (includes_ok_step p j fn h H0 Hst) j' (fn :: path)); [lia|].
  intros x [<-|Hx].
  - exists h. split; [exact Hst | apply r_refl].
  - destruct (Hpath x Hx) as (y & Hs & Hr). exists y. split; [exact Hs|]. eapply reaches_snoc; eauto.
Qed.

Lemma dfs_total p : forall k fn, includes_ok k p fn = true -> forall st, exists st', dfs k p st fn = Some st'.
Proof.
  induction k as [|j IH]; intros fn H st; [discriminate|]. pose proof H as H0. cbn [includes_ok] in H. rewrite dfs_S.
  destruct (prog_file p fn) as [f|] eqn:Pf; [|discriminate].
  destruct (memb fn (fst st)); [eauto|].
  assert (Hgo : forall refs s, (forall h, In h refs -> In h (inc_refs f)) -> exists s', dfs_list j p refs s = Some s').
  { induction refs as [|h refs IHr]; intros s Hin; cbn [dfs_list]; [eauto|].
    destruct (IH h (includes_ok_step p j fn h H0 (inc_refs_step p fn f h Pf (Hin h (or_introl eq_refl)))) s) as (s1 & ->).
    apply IHr. intros x Hx. apply Hin. right. exact Hx. }
  destruct (Hgo (inc_refs f) (fn :: fst st, snd st) (fun h Hh => Hh)) as (s' & ->). eauto.
Qed.

(* within an include tree of height below n+1, reachability needs at most n steps *)
Lemma reaches_reach_b p : forall n a b, includes_ok (S n) p a = true -> reaches p a b -> reach_b n p a b = true.
Proof.
  induction n as [|n IH]; intros a b H Hr.
  - inversion Hr as [|? c ? Hs _]; subst; [cbn; rewrite beqb_refl; reflexivity|].
    pose proof (includes_ok_step p 0 a c H Hs) as Hc. discriminate.
  - inversion Hr as [|? c ? Hs Hcb]; subst; cbn [reach_b]; [rewrite beqb_refl; reflexivity|].
    apply orb_true_iff. right. destruct Hs as (f & i & Pf & Hi & Hri). rewrite Pf.
    apply existsb_exists. exists c. split; [apply in_inc_targets; eauto|].
    apply IH; [|exact Hcb]. apply (includes_ok_step p (S n) a c H). exists f, i. auto.
Qed.

Lemma reach_reaches p m f rest : p = (m, f) :: rest -> forall fn, reach p fn -> reaches p m fn.
Proof.
  intros Ep fn Hr. induction Hr as [m' f' rest' E|a g h Ha IH Pa Hh].
  - rewrite Ep in E. injection E as <- _ _. apply r_refl.
  - eapply reaches_snoc; [exact IH|]. apply in_inc_targets in Hh. destruct Hh as (i & Hi & Hri). exists g, i. auto.
Qed.

Lemma some_file_false_inv p bad : some_file p bad = false ->
  forall fn f, reachable p fn = true -> prog_file p fn = Some f -> bad fn f = false.
Proof.
  intros H fn f Hr Pf. unfold some_file in H.
  assert (Hin : In fn (map fst p)) by (unfold prog_file in Pf; apply lookup_In in Pf; apply (in_map fst) in Pf; exact Pf).
  pose proof (proj1 (existsb_false _ _) H fn Hin) as Hx. cbv beta in Hx. rewrite Hr, Pf in Hx. exact Hx.
Qed.

Lemma memb_false x l : (forall y, In y l -> beqb x y = false) -> memb x l = false.
Proof. intros H. unfold memb. apply existsb_false. exact H. Qed.

Definition checker_rules : list rule :=
  [DupGlobal; DupField; DupFieldId; DupFunction; DupEnumName; DupEnumNumber; EnumOutOfInt32;
   OnewayReturns; OnewayThrows; SecondUnionDefault].

Lemma resolvable_includes p m f rest : p = (m, f) :: rest -> resolvable p = true ->
  includes_ok (S (List.length p)) p m = true.
Proof.
  intros Ep H. unfold resolvable in H. apply andb_true_iff in H. destruct H as (_ & H).
  unfold resolvable_with in H. rewrite Ep in H. rewrite <- Ep in H. apply andb_true_iff in H. exact (proj1 H).
Qed.

Theorem front_end_complete p : resolvable p = true ->
  (forall r, In r checker_rules -> violates r p = false) ->
  exists r order, front_end p = FrontOk r order.
Proof.
  intros Hres Hv. destruct (resolve_complete p Hres) as (r & Hr). unfold front_end.
  destruct p as [|[m mf] rest] eqn:Ep.
  { cbn. eauto. }
  rewrite <- Ep in *. pose proof (resolvable_includes p m mf rest Ep Hres) as Hinc.
  assert (Hc : circle_detect p = false).
  { unfold circle_detect. rewrite Ep. rewrite <- Ep. apply (search_no_circle p _ m Hinc); [lia | intros x []]. }
  assert (Hord : exists order, dfs_order p = Some order).
  { unfold dfs_order. rewrite Ep. rewrite <- Ep. destruct (dfs_total p _ m Hinc ([], [])) as (st & ->). eauto. }
  destruct Hord as (order & Hord). rewrite Hc, Hord.
  assert (Hck : call_all (check_named p) order = COk).
  { apply (check_order_ok p order Hord). intros fn f Rf Pf.
    assert (Rb : reachable p fn = true).
    { unfold reachable. rewrite Ep. rewrite <- Ep. apply reaches_reach_b; [exact Hinc|]. exact (reach_reaches p m mf rest Ep fn Rf). }
    assert (Hone : forall ru bad, In ru checker_rules -> violates ru p = some_file p (fun _ f => bad f) -> bad f = false).
    { intros ru bad Hin E. pose proof (Hv ru Hin) as V. rewrite E in V.
      exact (some_file_false_inv p _ V fn f Rb Pf). }
    unfold file_clean, checker_rules in *.
    (* the conjuncts of [file_clean], in its order, each the per-file predicate of one rule of the checker *)
    repeat split; [apply dup_global_checked_le; eapply (Hone DupGlobal) | eapply (Hone DupEnumName) | eapply (Hone DupEnumNumber)
                   | eapply (Hone EnumOutOfInt32) | eapply (Hone DupField) | eapply (Hone DupFieldId)
                   | eapply (Hone SecondUnionDefault) | eapply (Hone DupFunction)
                   | eapply (Hone OnewayReturns) | eapply (Hone OnewayThrows)].
    (* the premises of [Hone]: the rule is in [checker_rules]; [violates] of it is [some_file] of that predicate *)
    all: cbn; try reflexivity; tauto. }
  rewrite Hck, Hr. eauto.
Qed.

(* no constant and no default value anywhere: nothing for the Go backend's kind checks *)
Definition no_values (p : program) : bool := forallb (fun e => is_nil (typed_values (snd e))) p.

Lemma Forall2_nil_l {A B} (R : A -> B -> Prop) l' : Forall2 R [] l' -> l' = [].
Proof. inversion 1. reflexivity. Qed.

Lemma resolve_file_in_no_values d1 f f' : resolve_file_in d1 f = Ok f' -> typed_values f = [] -> backend_values f' = [].
Proof.
  intros Hres Hnil. destruct (resolve_file_in_kept d1 f f' Hres) as (n2c & tds1 & st & _ & _ & K). cbv zeta in K.
  pose proof (file_fields_kept _ _ _ _ _ _ K) as Kf. destruct K as (_ & Kc & _).
  unfold typed_values in Hnil. apply app_eq_nil in Hnil. destruct Hnil as (Hc & Hd). unfold backend_values.
  apply map_eq_nil in Hc. rewrite Hc in Kc. rewrite (Forall2_nil_l _ _ Kc), app_nil_r.
  induction Kf as [|fd fd2 l l2 (_ & _ & Hdef) _ IH]; [reflexivity|]. cbn [flat_map] in Hd |- *.
  apply app_eq_nil in Hd. destruct Hd as (H1 & H2). rewrite (IH H2), app_nil_r.
  destruct (fd_default fd); [discriminate H1 | rewrite Hdef; reflexivity].
Qed.

(* completeness of the catalogue on programs without constant values: what violates no
   rule of the checker and is inside [resolvable] is accepted, by every backend *)
Theorem accepts_complete_no_values p b : resolvable p = true -> no_values p = true ->
  (forall r, In r checker_rules -> violates r p = false) -> accepts p b = AOk.
Proof.
  intros Hres Hnv Hv. destruct (front_end_complete p Hres Hv) as (r & order & Hfe).
  unfold accepts. rewrite Hfe. destruct (front_end_ok p r order Hfe) as (_ & _ & _ & Hrs).
  destruct (resolve_program_run p r Hrs) as (done & _ & Htr & _ & Hpr).
  assert (Hnil : forall fn f, prog_file p fn = Some f -> typed_values f = []).
  { intros fn f Pf. unfold no_values in Hnv. rewrite forallb_forall in Hnv.
    pose proof (Hnv (fn, f) (lookup_In _ _ _ Pf)) as E0. cbn [snd] in E0. destruct (typed_values f); [reflexivity | discriminate]. }
  assert (Hbk : forall fn, check_scope r fn = None).
  { intros fn. unfold check_scope. rewrite Hpr. destruct (lookup fn done) as [f'|] eqn:Ld.
    - destruct (Htr fn f' Ld) as (f & Pf & d1 & _ & _ & R1).
      rewrite (resolve_file_in_no_values d1 f f' R1 (Hnil fn f Pf)). reflexivity.
    - destruct (prog_file p fn) as [f|] eqn:Pf; [|reflexivity]. pose proof (Hnil fn f Pf) as E0. unfold typed_values in E0.
      apply app_eq_nil in E0. destruct E0 as (E1 & E2). unfold backend_values. rewrite E1, E2. reflexivity. }
  unfold backend_stage. induction (scope_files r order b) as [|x l IH]; [reflexivity|].
  cbn [first_err]. rewrite (Hbk x). exact IH.
Qed.
