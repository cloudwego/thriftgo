(* Idl/Resolve.v — executable model of symbol resolution (semantic/semantic.go,
   semantic/split.go; property C05).  Definitions only; the proofs are in
   the Idl/Resolve*.v files that import this one (results collected in Props/C05.v),
   the declarative specification in Idl/ResolveSpec.v.

   What is mirrored (statement by statement unless said otherwise):

     ResolveSymbols / ResolveAST   [resolve_program], [resolve_rec], [resolve_file_in]
       - the includes of a file are resolved first, depth first, each file once
         (Go memoises with "Name2Category != nil"; the model with the accumulator
         [done] of finished files);
       - RegisterNames                                    [register]
       - ResolveType on the type of every typedef, constant, struct/union/exception
         field, function result (unless void), argument and throws field
                                                          [resolve_ty]
       - ResolveConstValue on every constant value and on the default of every
         field (struct-like fields, and — after the repair
         proposed_fixes/C05-argument-defaults — arguments and throws fields)
                                                          [resolve_cv]
       - getEnum (typedef'd enums, across includes)       [get_enum], fuelled: the Go
         function recurses without a visited set, a local typedef cycle overflows
         the Go stack; the model's image is [ErrOutOfFuel]
       - union fields forced to optional                  [resolve_field]
       - ResolveBaseService                               [resolve_base]
       - ResolveTypedefs / ResolveTypedef                 [te_fix], [te_round]
       - Include.Used                                     [file_marks], [mark_includes]
     Deref                                                [deref]

   Order of the steps = order of the Go statements, so that the FIRST error is the one
   the Go code reports (typedef types, constants, structs, unions, exceptions,
   services, then the typedef fixpoint).

   Deliberate differences, none observable on the domain of the property:
     - Go records a (Type node, AST, name) "typedef pair" for every type occurrence
       that names a typedef and retries ALL pairs round after round, copying the
       category of the typedef's own type once that is no longer Typedef.  Only pairs
       whose node is the type of a LOCAL typedef are ever read by another pair, so the
       model iterates over those ([tde] entries, same in-place order within a round,
       same "no progress => error" exit) and afterwards gives every other occurrence
       the final category of the typedef it names ([fix_ty]).  The number of rounds is
       not observable; error/ok and all final categories are the same.
     - Include.Used is written by Go at the moment a reference through the include is
       found; the model computes the set of such references from the resolved file
       ([file_marks]).  On success the two coincide (every Go assignment of Used is
       paired with storing the include index in a Reference or Extra that survives).
     - cyclic include graphs: Go marks a file "in progress" and silently sees an empty
       name table through a back edge; every thriftgo pipeline rejects include cycles
       (parser.CircleDetect) before the semantic pass, so the model just reports
       [ErrIncludeCycle] / [ErrOutOfFuel] for them.
     - the input is what the parser produces: resolution fields are the zero value.
       The model overwrites them (Go only ever sets them). *)
From Coq Require Import List Bool Arith NArith ZArith.
From Coq.Strings Require Import Byte String.
From Verif Require Import Base.Bytes Idl.Ast Idl.AstUtil.
Import ListNotations.

(* ---------------------------------------------------------------- result monad *)

Inductive resolve_error :=
| ErrNotParsed          (* an include without parsed Reference / a file missing from the program *)
| ErrDupName            (* "multiple definition of" (RegisterNames) *)
| ErrUndefinedType      (* "undefined type" *)
| ErrNotAType           (* "unexpected type category": a local constant or service used as a type *)
| ErrInvalidTypeName    (* "invalid type name" (empty name) *)
| ErrTypedefUnresolved  (* "typedefs can not be resolved" (cycle, or chain into one) *)
| ErrUndefinedValue     (* "undefined value" *)
| ErrAmbiguousValue     (* "ambiguous const value" *)
| ErrBaseService        (* "base service ... not found" *)
| ErrInternal           (* a Go panic / impossible branch (nil key type of a map, ...) *)
| ErrIncludeCycle       (* the include graph has a cycle (outside the domain, see above) *)
| ErrOutOfFuel.         (* model fuel exhausted: image of the getEnum stack overflow *)

Inductive result (A : Type) := Ok (a : A) | Error (e : resolve_error).
Arguments Ok {A} a.
Arguments Error {A} e.

Definition bind {A B} (r : result A) (k : A -> result B) : result B :=
  match r with Ok a => k a | Error e => Error e end.

Declare Scope resolve_scope.
Delimit Scope resolve_scope with resolve.
Notation "x <- a ;; b" := (bind a (fun x => b))
  (at level 61, a at next level, right associativity) : resolve_scope.
Local Open Scope resolve_scope.

Fixpoint mapM {A B} (f : A -> result B) (l : list A) : result (list B) :=
  match l with
  | [] => Ok []
  | x :: r => y <- f x ;; ys <- mapM f r ;; Ok (y :: ys)
  end.

Definition resolve_error_code (e : resolve_error) : N :=
  match e with
  | ErrNotParsed => 1 | ErrDupName => 2 | ErrUndefinedType => 3 | ErrNotAType => 4
  | ErrInvalidTypeName => 5 | ErrTypedefUnresolved => 6 | ErrUndefinedValue => 7
  | ErrAmbiguousValue => 8 | ErrBaseService => 9 | ErrInternal => 10
  | ErrIncludeCycle => 11 | ErrOutOfFuel => 12
  end%N.

(* ---------------------------------------------------------------- Name2Category *)

(* Go strings compare bytewise; astdump lists Name2Category sorted that way *)
Fixpoint bytes_ltb (a b : bytes) : bool :=
  match a, b with
  | [], [] => false
  | [], _ :: _ => true
  | _ :: _, [] => false
  | x :: a', y :: b' =>
    if (Byte.to_N x <? Byte.to_N y)%N then true
    else if (Byte.to_N y <? Byte.to_N x)%N then false
    else bytes_ltb a' b'
  end.

Fixpoint n2c_insert (k : bytes) (c : category) (m : list (bytes * category)) : list (bytes * category) :=
  match m with
  | [] => [(k, c)]
  | (k', c') :: r => if bytes_ltb k k' then (k, c) :: m else (k', c') :: n2c_insert k c r
  end.

(* RegisterNames / AddName: every global name once *)
Fixpoint register (defs acc : list (bytes * category)) : result (list (bytes * category)) :=
  match defs with
  | [] => Ok acc
  | (n, c) :: r =>
    match lookup n acc with
    | Some _ => Error ErrDupName
    | None => register r (n2c_insert n c acc)
    end
  end.

Definition n2c_of (f : file) : list (bytes * category) :=
  match f_name2cat f with Some l => l | None => [] end.

(* c >= Category_Enum && c <= Category_Typedef *)
Definition is_type_cat (c : category) : bool :=
  match c with CatEnum | CatStruct | CatUnion | CatException | CatTypedef => true | _ => false end.
Definition is_service_cat (c : category) : bool :=
  match c with CatService => true | _ => false end.
Definition is_constant_cat (c : category) : bool :=
  match c with CatConstant => true | _ => false end.
Definition is_typedef_cat (c : category) : bool :=
  match c with CatTypedef => true | _ => false end.

(* ---------------------------------------------------------------- file updates *)

Definition with_name2cat (f : file) (m : option (list (bytes * category))) : file :=
  File (f_filename f) (f_includes f) (f_cpp_includes f) (f_namespaces f) (f_typedefs f) (f_constants f)
       (f_enums f) (f_structs f) (f_unions f) (f_exceptions f) (f_services f) m.
Definition with_typedefs (f : file) (tds : list typedef) : file :=
  File (f_filename f) (f_includes f) (f_cpp_includes f) (f_namespaces f) tds (f_constants f)
       (f_enums f) (f_structs f) (f_unions f) (f_exceptions f) (f_services f) (f_name2cat f).
Definition with_includes (f : file) (incs : list include) : file :=
  File (f_filename f) incs (f_cpp_includes f) (f_namespaces f) (f_typedefs f) (f_constants f)
       (f_enums f) (f_structs f) (f_unions f) (f_exceptions f) (f_services f) (f_name2cat f).

(* ---------------------------------------------------------------- ResolveType *)

(* the first include of the list (numbered from [idx]) whose IDL prefix is [pre] and
   whose (resolved) target registers [m] with a category accepted by [ok] *)
Fixpoint find_include (done : program) (ok : category -> bool) (pre m : bytes)
         (incs : list include) (idx : nat) : option (nat * category) :=
  match incs with
  | [] => None
  | i :: r =>
    let next := find_include done ok pre m r (S idx) in
    if beqb (idl_prefix (in_path i)) pre then
      match include_target done i with
      | Some g =>
        match lookup m (n2c_of g) with
        | Some c => if ok c then Some (idx, c) else next
        | None => next
        end
      | None => next
      end
    else next
  end.

Definition typedef_flag (c : category) : option bool :=
  if is_typedef_cat c then Some true else None.

(* [f] must carry the registered names of the current file ([f_name2cat]) *)
Fixpoint resolve_ty (done : program) (f : file) (t : ty) : result ty :=
  match t with
  | Ty n k v cpp an _ _ _ =>
    match builtin_category n with
    | Some CatMap =>
      k' <- match k with Some kt => resolve_ty done f kt | None => Error ErrInternal end ;;
      v' <- match v with Some vt => resolve_ty done f vt | None => Error ErrInternal end ;;
      Ok (Ty n (Some k') (Some v') cpp an CatMap None None)
    | Some CatList =>
      v' <- match v with Some vt => resolve_ty done f vt | None => Error ErrInternal end ;;
      Ok (Ty n k (Some v') cpp an CatList None None)
    | Some CatSet =>
      v' <- match v with Some vt => resolve_ty done f vt | None => Error ErrInternal end ;;
      Ok (Ty n k (Some v') cpp an CatSet None None)
    | Some c => Ok (Ty n k v cpp an c None None)
    | None =>
      match split_type n with
      | [a] =>
        match lookup a (n2c_of f) with
        | Some c =>
          if is_type_cat c then Ok (Ty n k v cpp an c None (typedef_flag c))
          else Error ErrNotAType
        | None => Error ErrUndefinedType
        end
      | [pre; m] =>
        match find_include done is_type_cat pre m (f_includes f) 0 with
        | Some (idx, c) => Ok (Ty n k v cpp an c (Some (Ref m (Z.of_nat idx))) (typedef_flag c))
        | None => Error ErrUndefinedType
        end
      | _ => Error ErrInvalidTypeName
      end
    end
  end.

(* ---------------------------------------------------------------- getEnum *)

(* [g] is a resolved file of [done], or the current file with its names registered
   and the types of its typedefs resolved (ResolveAST resolves them before any
   constant).  Result: the enum and the index getEnum reports (-1 = reached without
   leaving [g] through a Reference of one of g's own typedefs). *)
Fixpoint get_enum (fuel : nat) (done : program) (g : file) (name : bytes) : result (option (enum * Z)) :=
  match fuel with
  | O => Error ErrOutOfFuel
  | S k =>
    match lookup name (n2c_of g) with
    | Some CatEnum =>
      match find_enum g name with
      | Some e => Ok (Some (e, (-1)%Z))
      | None => Error ErrInternal
      end
    | Some CatTypedef =>
      match find_typedef g name with
      | None => Error ErrInternal
      | Some x =>
        r1 <- match ty_ref (td_type x) with
              | Some r =>
                match reference_target done g r with
                | Some h =>
                  e <- get_enum k done h (ref_name r) ;;
                  Ok (match e with Some (en, _) => Some (en, ref_index r) | None => None end)
                | None => Error ErrInternal
                end
              | None => Ok None
              end ;;
        match r1 with
        | Some x1 => Ok (Some x1)
        | None => get_enum k done g (ty_name (td_type x))
        end
      end
    | _ => Ok None
    end
  end.

Definition prog_typedef_count (p : program) : nat :=
  fold_right (fun e acc => List.length (f_typedefs (snd e)) + acc) 0 p.
(* enough for every acyclic typedef graph: a call chain visits distinct typedefs *)
Definition enum_fuel (done : program) (f : file) : nat :=
  prog_typedef_count done + List.length (f_typedefs f) + 2.

(* ---------------------------------------------------------------- ResolveConstValue *)

Definition ident_is_bool (s : bytes) : bool := beqb s (B "true"%string) || beqb s (B "false"%string).

(* one candidate per enum value called [v] (the checker rejects duplicates) *)
Definition enum_cands (e : enum) (v : bytes) (x : const_extra) : list const_extra :=
  map (fun _ => x) (filter (fun ev => beqb (ev_name ev) v) (en_values e)).

(* every include with prefix [pre], in order, contributes [h idx target] *)
Fixpoint inc_cands (done : program) (h : nat -> file -> result (list const_extra)) (pre : bytes)
         (incs : list include) (idx : nat) : result (list const_extra) :=
  match incs with
  | [] => Ok []
  | i :: r =>
    here <- (if beqb (idl_prefix (in_path i)) pre then
               match include_target done i with
               | Some g => h idx g
               | None => Error ErrInternal
               end
             else Ok []) ;;
    rest <- inc_cands done h pre r (S idx) ;;
    Ok (here ++ rest)
  end.

(* the candidates of one SplitValue alternative *)
Definition alt_cands (fuel : nat) (done : program) (f : file) (ss : list bytes) : result (list const_extra) :=
  match ss with
  | [a] =>
    Ok (match lookup a (n2c_of f) with
        | Some CatConstant => [Extra false (-1)%Z a []]
        | _ => []
        end)
  | [i; v] =>
    ge <- get_enum fuel done f i ;;
    let c1 := match ge with Some (e, idx) => enum_cands e v (Extra true idx v i) | None => [] end in
    c2 <- inc_cands done (fun idx g =>
            Ok (match lookup v (n2c_of g) with
                | Some CatConstant => [Extra false (Z.of_nat idx) v i]
                | _ => []
                end)) i (f_includes f) 0 ;;
    Ok (c1 ++ c2)
  | [i; e; v] =>
    inc_cands done (fun idx g =>
      ge <- get_enum fuel done g e ;;
      Ok (match ge with Some (en, _) => enum_cands en v (Extra true (Z.of_nat idx) v e) | None => [] end))
      i (f_includes f) 0
  | _ => Ok []
  end.

Fixpoint all_cands (fuel : nat) (done : program) (f : file) (sss : list (list bytes)) : result (list const_extra) :=
  match sss with
  | [] => Ok []
  | ss :: r => a <- alt_cands fuel done f ss ;; b <- all_cands fuel done f r ;; Ok (a ++ b)
  end.

Definition resolve_ident (fuel : nat) (done : program) (f : file) (s : bytes) : result (option const_extra) :=
  if ident_is_bool s then Ok None
  else
    cs <- all_cands fuel done f (split_value s) ;;
    match cs with
    | [] => Error ErrUndefinedValue
    | [e] => Ok (Some e)
    | _ => Error ErrAmbiguousValue
    end.

Fixpoint resolve_cv (fuel : nat) (done : program) (f : file) (c : const_value) : result const_value :=
  match c with
  | CIdent s _ => e <- resolve_ident fuel done f s ;; Ok (CIdent s e)
  | CList l =>
    l' <- (fix go (l : list const_value) : result (list const_value) :=
             match l with
             | [] => Ok []
             | x :: r => x' <- resolve_cv fuel done f x ;; r' <- go r ;; Ok (x' :: r')
             end) l ;;
    Ok (CList l')
  | CMap l =>
    l' <- (fix go (l : list (const_value * const_value)) : result (list (const_value * const_value)) :=
             match l with
             | [] => Ok []
             | (k, v) :: r =>
               k' <- resolve_cv fuel done f k ;; v' <- resolve_cv fuel done f v ;;
               r' <- go r ;; Ok ((k', v') :: r')
             end) l ;;
    Ok (CMap l')
  | other => Ok other
  end.

(* ---------------------------------------------------------------- definitions *)

Definition resolve_typedef (done : program) (f : file) (td : typedef) : result typedef :=
  t <- resolve_ty done f (td_type td) ;;
  Ok (Typedef t (td_alias td) (td_annos td) (td_comments td)).

Definition resolve_constant (fuel : nat) (done : program) (f : file) (c : constant) : result constant :=
  t <- resolve_ty done f (co_type c) ;;
  v <- resolve_cv fuel done f (co_value c) ;;
  Ok (Constant (co_name c) t v (co_annos c) (co_comments c)).

(* ResolveStructField (also used, after the repair, for arguments and throws) *)
Definition resolve_field (fuel : nat) (done : program) (f : file) (force_optional : bool) (fd : field) : result field :=
  t <- resolve_ty done f (fd_type fd) ;;
  d <- match fd_default fd with
       | Some c => c' <- resolve_cv fuel done f c ;; Ok (Some c')
       | None => Ok None
       end ;;
  Ok (Field (fd_id fd) (fd_name fd) (if force_optional then ReqOptional else fd_req fd) t d
            (fd_annos fd) (fd_comments fd)).

Definition is_union (s : struct_like) : bool :=
  match sl_category s with SKUnion => true | _ => false end.

Definition resolve_struct_like (fuel : nat) (done : program) (f : file) (s : struct_like) : result struct_like :=
  fs <- mapM (resolve_field fuel done f (is_union s)) (sl_fields s) ;;
  Ok (StructLike (sl_category s) (sl_name s) fs (sl_annos s) (sl_comments s)).

Definition resolve_function (fuel : nat) (done : program) (f : file) (fn : function) : result function :=
  rt <- (if fn_void fn then Ok (fn_type fn) else resolve_ty done f (fn_type fn)) ;;
  args <- mapM (resolve_field fuel done f false) (fn_args fn) ;;
  throws <- mapM (resolve_field fuel done f false) (fn_throws fn) ;;
  Ok (Function (fn_name fn) (fn_oneway fn) (fn_void fn) rt args throws (fn_annos fn) (fn_comments fn)).

(* ResolveBaseService *)
Definition resolve_base (done : program) (f : file) (sv : service) : result (option reference) :=
  match split_type (sv_extends sv) with
  | [a] =>
    match lookup a (n2c_of f) with
    | Some CatService => Ok None
    | _ => Error ErrBaseService
    end
  | [pre; m] =>
    match find_include done is_service_cat pre m (f_includes f) 0 with
    | Some (idx, _) => Ok (Some (Ref m (Z.of_nat idx)))
    | None => Error ErrBaseService
    end
  | _ => Ok None
  end.

Definition resolve_service (fuel : nat) (done : program) (f : file) (sv : service) : result service :=
  fns <- mapM (resolve_function fuel done f) (sv_functions sv) ;;
  r <- resolve_base done f sv ;;
  Ok (Service (sv_name sv) (sv_extends sv) fns (sv_annos sv) r (sv_comments sv)).

(* ---------------------------------------------------------------- ResolveTypedefs *)

(* one entry per local typedef: its alias, the LOCAL typedef its type names while
   that is still pending, and the current category of its type *)
Record tde := Tde { te_alias : bytes; te_local : option bytes; te_cat : category }.

(* category of the type of typedef [ref_name r] in the include [ref_index r] of [f] *)
Definition ext_typedef_cat (done : program) (f : file) (r : reference) : option category :=
  match reference_target done f r with
  | Some g =>
    match find_typedef g (ref_name r) with
    | Some td => Some (ty_category (td_type td))
    | None => None
    end
  | None => None
  end.

(* [td] has its type resolved by [resolve_ty].  A typedef of an included typedef takes
   that one's category at once: the included file is completely resolved (Go does the
   same copy in the first round). *)
Definition te_init (done : program) (f : file) (td : typedef) : tde :=
  let t := td_type td in
  if is_typedef_cat (ty_category t) then
    match ty_ref t with
    | Some r =>
      match ext_typedef_cat done f r with
      | Some c => Tde (td_alias td) None c
      | None => Tde (td_alias td) None CatTypedef
      end
    | None => Tde (td_alias td) (Some (ty_name t)) CatTypedef
    end
  else Tde (td_alias td) None (ty_category t).

Definition te_lookup (st : list tde) (a : bytes) : option category :=
  match find_by te_alias a st with Some e => Some (te_cat e) | None => None end.

(* ResolveTypedef on the type of a local typedef *)
Definition te_step (st : list tde) (e : tde) : tde :=
  if is_typedef_cat (te_cat e) then
    match te_local e with
    | Some a =>
      match te_lookup st a with
      | Some c => if is_typedef_cat c then e else Tde (te_alias e) (te_local e) c
      | None => e
      end
    | None => e
    end
  else e.

(* one round over all entries, in place: an entry sees the updates of the entries
   before it *)
Fixpoint te_round (pre rest : list tde) : list tde :=
  match rest with
  | [] => pre
  | e :: r => te_round (pre ++ [te_step (pre ++ e :: r) e]) r
  end.

Definition te_pending (st : list tde) : nat :=
  List.length (filter (fun e => is_typedef_cat (te_cat e)) st).

Fixpoint te_fix (fuel : nat) (st : list tde) : result (list tde) :=
  if te_pending st =? 0 then Ok st
  else
    match fuel with
    | O => Error ErrOutOfFuel
    | S k =>
      let st' := te_round [] st in
      if te_pending st' =? te_pending st then Error ErrTypedefUnresolved
      else te_fix k st'
    end.

(* second pass: an occurrence that names a typedef takes the final category *)
Fixpoint fix_ty (done : program) (f : file) (st : list tde) (t : ty) : result ty :=
  match t with
  | Ty n k v cpp an c r td =>
    k' <- match k with Some x => y <- fix_ty done f st x ;; Ok (Some y) | None => Ok None end ;;
    v' <- match v with Some x => y <- fix_ty done f st x ;; Ok (Some y) | None => Ok None end ;;
    if is_typedef_cat c then
      match (match r with
             | Some rf => ext_typedef_cat done f rf
             | None => te_lookup st n
             end) with
      | Some c' => if is_typedef_cat c' then Error ErrTypedefUnresolved
                   else Ok (Ty n k' v' cpp an c' r td)
      | None => Error ErrInternal
      end
    else Ok (Ty n k' v' cpp an c r td)
  end.

Definition fix_typedef done f st (td : typedef) : result typedef :=
  t <- fix_ty done f st (td_type td) ;; Ok (Typedef t (td_alias td) (td_annos td) (td_comments td)).
Definition fix_constant done f st (c : constant) : result constant :=
  t <- fix_ty done f st (co_type c) ;; Ok (Constant (co_name c) t (co_value c) (co_annos c) (co_comments c)).
Definition fix_field done f st (fd : field) : result field :=
  t <- fix_ty done f st (fd_type fd) ;;
  Ok (Field (fd_id fd) (fd_name fd) (fd_req fd) t (fd_default fd) (fd_annos fd) (fd_comments fd)).
Definition fix_struct_like done f st (s : struct_like) : result struct_like :=
  fs <- mapM (fix_field done f st) (sl_fields s) ;;
  Ok (StructLike (sl_category s) (sl_name s) fs (sl_annos s) (sl_comments s)).
Definition fix_function done f st (fn : function) : result function :=
  rt <- fix_ty done f st (fn_type fn) ;;
  args <- mapM (fix_field done f st) (fn_args fn) ;;
  throws <- mapM (fix_field done f st) (fn_throws fn) ;;
  Ok (Function (fn_name fn) (fn_oneway fn) (fn_void fn) rt args throws (fn_annos fn) (fn_comments fn)).
Definition fix_service done f st (sv : service) : result service :=
  fns <- mapM (fix_function done f st) (sv_functions sv) ;;
  Ok (Service (sv_name sv) (sv_extends sv) fns (sv_annos sv) (sv_ref sv) (sv_comments sv)).

(* ---------------------------------------------------------------- Include.Used *)

Definition ty_mark (t : ty) : list Z :=
  match ty_ref t with Some r => [ref_index r] | None => [] end.
Definition cv_mark (c : const_value) : list Z :=
  match c with
  | CIdent _ (Some e) => if (0 <=? ex_index e)%Z then [ex_index e] else []
  | _ => []
  end.
Definition sv_mark (s : service) : list Z :=
  match sv_ref s with Some r => [ref_index r] | None => [] end.

(* the include indices something of the (resolved) file refers through *)
Definition file_marks (f : file) : list Z :=
  flat_map' ty_mark (file_types f) ++ flat_map' cv_mark (file_const_values f) ++
  flat_map' sv_mark (f_services f).

Fixpoint mark_includes (marks : list Z) (incs : list include) (idx : nat) : list include :=
  match incs with
  | [] => []
  | i :: r =>
    Include (in_path i) (in_ref i)
            (if existsb (Z.eqb (Z.of_nat idx)) marks then Some true else in_used i)
    :: mark_includes marks r (S idx)
  end.

(* ---------------------------------------------------------------- one file *)

(* [done]: the resolved files so far; contains every include target of [f] *)
Definition resolve_file_in (done : program) (f : file) : result file :=
  n2c <- register (file_def_names f) [] ;;
  let f0 := with_name2cat f (Some n2c) in
  tds1 <- mapM (resolve_typedef done f0) (f_typedefs f) ;;
  let f1 := with_typedefs f0 tds1 in
  let fuel := enum_fuel done f1 in
  cs1 <- mapM (resolve_constant fuel done f1) (f_constants f) ;;
  ss1 <- mapM (resolve_struct_like fuel done f1) (f_structs f) ;;
  us1 <- mapM (resolve_struct_like fuel done f1) (f_unions f) ;;
  es1 <- mapM (resolve_struct_like fuel done f1) (f_exceptions f) ;;
  sv1 <- mapM (resolve_service fuel done f1) (f_services f) ;;
  st <- te_fix (S (List.length tds1)) (map (te_init done f1) tds1) ;;
  tds2 <- mapM (fix_typedef done f1 st) tds1 ;;
  cs2 <- mapM (fix_constant done f1 st) cs1 ;;
  ss2 <- mapM (fix_struct_like done f1 st) ss1 ;;
  us2 <- mapM (fix_struct_like done f1 st) us1 ;;
  es2 <- mapM (fix_struct_like done f1 st) es1 ;;
  sv2 <- mapM (fix_service done f1 st) sv1 ;;
  let f2 := File (f_filename f) (f_includes f) (f_cpp_includes f) (f_namespaces f)
                 tds2 cs2 (f_enums f) ss2 us2 es2 sv2 (Some n2c) in
  Ok (with_includes f2 (mark_includes (file_marks f2) (f_includes f) 0)).

(* ---------------------------------------------------------------- the program *)

(* depth-first over the include graph; [p] is the parsed program, [done] the files
   resolved so far (most recent first) *)
Fixpoint resolve_rec (fuel : nat) (p done : program) (fn : bytes) : result program :=
  match lookup fn done with
  | Some _ => Ok done
  | None =>
    match fuel with
    | O => Error ErrOutOfFuel
    | S k =>
      match prog_file p fn with
      | None => Error ErrNotParsed
      | Some f =>
        done1 <- (fix go (incs : list include) (d : program) : result program :=
                    match incs with
                    | [] => Ok d
                    | i :: r =>
                      match in_ref i with
                      | None => Error ErrNotParsed
                      | Some g => d' <- resolve_rec k p d g ;; go r d'
                      end
                    end) (f_includes f) done ;;
        match lookup fn done1 with
        | Some _ => Error ErrIncludeCycle
        | None => f' <- resolve_file_in done1 f ;; Ok ((fn, f') :: done1)
        end
      end
    end
  end.

(* ResolveSymbols on the main file of [p]: every file reachable from the main file
   is replaced by its resolved form, the order of [p] is kept *)
Definition resolve_program (p : program) : result program :=
  match p with
  | [] => Ok []
  | (mainfn, _) :: _ =>
    done <- resolve_rec (S (List.length p)) p [] mainfn ;;
    Ok (map (fun e => (fst e, match lookup (fst e) done with Some f' => f' | None => snd e end)) p)
  end.

(* ---------------------------------------------------------------- Deref *)

(* semantic.Deref on a resolved program: the file and the type a (possibly
   typedef'd, possibly external) type finally stands for *)
Fixpoint deref (fuel : nat) (p : program) (f : file) (t : ty) : result (file * ty) :=
  match fuel with
  | O => Error ErrOutOfFuel
  | S k =>
    match ty_ref t with
    | None =>
      match ty_is_typedef t with
      | Some true =>
        match find_typedef f (ty_name t) with
        | Some td => deref k p f (td_type td)
        | None => Error ErrInternal
        end
      | _ => Ok (f, t)
      end
    | Some r =>
      match reference_target p f r with
      | None => Error ErrInternal
      | Some g =>
        match f_name2cat g with
        | None => Error ErrInternal
        | Some m =>
          match lookup (ref_name r) m with
          | Some CatTypedef =>
            match find_typedef g (ref_name r) with
            | Some td => deref k p g (td_type td)
            | None => Error ErrInternal
            end
          | Some c =>
            match c with
            | CatEnum | CatStruct | CatUnion | CatException =>
              Ok (g, Ty (ref_name r) None None [] [] c None None)
            | _ => Error ErrInternal
            end
          | None => Error ErrInternal
          end
        end
      end
    end
  end.

Definition deref_fuel (p : program) : nat := prog_typedef_count p + 2.
