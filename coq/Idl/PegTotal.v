(* Idl/PegTotal.v — a well-formed parsing expression grammar terminates on every input
   (B. Ford, POPL 2004, section 3.6), for the syntax, the check [wf_peg] and the fuelled
   interpreter [run] of Idl/Peg.v:

     peg_total : wf_peg g = true -> forall s, exists n, run n g (PNT 0) s <> RFuel.

   Ingredients: the interpreter is monotone in its fuel; a successful run returns a suffix
   of its input; the behaviour table checked by [wf_peg] is a sound over-approximation of
   what expressions can do (succeed without consuming, succeed consuming, fail); then
   induction on the length of the input, on the round of the well-formedness iteration in
   which a rule was accepted (its rank: no left recursion), and on the expression. *)
From Coq Require Import List Bool NArith Arith Lia.
From Coq.Strings Require Import Byte.
From Verif Require Import Base.Bytes Idl.Peg.
Import ListNotations.

Lemma run_S f g e s :
  run (S f) g e s =
  match e with
  | PEps => ROk s
  | PAny => match s with _ :: r => ROk r | [] => RFail end
  | PChar c => match s with d :: r => if Byte.eqb c d then ROk r else RFail | [] => RFail end
  | PRange lo hi =>
    match s with
    | d :: r => if (N.leb (Byte.to_N lo) (Byte.to_N d) && N.leb (Byte.to_N d) (Byte.to_N hi))%bool then ROk r else RFail
    | [] => RFail
    end
  | PLit t => if is_prefix t s then ROk (skipn (List.length t) s) else RFail
  | PNT n => run f g (rule_body g n) s
  | PSeq a b => match run f g a s with ROk r => run f g b r | x => x end
  | PAlt a b => match run f g a s with RFail => run f g b s | x => x end
  | PStar a => match run f g a s with
               | ROk r => run f g (PStar a) r
               | RFail => ROk s
               | RFuel => RFuel
               end
  | PPlus a => match run f g a s with ROk r => run f g (PStar a) r | x => x end
  | POpt a => match run f g a s with RFail => ROk s | x => x end
  | PNot a => match run f g a s with ROk _ => RFail | RFail => ROk s | RFuel => RFuel end
  | PAnd a => match run f g a s with ROk _ => ROk s | x => x end
  | PCap a => run f g a s
  end.
Proof. destruct e; reflexivity. Qed.

Lemma run_mono g : forall n e s, run n g e s <> RFuel -> forall m, n <= m -> run m g e s = run n g e s.
Proof.
  induction n as [|n IH]; intros e s H m Hm; [exfalso; apply H; reflexivity|].
  destruct m as [|m]; [lia|]. assert (Hnm : n <= m) by lia.
  rewrite run_S in H. rewrite !run_S.
  (* the first sub-run does not exhaust n either, or the whole run would *)
  assert (K : forall a, run n g a s <> RFuel -> run m g a s = run n g a s) by (intros; apply IH; assumption).
  (* terminals do not recurse ([reflexivity]); PNT and PCap make one recursive run on the
     same input ([IH]); every other form starts with a run of a sub-expression on s: rewrite
     that run with K and split on its result, which ends the run or is followed by a second
     run ([IH]) *)
  destruct e; try reflexivity; try (apply IH; assumption);
    (rewrite K by (intro E; rewrite E in H; apply H; reflexivity));
    destruct (run n g _ s); first [reflexivity | apply IH; assumption].
Qed.

Lemma skipn_suffix {A} n (s : list A) : exists p, s = p ++ skipn n s.
Proof. exists (firstn n s). symmetry. apply firstn_skipn. Qed.

Lemma run_suffix g : forall n e s r, run n g e s = ROk r -> exists p, s = p ++ r.
Proof.
  induction n as [|n IH]; intros e s r H; [discriminate|].
  rewrite run_S in H. destruct e.
  - injection H as <-. exists []. reflexivity.
  - destruct s as [|c s']; [discriminate|]. injection H as <-. exists [c]. reflexivity.
  - destruct s as [|d s']; [discriminate|]. destruct (Byte.eqb c d); [|discriminate]. injection H as <-. exists [d]. reflexivity.
  - destruct s as [|d s']; [discriminate|].
    destruct (N.leb (Byte.to_N lo) (Byte.to_N d) && N.leb (Byte.to_N d) (Byte.to_N hi))%bool; [|discriminate].
    injection H as <-. exists [d]. reflexivity.
  - destruct (is_prefix s0 s); [|discriminate]. injection H as <-. apply skipn_suffix.
  - apply (IH _ _ _ H).
  - destruct (run n g e1 s) as [r1| |] eqn:E1; try discriminate.
    destruct (IH _ _ _ E1) as (p1 & ->). destruct (IH _ _ _ H) as (p2 & ->).
    exists (p1 ++ p2). rewrite app_assoc. reflexivity.
  - destruct (run n g e1 s) as [r1| |] eqn:E1; try discriminate.
    + injection H as <-. apply (IH _ _ _ E1).
    + apply (IH _ _ _ H).
  - destruct (run n g e s) as [r1| |] eqn:E1; try discriminate.
    + destruct (IH _ _ _ E1) as (p1 & ->). destruct (IH _ _ _ H) as (p2 & ->).
      exists (p1 ++ p2). rewrite app_assoc. reflexivity.
    + injection H as <-. exists []. reflexivity.
  - destruct (run n g e s) as [r1| |] eqn:E1; try discriminate.
    destruct (IH _ _ _ E1) as (p1 & ->). destruct (IH _ _ _ H) as (p2 & ->).
    exists (p1 ++ p2). rewrite app_assoc. reflexivity.
  - destruct (run n g e s) as [r1| |] eqn:E1; try discriminate.
    + injection H as <-. apply (IH _ _ _ E1).
    + injection H as <-. exists []. reflexivity.
  - destruct (run n g e s) as [r1| |] eqn:E1; try discriminate. injection H as <-. exists []. reflexivity.
  - destruct (run n g e s) as [r1| |] eqn:E1; try discriminate. injection H as <-. exists []. reflexivity.
  - apply (IH _ _ _ H).
Qed.

Lemma run_length g n e s r : run n g e s = ROk r -> List.length r <= List.length s.
Proof. intro H. destruct (run_suffix g n e s r H) as (p & ->). rewrite app_length. lia. Qed.

Lemma len_eq_trans (a b c : bytes) :
  List.length c <= List.length b -> List.length b <= List.length a ->
  (List.length c =? List.length a) = ((List.length c =? List.length b) && (List.length b =? List.length a)).
Proof.
  intros H1 H2. destruct (List.length c =? List.length a) eqn:E.
  - apply Nat.eqb_eq in E. symmetry. apply andb_true_iff. split; apply Nat.eqb_eq; lia.
  - apply Nat.eqb_neq in E. symmetry. apply andb_false_iff.
    destruct (List.length c =? List.length b) eqn:E1; [|left; reflexivity].
    right. apply Nat.eqb_eq in E1. apply Nat.eqb_neq. lia.
Qed.

Section Sound.
  Variable g : grammar.
  Variable tbl : list behav.
  Hypothesis Htbl : forall k, k < List.length g -> nth k tbl behav_none = behav_of tbl (rule_body g k).
  Hypothesis Hrefs : forall k, k < List.length g -> refs_ok (List.length g) (rule_body g k) = true.

  Definition sound_res (e : pexp) (s : bytes) (x : res) : Prop :=
    match x with
    | ROk r => if List.length r =? List.length s then b0 (behav_of tbl e) = true else b1 (behav_of tbl e) = true
    | RFail => bf (behav_of tbl e) = true
    | RFuel => True
    end.


  Lemma sound_stay e s : b0 (behav_of tbl e) = true -> sound_res e s (ROk s).
  Proof. intro H. unfold sound_res. rewrite Nat.eqb_refl. exact H. Qed.

  Lemma sound_consume e s r : List.length r < List.length s -> b1 (behav_of tbl e) = true -> sound_res e s (ROk r).
  Proof.
    intros Hl H. unfold sound_res. destruct (List.length r =? List.length s) eqn:E; [|exact H].
    apply Nat.eqb_eq in E. lia.
  Qed.

  Ltac bool_close :=
    cbn [andb orb negb];
    repeat match goal with
           | |- context [b0 ?x] => destruct (b0 x)
           | |- context [b1 ?x] => destruct (b1 x)
           | |- context [bf ?x] => destruct (bf x)
           end; try reflexivity; try discriminate.

  Lemma behav_sound : forall n e s, refs_ok (List.length g) e = true -> sound_res e s (run n g e s).
  Proof.
    induction n as [|n IH]; intros e s Hr; [exact I|].
    rewrite run_S. destruct e; cbn [refs_ok] in Hr.
    - apply sound_stay. reflexivity.
    - destruct s as [|c s']; [reflexivity|]. apply sound_consume; [cbn; lia | reflexivity].
    - destruct s as [|d s']; [reflexivity|]. destruct (Byte.eqb c d); [|reflexivity].
      apply sound_consume; [cbn; lia | reflexivity].
    - destruct s as [|d s']; [reflexivity|].
      destruct (N.leb (Byte.to_N lo) (Byte.to_N d) && N.leb (Byte.to_N d) (Byte.to_N hi))%bool; [|reflexivity].
      apply sound_consume; [cbn; lia | reflexivity].
    - destruct (is_prefix s0 s) eqn:Ep.
      + destruct s0 as [|c0 s0'].
        * apply sound_stay. reflexivity.
        * apply is_prefix_spec in Ep. destruct Ep as (r & ->).
          replace (skipn (List.length (c0 :: s0')) ((c0 :: s0') ++ r)) with r
            by (rewrite skipn_app, skipn_all, Nat.sub_diag; reflexivity).
          apply sound_consume; [rewrite app_length; cbn; lia | reflexivity].
      + unfold sound_res. cbn [behav_of]. destruct s0; [discriminate | reflexivity].
    - (* nonterminal *)
      apply Nat.ltb_lt in Hr. specialize (IH (rule_body g n0) s (Hrefs n0 Hr)).
      unfold sound_res in *. cbn [behav_of]. rewrite (Htbl n0 Hr). exact IH.
    - (* sequence *)
      apply andb_true_iff in Hr. destruct Hr as [Hr1 Hr2].
      assert (I1 := IH e1 s Hr1). destruct (run n g e1 s) as [r1| |] eqn:E1.
      + assert (I2 := IH e2 r1 Hr2). destruct (run n g e2 r1) as [r2| |] eqn:E2; [| |exact I].
        * unfold sound_res in *. cbn [behav_of b0 b1].
          assert (L1 := run_length _ _ _ _ _ E1). assert (L2 := run_length _ _ _ _ _ E2).
          rewrite (len_eq_trans s r1 r2 L2 L1).
          destruct (List.length r2 =? List.length r1); destruct (List.length r1 =? List.length s); cbn [andb];
            rewrite I1, I2; bool_close.
        * unfold sound_res in *. cbn [behav_of bf].
          destruct (List.length r1 =? List.length s); rewrite I1, I2; bool_close.
      + unfold sound_res in *. cbn [behav_of bf]. rewrite I1. reflexivity.
      + exact I.
    - (* choice *)
      apply andb_true_iff in Hr. destruct Hr as [Hr1 Hr2].
      assert (I1 := IH e1 s Hr1). destruct (run n g e1 s) as [r1| |] eqn:E1.
      + unfold sound_res in *. cbn [behav_of b0 b1].
        destruct (List.length r1 =? List.length s); rewrite I1; reflexivity.
      + assert (I2 := IH e2 s Hr2). destruct (run n g e2 s) as [r2| |] eqn:E2; [| |exact I].
        * unfold sound_res in *. cbn [behav_of b0 b1].
          destruct (List.length r2 =? List.length s); rewrite I1, I2; bool_close.
        * unfold sound_res in *. cbn [behav_of bf]. rewrite I1, I2. reflexivity.
      + exact I.
    - (* star *)
      assert (I1 := IH e s Hr). destruct (run n g e s) as [r1| |] eqn:E1.
      + assert (I2 := IH (PStar e) r1 Hr). destruct (run n g (PStar e) r1) as [r2| |] eqn:E2; [| |exact I].
        * unfold sound_res in *. cbn [behav_of b0 b1 bf] in *.
          assert (L1 := run_length _ _ _ _ _ E1). assert (L2 := run_length _ _ _ _ _ E2).
          rewrite (len_eq_trans s r1 r2 L2 L1).
          destruct (List.length r2 =? List.length r1); destruct (List.length r1 =? List.length s); cbn [andb].
          -- exact I2.
          -- rewrite I1, I2. reflexivity.
          -- exact I2.
          -- exact I2.
        * unfold sound_res in I2. cbn [behav_of bf] in I2. discriminate.
      + apply sound_stay. exact I1.
      + exact I.
    - (* plus *)
      assert (I1 := IH e s Hr). destruct (run n g e s) as [r1| |] eqn:E1.
      + assert (I2 := IH (PStar e) r1 Hr). destruct (run n g (PStar e) r1) as [r2| |] eqn:E2; [| |exact I].
        * unfold sound_res in *. cbn [behav_of b0 b1 bf] in *.
          assert (L1 := run_length _ _ _ _ _ E1). assert (L2 := run_length _ _ _ _ _ E2).
          rewrite (len_eq_trans s r1 r2 L2 L1).
          destruct (List.length r2 =? List.length r1); destruct (List.length r1 =? List.length s); cbn [andb].
          -- exact I1.
          -- exact I1.
          -- apply andb_true_iff in I2. tauto.
          -- exact I1.
        * unfold sound_res in I2. cbn [behav_of bf] in I2. discriminate.
      + unfold sound_res in *. cbn [behav_of bf]. exact I1.
      + exact I.
    - (* option *)
      assert (I1 := IH e s Hr). destruct (run n g e s) as [r1| |] eqn:E1.
      + unfold sound_res in *. cbn [behav_of b0 b1].
        destruct (List.length r1 =? List.length s); rewrite I1; bool_close.
      + unfold sound_res in *. cbn [behav_of b0]. rewrite Nat.eqb_refl, I1. bool_close.
      + exact I.
    - (* not *)
      assert (I1 := IH e s Hr). destruct (run n g e s) as [r1| |] eqn:E1.
      + unfold sound_res in *. cbn [behav_of bf].
        destruct (List.length r1 =? List.length s); rewrite I1; bool_close.
      + apply sound_stay. exact I1.
      + exact I.
    - (* and *)
      assert (I1 := IH e s Hr). destruct (run n g e s) as [r1| |] eqn:E1.
      + unfold sound_res in *. cbn [behav_of b0]. rewrite Nat.eqb_refl.
        destruct (List.length r1 =? List.length s); rewrite I1; bool_close.
      + unfold sound_res in *. cbn [behav_of bf]. exact I1.
      + exact I.
    - (* capture *)
      apply (IH e s Hr).
  Qed.

  Lemma consumes_when_not_nullable n e s r :
    refs_ok (List.length g) e = true -> b0 (behav_of tbl e) = false -> run n g e s = ROk r ->
    List.length r < List.length s.
  Proof.
    intros Hr Hb E. assert (H := behav_sound n e s Hr). rewrite E in H. unfold sound_res in H.
    assert (L := run_length _ _ _ _ _ E).
    destruct (List.length r =? List.length s) eqn:El; [congruence|]. apply Nat.eqb_neq in El. lia.
  Qed.

  Lemma nullable_when_no_progress n e s r :
    refs_ok (List.length g) e = true -> run n g e s = ROk r -> List.length r = List.length s ->
    b0 (behav_of tbl e) = true.
  Proof.
    intros Hr E El. assert (H := behav_sound n e s Hr). rewrite E in H. unfold sound_res in H.
    rewrite El, Nat.eqb_refl in H. exact H.
  Qed.
End Sound.

Lemma iterate_S {A} (f : A -> A) : forall k x, iterate (S k) f x = f (iterate k f x).
Proof. induction k as [|k IH]; intro x; [reflexivity|]. cbn [iterate] in *. rewrite <- IH. reflexivity. Qed.

Lemma wf_deep_exp tbl W : forall e, wf_deep tbl W e = true -> wf_exp tbl W e = true.
Proof.
  induction e; cbn [wf_deep wf_exp]; intro H; try reflexivity; try assumption.
  - apply andb_true_iff in H. destruct H as [H1 H2]. rewrite (IHe1 H1). cbn.
    destruct (b0 (behav_of tbl e1)); [apply IHe2; exact H2 | reflexivity].
  - apply andb_true_iff in H. destruct H as [H1 H2]. rewrite (IHe1 H1), (IHe2 H2). reflexivity.
  - apply andb_true_iff in H. destruct H as [H1 H2]. rewrite (IHe H1), H2. reflexivity.
  - apply andb_true_iff in H. destruct H as [H1 H2]. rewrite (IHe H1), H2. reflexivity.
  - apply IHe. exact H.
  - apply IHe. exact H.
  - apply IHe. exact H.
  - apply IHe. exact H.
Qed.

Lemma nth_map_false {A} (l : list A) : forall k, nth k (map (fun _ => false) l) false = false.
Proof. induction l as [|x l IH]; intros [|k]; cbn; try reflexivity. apply IH. Qed.

Lemma behav_eqb_eq x y : behav_eqb x y = true -> x = y.
Proof.
  destruct x as [a1 a2 a3], y as [c1 c2 c3]. unfold behav_eqb. cbn. intro H.
  apply andb_true_iff in H. destruct H as [H H3]. apply andb_true_iff in H. destruct H as [H1 H2].
  apply eqb_prop in H1, H2, H3. subst. reflexivity.
Qed.

Section Total.
  Variable g : grammar.
  Hypothesis Hwf : wf_peg g = true.

  Let len := List.length g.
  Let tbl := behav_table g.
  Let WK := wf_set g.
  Let W (k : nat) := iterate k (wf_step g tbl) (map (fun _ => false) g).
  Let d0 : bytes * pexp := ([], PEps).

  Lemma rule_body_nth k : k < len -> rule_body g k = snd (nth k g d0).
  Proof.
    intro Hk. unfold rule_body. destruct (nth_error g k) as [[nm e]|] eqn:E.
    - rewrite (nth_error_nth _ _ _ E). reflexivity.
    - apply nth_error_None in E. unfold len in Hk. lia.
  Qed.

  Lemma wf_parts :
    forallb (fun r => refs_ok len (snd r)) g = true /\ behav_table_stable g = true /\
    forallb (fun b => b) WK = true /\ forallb (fun r => wf_deep tbl WK (snd r)) g = true.
  Proof.
    unfold wf_peg in Hwf. apply andb_true_iff in Hwf. destruct Hwf as [H H4].
    apply andb_true_iff in H. destruct H as [H H3]. apply andb_true_iff in H. destruct H as [H1 H2].
    repeat split; assumption.
  Qed.

  Lemma rules_refs_ok : forall k, k < len -> refs_ok len (rule_body g k) = true.
  Proof.
    intros k Hk. destruct wf_parts as (H1 & _). rewrite forallb_forall in H1.
    rewrite (rule_body_nth k Hk). apply H1. apply nth_In. exact Hk.
  Qed.

  Lemma rules_wf_deep : forall k, k < len -> wf_deep tbl WK (rule_body g k) = true.
  Proof.
    intros k Hk. destruct wf_parts as (_ & _ & _ & H4). rewrite forallb_forall in H4.
    rewrite (rule_body_nth k Hk). apply H4. apply nth_In. exact Hk.
  Qed.


  Lemma table_fixpoint : forall k, k < len -> nth k tbl behav_none = behav_of tbl (rule_body g k).
  Proof.
    intros k Hk. destruct wf_parts as (_ & H2 & _). unfold behav_table_stable in H2. fold tbl in H2.
    assert (E : tbl = behav_step g tbl).
    { revert H2. generalize (behav_step g tbl). generalize tbl.
      intro t1. induction t1 as [|x a IH]; intros [|y c] H; try discriminate; [reflexivity|].
      apply andb_true_iff in H. destruct H as [Hx Hr]. rewrite (behav_eqb_eq _ _ Hx), (IH c Hr). reflexivity. }
    rewrite E at 1. unfold behav_step.
    rewrite (nth_indep _ behav_none (behav_of tbl (snd d0))) by (rewrite map_length; exact Hk).
    rewrite (map_nth (fun r => behav_of tbl (snd r))). rewrite <- (rule_body_nth k Hk). reflexivity.
  Qed.

  Lemma WK_all : forall k, k < len -> nth k WK false = true.
  Proof.
    intros k Hk. destruct wf_parts as (_ & _ & H3 & _). rewrite forallb_forall in H3.
    apply H3. apply nth_In. unfold WK, wf_set.
    assert (Hl : forall n x, List.length x = len -> List.length (iterate n (wf_step g (behav_table g)) x) = len).
    { induction n as [|n IH]; intros x Hx; [exact Hx|]. cbn [iterate]. apply IH. unfold wf_step. rewrite map_length. reflexivity. }
    rewrite Hl; [exact Hk | rewrite map_length; reflexivity].
  Qed.

  Lemma W_0 k : nth k (W 0) false = false.
  Proof.
    unfold W. cbn [iterate]. apply nth_map_false.
  Qed.

  Lemma W_S k A : A < len -> nth A (W (S k)) false = wf_exp tbl (W k) (rule_body g A).
  Proof.
    intro HA. unfold W. rewrite iterate_S. fold (W k). unfold wf_step.
    rewrite (nth_indep _ false (wf_exp tbl (W k) (snd d0))) by (rewrite map_length; exact HA).
    rewrite (map_nth (fun r => wf_exp tbl (W k) (snd r))). rewrite <- (rule_body_nth A HA). reflexivity.
  Qed.

  Lemma WK_is_W : WK = W (len + 1).
  Proof. reflexivity. Qed.

  Definition term (e : pexp) (s : bytes) : Prop := exists n, run n g e s <> RFuel.

  (* a run of E starts with a run of a and, where that leaves r, goes on as a run of b on r *)
  Lemma term_then E a b s onfail :
    (forall f, run (S f) g E s =
               match run f g a s with ROk r => run f g b r | RFail => onfail | RFuel => RFuel end) ->
    onfail <> RFuel -> term a s -> (forall n r, run n g a s = ROk r -> term b r) -> term E s.
  Proof.
    intros Hstep Hof (n1 & H1) Hb. assert (M1 := run_mono g n1 a s H1).
    destruct (run n1 g a s) as [r1| |] eqn:E1; [| |contradiction].
    - destruct (Hb n1 r1 E1) as (n2 & H2).
      exists (S (Nat.max n1 n2)). rewrite Hstep, M1, (run_mono g n2 b r1 H2 (Nat.max n1 n2)) by lia. exact H2.
    - exists (S n1). rewrite Hstep, E1. exact Hof.
  Qed.

  Section OneInput.
    Variable s : bytes.
    Hypothesis IHshort : forall r, List.length r < List.length s ->
      forall e, refs_ok len e = true -> wf_deep tbl WK e = true -> term e r.

    Lemma term_struct (W' : list bool) :
      (forall A, A < len -> nth A W' false = true -> term (rule_body g A) s) ->
      forall e, refs_ok len e = true -> wf_exp tbl W' e = true -> wf_deep tbl WK e = true -> term e s.
    Proof.
      intro Hnt. induction e; cbn [refs_ok wf_exp wf_deep]; intros Hr Hw Hd.
      - exists 1. discriminate.
      - exists 1. rewrite run_S. destruct s; discriminate.
      - exists 1. rewrite run_S. destruct s as [|d s']; [discriminate|]. destruct (Byte.eqb c d); discriminate.
      - exists 1. rewrite run_S. destruct s as [|d s']; [discriminate|].
        destruct (N.leb (Byte.to_N lo) (Byte.to_N d) && N.leb (Byte.to_N d) (Byte.to_N hi))%bool; discriminate.
      - exists 1. rewrite run_S. destruct (is_prefix s0 s); discriminate.
      - apply Nat.ltb_lt in Hr. destruct (Hnt n Hr Hw) as (m & Hm). exists (S m). rewrite run_S. exact Hm.
      - (* sequence *)
        apply andb_true_iff in Hr. destruct Hr as [Hr1 Hr2].
        apply andb_true_iff in Hw. destruct Hw as [Hw1 Hw2].
        apply andb_true_iff in Hd. destruct Hd as [Hd1 Hd2].
        apply (term_then _ e1 e2 s RFail); [intro; reflexivity | discriminate | apply IHe1; assumption |].
        intros n1 r1 E1. assert (L1 := run_length _ _ _ _ _ E1).
        destruct (Nat.eq_dec (List.length r1) (List.length s)) as [El|Hne].
        + (* no progress: e1 is nullable, so e2 is well formed at this rank, and r1 = s *)
          assert (Hb : b0 (behav_of tbl e1) = true)
            by (apply (nullable_when_no_progress g tbl table_fixpoint rules_refs_ok n1 e1 s r1 Hr1 E1 El)).
          rewrite Hb in Hw2.
          destruct (run_suffix _ _ _ _ _ E1) as (p & Ep).
          assert (p = []) by (destruct p; [reflexivity | rewrite Ep, app_length in El; cbn in El; lia]).
          subst p. cbn in Ep. subst r1. apply IHe2; assumption.
        + apply IHshort; [lia | exact Hr2 | exact Hd2].
      - (* choice *)
        apply andb_true_iff in Hr. destruct Hr as [Hr1 Hr2].
        apply andb_true_iff in Hw. destruct Hw as [Hw1 Hw2].
        apply andb_true_iff in Hd. destruct Hd as [Hd1 Hd2].
        destruct (IHe1 Hr1 Hw1 Hd1) as (n1 & H1). destruct (IHe2 Hr2 Hw2 Hd2) as (n2 & H2).
        exists (S (Nat.max n1 n2)). rewrite run_S.
        rewrite (run_mono g n1 e1 s H1 (Nat.max n1 n2)) by lia.
        destruct (run n1 g e1 s) as [r1| |] eqn:E1; [discriminate | | contradiction].
        rewrite (run_mono g n2 e2 s H2 (Nat.max n1 n2)) by lia. exact H2.
      - (* star: every round consumes, so what is left is shorter *)
        apply andb_true_iff in Hw. destruct Hw as [Hw1 Hnb]. apply negb_true_iff in Hnb.
        apply (term_then _ e (PStar e) s (ROk s)); [intro; reflexivity | discriminate | |].
        + apply andb_true_iff in Hd. destruct Hd as [Hd1 _]. apply IHe; assumption.
        + intros n1 r1 E1. apply IHshort; [|exact Hr|exact Hd].
          apply (consumes_when_not_nullable g tbl table_fixpoint rules_refs_ok n1 e s r1 Hr Hnb E1).
      - (* plus: every round consumes, so what is left is shorter *)
        apply andb_true_iff in Hw. destruct Hw as [Hw1 Hnb]. apply negb_true_iff in Hnb.
        apply (term_then _ e (PStar e) s RFail); [intro; reflexivity | discriminate | |].
        + apply andb_true_iff in Hd. destruct Hd as [Hd1 _]. apply IHe; assumption.
        + intros n1 r1 E1. apply IHshort; [|exact Hr|exact Hd].
          apply (consumes_when_not_nullable g tbl table_fixpoint rules_refs_ok n1 e s r1 Hr Hnb E1).
      - destruct (IHe Hr Hw Hd) as (n1 & H1). exists (S n1). rewrite run_S.
        destruct (run n1 g e s); [discriminate | discriminate | contradiction].
      - destruct (IHe Hr Hw Hd) as (n1 & H1). exists (S n1). rewrite run_S.
        destruct (run n1 g e s); [discriminate | discriminate | contradiction].
      - destruct (IHe Hr Hw Hd) as (n1 & H1). exists (S n1). rewrite run_S.
        destruct (run n1 g e s); [discriminate | discriminate | contradiction].
      - destruct (IHe Hr Hw Hd) as (n1 & H1). exists (S n1). rewrite run_S. exact H1.
    Qed.

    (* rules by rank: the round in which the well-formedness iteration accepted them *)
    Lemma term_rank : forall k A, A < len -> nth A (W k) false = true -> term (rule_body g A) s.
    Proof.
      induction k as [|k IH]; intros A HA Hn.
      - rewrite W_0 in Hn. discriminate.
      - rewrite (W_S k A HA) in Hn.
        apply (term_struct (W k) IH (rule_body g A) (rules_refs_ok A HA) Hn (rules_wf_deep A HA)).
    Qed.

    Lemma term_here e : refs_ok len e = true -> wf_deep tbl WK e = true -> term e s.
    Proof.
      intros Hr Hd. apply (term_struct WK); [| exact Hr | apply wf_deep_exp; exact Hd | exact Hd].
      intros A HA _. apply (term_rank (len + 1) A HA). rewrite <- WK_is_W. apply WK_all. exact HA.
    Qed.
  End OneInput.

  Lemma term_all : forall L s, List.length s <= L ->
    forall e, refs_ok len e = true -> wf_deep tbl WK e = true -> term e s.
  Proof.
    induction L as [L IHL] using lt_wf_ind. intros s Hs e Hr Hd.
    apply term_here; [|exact Hr | exact Hd].
    intros r Hlt e' Hr' Hd'. apply (IHL (List.length r)); [lia | lia | exact Hr' | exact Hd'].
  Qed.
End Total.

(* peg_total: a grammar that passes Ford's well-formedness check never runs out of (enough)
   fuel: parsing terminates on every input *)
Theorem peg_total : forall g, wf_peg g = true -> forall s, exists n, run n g (PNT 0) s <> RFuel.
Proof.
  intros g Hwf s. destruct g as [|r0 g'] eqn:Eg.
  - exists 3. cbn. discriminate.
  - rewrite <- Eg in *. assert (H0 : 0 < List.length g) by (rewrite Eg; cbn; lia).
    apply (term_all g Hwf (List.length s) s (le_n _) (PNT 0)).
    + cbn [refs_ok]. apply Nat.ltb_lt. exact H0.
    + cbn [wf_deep]. apply (WK_all g Hwf). exact H0.
Qed.
