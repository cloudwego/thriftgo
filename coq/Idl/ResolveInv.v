(* Idl/ResolveInv.v — the invariant that ties resolved files to the parsed program,
   and the bridge from the model's lookups to the declarative specification. *)
From Coq Require Import List Lia ZArith.
From Verif Require Import Base.Bytes Idl.Ast Idl.AstUtil Idl.AstFacts Idl.Resolve Idl.ResolveSpec Idl.ResolveTd Idl.ResolveLemmas.
Import ListNotations.
Local Open Scope resolve_scope.

(* everything the property says about one resolved type occurrence [t] of file [fn] *)
Definition occ_good (p : program) (fn : bytes) (f : file) (t : ty) : Prop :=
  match builtin_category (ty_name t) with
  | Some c => ty_category t = c /\ ty_ref t = None /\ ty_is_typedef t = None
  | None =>
    match split_type (ty_name t) with
    | [a] => exists k d, def_of p fn a = Some k /\ is_type_kind k = true /\ def_denotes p fn a d /\
               ty_category t = kind d /\ ty_ref t = None /\ ty_is_typedef t = typedef_flag (dkind_cat k)
    | [pre; m] => exists i gn k d,
               spec_include p is_type_kind pre m (file_incs f) 0 = Some (i, gn) /\
               def_of p gn m = Some k /\ def_denotes p gn m d /\ ty_category t = kind d /\
               ty_ref t = Some (Ref m (Z.of_nat i)) /\ ty_is_typedef t = typedef_flag (dkind_cat k)
    | _ => False
    end
  end.

Definition inc_key (i : include) : bytes * option bytes := (idl_prefix (in_path i), in_ref i).

Record good (p done : program) (gn : bytes) (g g' : file) : Prop := {
  gd_nodup : NoDup (map fst (file_defs g));
  gd_n2c : forall n, lookup n (n2c_of g') = option_map dkind_cat (lookup n (file_defs g));
  gd_resolved : f_name2cat g' <> None;
  gd_incs : map (fun i => (in_path i, in_ref i)) (f_includes g') = map (fun i => (in_path i, in_ref i)) (f_includes g);
  gd_targets : forall i, In i (f_includes g) -> exists hn, in_ref i = Some hn /\ lookup hn done <> None;
  gd_enums : f_enums g' = f_enums g;
  gd_tds : Forall2 (fun td td' => td_alias td' = td_alias td /\ ty_name (td_type td') = ty_name (td_type td))
                   (f_typedefs g) (f_typedefs g');
  gd_occs : Forall (occ_good p gn g) (file_occs g');
  gd_used : f_includes g' = mark_includes (file_marks g') (f_includes g) 0;
  gd_consts : plain_names p = true -> Forall (cv_bound p gn) (file_const_values g') }.

Definition inv (p done : program) : Prop :=
  forall gn g', lookup gn done = Some g' -> exists g, prog_file p gn = Some g /\ good p done gn g g'.

Lemma def_of_file p fn f n : prog_file p fn = Some f -> def_of p fn n = lookup n (file_defs f).
Proof. unfold def_of. intros ->. reflexivity. Qed.

Lemma dkind_typedef k : dkind_cat k = CatTypedef -> exists tgt, k = DkTypedef tgt.
Proof. destruct k as [t| |vs|s|]; cbn; try discriminate; [eauto | destruct s; discriminate]. Qed.

Lemma dkind_type_nontypedef k :
  is_type_cat (dkind_cat k) = true -> is_typedef_cat (dkind_cat k) = false ->
  (exists vs, k = DkEnum vs) \/ (exists s, k = DkStruct s).
Proof. destruct k as [t| |vs|s|]; cbn; try discriminate; eauto. Qed.

Lemma nth_include_nat f i : nth_include f (Z.of_nat i) = nth_error (f_includes f) i.
Proof.
  unfold nth_include. destruct (Z.of_nat i <? 0)%Z eqn:E; [apply Z.ltb_lt in E; lia|].
  rewrite Nat2Z.id. reflexivity.
Qed.

Lemma spec_include_nth p ok pre m : forall incs idx i gn,
  spec_include p ok pre m incs idx = Some (i, gn) ->
  idx <= i /\ nth_error incs (i - idx) = Some (pre, Some gn) /\
  exists k, def_of p gn m = Some k /\ ok k = true.
Proof.
  induction incs as [|[pre' ref] incs IH]; intros idx i gn H; cbn [spec_include] in H; [discriminate|].
  assert (Hnext : spec_include p ok pre m incs (S idx) = Some (i, gn) ->
                  idx <= i /\ nth_error ((pre', ref) :: incs) (i - idx) = Some (pre, Some gn) /\
                  exists k, def_of p gn m = Some k /\ ok k = true).
  { intros Hn. destruct (IH _ _ _ Hn) as (Hle & Hnth & Hk). split; [lia|]. split; [|exact Hk].
    replace (i - idx) with (S (i - S idx)) by lia. exact Hnth. }
  destruct (beqb pre' pre) eqn:Ep; [|auto]. destruct ref as [hn|]; [|auto].
  destruct (def_of p hn m) as [k|] eqn:Dk; [|auto]. destruct (ok k) eqn:Ok; [|auto].
  injection H as <- <-. apply beqb_true in Ep. subst. split; [lia|]. rewrite Nat.sub_diag. cbn. eauto.
Qed.

Lemma include_target_done done i hn : in_ref i = Some hn -> include_target done i = lookup hn done.
Proof. unfold include_target, prog_file. intros ->. reflexivity. Qed.

Lemma find_include_eq p done (okc : category -> bool) (okk : dkind -> bool) pre m :
  inv p done -> (forall k, okk k = okc (dkind_cat k)) ->
  forall incs idx,
  (forall x, In x incs -> exists hn, in_ref x = Some hn /\ lookup hn done <> None) ->
  find_include done okc pre m incs idx =
  match spec_include p okk pre m (map inc_key incs) idx with
  | Some (i, gn) => option_map (fun k => (i, dkind_cat k)) (def_of p gn m)
  | None => None
  end.
Proof.
  intros Hinv Hok. induction incs as [|x incs IH]; intros idx Hin; cbn [find_include map spec_include]; [reflexivity|].
  unfold inc_key at 1. rewrite (IH (S idx)) by (intros y Hy; apply Hin; right; exact Hy).
  destruct (beqb (idl_prefix (in_path x)) pre); [|reflexivity].
  destruct (Hin x (or_introl eq_refl)) as (hn & Hr & Hd). rewrite Hr, (include_target_done done x hn Hr).
  destruct (lookup hn done) as [g'|] eqn:Lg; [|congruence].
  destruct (Hinv hn g' Lg) as (g & Hg & Gd). rewrite (gd_n2c _ _ _ _ _ Gd).
  destruct (def_of p hn m) as [k|] eqn:Dk; rewrite (def_of_file p hn g m Hg) in Dk; rewrite Dk; cbn [option_map]; [|reflexivity].
  rewrite Hok. destruct (okc (dkind_cat k)); [|reflexivity]. rewrite (def_of_file p hn g m Hg), Dk. reflexivity.
Qed.

Lemma find_include_spec p done (okc : category -> bool) (okk : dkind -> bool) pre m :
  inv p done -> (forall k, okk k = okc (dkind_cat k)) ->
  forall incs idx i c,
  (forall x, In x incs -> exists hn, in_ref x = Some hn /\ lookup hn done <> None) ->
  find_include done okc pre m incs idx = Some (i, c) ->
  exists gn k, spec_include p okk pre m (map inc_key incs) idx = Some (i, gn) /\
               def_of p gn m = Some k /\ dkind_cat k = c.
Proof.
  intros Hinv Hok incs idx i c Hin H. rewrite (find_include_eq p done okc okk pre m Hinv Hok incs idx Hin) in H.
  destruct (spec_include p okk pre m (map inc_key incs) idx) as [[i' gn]|]; [|discriminate].
  destruct (def_of p gn m) as [k|] eqn:Dk; [|discriminate]. injection H as <- <-. eauto.
Qed.

Lemma spec_include_find p done (okc : category -> bool) (okk : dkind -> bool) pre m :
  inv p done -> (forall k, okk k = okc (dkind_cat k)) ->
  forall incs idx i gn,
  (forall x, In x incs -> exists hn, in_ref x = Some hn /\ lookup hn done <> None) ->
  spec_include p okk pre m (map inc_key incs) idx = Some (i, gn) ->
  exists c, find_include done okc pre m incs idx = Some (i, c).
Proof.
  intros Hinv Hok incs idx i gn Hin H. rewrite (find_include_eq p done okc okk pre m Hinv Hok incs idx Hin), H.
  destruct (spec_include_nth p okk pre m _ _ _ _ H) as (_ & _ & k & -> & _). cbn [option_map]. eauto.
Qed.

Lemma reference_target_nth q g' m i x hn :
  nth_error (f_includes g') i = Some x -> in_ref x = Some hn ->
  reference_target q g' (Ref m (Z.of_nat i)) = prog_file q hn.
Proof.
  intros Nx Hr. unfold reference_target, include_target. cbn [ref_index]. rewrite nth_include_nat, Nx, Hr. reflexivity.
Qed.

(* The include the specification chooses for a qualified name, seen from a file [g'] with the
   includes of [g] whose targets are finished: the same include of [g'], and its target is a
   finished, good file. *)
Lemma spec_include_target p done g g' ok pre m i hn :
  inv p done ->
  map (fun i => (in_path i, in_ref i)) (f_includes g') = map (fun i => (in_path i, in_ref i)) (f_includes g) ->
  (forall i, In i (f_includes g) -> exists hn, in_ref i = Some hn /\ lookup hn done <> None) ->
  spec_include p ok pre m (file_incs g) 0 = Some (i, hn) ->
  exists x' h h', nth_error (f_includes g') i = Some x' /\ in_ref x' = Some hn /\
    lookup hn done = Some h' /\ prog_file p hn = Some h /\ good p done hn h h'.
Proof.
  intros Hinv E Htg Hs. destruct (spec_include_nth _ _ _ _ _ _ _ _ Hs) as (_ & Hnth & _). rewrite Nat.sub_0_r in Hnth.
  unfold file_incs in Hnth. rewrite nth_error_map in Hnth.
  destruct (nth_error (f_includes g) i) as [x|] eqn:Nx; [|discriminate]. cbn [option_map] in Hnth.
  injection Hnth as _ Hrx.
  assert (E2 : nth_error (map (fun i => (in_path i, in_ref i)) (f_includes g')) i = Some (in_path x, in_ref x))
    by (rewrite E, nth_error_map, Nx; reflexivity).
  rewrite nth_error_map in E2. destruct (nth_error (f_includes g') i) as [x'|] eqn:Nx'; [|discriminate].
  injection E2 as _ E3.
  destruct (Htg x (nth_error_In _ _ Nx)) as (hn2 & Hrn & Hln). assert (hn2 = hn) by congruence. subst hn2.
  destruct (lookup hn done) as [h'|] eqn:Lh; [|congruence].
  destruct (Hinv hn h' Lh) as (h & Hh & Gh). exists x', h, h'. split; [reflexivity|]. split; [congruence|]. auto.
Qed.

Lemma lookup_typedef_part tds n td rest :
  NoDup (map fst (map (fun t => (td_alias t, DkTypedef (ty_name (td_type t)))) tds ++ rest)) ->
  In td tds -> td_alias td = n ->
  lookup n (map (fun t => (td_alias t, DkTypedef (ty_name (td_type t)))) tds ++ rest) =
  Some (DkTypedef (ty_name (td_type td))).
Proof.
  intros ND Hin <-. apply lookup_NoDup_In; [exact ND|]. apply in_or_app. left.
  apply (in_map (fun t => (td_alias t, DkTypedef (ty_name (td_type t))))). exact Hin.
Qed.

Lemma file_defs_typedef g td :
  NoDup (map fst (file_defs g)) -> In td (f_typedefs g) ->
  lookup (td_alias td) (file_defs g) = Some (DkTypedef (ty_name (td_type td))).
Proof. intros ND Hin. unfold file_defs in *. apply lookup_typedef_part; auto. Qed.

Lemma In_top_occs_file_occs f t : In t (file_top_occs f) -> incl (ty_occs t) (file_occs f).
Proof.
  intros Hin x Hx. unfold file_occs, flat_map'. apply in_concat. exists (ty_occs t). split; [|exact Hx].
  apply in_map. exact Hin.
Qed.

Lemma ty_occs_head t : In t (ty_occs t).
Proof. destruct t. cbn [ty_occs]. left. reflexivity. Qed.

Lemma good_typedef p done gn g g' m td' :
  good p done gn g g' -> find_typedef g' m = Some td' ->
  lookup m (file_defs g) = Some (DkTypedef (ty_name (td_type td'))) /\ occ_good p gn g (td_type td').
Proof.
  intros Gd Hf. unfold find_typedef in Hf. destruct (find_by_In _ _ _ _ Hf) as (Hin & Ha).
  destruct (Forall2_In_r _ _ _ _ (gd_tds _ _ _ _ _ Gd) Hin) as (td & Hin0 & (Hal & Hnm)).
  split.
  - rewrite Hnm, <- Ha, Hal. apply file_defs_typedef; [exact (gd_nodup _ _ _ _ _ Gd) | exact Hin0].
  - pose proof (gd_occs _ _ _ _ _ Gd) as Ho. rewrite Forall_forall in Ho. apply Ho.
    apply (In_top_occs_file_occs g' (td_type td')); [|apply ty_occs_head].
    unfold file_top_occs. apply in_or_app. left. apply in_map. exact Hin.
Qed.

Lemma file_defs_typedef_inv f n tgt : lookup n (file_defs f) = Some (DkTypedef tgt) ->
  exists td, In td (f_typedefs f) /\ td_alias td = n /\ ty_name (td_type td) = tgt.
Proof.
  intros H. apply lookup_In in H. unfold file_defs in H. rewrite !in_app_iff, !in_map_iff in H.
  destruct H as [(td & [= <- <-] & Hin)|[(? & [=] & _)|[(? & [=] & _)|[(? & [=] & _)|(? & [=] & _)]]]]. eauto.
Qed.

Lemma good_find_typedef p done gn g g' m tgt :
  good p done gn g g' -> lookup m (file_defs g) = Some (DkTypedef tgt) ->
  exists td', find_typedef g' m = Some td' /\ ty_name (td_type td') = tgt /\ occ_good p gn g (td_type td').
Proof.
  intros Gd Hl. destruct (find_typedef g' m) as [td'|] eqn:Ft.
  - destruct (good_typedef _ _ _ _ _ _ _ Gd Ft) as (Hl' & Ho). exists td'. split; [reflexivity|].
    split; [congruence | exact Ho].
  - exfalso. unfold find_typedef in Ft. apply find_by_none in Ft. apply Ft.
    assert (E : map td_alias (f_typedefs g') = map td_alias (f_typedefs g)).
    { eapply Forall2_map_eq; [exact (gd_tds _ _ _ _ _ Gd)|]. intros x y (Ha & _). exact Ha. }
    rewrite E. destruct (file_defs_typedef_inv g m tgt Hl) as (td & Hin & <- & _). apply in_map. exact Hin.
Qed.

Lemma occ_good_denotes p fn f t :
  prog_file p fn = Some f -> occ_good p fn f t ->
  exists d, name_denotes p fn (ty_name t) d /\ ty_category t = kind d.
Proof.
  intros Hf H. unfold occ_good in H. destruct (builtin_category (ty_name t)) as [c|] eqn:Bn.
  - destruct H as (Hc & _). exists (TBuiltin c). split; [apply nd_builtin; exact Bn | exact Hc].
  - destruct (split_type (ty_name t)) as [|a [|m [|? ?]]] eqn:Sn; try contradiction.
    + destruct H as (k & d & Hk & _ & Hd & Hc & _). exists d. split; [|exact Hc].
      eapply nd_local; eauto.
    + destruct H as (i & gn & k & d & Hs & Hk & Hd & Hc & _). exists d. split; [|exact Hc].
      eapply nd_qualified; eauto.
Qed.

Lemma Forall2_impl' {A B} (R S : A -> B -> Prop) l l' :
  (forall x y, R x y -> S x y) -> Forall2 R l l' -> Forall2 S l l'.
Proof. intros H. induction 1; constructor; auto. Qed.

Section OneFile.
  Variables (p done : program) (fn : bytes) (f : file).
  Hypothesis Hinv : inv p done.
  Hypothesis Hf : prog_file p fn = Some f.
  Hypothesis Htargets : forall i, In i (f_includes f) -> exists hn, in_ref i = Some hn /\ lookup hn done <> None.
  Variable n2c : list (bytes * category).
  Hypothesis Hreg : register (file_def_names f) [] = Ok n2c.
  Variable tds1 : list typedef.
  Hypothesis Htds1 : mapM (resolve_typedef done (with_name2cat f (Some n2c))) (f_typedefs f) = Ok tds1.

  Definition cur0 : file := with_name2cat f (Some n2c).
  Definition cur1 : file := with_typedefs cur0 tds1.

  Lemma cur1_n2c : n2c_of cur1 = n2c. Proof. reflexivity. Qed.

  Lemma cur_nodup : NoDup (map fst (file_defs f)).
  Proof. exact (proj1 (register_file f n2c Hreg)). Qed.

  Lemma cur_lookup a : lookup a (n2c_of cur1) = option_map dkind_cat (def_of p fn a).
  Proof. rewrite cur1_n2c, (def_of_file p fn f a Hf). exact (proj2 (register_file f n2c Hreg) a). Qed.

  Lemma cur_find_include okc okk pre m i c :
    (forall k, okk k = okc (dkind_cat k)) ->
    find_include done okc pre m (f_includes cur1) 0 = Some (i, c) ->
    exists gn k, spec_include p okk pre m (file_incs f) 0 = Some (i, gn) /\
                 def_of p gn m = Some k /\ dkind_cat k = c.
  Proof. intros Hok H. exact (find_include_spec p done okc okk pre m Hinv Hok _ _ _ _ Htargets H). Qed.

  Lemma tds1_aligned :
    Forall2 (fun td td1 => td_alias td1 = td_alias td /\ ty_name (td_type td1) = ty_name (td_type td) /\
                           Forall (head1 done cur1) (ty_occs (td_type td1))) (f_typedefs f) tds1.
  Proof.
    pose proof (mapM_Forall2 _ _ _ Htds1) as H. eapply Forall2_impl'; [|exact H].
    intros td td1 E. unfold resolve_typedef in E. inv_bind E. injection E as <-. cbn [td_alias td_type].
    rewrite (resolve_ty_ctx done (with_name2cat f (Some n2c)) cur1 eq_refl eq_refl) in E0.
    destruct (resolve_ty_head1 _ _ _ _ E0). auto.
  Qed.

  Lemma tds1_def td1 : In td1 tds1 ->
    def_of p fn (td_alias td1) = Some (DkTypedef (ty_name (td_type td1))) /\ head1 done cur1 (td_type td1).
  Proof.
    intros Hin. destruct (Forall2_In_r _ _ _ _ tds1_aligned Hin) as (td & Hin0 & (Ha & Hn & Ho)).
    split.
    - rewrite (def_of_file p fn f _ Hf), Ha, Hn. apply file_defs_typedef; [exact cur_nodup | exact Hin0].
    - destruct (td_type td1). exact (Forall_inv Ho).
  Qed.

  Lemma ext_typedef_denotes pre m i gn c' :
    spec_include p is_type_kind pre m (file_incs f) 0 = Some (i, gn) ->
    ext_typedef_cat done cur1 (Ref m (Z.of_nat i)) = Some c' ->
    exists d, def_denotes p gn m d /\ kind d = c'.
  Proof.
    intros Hs He.
    destruct (spec_include_target p done f cur1 _ _ _ _ _ Hinv eq_refl Htargets Hs) as (x & g & g' & Nx & Hr & Lg & Hg & Gd).
    unfold ext_typedef_cat in He. cbn [ref_name] in He.
    rewrite (reference_target_nth done cur1 m i x gn Nx Hr) in He. unfold prog_file in He. rewrite Lg in He.
    destruct (find_typedef g' m) as [td'|] eqn:Ft; [|discriminate]. injection He as <-.
    destruct (good_typedef _ _ _ _ _ _ _ Gd Ft) as (Hl & Ho).
    destruct (occ_good_denotes p gn g _ Hg Ho) as (d & Hd & Hc).
    exists d. split; [|symmetry; exact Hc].
    eapply dd_typedef; [rewrite (def_of_file p gn g m Hg); exact Hl | exact Hd].
  Qed.

  Lemma head1_nontypedef_denotes t :
    head1 done cur1 t -> is_typedef_cat (ty_category t) = false ->
    exists d, name_denotes p fn (ty_name t) d /\ kind d = ty_category t.
  Proof.
    unfold head1. intros H Hn. destruct (builtin_category (ty_name t)) as [c|] eqn:Bn.
    - destruct H as (-> & _). exists (TBuiltin c). split; [apply nd_builtin; exact Bn | reflexivity].
    - destruct (split_type (ty_name t)) as [|a [|m [|? ?]]] eqn:Sn; try contradiction.
      + destruct H as (c & La & Tc & Hc & _). rewrite cur_lookup in La.
        destruct (def_of p fn a) as [k|] eqn:Dk; [|discriminate]. cbn [option_map] in La. injection La as <-.
        rewrite Hc in Hn. destruct (dkind_type_nontypedef k Tc Hn) as [(vs & ->)|(s & ->)].
        * exists (TEnum fn a). split; [|rewrite Hc; reflexivity]. eapply nd_local; eauto. eapply dd_enum; eauto.
        * exists (TStruct fn a s). split; [|rewrite Hc; reflexivity]. eapply nd_local; eauto. eapply dd_struct; eauto.
      + destruct H as (idx & c & Fi & Hc & _).
        destruct (cur_find_include is_type_cat is_type_kind a m idx c (fun k => eq_refl) Fi) as (gn & k & Hs & Dk & Hk).
        destruct (spec_include_nth _ _ _ _ _ _ _ _ Hs) as (_ & _ & (k' & Dk' & Tk)).
        rewrite Dk in Dk'. injection Dk' as <-. rewrite Hc, <- Hk in Hn.
        destruct (dkind_type_nontypedef k Tk Hn) as [(vs & ->)|(s & ->)].
        * exists (TEnum gn m). split; [|rewrite Hc, <- Hk; reflexivity]. eapply nd_qualified; eauto. eapply dd_enum; eauto.
        * exists (TStruct gn m s). split; [|rewrite Hc, <- Hk; reflexivity]. eapply nd_qualified; eauto. eapply dd_struct; eauto.
  Qed.

  Definition st0 : list tde := map (te_init done cur1) tds1.

  Lemma chain_denotes a c : te_chain st0 a c -> exists d, def_denotes p fn a d /\ kind d = c.
  Proof.
    induction 1 as [e Hin Hp | e b c Hin Hp Hl Hch IH].
    - unfold st0 in Hin. apply in_map_iff in Hin. destruct Hin as (td1 & <- & Hin1).
      destruct (tds1_def td1 Hin1) as (Hdef & Hh). revert Hp. unfold te_init.
      destruct (is_typedef_cat (ty_category (td_type td1))) eqn:Tc.
      + destruct (ty_ref (td_type td1)) as [r|] eqn:Rr; [|cbn; discriminate].
        destruct (ext_typedef_cat done cur1 r) as [c|] eqn:Ec; [|cbn; discriminate].
        cbn [te_cat te_alias]. intros Hc.
        unfold head1 in Hh. destruct (builtin_category (ty_name (td_type td1))) as [cb|] eqn:Bn.
        { destruct Hh as (_ & Hr0 & _). congruence. }
        destruct (split_type (ty_name (td_type td1))) as [|pre [|m [|? ?]]] eqn:Sn; try contradiction.
        { destruct Hh as (? & _ & _ & _ & Hr0 & _). congruence. }
        destruct Hh as (idx & c0 & Fi & Hc0 & Hr0 & _). rewrite Rr in Hr0. injection Hr0 as ->.
        destruct (cur_find_include is_type_cat is_type_kind pre m idx c0 (fun k => eq_refl) Fi) as (gn & k & Hs & Dk & Hk).
        destruct (ext_typedef_denotes pre m idx gn c Hs Ec) as (d & Hd & Hkd).
        exists d. split; [|exact Hkd]. eapply dd_typedef; [exact Hdef|]. eapply nd_qualified; eauto.
      + cbn [te_cat te_alias]. intros _.
        destruct (head1_nontypedef_denotes _ Hh Tc) as (d & Hd & Hk).
        exists d. split; [|exact Hk]. eapply dd_typedef; eauto.
    - destruct IH as (d & Hd & Hk). unfold st0 in Hin. apply in_map_iff in Hin. destruct Hin as (td1 & <- & Hin1).
      destruct (tds1_def td1 Hin1) as (Hdef & Hh). revert Hp Hl. unfold te_init.
      destruct (is_typedef_cat (ty_category (td_type td1))) eqn:Tc; [|cbn; congruence].
      destruct (ty_ref (td_type td1)) as [r|] eqn:Rr.
      { destruct (ext_typedef_cat done cur1 r); cbn; discriminate. }
      cbn [te_cat te_alias te_local]. intros _ [= <-].
      exists d. split; [|exact Hk]. eapply dd_typedef; [exact Hdef|].
      unfold head1 in Hh. destruct (builtin_category (ty_name (td_type td1))) as [cb|] eqn:Bn.
      { destruct Hh as (Hc & _). destruct (builtin_cases _ _ Bn) as (Hn & _). congruence. }
      destruct (split_type (ty_name (td_type td1))) as [|a [|m [|? ?]]] eqn:Sn; try contradiction.
      + pose proof (split_type_single _ _ Sn) as ->. eapply nd_local; eauto.
      + destruct Hh as (? & ? & _ & _ & Hr0 & _). congruence.
  Qed.

  Lemma st0_nodup : NoDup (map te_alias st0).
  Proof.
    unfold st0. rewrite te_init_aliases, (resolve_typedefs_alias _ _ _ _ Htds1). exact (typedefs_nodup f n2c Hreg).
  Qed.

  Variable st : list tde.
  Hypothesis Hfix : te_fix (S (length tds1)) st0 = Ok st.

  Lemma head2_occ_good t : head2 done cur1 st t -> occ_good p fn f t.
  Proof.
    unfold head2, occ_good. destruct (builtin_category (ty_name t)) as [c|] eqn:Bn; [auto|].
    destruct (split_type (ty_name t)) as [|a [|m [|? ?]]] eqn:Sn; try contradiction.
    - intros (c & La & Tc & Hr & Ht & Hcat). rewrite cur_lookup in La.
      destruct (def_of p fn a) as [k|] eqn:Dk; [|discriminate]. cbn [option_map] in La. injection La as <-.
      pose proof (split_type_single _ _ Sn) as Ea.
      destruct (is_typedef_cat (dkind_cat k)) eqn:Td.
      + destruct Hcat as (Hk & Hn).
        pose proof (te_fix_lookup st0 _ st _ _ st0_nodup Hfix Hk) as Hch.
        destruct (chain_denotes _ _ Hch) as (d & Hd & Hkd).
        exists k, d. rewrite Ea in *. repeat split; auto.
      + destruct (dkind_type_nontypedef k Tc Td) as [(vs & ->)|(s & ->)].
        * exists (DkEnum vs), (TEnum fn a). repeat split; auto. eapply dd_enum; eauto.
        * exists (DkStruct s), (TStruct fn a s). repeat split; auto. eapply dd_struct; eauto.
    - intros (idx & c & Fi & Hr & Ht & Hcat).
      destruct (cur_find_include is_type_cat is_type_kind a m idx c (fun k => eq_refl) Fi) as (gn & k & Hs & Dk & Hk).
      destruct (spec_include_nth _ _ _ _ _ _ _ _ Hs) as (_ & _ & (k' & Dk' & Tk)).
      rewrite Dk in Dk'. injection Dk' as <-. subst c.
      destruct (is_typedef_cat (dkind_cat k)) eqn:Td.
      + destruct Hcat as (He & Hn). destruct (ext_typedef_denotes a m idx gn _ Hs He) as (d & Hd & Hkd).
        exists idx, gn, k, d. repeat split; auto.
      + destruct (dkind_type_nontypedef k Tk Td) as [(vs & ->)|(s & ->)].
        * exists idx, gn, (DkEnum vs), (TEnum gn m). repeat split; auto. eapply dd_enum; eauto.
        * exists idx, gn, (DkStruct s), (TStruct gn m s). repeat split; auto. eapply dd_struct; eauto.
  Qed.

  Lemma two_pass_good t t1 t2 :
    resolve_ty done cur1 t = Ok t1 -> fix_ty done cur1 st t1 = Ok t2 ->
    ty_name t2 = ty_name t /\ Forall (occ_good p fn f) (ty_occs t2).
  Proof.
    intros H1 H2. destruct (resolve_ty_head1 _ _ _ _ H1) as (N1 & O1).
    destruct (fix_ty_head2 _ _ _ _ _ O1 H2) as (N2 & O2). split; [congruence|].
    eapply Forall_impl; [|exact O2]. intros x. apply head2_occ_good.
  Qed.

  Definition occs_good (t : ty) : Prop := Forall (occ_good p fn f) (ty_occs t).

  Lemma typedef_good td td1 td2 :
    resolve_typedef done (with_name2cat f (Some n2c)) td = Ok td1 -> fix_typedef done cur1 st td1 = Ok td2 ->
    td_alias td2 = td_alias td /\ ty_name (td_type td2) = ty_name (td_type td) /\ occs_good (td_type td2).
  Proof.
    unfold resolve_typedef, fix_typedef. intros H1 H2. inv_bind H1. inv_bind H2.
    injection H1 as <-. injection H2 as <-. cbn [td_alias td_type] in *.
    rewrite (resolve_ty_ctx done (with_name2cat f (Some n2c)) cur1 eq_refl eq_refl) in E.
    destruct (two_pass_good _ _ _ E E0). auto.
  Qed.

  Lemma constant_good fuel c c1 c2 :
    resolve_constant fuel done cur1 c = Ok c1 -> fix_constant done cur1 st c1 = Ok c2 -> occs_good (co_type c2).
  Proof.
    unfold resolve_constant, fix_constant. intros H1 H2. inv_bind H1. inv_bind H2.
    injection H1 as <-. injection H2 as <-. cbn [co_type] in *. exact (proj2 (two_pass_good _ _ _ E E1)).
  Qed.

  Lemma field_good fuel b fd fd1 fd2 :
    resolve_field fuel done cur1 b fd = Ok fd1 -> fix_field done cur1 st fd1 = Ok fd2 -> occs_good (fd_type fd2).
  Proof.
    unfold resolve_field, fix_field. intros H1 H2. inv_bind H1. inv_bind H2.
    injection H1 as <-. injection H2 as <-. cbn [fd_type] in *. exact (proj2 (two_pass_good _ _ _ E E1)).
  Qed.

  Lemma fields_good fuel b l l1 l2 :
    mapM (resolve_field fuel done cur1 b) l = Ok l1 -> mapM (fix_field done cur1 st) l1 = Ok l2 ->
    Forall (fun fd => occs_good (fd_type fd)) l2.
  Proof. intros H1 H2. exact (two_mapM_Forall _ _ _ _ _ _ H1 H2 (field_good fuel b)). Qed.

  Lemma struct_good fuel s s1 s2 :
    resolve_struct_like fuel done cur1 s = Ok s1 -> fix_struct_like done cur1 st s1 = Ok s2 ->
    Forall (fun fd => occs_good (fd_type fd)) (sl_fields s2).
  Proof.
    unfold resolve_struct_like, fix_struct_like. intros H1 H2. inv_bind H1. inv_bind H2.
    injection H1 as <-. injection H2 as <-. cbn [sl_fields] in *. eapply fields_good; eauto.
  Qed.

  Lemma function_good fuel fu fu1 fu2 :
    resolve_function fuel done cur1 fu = Ok fu1 -> fix_function done cur1 st fu1 = Ok fu2 ->
    Forall occs_good (function_top_types fu2).
  Proof.
    unfold resolve_function, fix_function. intros H1 H2. inv_bind H1. inv_bind H2.
    injection H1 as <-. injection H2 as <-. cbn [fn_type fn_void fn_args fn_throws] in *.
    unfold function_top_types, function_fields. cbn [fn_type fn_void fn_args fn_throws].
    rewrite map_app, !Forall_app, !Forall_map.
    split; [|split; [exact (fields_good _ _ _ _ _ E0 E3) | exact (fields_good _ _ _ _ _ E1 E4)]].
    destruct (fn_void fu); constructor; [exact (proj2 (two_pass_good _ _ _ E E2)) | constructor].
  Qed.

  Lemma service_good fuel sv sv1 sv2 :
    resolve_service fuel done cur1 sv = Ok sv1 -> fix_service done cur1 st sv1 = Ok sv2 ->
    Forall occs_good (flat_map' function_top_types (sv_functions sv2)).
  Proof.
    unfold resolve_service, fix_service. intros H1 H2. inv_bind H1. inv_bind H2.
    injection H1 as <-. injection H2 as <-. cbn [sv_functions] in *.
    apply Forall_flat_map'. exact (two_mapM_Forall _ _ _ _ _ _ E E1 (function_good fuel)).
  Qed.
End OneFile.
