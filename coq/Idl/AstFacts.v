(* Idl/AstFacts.v — facts about Idl/Ast.v: induction principles for the nested types [ty]
   and [const_value]; the boolean equalities decide Leibniz equality ([*_eqb_eq] :
   eqb a b = true <-> a = b); two files with equal components are equal ([file_ext]);
   the generic map over a file composes and maps identities to the identity;
   [ty_strip], [cv_strip] and [strip_comments] are idempotent. *)
From Coq Require Import List Bool NArith ZArith.
From Verif Require Import Base.Bytes Idl.Ast Idl.AstUtil.
Import ListNotations.

Lemma existsb_false_In {A} (f : A -> bool) l x : existsb f l = false -> In x l -> f x = false.
Proof.
  intros H Hin. destruct (f x) eqn:E; [|reflexivity].
  assert (existsb f l = true) by (apply existsb_exists; eauto). congruence.
Qed.

Lemma in_flat_map' {A B} (g : A -> list B) l y : In y (flat_map' g l) <-> exists x, In x l /\ In y (g x).
Proof.
  unfold flat_map'. rewrite in_concat. split.
  - intros (ys & Hys & Hy). apply in_map_iff in Hys. destruct Hys as (x & <- & Hx). eauto.
  - intros (x & Hx & Hy). exists (g x). split; [apply in_map; exact Hx | exact Hy].
Qed.

Lemma forallb_map {A B} (p : B -> bool) (g : A -> B) l : forallb p (map g l) = forallb (fun x => p (g x)) l.
Proof. induction l as [|x l IH]; [reflexivity|]. cbn [map forallb]. rewrite IH. reflexivity. Qed.

(* [ty]: the automatically generated principle ignores the [option ty] children *)
Lemma ty_ind' (P : ty -> Prop) :
  (forall n k v c an cat r t,
      (forall x, k = Some x -> P x) -> (forall x, v = Some x -> P x) -> P (Ty n k v c an cat r t)) ->
  forall t, P t.
Proof.
  intro H. fix IH 1. intros [n k v c an cat r t]. apply H.
  - destruct k as [y|]; intros x Hx; [injection Hx as <-; apply IH | discriminate].
  - destruct v as [y|]; intros x Hx; [injection Hx as <-; apply IH | discriminate].
Qed.

(* [const_value]: children inside lists *)
Lemma const_value_ind' (P : const_value -> Prop) :
  (forall b, P (CDouble b)) -> (forall z, P (CInt z)) -> (forall s, P (CLiteral s)) ->
  (forall s e, P (CIdent s e)) ->
  (forall l, Forall P l -> P (CList l)) ->
  (forall l, Forall (fun kv => P (fst kv) /\ P (snd kv)) l -> P (CMap l)) ->
  forall c, P c.
Proof.
  intros Hd Hi Hl Hid Hls Hm. fix IH 1. intros [b|z|s|s e|l|l].
  - apply Hd.
  - apply Hi.
  - apply Hl.
  - apply Hid.
  - apply Hls. induction l as [|x l IHl]; constructor; [apply IH | exact IHl].
  - apply Hm. induction l as [|[k v] l IHl]; constructor; [split; apply IH | exact IHl].
Qed.

Lemma opt_eqb_eq {A} (eq : A -> A -> bool) :
  (forall x y, eq x y = true <-> x = y) -> forall a b, opt_eqb eq a b = true <-> a = b.
Proof.
  intros H [x|] [y|]; cbn; try (split; congruence).
  rewrite H. split; congruence.
Qed.

Lemma list_eqb_eq {A} (eq : A -> A -> bool) :
  (forall x y, eq x y = true <-> x = y) -> forall a b, list_eqb eq a b = true <-> a = b.
Proof.
  intros H a. induction a as [|x a IH]; intros [|y b]; cbn; try (split; congruence).
  rewrite andb_true_iff, H, IH. split; [intros [-> ->]; reflexivity | intros [= -> ->]; auto].
Qed.

Lemma list_eqb_eq_in {A} (eq : A -> A -> bool) (a : list A) :
  Forall (fun x => forall y, eq x y = true <-> x = y) a -> forall b, list_eqb eq a b = true <-> a = b.
Proof.
  induction 1 as [|x a Hx _ IH]; intros [|y b]; cbn; try (split; congruence).
  rewrite andb_true_iff, Hx, IH. split; [intros [-> ->]; reflexivity | intros [= -> ->]; auto].
Qed.

Lemma bool_eqb_eq a b : Bool.eqb a b = true <-> a = b.
Proof. destruct a, b; cbn; split; congruence. Qed.

Lemma category_eqb_eq a b : category_eqb a b = true <-> a = b.
Proof.
  unfold category_eqb. rewrite N.eqb_eq. split; [|congruence].
  intros H. destruct a; (destruct b; [reflexivity || discriminate H ..]).
Qed.

Lemma requiredness_eqb_eq a b : requiredness_eqb a b = true <-> a = b.
Proof. destruct a, b; cbn; split; congruence. Qed.

Lemma sl_kind_eqb_eq a b : sl_kind_eqb a b = true <-> a = b.
Proof. destruct a, b; cbn; split; congruence. Qed.

Lemma reference_eqb_eq a b : reference_eqb a b = true <-> a = b.
Proof.
  destruct a, b; unfold reference_eqb; cbn. rewrite andb_true_iff, beqb_true, Z.eqb_eq.
  split; [intros [-> ->]; reflexivity | intros [= -> ->]; auto].
Qed.

Lemma annotation_eqb_eq a b : annotation_eqb a b = true <-> a = b.
Proof.
  destruct a, b; unfold annotation_eqb; cbn.
  rewrite andb_true_iff, beqb_true, (list_eqb_eq beqb beqb_true).
  split; [intros [-> ->]; reflexivity | intros [= -> ->]; auto].
Qed.

Lemma annotations_eqb_eq a b : annotations_eqb a b = true <-> a = b.
Proof. apply list_eqb_eq, annotation_eqb_eq. Qed.

Lemma ty_eqb_eq : forall a b, ty_eqb a b = true <-> a = b.
Proof.
  induction a as [n k v c an cat r t IHk IHv] using ty_ind'. intros [n2 k2 v2 c2 an2 cat2 r2 t2].
  cbn [ty_eqb].
  assert (Hk : match k, k2 with Some x, Some y => ty_eqb x y | None, None => true | _, _ => false end = true <-> k = k2).
  { destruct k as [x|], k2 as [y|]; try (split; congruence).
    rewrite (IHk x eq_refl). split; congruence. }
  assert (Hv : match v, v2 with Some x, Some y => ty_eqb x y | None, None => true | _, _ => false end = true <-> v = v2).
  { destruct v as [x|], v2 as [y|]; try (split; congruence).
    rewrite (IHv x eq_refl). split; congruence. }
  rewrite !andb_true_iff, Hk, Hv, !beqb_true, annotations_eqb_eq, category_eqb_eq,
    (opt_eqb_eq _ reference_eqb_eq), (opt_eqb_eq _ bool_eqb_eq).
  split.
  - intros [[[[[[[-> ->] ->] ->] ->] ->] ->] ->]. reflexivity.
  - intros [= -> -> -> -> -> -> -> ->]. tauto.
Qed.

Lemma const_extra_eqb_eq a b : const_extra_eqb a b = true <-> a = b.
Proof.
  destruct a, b; unfold const_extra_eqb; cbn.
  rewrite !andb_true_iff, bool_eqb_eq, Z.eqb_eq, !beqb_true.
  split; [intros [[[-> ->] ->] ->]; reflexivity | intros [= -> -> -> ->]; auto].
Qed.

Lemma const_value_eqb_eq : forall a b, const_value_eqb a b = true <-> a = b.
Proof.
  induction a as [x|x|x|x ex|l IH|l IH] using const_value_ind'; intros [y|y|y|y ey|l2|l2];
    cbn [const_value_eqb]; try (split; congruence).
  - rewrite N.eqb_eq. split; congruence.
  - rewrite Z.eqb_eq. split; congruence.
  - rewrite beqb_true. split; congruence.
  - rewrite andb_true_iff, beqb_true, (opt_eqb_eq _ const_extra_eqb_eq).
    split; [intros [-> ->]; reflexivity | intros [= -> ->]; auto].
  - revert l2. induction IH as [|x l Hx _ IHl]; intros [|y l2]; try (split; congruence).
    rewrite andb_true_iff, Hx. specialize (IHl l2).
    split.
    + intros [-> H]. apply IHl in H. congruence.
    + intros [= -> ->]. split; [reflexivity | apply IHl; reflexivity].
  - revert l2. induction IH as [|[k v] l [Hk Hv] _ IHl]; intros [|[k2 v2] l2]; try (split; congruence).
    cbn [fst snd] in Hk, Hv. rewrite !andb_true_iff, Hk, Hv. specialize (IHl l2).
    split.
    + intros [[-> ->] H]. apply IHl in H. congruence.
    + intros [= -> -> ->]. split; [tauto | apply IHl; reflexivity].
Qed.

Ltac solve_record_eq :=
  let HH := fresh "HH" in
  split;
  [ intros HH; repeat match goal with H : _ /\ _ |- _ => destruct H end; subst; reflexivity
  | intros HH; injection HH; intros; subst; repeat split ].

Lemma namespace_eqb_eq : forall a b, namespace_eqb a b = true <-> a = b.
Proof.
  intros [] []; unfold namespace_eqb; cbn.
  rewrite !andb_true_iff, !beqb_true, annotations_eqb_eq. solve_record_eq.
Qed.

Lemma typedef_eqb_eq : forall a b, typedef_eqb a b = true <-> a = b.
Proof.
  intros [] []; unfold typedef_eqb; cbn.
  rewrite !andb_true_iff, !beqb_true, annotations_eqb_eq, ty_eqb_eq. solve_record_eq.
Qed.

Lemma enum_value_eqb_eq : forall a b, enum_value_eqb a b = true <-> a = b.
Proof.
  intros [] []; unfold enum_value_eqb; cbn.
  rewrite !andb_true_iff, !beqb_true, annotations_eqb_eq, Z.eqb_eq. solve_record_eq.
Qed.

Lemma enum_eqb_eq : forall a b, enum_eqb a b = true <-> a = b.
Proof.
  intros [] []; unfold enum_eqb; cbn.
  rewrite !andb_true_iff, !beqb_true, annotations_eqb_eq, (list_eqb_eq _ enum_value_eqb_eq). solve_record_eq.
Qed.

Lemma constant_eqb_eq : forall a b, constant_eqb a b = true <-> a = b.
Proof.
  intros [] []; unfold constant_eqb; cbn.
  rewrite !andb_true_iff, !beqb_true, annotations_eqb_eq, ty_eqb_eq, const_value_eqb_eq. solve_record_eq.
Qed.

Lemma field_eqb_eq : forall a b, field_eqb a b = true <-> a = b.
Proof.
  intros [] []; unfold field_eqb; cbn.
  rewrite !andb_true_iff, !beqb_true, annotations_eqb_eq, ty_eqb_eq, Z.eqb_eq, requiredness_eqb_eq,
    (opt_eqb_eq _ const_value_eqb_eq). solve_record_eq.
Qed.

Lemma struct_like_eqb_eq : forall a b, struct_like_eqb a b = true <-> a = b.
Proof.
  intros [] []; unfold struct_like_eqb; cbn.
  rewrite !andb_true_iff, !beqb_true, annotations_eqb_eq, sl_kind_eqb_eq, (list_eqb_eq _ field_eqb_eq). solve_record_eq.
Qed.

Lemma function_eqb_eq : forall a b, function_eqb a b = true <-> a = b.
Proof.
  intros [] []; unfold function_eqb; cbn.
  rewrite !andb_true_iff, !beqb_true, annotations_eqb_eq, ty_eqb_eq, !bool_eqb_eq, !(list_eqb_eq _ field_eqb_eq). solve_record_eq.
Qed.

Lemma service_eqb_eq : forall a b, service_eqb a b = true <-> a = b.
Proof.
  intros [] []; unfold service_eqb; cbn.
  rewrite !andb_true_iff, !beqb_true, annotations_eqb_eq, (list_eqb_eq _ function_eqb_eq),
    (opt_eqb_eq _ reference_eqb_eq). solve_record_eq.
Qed.

Lemma include_eqb_eq : forall a b, include_eqb a b = true <-> a = b.
Proof.
  intros [] []; unfold include_eqb; cbn.
  rewrite !andb_true_iff, !beqb_true, (opt_eqb_eq _ beqb_true), (opt_eqb_eq _ bool_eqb_eq). solve_record_eq.
Qed.

Lemma name2cat_eqb_eq : forall a b, name2cat_eqb a b = true <-> a = b.
Proof.
  apply list_eqb_eq. intros [n1 c1] [n2 c2]. cbn. rewrite andb_true_iff, beqb_true, category_eqb_eq.
  split; [intros [-> ->]; reflexivity | intros [= -> ->]; auto].
Qed.

Theorem file_eqb_eq : forall a b, file_eqb a b = true <-> a = b.
Proof.
  intros a b; destruct a, b; unfold file_eqb; cbn. rewrite !andb_true_iff.
  rewrite beqb_true, (list_eqb_eq _ include_eqb_eq), (list_eqb_eq _ beqb_true),
    (list_eqb_eq _ namespace_eqb_eq), (list_eqb_eq _ typedef_eqb_eq), (list_eqb_eq _ constant_eqb_eq),
    (list_eqb_eq _ enum_eqb_eq), !(list_eqb_eq _ struct_like_eqb_eq), (list_eqb_eq _ service_eqb_eq),
    (opt_eqb_eq _ name2cat_eqb_eq).
  split.
  - intros H. repeat match goal with H : _ /\ _ |- _ => destruct H end. subst. reflexivity.
  - intros [= -> -> -> -> -> -> -> -> -> -> -> ->]. tauto.
Qed.

Corollary file_eqb_refl a : file_eqb a a = true.
Proof. apply file_eqb_eq. reflexivity. Qed.

Theorem program_eqb_eq : forall p q, program_eqb p q = true <-> p = q.
Proof.
  apply list_eqb_eq. intros [n1 f1] [n2 f2]. cbn. rewrite andb_true_iff, beqb_true, file_eqb_eq.
  split; [intros [-> ->]; reflexivity | intros [= -> ->]; auto].
Qed.

Lemma file_eqb_nc_eq a b : file_eqb_nc a b = true <-> strip_comments a = strip_comments b.
Proof. apply file_eqb_eq. Qed.
Lemma file_eqb_syn_eq a b :
  file_eqb_syn a b = true <-> strip_resolution (strip_comments a) = strip_resolution (strip_comments b).
Proof. apply file_eqb_eq. Qed.

(* two files with the same components are equal: splits an equation between files into one
   small goal per component, where [f_equal] on the twelve-field constructor is slow *)
Lemma file_ext a b :
  f_filename a = f_filename b -> f_includes a = f_includes b -> f_cpp_includes a = f_cpp_includes b ->
  f_namespaces a = f_namespaces b -> f_typedefs a = f_typedefs b -> f_constants a = f_constants b ->
  f_enums a = f_enums b -> f_structs a = f_structs b -> f_unions a = f_unions b ->
  f_exceptions a = f_exceptions b -> f_services a = f_services b -> f_name2cat a = f_name2cat b -> a = b.
Proof. destruct a, b; cbn. intros. subst. reflexivity. Qed.

Lemma ty_strip_idem : forall t, ty_strip (ty_strip t) = ty_strip t.
Proof.
  induction t as [n k v c an cat r t IHk IHv] using ty_ind'. cbn.
  destruct k as [x|]; destruct v as [y|]; cbn; rewrite ?(IHk _ eq_refl), ?(IHv _ eq_refl); reflexivity.
Qed.

Lemma cv_strip_idem : forall c, cv_strip (cv_strip c) = cv_strip c.
Proof.
  induction c as [x|x|x|x ex|l IH|l IH] using const_value_ind'; cbn; try reflexivity.
  - f_equal. rewrite map_map. apply map_ext_Forall. exact IH.
  - f_equal. rewrite map_map. apply map_ext_Forall.
    eapply Forall_impl; [|exact IH]. intros [k v] [Hk Hv]; cbn in *. congruence.
Qed.

Lemma map_map_ext {A B C} (p : A -> B) (q : B -> C) (s : A -> C) l :
  (forall x, q (p x) = s x) -> map q (map p l) = map s l.
Proof. intro H. rewrite map_map. apply map_ext. exact H. Qed.

Lemma map_id_ext {A} (p : A -> A) l : (forall x, p x = x) -> map p l = l.
Proof. intro H. rewrite (map_ext _ (fun x => x) H). apply map_id. Qed.

Section MapCompose.
  Variables (f1 f2 : ty -> ty) (g1 g2 : const_value -> const_value) (h1 h2 : bytes -> bytes) (r1 r2 : bool).

  Lemma map_field_compose x :
    map_field f2 g2 h2 (map_field f1 g1 h1 x) =
    map_field (fun t => f2 (f1 t)) (fun c => g2 (g1 c)) (fun c => h2 (h1 c)) x.
  Proof.
    unfold map_field. cbn [fd_id fd_name fd_req fd_type fd_default fd_annos fd_comments].
    destruct (fd_default x); reflexivity.
  Qed.
  Lemma map_typedef_compose x :
    map_typedef f2 h2 (map_typedef f1 h1 x) = map_typedef (fun t => f2 (f1 t)) (fun c => h2 (h1 c)) x.
  Proof. reflexivity. Qed.
  Lemma map_constant_compose x :
    map_constant f2 g2 h2 (map_constant f1 g1 h1 x) =
    map_constant (fun t => f2 (f1 t)) (fun c => g2 (g1 c)) (fun c => h2 (h1 c)) x.
  Proof. reflexivity. Qed.
  Lemma map_enum_compose x : map_enum h2 (map_enum h1 x) = map_enum (fun c => h2 (h1 c)) x.
  Proof. unfold map_enum. cbn [en_name en_values en_annos en_comments]. rewrite map_map. reflexivity. Qed.
  Lemma map_struct_like_compose x :
    map_struct_like f2 g2 h2 (map_struct_like f1 g1 h1 x) =
    map_struct_like (fun t => f2 (f1 t)) (fun c => g2 (g1 c)) (fun c => h2 (h1 c)) x.
  Proof.
    unfold map_struct_like. cbn [sl_category sl_name sl_fields sl_annos sl_comments].
    rewrite (map_map_ext _ _ _ _ map_field_compose). reflexivity.
  Qed.
  Lemma map_function_compose x :
    map_function f2 g2 h2 (map_function f1 g1 h1 x) =
    map_function (fun t => f2 (f1 t)) (fun c => g2 (g1 c)) (fun c => h2 (h1 c)) x.
  Proof.
    unfold map_function. cbn [fn_name fn_oneway fn_void fn_type fn_args fn_throws fn_annos fn_comments].
    rewrite !(map_map_ext _ _ _ _ map_field_compose). reflexivity.
  Qed.
  Lemma map_service_compose x :
    map_service f2 g2 h2 r2 (map_service f1 g1 h1 r1 x) =
    map_service (fun t => f2 (f1 t)) (fun c => g2 (g1 c)) (fun c => h2 (h1 c)) (r1 || r2) x.
  Proof.
    unfold map_service. cbn [sv_name sv_extends sv_functions sv_annos sv_ref sv_comments].
    rewrite (map_map_ext _ _ _ _ map_function_compose). destruct r1, r2; reflexivity.
  Qed.
  Lemma map_include_compose x : map_include r2 (map_include r1 x) = map_include (r1 || r2) x.
  Proof. destruct r1, r2; reflexivity. Qed.

  Lemma map_file_compose a :
    map_file f2 g2 h2 r2 (map_file f1 g1 h1 r1 a) =
    map_file (fun t => f2 (f1 t)) (fun c => g2 (g1 c)) (fun c => h2 (h1 c)) (r1 || r2) a.
  Proof.
    unfold map_file.
    cbn [f_filename f_includes f_cpp_includes f_namespaces f_typedefs f_constants f_enums f_structs f_unions
         f_exceptions f_services f_name2cat].
    rewrite (map_map_ext _ _ _ _ map_include_compose), (map_map_ext _ _ _ _ map_typedef_compose),
      (map_map_ext _ _ _ _ map_constant_compose), (map_map_ext _ _ _ _ map_enum_compose),
      !(map_map_ext _ _ _ _ map_struct_like_compose), (map_map_ext _ _ _ _ map_service_compose).
    destruct r1, r2; reflexivity.
  Qed.
End MapCompose.

Lemma map_field_id x : map_field (fun t => t) (fun c => c) (fun c => c) x = x.
Proof. destruct x as [i n r t [d|] an cm]; reflexivity. Qed.
Lemma map_function_id x : map_function (fun t => t) (fun c => c) (fun c => c) x = x.
Proof. destruct x. unfold map_function. cbn. rewrite !(map_id_ext _ _ map_field_id). reflexivity. Qed.
Lemma map_struct_like_id x : map_struct_like (fun t => t) (fun c => c) (fun c => c) x = x.
Proof. destruct x. unfold map_struct_like. cbn. rewrite (map_id_ext _ _ map_field_id). reflexivity. Qed.
Lemma map_service_id x : map_service (fun t => t) (fun c => c) (fun c => c) false x = x.
Proof. destruct x. unfold map_service. cbn. rewrite (map_id_ext _ _ map_function_id). reflexivity. Qed.
Lemma map_enum_id x : map_enum (fun c => c) x = x.
Proof.
  destruct x. unfold map_enum. cbn. rewrite map_id_ext; [reflexivity|]. intros []. reflexivity.
Qed.
Lemma map_file_id a : map_file (fun t => t) (fun c => c) (fun c => c) false a = a.
Proof.
  destruct a. unfold map_file. cbn.
  rewrite !(map_id_ext _ _ map_struct_like_id), (map_id_ext _ _ map_service_id), (map_id_ext _ _ map_enum_id).
  rewrite !map_id_ext; [reflexivity | | |]; intros []; reflexivity.
Qed.

Lemma strip_comments_idem f : strip_comments (strip_comments f) = strip_comments f.
Proof. unfold strip_comments. rewrite map_file_compose. reflexivity. Qed.
