(* Idl/DumpLitFacts.v — property C17: every value a literal of the grammar can have is in
   the domain of quoteLiteral. *)
From Coq Require Import List Bool.
From Coq.Strings Require Import Byte.
From Verif Require Import Base.Bytes Idl.Lex Idl.LexFacts Idl.Dump Idl.DumpFacts.
Import ListNotations.

Section InDomain.
  Variable q : byte.
  Hypothesis Hq : is_quote q = true.

  Let Hqb : q <> c_bs.
  Proof. apply quote_not_bs. exact Hq. Qed.

  (* every q after the first position stands behind a backslash *)
  Fixpoint adj (raw : bytes) : bool :=
    match raw with
    | c :: r => match r with
                | d :: _ => (negb (Byte.eqb d q) || Byte.eqb c c_bs) && adj r
                | [] => true
                end
    | [] => true
    end.

  Lemma adj_cons c d r : adj (c :: d :: r) = (negb (Byte.eqb d q) || Byte.eqb c c_bs) && adj (d :: r).
  Proof. reflexivity. Qed.

  Definition head_not_q (raw : bytes) : Prop := match raw with c :: _ => c <> q | [] => True end.

  Lemma lex_lit_head c r raw rest : c <> q -> c <> c_bs -> lex_lit q (c :: r) = Some (raw, rest) ->
    exists raw', raw = c :: raw' /\ lex_lit q r = Some (raw', rest).
  Proof.
    intros H1 H2 H. rewrite lex_lit_cons in H. rewrite (eqb_neq _ _ H2), (eqb_neq _ _ H1) in H.
    destruct (lex_lit q r) as [[raw' rest']|]; [|discriminate]. injection H as <- <-. eauto.
  Qed.

  Lemma lex_lit_shape : forall s raw rest, lex_lit q s = Some (raw, rest) ->
    ends_bs raw = false /\ adj raw = true /\ head_not_q raw.
  Proof.
    induction s as [|c r IH IH2] using list_ind_tl; intros raw rest H; [discriminate|].
    - rewrite lex_lit_cons in H.
      destruct (Byte.eqb c c_bs) eqn:Ecb.
      + apply byte_eqb_eq in Ecb. subst c. destruct r as [|d r']; [discriminate|]. cbn [tl] in IH2.
        destruct (is_quote d) eqn:Eqd.
        * destruct (lex_lit q r') as [[raw' rest']|] eqn:E; [|discriminate]. injection H as <- <-.
          destruct (IH2 raw' rest' eq_refl) as (He & Ha & Hh).
          assert (Hdb : Byte.eqb d c_bs = false) by (apply eqb_neq; apply quote_not_bs; exact Eqd).
          split; [|split].
          -- rewrite ends_bs_cons. destruct raw' as [|e raw'']; [cbn; exact Hdb | rewrite ends_bs_cons; exact He].
          -- rewrite adj_cons, byte_eqb_refl, orb_true_r. cbn [andb].
             destruct raw' as [|e raw'']; [reflexivity|]. rewrite adj_cons.
             cbn [head_not_q] in Hh. rewrite (eqb_neq _ _ Hh). cbn [negb orb andb]. exact Ha.
          -- cbn. intro Hc. apply Hqb. symmetry. exact Hc.
        * destruct (lex_lit q (d :: r')) as [[raw' rest']|] eqn:E; [|discriminate]. injection H as <- <-.
          destruct (IH raw' rest' eq_refl) as (He & Ha & Hh).
          (* raw' starts with d *)
          assert (Hd : exists t, raw' = d :: t).
          { rewrite lex_lit_cons in E. destruct (Byte.eqb d c_bs) eqn:Edb.
            - destruct r' as [|d2 r2]; [discriminate|].
              destruct (is_quote d2); [destruct (lex_lit q r2) as [[x y]|] | destruct (lex_lit q (d2 :: r2)) as [[x y]|]];
                try discriminate; injection E as <- <-; eauto.
            - assert (Hdq : Byte.eqb d q = false).
              { destruct (Byte.eqb d q) eqn:E2; [|reflexivity]. apply byte_eqb_eq in E2. subst d. congruence. }
              rewrite Hdq in E. destruct (lex_lit q r') as [[x y]|]; [|discriminate]. injection E as <- <-. eauto. }
          destruct Hd as [t ->].
          split; [|split].
          -- rewrite ends_bs_cons. exact He.
          -- rewrite adj_cons, byte_eqb_refl, orb_true_r. exact Ha.
          -- cbn. intro Hc. apply Hqb. symmetry. exact Hc.
      + destruct (Byte.eqb c q) eqn:Ecq.
        * injection H as <- <-. repeat split.
        * destruct (lex_lit q r) as [[raw' rest']|] eqn:E; [|discriminate]. injection H as <- <-.
          destruct (IH raw' rest' eq_refl) as (He & Ha & Hh).
          split; [|split].
          -- destruct raw' as [|e raw'']; [cbn; exact Ecb | rewrite ends_bs_cons; exact He].
          -- destruct raw' as [|e raw'']; [reflexivity|]. rewrite adj_cons.
             cbn [head_not_q] in Hh. rewrite (eqb_neq _ _ Hh). cbn [negb orb andb]. exact Ha.
          -- cbn. intro Hc. subst c. rewrite byte_eqb_refl in Ecq. discriminate.
  Qed.

  Lemma unescape_nonnil c r : unescape q (c :: r) <> [].
  Proof.
    destruct r as [|d r']; [discriminate|]. rewrite unescape_step.
    destruct (Byte.eqb c c_bs); [|discriminate].
    destruct (Byte.eqb d c_bs) eqn:Edb; [destruct r'; discriminate|].
    destruct (Byte.eqb d q); [|discriminate].
    destruct r' as [|e r'']; [discriminate|]. rewrite unescape_step, Edb. discriminate.
  Qed.

  Lemma ends_bs_cons_nonnil c l : l <> [] -> ends_bs (c :: l) = ends_bs l.
  Proof. destruct l; [contradiction | reflexivity]. Qed.

  Lemma adj_tail c r : adj (c :: r) = true -> adj r = true.
  Proof. destruct r as [|d r']; [reflexivity|]. rewrite adj_cons. intro H. apply andb_true_iff in H. tauto. Qed.

  (* pegText's value of such a text can be written between quotes q again *)
  Lemma unescape_quotable : forall raw, ends_bs raw = false -> adj raw = true ->
    snd (quote_body q true (unescape q raw)) = true /\ ends_bs (unescape q raw) = false.
  Proof.
    induction raw as [|c r IH IH2] using list_ind_tl; intros He Ha; [split; reflexivity|].
    - destruct r as [|d r']; cbn [tl] in IH2.
      + (* one character *)
        cbn [unescape]. split; [|exact He].
        destruct (Byte.byte_eq_dec c q) as [->|N1].
        * rewrite (qb_q_snd q Hq). reflexivity.
        * assert (N2 : c <> c_bs) by (intro; subst c; cbn in He; discriminate).
          rewrite (qb_other_snd q true c [] N1 N2). reflexivity.
      + pose proof (ends_bs_tail _ _ He) as He1. pose proof (adj_tail _ _ Ha) as Ha1.
        rewrite unescape_step.
        destruct (Byte.byte_eq_dec c c_bs) as [->|N2].
        * rewrite byte_eqb_refl.
          destruct (Byte.byte_eq_dec d c_bs) as [->|M2].
          -- rewrite byte_eqb_refl.
             destruct r' as [|e r'']; [cbn in He; discriminate|].
             destruct (IH2 (ends_bs_tail _ _ He1) (adj_tail _ _ Ha1)) as [I1 I2].
             split.
             ++ rewrite (qb_bs_snd q Hq), (qb_bs_snd q Hq). exact I1.
             ++ rewrite ends_bs_cons. rewrite ends_bs_cons_nonnil by apply unescape_nonnil. exact I2.
          -- rewrite (eqb_neq _ _ M2).
             destruct (Byte.byte_eq_dec d q) as [->|M1].
             ++ rewrite byte_eqb_refl. apply IH; assumption.
             ++ rewrite (eqb_neq _ _ M1).
                destruct (IH He1 Ha1) as [I1 I2].
                (* the value of (d :: r') starts with d *)
                assert (Hu : exists t, unescape q (d :: r') = d :: t).
                { destruct r' as [|e r'']; [exists []; reflexivity|].
                  rewrite unescape_step, (eqb_neq _ _ M2). eauto. }
                destruct Hu as [t Hu]. rewrite Hu in I1, I2 |- *.
                split.
                ** rewrite (qb_bs_snd q Hq). cbn [negb].
                   rewrite (qb_other_snd q false d t M1 M2). rewrite (qb_other_snd q true d t M1 M2) in I1. exact I1.
                ** rewrite ends_bs_cons. exact I2.
        * rewrite (eqb_neq _ _ N2).
          destruct (IH He1 Ha1) as [I1 I2].
          split.
          -- destruct (Byte.byte_eq_dec c q) as [->|N1].
             ++ rewrite (qb_q_snd q Hq). exact I1.
             ++ rewrite (qb_other_snd q true c _ N1 N2). exact I1.
          -- rewrite ends_bs_cons_nonnil by apply unescape_nonnil. exact I2.
  Qed.
End InDomain.

(* the values of literals: whatever the lexer accepts between two quotes unescapes to a text
   in the domain of quoteLiteral *)
Theorem unescape_in_domain q s raw rest :
  is_quote q = true -> lex_lit q s = Some (raw, rest) -> lit_ok (unescape q raw) = true.
Proof.
  intros Hq H.
  destruct (lex_lit_shape q Hq s raw rest H) as (He & Ha & _).
  destruct (unescape_quotable q Hq raw He Ha) as [H1 H2].
  unfold lit_ok, quote_ok. rewrite H2. cbn [negb andb].
  unfold is_quote in Hq. apply orb_true_iff in Hq. destruct Hq as [E|E]; apply byte_eqb_eq in E; subst q.
  - rewrite H1. reflexivity.
  - rewrite H1. apply orb_true_r.
Qed.
