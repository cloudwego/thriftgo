(* Idl/DumpFacts.v — facts about the dumper model Idl/Dump.v (property C17): quoteLiteral is
   exact on its domain, and the view of a file (what the written text denotes) keeps
   everything the property lists. *)
From Coq Require Import List Bool ZArith.
From Coq.Strings Require Import Byte.
From Verif Require Import Base.Bytes Idl.Ast Idl.AstFacts Idl.Lex Idl.LexFacts Idl.Parse Idl.Dump.
Import ListNotations.

(* the domain of quoteLiteral: texts that do not end with a backslash and that have not
   both a double and a single quote after an odd run of backslashes.  These are exactly
   the values a literal of the grammar can have (see [unescape_in_domain]). *)
Fixpoint ends_bs (s : bytes) : bool :=
  match s with
  | [] => false
  | c :: r => match r with [] => Byte.eqb c c_bs | _ => ends_bs r end
  end.

Definition quote_ok (q : byte) (s : bytes) : bool := snd (quote_body q true s).
Definition lit_ok (s : bytes) : bool :=
  negb (ends_bs s) && (quote_ok c_dq s || quote_ok c_sq s).

Lemma ends_bs_cons c d r : ends_bs (c :: d :: r) = ends_bs (d :: r).
Proof. reflexivity. Qed.
Lemma ends_bs_tail c r : ends_bs (c :: r) = false -> ends_bs r = false.
Proof. destruct r; [reflexivity | rewrite ends_bs_cons; auto]. Qed.

Lemma quote_not_bs q : is_quote q = true -> q <> c_bs.
Proof. intros H ->. discriminate. Qed.

Lemma list_ind_tl {A} (P : list A -> Prop) :
  P [] -> (forall a l, P l -> P (tl l) -> P (a :: l)) -> forall l, P l.
Proof.
  intros H0 H1 l. assert (H : P l /\ P (tl l)); [|exact (proj1 H)].
  induction l as [|a l [IHl IHt]]; split; auto.
Qed.

Section QuoteBody.
  Variable q : byte.
  Hypothesis Hq : is_quote q = true.

  Let Hqb : Byte.eqb q c_bs = false.
  Proof. apply eqb_neq. apply quote_not_bs. exact Hq. Qed.
  Let Hbq : Byte.eqb c_bs q = false.
  Proof. apply eqb_neq. intro H. symmetry in H. revert H. apply quote_not_bs. exact Hq. Qed.

  Lemma qb_nil e : quote_body q e [] = ([], true).
  Proof. reflexivity. Qed.

  Lemma qb_q_fst r : fst (quote_body q true (q :: r)) = c_bs :: q :: fst (quote_body q true r).
  Proof. cbn [quote_body]. rewrite Hqb, byte_eqb_refl. destruct (quote_body q true r). reflexivity. Qed.
  Lemma qb_q_snd r : snd (quote_body q true (q :: r)) = snd (quote_body q true r).
  Proof. cbn [quote_body]. rewrite Hqb, byte_eqb_refl. destruct (quote_body q true r). reflexivity. Qed.
  Lemma qb_q_odd r : snd (quote_body q false (q :: r)) = false.
  Proof. cbn [quote_body]. rewrite Hqb, byte_eqb_refl. destruct (quote_body q true r). reflexivity. Qed.

  Lemma qb_bs_fst e r : fst (quote_body q e (c_bs :: r)) = c_bs :: fst (quote_body q (negb e) r).
  Proof. cbn [quote_body]. rewrite byte_eqb_refl, Hbq. destruct (quote_body q (negb e) r). reflexivity. Qed.
  Lemma qb_bs_snd e r : snd (quote_body q e (c_bs :: r)) = snd (quote_body q (negb e) r).
  Proof. cbn [quote_body]. rewrite byte_eqb_refl, Hbq. destruct (quote_body q (negb e) r). reflexivity. Qed.

  Lemma qb_other_fst e c r : c <> q -> c <> c_bs ->
    fst (quote_body q e (c :: r)) = c :: fst (quote_body q true r).
  Proof.
    intros H1 H2. cbn [quote_body]. rewrite (eqb_neq _ _ H1), (eqb_neq _ _ H2).
    destruct (quote_body q true r). reflexivity.
  Qed.
  Lemma qb_other_snd e c r : c <> q -> c <> c_bs ->
    snd (quote_body q e (c :: r)) = snd (quote_body q true r).
  Proof.
    intros H1 H2. cbn [quote_body]. rewrite (eqb_neq _ _ H1), (eqb_neq _ _ H2).
    destruct (quote_body q true r). reflexivity.
  Qed.

  Lemma qb_nonnil e c r : fst (quote_body q e (c :: r)) <> [].
  Proof.
    destruct (Byte.byte_eq_dec c q) as [->|N1].
    - destruct e.
      + rewrite qb_q_fst. discriminate.
      + cbn [quote_body]. rewrite Hqb, byte_eqb_refl. destruct (quote_body q true r). discriminate.
    - destruct (Byte.byte_eq_dec c c_bs) as [->|N2].
      + rewrite qb_bs_fst. discriminate.
      + rewrite qb_other_fst by assumption. discriminate.
  Qed.

  Lemma lex_lit_quote_body rest :
    forall s e, snd (quote_body q e s) = true -> ends_bs s = false ->
    lex_lit q (fst (quote_body q e s) ++ q :: rest) = Some (fst (quote_body q e s), rest).
  Proof.
    assert (Hb : is_quote c_bs = false) by reflexivity.
    induction s as [|c r IH IH2] using list_ind_tl; intros e Hok Hend.
    - cbn [quote_body fst app]. rewrite lex_lit_cons, Hqb, byte_eqb_refl. reflexivity.
    - pose proof (ends_bs_tail _ _ Hend) as Hendr.
      destruct (Byte.byte_eq_dec c q) as [->|N1].
      + (* the quote itself *)
        destruct e; [|rewrite qb_q_odd in Hok; discriminate].
        rewrite qb_q_snd in Hok. rewrite qb_q_fst. cbn [app].
        rewrite lex_lit_cons, byte_eqb_refl, Hq.
        rewrite (IH true Hok Hendr). reflexivity.
      + destruct (Byte.byte_eq_dec c c_bs) as [->|N2].
        * (* a backslash *)
          rewrite qb_bs_snd in Hok. rewrite qb_bs_fst. cbn [app].
          destruct r as [|c2 r2]; [cbn in Hend; discriminate|]. cbn [tl] in IH2.
          rewrite lex_lit_cons, byte_eqb_refl.
          destruct (Byte.byte_eq_dec c2 q) as [->|M1].
          -- (* then the quote: it gets its own backslash *)
             destruct (negb e) eqn:Ee; [|rewrite qb_q_odd in Hok; discriminate].
             pose proof (IH true Hok Hendr) as IHr.
             rewrite qb_q_fst in IHr |- *. cbn [app] in IHr |- *.
             rewrite Hb, IHr. reflexivity.
          -- destruct (Byte.byte_eq_dec c2 c_bs) as [->|M2].
             ++ pose proof (IH (negb e) Hok Hendr) as IHr.
                rewrite qb_bs_fst in IHr |- *. cbn [app] in IHr |- *.
                rewrite Hb, IHr. reflexivity.
             ++ rewrite qb_other_snd in Hok by assumption.
                rewrite qb_other_fst by assumption. cbn [app].
                destruct (is_quote c2) eqn:Eq2.
                ** (* the other quote: the lexer takes the pair *)
                   rewrite (IH2 true Hok (ends_bs_tail _ _ Hendr)). reflexivity.
                ** pose proof (IH (negb e)) as IHr.
                   rewrite qb_other_snd, qb_other_fst in IHr by assumption. cbn [app] in IHr.
                   rewrite (IHr Hok Hendr). reflexivity.
        * rewrite qb_other_snd in Hok by assumption. rewrite qb_other_fst by assumption. cbn [app].
          rewrite lex_lit_cons, (eqb_neq _ _ N2), (eqb_neq _ _ N1).
          rewrite (IH true Hok Hendr). reflexivity.
  Qed.

  (* pegText gives the text back *)
  Lemma unescape_quote_body :
    forall s, snd (quote_body q true s) = true -> ends_bs s = false ->
    unescape q (fst (quote_body q true s)) = s.
  Proof.
    induction s as [|c r IH IH2] using list_ind_tl; intros Hok Hend; [reflexivity|].
    pose proof (ends_bs_tail _ _ Hend) as Hendr.
    destruct (Byte.byte_eq_dec c q) as [->|N1].
    - rewrite qb_q_snd in Hok. rewrite qb_q_fst.
      rewrite unescape_step, (byte_eqb_refl c_bs), Hqb, (byte_eqb_refl q).
      destruct r as [|c2 r2].
      + reflexivity.
      + rewrite (unescape_cons_plain q q _ (quote_not_bs q Hq) (qb_nonnil true c2 r2)).
        rewrite (IH Hok Hendr). reflexivity.
    - destruct (Byte.byte_eq_dec c c_bs) as [->|N2].
      + rewrite qb_bs_snd in Hok. rewrite qb_bs_fst. cbn [negb] in *.
        destruct r as [|c2 r2]; [cbn in Hend; discriminate|]. cbn [tl] in IH2.
        pose proof (ends_bs_tail _ _ Hendr) as Hend2.
        destruct (Byte.byte_eq_dec c2 q) as [->|M1]; [rewrite qb_q_odd in Hok; discriminate|].
        destruct (Byte.byte_eq_dec c2 c_bs) as [->|M2].
        * (* a doubled backslash stays two characters *)
          rewrite qb_bs_snd in Hok. rewrite qb_bs_fst. cbn [negb] in *.
          rewrite unescape_step, (byte_eqb_refl c_bs).
          destruct r2 as [|c3 r3]; [cbn in Hendr; discriminate|].
          destruct (fst (quote_body q true (c3 :: r3))) eqn:E; [exfalso; exact (qb_nonnil true c3 r3 E)|].
          rewrite <- E in IH2 |- *. rewrite (IH2 Hok Hend2). reflexivity.
        * rewrite qb_other_snd in Hok by assumption. rewrite qb_other_fst by assumption.
          rewrite unescape_step, (byte_eqb_refl c_bs), (eqb_neq _ _ M2), (eqb_neq _ _ M1).
          destruct r2 as [|c3 r3].
          -- reflexivity.
          -- rewrite (unescape_cons_plain q c2 _ M2 (qb_nonnil true c3 r3)).
             rewrite (IH2 Hok Hend2). reflexivity.
      + rewrite qb_other_snd in Hok by assumption. rewrite qb_other_fst by assumption.
        destruct r as [|c2 r2]; [reflexivity|].
        rewrite (unescape_cons_plain q c _ N2 (qb_nonnil true c2 r2)).
        rewrite (IH Hok Hendr). reflexivity.
  Qed.
End QuoteBody.

Theorem lit_token_roundtrip s : lit_ok s = true ->
  exists q raw, lit_token s = TLit q raw /\ is_quote q = true /\
    (forall rest, lex_lit q (raw ++ q :: rest) = Some (raw, rest)) /\ unescape q raw = s.
Proof.
  unfold lit_ok, quote_ok, lit_token. intro H. apply andb_true_iff in H. destruct H as [Hend Hq].
  apply negb_true_iff in Hend.
  destruct (quote_body c_dq true s) as [b ok] eqn:E. cbn [snd] in Hq.
  destruct ok.
  - exists c_dq, b. split; [reflexivity|]. split; [reflexivity|].
    assert (Hb : b = fst (quote_body c_dq true s)) by (rewrite E; reflexivity).
    assert (Hk : snd (quote_body c_dq true s) = true) by (rewrite E; reflexivity).
    split.
    + intro rest. rewrite Hb. apply (lex_lit_quote_body c_dq eq_refl); assumption.
    + rewrite Hb. apply (unescape_quote_body c_dq eq_refl); assumption.
  - cbn [orb] in Hq. exists c_sq, (fst (quote_body c_sq true s)). split; [reflexivity|]. split; [reflexivity|].
    split.
    + intro rest. apply (lex_lit_quote_body c_sq eq_refl); assumption.
    + apply (unescape_quote_body c_sq eq_refl); assumption.
Qed.

Corollary view_lit_id s : lit_ok s = true -> view_lit s = s.
Proof.
  intro H. destruct (lit_token_roundtrip s H) as (q & raw & E & _ & _ & Hu).
  unfold view_lit. rewrite E. exact Hu.
Qed.

Corollary lit_token_wf s : lit_ok s = true -> token_wf (lit_token s).
Proof.
  intro H. destruct (lit_token_roundtrip s H) as (q & raw & E & Hq & Hl & _).
  rewrite E. constructor; [exact Hq|].
  unfold lit_closed. rewrite (Hl []). apply beqb_refl.
Qed.

Definition nonempty_l {A} (l : list A) : bool := match l with [] => false | _ => true end.

Definition anno_ok (an : annotation) : bool := nonempty_l (an_values an) && forallb lit_ok (an_values an).
Fixpoint nodup_keys (a : annotations) : bool :=
  match a with
  | [] => true
  | x :: r => negb (existsb (fun y => beqb (an_key y) (an_key x)) r) && nodup_keys r
  end.
(* an annotation list in the form the parser builds: keys pairwise distinct, every key with
   at least one value *)
Definition annos_ok (a : annotations) : bool := forallb anno_ok a && nodup_keys a.

Fixpoint ty_ok (t : ty) : bool :=
  match t with
  | Ty _ k v _ an _ _ _ =>
    annos_ok an &&
    match k, v with
    | Some kt, Some vt => ty_ok kt && ty_ok vt
    | None, Some vt => ty_ok vt
    | None, None => true
    | Some _, None => false
    end
  end.

Definition enum_ok (e : enum) : bool :=
  forallb (fun v => annos_ok (ev_annos v)) (en_values e) && annos_ok (en_annos e).
Definition typedef_ok (t : typedef) : bool := ty_ok (td_type t) && annos_ok (td_annos t).
Definition namespace_ok (n : namespace) : bool := annos_ok (ns_annos n).

Fixpoint nodup_bytes (l : list bytes) : bool :=
  match l with [] => true | x :: r => negb (existsb (beqb x) r) && nodup_bytes r end.
Definition includes_ok (l : list include) : bool :=
  forallb (fun i => lit_ok (in_path i) && nonempty_l (in_path i)) l && nodup_bytes (map in_path l).

Section ViewOk.
  Variable fmt : N -> bytes.

  Fixpoint cv_ok (c : const_value) : bool :=
    match c with
    | CDouble d => fmt_ok fmt d
    | CInt _ => true
    | CLiteral s => lit_ok s
    | CIdent _ _ => true
    | CList l => forallb cv_ok l
    | CMap l => forallb (fun kv => cv_ok (fst kv) && cv_ok (snd kv)) l
    end.

  Definition field_ok (f : field) : bool :=
    negb (Z.eqb (fd_id f) NOTSET) && ty_ok (fd_type f) &&
    match fd_default f with Some v => cv_ok v | None => true end && annos_ok (fd_annos f).
  Definition throw_ok (f : field) : bool := field_ok f && requiredness_eqb (fd_req f) ReqOptional.

  Definition struct_ok (k : sl_kind) (s : struct_like) : bool :=
    sl_kind_eqb (sl_category s) k && forallb field_ok (sl_fields s) && annos_ok (sl_annos s).

  Definition function_ok (f : function) : bool :=
    ty_ok (fn_type f) && Bool.eqb (fn_void f) (is_void_type (fn_type f)) &&
    forallb field_ok (fn_args f) && forallb throw_ok (fn_throws f) && annos_ok (fn_annos f).
  Definition service_ok (s : service) : bool :=
    forallb function_ok (sv_functions s) && annos_ok (sv_annos s).
  Definition constant_ok (c : constant) : bool :=
    ty_ok (co_type c) && cv_ok (co_value c) && annos_ok (co_annos c).

  (* the files on which nothing the property lists is lost: what the parser produces *)
  Definition view_ok (a : file) : bool :=
    includes_ok (f_includes a) && forallb lit_ok (f_cpp_includes a) &&
    forallb namespace_ok (f_namespaces a) && forallb typedef_ok (f_typedefs a) &&
    forallb constant_ok (f_constants a) && forallb enum_ok (f_enums a) &&
    forallb (struct_ok SKStruct) (f_structs a) && forallb (struct_ok SKUnion) (f_unions a) &&
    forallb (struct_ok SKException) (f_exceptions a) && forallb service_ok (f_services a).
End ViewOk.

Lemma forallb_impl {A} (p q : A -> bool) l :
  (forall x, p x = true -> q x = true) -> forallb p l = true -> forallb q l = true.
Proof. intros Hpq H. rewrite forallb_forall in *. auto. Qed.

Lemma map_ext_forallb {A B} (f g : A -> B) (p : A -> bool) l :
  (forall x, p x = true -> f x = g x) -> forallb p l = true -> map f l = map g l.
Proof.
  intros Hfg H. apply map_ext_in. intros x Hx. apply Hfg. rewrite forallb_forall in H. auto.
Qed.

Lemma anno_append_app acc l k v :
  existsb (fun y => beqb (an_key y) k) acc = false -> anno_append (acc ++ l) k v = acc ++ anno_append l k v.
Proof.
  induction acc as [|x r IH]; intro H; [reflexivity|].
  cbn [existsb] in H. apply orb_false_iff in H. destruct H as [H1 H2].
  cbn [app anno_append]. rewrite H1, (IH H2). reflexivity.
Qed.

Lemma fold_values acc k : forall vs done,
  existsb (fun y => beqb (an_key y) k) acc = false -> forallb lit_ok vs = true ->
  fold_left (fun a kv => anno_append a (fst kv) (snd kv)) (map (fun v => (k, view_lit v)) vs)
            (acc ++ [Anno k done]) = acc ++ [Anno k (done ++ vs)].
Proof.
  induction vs as [|v r IH]; intros done Hk Hl.
  - cbn. rewrite app_nil_r. reflexivity.
  - cbn [forallb] in Hl. apply andb_true_iff in Hl. destruct Hl as [Hv Hr].
    cbn [map fold_left fst snd]. rewrite (view_lit_id v Hv), (anno_append_app acc _ k v Hk).
    cbn [anno_append an_key an_values]. rewrite beqb_refl, (IH (done ++ [v]) Hk Hr), <- app_assoc. reflexivity.
Qed.

Lemma existsb_snoc_false {A} (p : A -> bool) acc x :
  existsb p acc = false -> p x = false -> existsb p (acc ++ [x]) = false.
Proof. intros H1 H2. rewrite existsb_app, H1. cbn. rewrite H2. reflexivity. Qed.

Lemma view_annos_acc : forall a acc,
  forallb anno_ok a = true -> nodup_keys a = true ->
  (forall x, In x a -> existsb (fun y => beqb (an_key y) (an_key x)) acc = false) ->
  fold_left (fun ac kv => anno_append ac (fst kv) (snd kv)) (anno_pairs a) acc = acc ++ a.
Proof.
  induction a as [|[k vs] r IH]; intros acc Hok Hnd Hdis.
  - cbn. rewrite app_nil_r. reflexivity.
  - cbn [forallb nodup_keys an_key] in Hok, Hnd. unfold anno_ok in Hok. cbn [an_values] in Hok.
    rewrite !andb_true_iff in Hok. rewrite andb_true_iff, negb_true_iff in Hnd.
    destruct Hok as [[Hne Hlits] Hr], Hnd as [Hnk Hndr].
    destruct vs as [|v vs]; [discriminate|]. cbn [forallb] in Hlits. apply andb_true_iff in Hlits. destruct Hlits as [Hv Hvs].
    pose proof (Hdis _ (or_introl eq_refl)) as Hk. cbn [an_key] in Hk.
    unfold anno_pairs. cbn [flat_map an_key an_values map]. fold (anno_pairs r).
    rewrite fold_left_app. cbn [fold_left fst snd].
    pose proof (anno_append_app acc [] k v Hk) as E. rewrite app_nil_r in E.
    rewrite (view_lit_id v Hv), E. cbn [anno_append].
    rewrite (fold_values acc k vs [v] Hk Hvs). cbn [app].
    rewrite (IH (acc ++ [Anno k (v :: vs)]) Hr Hndr), <- app_assoc; [reflexivity|].
    intros y Hy. apply existsb_snoc_false; [apply Hdis; right; exact Hy|].
    cbn [an_key]. rewrite beqb_sym. exact (existsb_false_In _ r y Hnk Hy).
Qed.

Lemma view_annos_id a : annos_ok a = true -> view_annos a = a.
Proof.
  unfold annos_ok. intro H. apply andb_true_iff in H. destruct H as [H1 H2].
  unfold view_annos, annos_of_pairs. rewrite (view_annos_acc a [] H1 H2); [reflexivity|].
  intros; reflexivity.
Qed.

Lemma add_includes_acc : forall ps acc,
  forallb (fun p => nonempty_l p) ps = true -> nodup_bytes ps = true ->
  (forall p, In p ps -> existsb (fun i => beqb (in_path i) p) acc = false) ->
  add_includes acc (map HInclude ps) = acc ++ map (fun p => Include p None None) ps.
Proof.
  induction ps as [|p r IH]; intros acc Hne Hnd Hdis.
  - cbn. rewrite app_nil_r. reflexivity.
  - cbn [forallb nodup_bytes] in Hne, Hnd. rewrite andb_true_iff in Hne. rewrite andb_true_iff, negb_true_iff in Hnd.
    destruct Hne as [Hp Hr], Hnd as [Hnp Hndr].
    cbn [map add_includes]. rewrite (Hdis p (or_introl eq_refl)).
    assert (Hpe : beqb p [] = false) by (destruct p; [discriminate | reflexivity]).
    rewrite Hpe. cbn [orb].
    rewrite (IH (acc ++ [Include p None None]) Hr Hndr), <- app_assoc; [reflexivity|].
    intros x Hx. apply existsb_snoc_false; [apply Hdis; right; exact Hx|].
    exact (existsb_false_In _ r x Hnp Hx).
Qed.

Lemma view_includes_eq l : includes_ok l = true ->
  add_includes [] (map (fun i => HInclude (view_lit (in_path i))) l) = map (fun i => Include (in_path i) None None) l.
Proof.
  unfold includes_ok. intro H. apply andb_true_iff in H. destruct H as [H1 H2].
  rewrite (map_ext_forallb _ (fun i => HInclude (in_path i)) _ l
             (fun i Hi => f_equal HInclude (view_lit_id _ (proj1 (proj1 (andb_true_iff _ _) Hi)))) H1).
  rewrite <- (map_map in_path HInclude), add_includes_acc.
  - cbn [app]. apply map_map.
  - rewrite forallb_map. revert H1. apply forallb_impl. intros i Hi. apply andb_true_iff in Hi. tauto.
  - exact H2.
  - intros; reflexivity.
Qed.

Lemma view_ty_void t : is_void_type t = true -> view_ty t = ty_named kw_void.
Proof.
  destruct t as [n [k|] [v|] c an cat r td]; cbn [is_void_type]; try discriminate.
  destruct an; [|discriminate]. intro H. apply beqb_true in H. subst n. reflexivity.
Qed.

Lemma assign_ids_id : forall l prev, forallb (fun f => negb (Z.eqb (fd_id f) NOTSET)) l = true ->
  assign_ids prev l = l.
Proof.
  induction l as [|f r IH]; intros prev H; [reflexivity|].
  cbn [forallb] in H. apply andb_true_iff in H. destruct H as [H1 H2].
  apply negb_true_iff in H1. cbn [assign_ids]. rewrite H1.
  rewrite (IH _ H2). destruct f; reflexivity.
Qed.

(* One traversal of the view serves every comparison of [dump_view fmt a] with [a]: F and G are
   applied to the types and constant values of the view, F' and G' to those of the original.
   The view records no comments and no resolution info, so r is arbitrary and K need only keep
   the empty comment empty. *)
Section ViewGen.
  Variable fmt : N -> bytes.
  Variables (F F' : ty -> ty) (G G' : const_value -> const_value) (K : bytes -> bytes).
  Hypothesis HK : K [] = [].
  Hypothesis HF : forall t, ty_ok t = true -> F (view_ty t) = F' t.
  Hypothesis HG : forall c, cv_ok fmt c = true -> G (view_cv fmt c) = G' c.

  (* every id is written, so the parser assigns none *)
  Lemma assign_ids_view (h : field -> field) l :
    (forall f, fd_id (h f) = fd_id f) -> forallb (field_ok fmt) l = true -> assign_ids None (map h l) = map h l.
  Proof.
    intros Hh H. apply assign_ids_id. rewrite forallb_map. revert H. apply forallb_impl.
    intros f Hf. rewrite Hh. unfold field_ok in Hf. rewrite !andb_true_iff in Hf. tauto.
  Qed.

  Lemma view_field_gen f : field_ok fmt f = true ->
    map_field F G K (view_field fmt f) = map_field F' G' (fun _ => []) f.
  Proof.
    unfold field_ok. rewrite !andb_true_iff. intros (((_ & Hty) & Hd) & Han).
    unfold map_field, view_field. cbn [fd_id fd_name fd_req fd_type fd_default fd_annos fd_comments].
    rewrite (HF _ Hty), (view_annos_id _ Han), HK.
    destruct (fd_default f) as [v|]; cbn [option_map]; [rewrite (HG v Hd)|]; reflexivity.
  Qed.

  Lemma view_fields_gen l : forallb (field_ok fmt) l = true ->
    map (map_field F G K) (view_fields fmt l) = map (map_field F' G' (fun _ => [])) l.
  Proof.
    intro H. unfold view_fields. rewrite (assign_ids_view (view_field fmt) l (fun _ => eq_refl) H), map_map.
    exact (map_ext_forallb _ _ _ l view_field_gen H).
  Qed.

  Lemma view_throws_gen l : forallb (throw_ok fmt) l = true ->
    map (map_field F G K) (assign_ids None (map (fun x => set_req (view_field fmt x) ReqOptional) l)) =
    map (map_field F' G' (fun _ => [])) l.
  Proof.
    intro H. rewrite assign_ids_view.
    - rewrite map_map. apply (map_ext_forallb _ _ (throw_ok fmt) l); [|exact H].
      intros f Hf. apply andb_true_iff in Hf. destruct Hf as [Hf Hr]. apply requiredness_eqb_eq in Hr.
      rewrite <- (view_field_gen f Hf). unfold set_req, view_field, map_field.
      cbn [fd_id fd_name fd_req fd_type fd_default fd_annos fd_comments]. rewrite Hr. reflexivity.
    - reflexivity.
    - revert H. apply forallb_impl. intros f Hf. apply andb_true_iff in Hf. tauto.
  Qed.

  Lemma view_struct_gen k s : struct_ok fmt k s = true ->
    map_struct_like F G K (view_struct fmt k s) = map_struct_like F' G' (fun _ => []) s.
  Proof.
    unfold struct_ok. rewrite !andb_true_iff, sl_kind_eqb_eq. intros ((Hk & Hfs) & Han).
    unfold map_struct_like, view_struct. cbn [sl_category sl_name sl_fields sl_annos sl_comments].
    rewrite (view_fields_gen _ Hfs), (view_annos_id _ Han), HK, Hk. reflexivity.
  Qed.

  Lemma view_function_gen f : function_ok fmt f = true ->
    map_function F G K (view_function fmt f) = map_function F' G' (fun _ => []) f.
  Proof.
    unfold function_ok. rewrite !andb_true_iff. intros ((((Hty & Hvoid) & Hargs) & Hth) & Han).
    unfold map_function, view_function.
    cbn [fn_name fn_oneway fn_void fn_type fn_args fn_throws fn_annos fn_comments].
    rewrite (view_fields_gen _ Hargs), (view_throws_gen _ Hth), (view_annos_id _ Han), HK, (eqb_prop _ _ Hvoid).
    destruct (is_void_type (fn_type f)) eqn:Ev; [rewrite <- (view_ty_void _ Ev)|]; rewrite (HF _ Hty); reflexivity.
  Qed.

  Lemma view_service_gen r s : service_ok fmt s = true ->
    map_service F G K r (view_service fmt s) = map_service F' G' (fun _ => []) true s.
  Proof.
    unfold service_ok. rewrite andb_true_iff. intros (Hfs & Han).
    unfold map_service, view_service. cbn [sv_name sv_extends sv_functions sv_annos sv_ref sv_comments].
    rewrite (view_annos_id _ Han), HK, map_map, (map_ext_forallb _ _ _ _ view_function_gen Hfs).
    destruct r; reflexivity.
  Qed.

  Lemma view_enum_gen e : enum_ok e = true -> map_enum K (view_enum e) = map_enum (fun _ => []) e.
  Proof.
    unfold enum_ok. rewrite andb_true_iff. intros (Hvs & Han).
    unfold map_enum, view_enum. cbn [en_name en_values en_annos en_comments].
    rewrite (view_annos_id _ Han), HK, map_map. f_equal.
    apply (map_ext_forallb _ _ (fun v => annos_ok (ev_annos v)) (en_values e)); [|exact Hvs].
    intros v Hv. unfold map_enum_value.
    cbn [ev_name ev_value ev_annos ev_comments]. rewrite (view_annos_id _ Hv), HK. reflexivity.
  Qed.

  Lemma view_typedef_gen t : typedef_ok t = true ->
    map_typedef F K (view_typedef t) = map_typedef F' (fun _ => []) t.
  Proof.
    unfold typedef_ok. rewrite andb_true_iff. intros (Hty & Han).
    unfold map_typedef, view_typedef. cbn [td_type td_alias td_annos td_comments].
    rewrite (HF _ Hty), (view_annos_id _ Han), HK. reflexivity.
  Qed.

  Lemma view_constant_gen c : constant_ok fmt c = true ->
    map_constant F G K (view_constant fmt c) = map_constant F' G' (fun _ => []) c.
  Proof.
    unfold constant_ok. rewrite !andb_true_iff. intros ((Hty & Hv) & Han).
    unfold map_constant, view_constant. cbn [co_name co_type co_value co_annos co_comments].
    rewrite (HF _ Hty), (HG _ Hv), (view_annos_id _ Han), HK. reflexivity.
  Qed.

  Lemma view_namespace_id n : namespace_ok n = true -> view_namespace n = n.
  Proof.
    unfold namespace_ok, view_namespace. intro H. rewrite (view_annos_id _ H). destruct n; reflexivity.
  Qed.

  (* the file: the include statements come back without a target *)
  Lemma dump_view_gen r a : view_ok fmt a = true ->
    map_file F G K r (dump_view fmt a) =
    File (f_filename a) (map (fun i => Include (in_path i) None None) (f_includes a)) (f_cpp_includes a)
         (f_namespaces a) (map (map_typedef F' (fun _ => [])) (f_typedefs a))
         (map (map_constant F' G' (fun _ => [])) (f_constants a)) (map (map_enum (fun _ => [])) (f_enums a))
         (map (map_struct_like F' G' (fun _ => [])) (f_structs a))
         (map (map_struct_like F' G' (fun _ => [])) (f_unions a))
         (map (map_struct_like F' G' (fun _ => [])) (f_exceptions a))
         (map (map_service F' G' (fun _ => []) true) (f_services a)) None.
  Proof.
    unfold view_ok. rewrite !andb_true_iff.
    intros (((((((((Hi & Hcpp) & Hns) & Htd) & Hcs) & Hes) & Hss) & Hus) & Hxs) & Hsv).
    unfold map_file, dump_view.
    cbn [f_filename f_includes f_cpp_includes f_namespaces f_typedefs f_constants f_enums f_structs f_unions
         f_exceptions f_services f_name2cat].
    rewrite (view_includes_eq _ Hi), !map_map.
    rewrite (map_ext_forallb _ (fun x => x) _ _ view_lit_id Hcpp), (map_ext_forallb _ (fun x => x) _ _ view_namespace_id Hns), !map_id.
    rewrite (map_ext_forallb _ _ _ _ view_typedef_gen Htd), (map_ext_forallb _ _ _ _ view_constant_gen Hcs),
      (map_ext_forallb _ _ _ _ view_enum_gen Hes), (map_ext_forallb _ _ _ _ (view_struct_gen _) Hss),
      (map_ext_forallb _ _ _ _ (view_struct_gen _) Hus), (map_ext_forallb _ _ _ _ (view_struct_gen _) Hxs),
      (map_ext_forallb _ _ _ _ (view_service_gen r) Hsv).
    destruct r; reflexivity.
  Qed.
End ViewGen.

Section ViewEqual.
  Variable fmt : N -> bytes.

  Lemma norm_view_ty : forall t, ty_ok t = true -> norm_ty (view_ty t) = norm_ty t.
  Proof.
    induction t as [n k v c an cat r td IHk IHv] using ty_ind'. intro H.
    cbn [ty_ok] in H. apply andb_true_iff in H. destruct H as [Han H].
    destruct k as [kt|], v as [vt|]; cbn [view_ty ty_plain norm_ty]; rewrite (view_annos_id an Han).
    - apply andb_true_iff in H. destruct H as [Hk Hv].
      rewrite (IHk kt eq_refl Hk), (IHv vt eq_refl Hv). reflexivity.
    - discriminate.
    - rewrite (IHv vt eq_refl H). reflexivity.
    - reflexivity.
  Qed.

  Lemma norm_view_cv : forall c, cv_ok fmt c = true -> norm_cv (view_cv fmt c) = norm_cv c.
  Proof.
    induction c as [d|z|s|s e|l IH|l IH] using const_value_ind'; intro H; cbn [cv_ok] in H.
    - cbn [view_cv norm_cv]. unfold fmt_ok in H. apply const_value_eqb_eq in H. exact H.
    - reflexivity.
    - cbn [view_cv norm_cv]. rewrite (view_lit_id s H). reflexivity.
    - reflexivity.
    - cbn [view_cv norm_cv]. f_equal. rewrite map_map.
      induction IH as [|x r Hx _ IHr]; [reflexivity|].
      cbn [forallb] in H. apply andb_true_iff in H. destruct H as [H1 H2].
      cbn [map]. rewrite (Hx H1), (IHr H2). reflexivity.
    - cbn [view_cv norm_cv]. f_equal. rewrite map_map.
      induction IH as [|[k v] r [Hk Hv] _ IHr]; [reflexivity|].
      cbn [forallb fst snd] in H. apply andb_true_iff in H. destruct H as [H1 H2].
      apply andb_true_iff in H1. destruct H1 as [H1k H1v].
      cbn [map fst snd] in *. rewrite (Hk H1k), (Hv H1v), (IHr H2). reflexivity.
  Qed.

  Theorem dump_view_equal a : view_ok fmt a = true -> c17_norm (dump_view fmt a) = c17_norm a.
  Proof.
    intro H. unfold c17_norm.
    rewrite (dump_view_gen fmt norm_ty norm_ty norm_cv norm_cv _ eq_refl norm_view_ty norm_view_cv true a H).
    unfold map_file.
    cbn [f_filename f_includes f_cpp_includes f_namespaces f_typedefs f_constants f_enums f_structs f_unions
         f_exceptions f_services f_name2cat].
    rewrite !map_map. reflexivity.
  Qed.
End ViewEqual.
