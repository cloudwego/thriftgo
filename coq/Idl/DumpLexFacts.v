(* Idl/DumpLexFacts.v — property C17: the text DumpIDL writes lexes into exactly the
   dumper's tokens (built on lex_ltoks_bytes of Idl/LexFacts.v). *)
From Coq Require Import List Bool ZArith.
From Coq.Strings Require Import Byte.
From Verif Require Import Base.Bytes Idl.Ast Idl.AstFacts Idl.Lex Idl.LexFacts Idl.Parse Idl.Dump Idl.DumpFacts
  Idl.DumpNumFacts.
Import ListNotations.

Definition ws_trivia (ws : bytes) : trivia := map TrSp ws.

Definition tr_of (c : bytes) : trivia :=
  match lex_trivia (S (List.length c)) c with Some (tr, []) => tr | _ => [] end.
(* the comment text is a run of comments and white space that the lexer reads back as it is
   written (what parseReservedComments records: comments joined by line feeds) *)
Definition comment_ok (c : bytes) : bool :=
  match lex_trivia (S (List.length c)) c with
  | Some (tr, []) => beqb (trivia_bytes tr) c && trivia_ok true tr
  | _ => false
  end.
(* the run ends with a line comment, which needs a line break after it *)
Fixpoint ends_lc (tr : trivia) : bool :=
  match tr with
  | [] => false
  | i :: r => match r with [] => is_line_comment i | _ => ends_lc r end
  end.

(* leading-trivia form: white space and comments accumulate in front of the next token *)
Fixpoint group (pending : trivia) (ps : list piece) : list ltok * trivia :=
  match ps with
  | [] => ([], pending)
  | PT t :: r => let (l, fin) := group [] r in ((pending, t) :: l, fin)
  | PN text :: r => let (l, fin) := group [] r in ((pending, num_token text) :: l, fin)
  | PW ws :: r => group (pending ++ ws_trivia ws) r
  | PC c :: r => group (pending ++ tr_of c) r
  end.

Definition piece_wf (p : piece) : Prop :=
  match p with
  | PT t => token_wf t
  | PN text => token_wf (num_token text) /\ token_bytes (num_token text) = text
  | PW ws => forallb is_space ws = true
  | PC c => comment_ok c = true
  end.

Lemma trivia_bytes_app a b : trivia_bytes (a ++ b) = trivia_bytes a ++ trivia_bytes b.
Proof. unfold trivia_bytes. rewrite map_app, concat_app. reflexivity. Qed.
Lemma trivia_bytes_ws ws : trivia_bytes (ws_trivia ws) = ws.
Proof.
  induction ws as [|c r IH]; [reflexivity|].
  cbn [ws_trivia map]. rewrite trivia_bytes_cons. cbn [tritem_bytes app].
  fold (ws_trivia r). rewrite IH. reflexivity.
Qed.

Lemma comment_ok_spec c : comment_ok c = true -> trivia_bytes (tr_of c) = c /\ trivia_ok true (tr_of c) = true.
Proof.
  unfold comment_ok, tr_of. destruct (lex_trivia (S (List.length c)) c) as [[tr [|x r]]|]; try discriminate.
  intro H. apply andb_true_iff in H. destruct H as [H1 H2]. apply beqb_true in H1. auto.
Qed.
Lemma tr_of_nonnil c : comment_ok c = true -> c <> [] -> tr_of c <> [].
Proof. intros H Hc E. destruct (comment_ok_spec c H) as [Hb _]. rewrite E in Hb. cbn in Hb. congruence. Qed.

Lemma ends_lc_cons i j r : ends_lc (i :: j :: r) = ends_lc (j :: r).
Proof. reflexivity. Qed.
Lemma ends_lc_app a b : b <> [] -> ends_lc (a ++ b) = ends_lc b.
Proof.
  intro Hb. induction a as [|i r IH]; [reflexivity|].
  cbn [app]. destruct (r ++ b) as [|j t] eqn:E.
  - destruct r; [cbn in E; congruence | discriminate].
  - rewrite ends_lc_cons. exact IH.
Qed.
Lemma ends_lc_ws c ws : ends_lc (ws_trivia (c :: ws)) = false.
Proof. revert c. induction ws as [|d r IH]; intro c; [reflexivity|]. cbn [ws_trivia map]. rewrite ends_lc_cons. apply IH. Qed.

Lemma trivia_ok_ws last ws : forallb is_space ws = true -> trivia_ok last (ws_trivia ws) = true.
Proof.
  induction ws as [|c r IH]; intro H; [reflexivity|].
  cbn [forallb] in H. apply andb_true_iff in H. destruct H as [H1 H2].
  cbn [ws_trivia map trivia_ok tritem_ok is_line_comment]. rewrite H1. cbn [andb]. apply IH. exact H2.
Qed.

Lemma trivia_ok_cons last i r :
  trivia_ok last (i :: r) =
  tritem_ok i && (if is_line_comment i then match r with [] => last | j :: _ => tr_is_nl j end else true) && trivia_ok last r.
Proof. reflexivity. Qed.

Lemma trivia_ok_app last : forall a b,
  trivia_ok true a = true -> trivia_ok last b = true ->
  (ends_lc a = true -> match b with j :: _ => tr_is_nl j = true | [] => last = true end) ->
  trivia_ok last (a ++ b) = true.
Proof.
  induction a as [|i r IH]; intros b Ha Hb Hl; [exact Hb|].
  rewrite trivia_ok_cons in Ha. apply andb_true_iff in Ha. destruct Ha as [Ha Hr]. apply andb_true_iff in Ha. destruct Ha as [Hi Hc].
  cbn [app]. rewrite trivia_ok_cons, Hi. cbn [andb].
  destruct r as [|j t].
  - cbn [app]. cbn [ends_lc] in Hl. rewrite Hb, andb_true_r.
    destruct (is_line_comment i); [|reflexivity]. specialize (Hl eq_refl). destruct b; exact Hl.
  - cbn [app]. rewrite Hc. cbn [andb]. apply IH; [exact Hr | exact Hb|].
    rewrite ends_lc_cons in Hl. exact Hl.
Qed.

Lemma trivia_ok_closed : forall tr, trivia_ok true tr = true -> ends_lc tr = false -> trivia_ok false tr = true.
Proof.
  induction tr as [|i r IH]; intros H He; [reflexivity|].
  rewrite trivia_ok_cons in H |- *. apply andb_true_iff in H. destruct H as [H Hr]. apply andb_true_iff in H. destruct H as [Hi Hc].
  rewrite Hi. cbn [andb]. destruct r as [|j t].
  - cbn [ends_lc] in He. rewrite He. reflexivity.
  - rewrite Hc. cbn [andb]. apply IH; [exact Hr|]. rewrite ends_lc_cons in He. exact He.
Qed.

Lemma group_bytes ps : Forall piece_wf ps -> forall pending,
  ltoks_bytes (fst (group pending ps)) (snd (group pending ps)) = trivia_bytes pending ++ pieces_text ps.
Proof.
  induction 1 as [|p r Hp _ IH]; intro pending.
  - cbn. unfold ltoks_bytes. cbn. rewrite app_nil_r. reflexivity.
  - destruct p as [t|text|ws|c]; cbn [group piece_wf] in *.
    + specialize (IH []). destruct (group [] r) as [l fin]. cbn [fst snd] in *.
      rewrite ltoks_bytes_cons, IH. reflexivity.
    + specialize (IH []). destruct (group [] r) as [l fin]. cbn [fst snd] in *.
      rewrite ltoks_bytes_cons, IH. destruct Hp as [_ ->]. reflexivity.
    + rewrite IH, trivia_bytes_app, trivia_bytes_ws. unfold pieces_text. cbn [map List.concat piece_text].
      rewrite <- app_assoc. reflexivity.
    + rewrite IH, trivia_bytes_app. rewrite (proj1 (comment_ok_spec c Hp)).
      unfold pieces_text. cbn [map List.concat piece_text]. rewrite <- app_assoc. reflexivity.
Qed.

Definition starts_nl (ps : list piece) : bool :=
  match ps with PW (d :: _) :: _ => is_nl d | _ => false end.

(* no two word-like tokens touch, and a comment that ends with a line comment is followed
   by a line break.  [prev]: the previous piece was a word-like token *)
Fixpoint sepb (prev : bool) (ps : list piece) : bool :=
  match ps with
  | [] => true
  | PT t :: r => negb (prev && wordlike t) && sepb (wordlike t) r
  | PN _ :: r => negb prev && sepb true r
  | PW [] :: r => sepb prev r
  | PW (_ :: _) :: r => sepb false r
  | PC c :: r =>
    (if ends_lc (tr_of c) then starts_nl r else true) &&
    match c with [] => sepb prev r | _ :: _ => sepb false r end
  end.

Lemma sepb_mono r : sepb true r = true -> sepb false r = true.
Proof.
  induction r as [|p r IH]; [reflexivity|].
  destruct p as [t|text|[|c ws]|c]; cbn [sepb andb negb]; auto.
  - intro H. apply andb_true_iff in H. destruct H as [_ H]. exact H.
  - discriminate.
  - intro H. apply andb_true_iff in H. destruct H as [H1 H2]. rewrite H1. cbn [andb].
    destruct c; [apply IH; exact H2 | exact H2].
Qed.

Lemma group_head_pending : forall r pending,
  match fst (group pending r) with
  | (tr', _) :: _ => exists more, tr' = pending ++ more
  | [] => True
  end.
Proof.
  induction r as [|p r IH]; intro pending; [exact I|].
  destruct p as [t|text|ws|c]; cbn [group].
  - destruct (group [] r). cbn. exists []. rewrite app_nil_r. reflexivity.
  - destruct (group [] r). cbn. exists []. rewrite app_nil_r. reflexivity.
  - specialize (IH (pending ++ ws_trivia ws)). destruct (fst (group (pending ++ ws_trivia ws) r)) as [|[tr' t'] l]; [exact I|].
    destruct IH as [more ->]. exists (ws_trivia ws ++ more). rewrite app_assoc. reflexivity.
  - specialize (IH (pending ++ tr_of c)). destruct (fst (group (pending ++ tr_of c) r)) as [|[tr' t'] l]; [exact I|].
    destruct IH as [more ->]. exists (tr_of c ++ more). rewrite app_assoc. reflexivity.
Qed.

Lemma head_sep : forall r, Forall piece_wf r -> forall pending, sepb true r = true ->
  match fst (group pending r) with
  | (tr', t') :: _ => tr' <> [] \/ wordlike t' = false
  | [] => True
  end.
Proof.
  induction 1 as [|p r Hp Hr IH]; intros pending H; [exact I|].
  destruct p as [t|text|[|c ws]|c]; cbn [sepb andb negb] in H; cbn [group].
  - apply andb_true_iff in H. destruct H as [H _]. apply negb_true_iff in H.
    destruct (group [] r). cbn. right. exact H.
  - discriminate.
  - cbn [ws_trivia map]. rewrite app_nil_r. apply IH. exact H.
  - pose proof (group_head_pending r (pending ++ ws_trivia (c :: ws))) as G.
    destruct (fst (group (pending ++ ws_trivia (c :: ws)) r)) as [|[tr' t'] l]; [exact I|].
    destruct G as [more ->]. left. destruct pending; discriminate.
  - apply andb_true_iff in H. destruct H as [_ H]. cbn [piece_wf] in Hp.
    destruct c as [|c0 c'].
    + assert (E : tr_of [] = []) by reflexivity. rewrite E, app_nil_r. apply IH. exact H.
    + pose proof (tr_of_nonnil (c0 :: c') Hp ltac:(discriminate)) as Hne.
      pose proof (group_head_pending r (pending ++ tr_of (c0 :: c'))) as G.
      destruct (fst (group (pending ++ tr_of (c0 :: c')) r)) as [|[tr' t'] l]; [exact I|].
      destruct G as [more ->]. left. intro E. apply app_eq_nil in E. destruct E as [E _].
      apply app_eq_nil in E. destruct E as [_ E]. contradiction.
Qed.

Definition open_ok (pending : trivia) (ps : list piece) : Prop :=
  ends_lc pending = true -> match ps with [] => True | _ => starts_nl ps = true end.

Lemma group_wf ps : Forall piece_wf ps -> forall pending,
  sepb false ps = true -> trivia_ok true pending = true -> open_ok pending ps ->
  lts_wf (fst (group pending ps)) (snd (group pending ps)).
Proof.
  induction 1 as [|p r Hp Hr IH]; intros pending Hs Hb Ho.
  - cbn. exact Hb.
  - (* in front of a token the pending run is closed: it cannot end with a line comment *)
    assert (Hclosed : starts_nl (p :: r) = false -> trivia_ok false pending = true).
    { intro Hp0. apply trivia_ok_closed; [exact Hb|].
      destruct (ends_lc pending) eqn:E; [|reflexivity]. specialize (Ho E).
      change (starts_nl (p :: r) = true) in Ho. congruence. }
    destruct p as [t|text|ws|c]; cbn [group piece_wf] in *.
    + cbn [sepb andb negb] in Hs.
      pose proof (head_sep r Hr []) as Hh.
      assert (Hr' : sepb false r = true).
      { destruct (wordlike t); [apply sepb_mono|]; exact Hs. }
      specialize (IH [] Hr' eq_refl (fun E => ltac:(discriminate))).
      destruct (group [] r) as [l fin]. cbn [fst snd] in *. cbn [lts_wf].
      split; [exact (Hclosed eq_refl)|]. split; [exact Hp|]. split; [|exact IH].
      intro Hw. rewrite Hw in Hs. specialize (Hh Hs).
      destruct l as [|[tr' t'] l']; [exact I | exact Hh].
    + cbn [sepb andb negb] in Hs.
      pose proof (head_sep r Hr [] Hs) as Hh.
      specialize (IH [] (sepb_mono r Hs) eq_refl (fun E => ltac:(discriminate))).
      destruct (group [] r) as [l fin]. cbn [fst snd] in *. cbn [lts_wf].
      destruct Hp as [Hp _].
      split; [exact (Hclosed eq_refl)|]. split; [exact Hp|]. split; [|exact IH].
      intros _. destruct l as [|[tr' t'] l']; [exact I | exact Hh].
    + destruct ws as [|d ws'].
      * cbn [ws_trivia map]. rewrite app_nil_r. apply IH; [exact Hs | exact Hb|].
        intro E. specialize (Ho E). cbn in Ho. discriminate.
      * apply IH; [exact Hs| |].
        -- apply trivia_ok_app; [exact Hb | apply trivia_ok_ws; exact Hp|].
           intro E. specialize (Ho E). cbn in Ho. exact Ho.
        -- intro E. rewrite ends_lc_app in E by discriminate. rewrite ends_lc_ws in E. discriminate.
    + cbn [sepb] in Hs. apply andb_true_iff in Hs. destruct Hs as [Hla Hs].
      destruct (comment_ok_spec c Hp) as [_ Hok].
      assert (Hnot : ends_lc pending = false).
      { destruct (ends_lc pending) eqn:E; [|reflexivity]. specialize (Ho E). cbn in Ho. discriminate. }
      apply IH.
      * destruct c; exact Hs.
      * apply trivia_ok_app; [exact Hb | exact Hok|]. rewrite Hnot. discriminate.
      * intro E. destruct (tr_of c) as [|i0 t0] eqn:Et.
        -- rewrite app_nil_r in E. congruence.
        -- rewrite ends_lc_app in E by discriminate. rewrite E in Hla.
           destruct r; [exact I | exact Hla].
Qed.

Definition pieces_ok (ps : list piece) : Prop := Forall piece_wf ps /\ sepb false ps = true.

Theorem lex_pieces ps : pieces_ok ps -> lex (pieces_text ps) = Some (group [] ps).
Proof.
  intros [Hwf Hs].
  pose proof (group_bytes ps Hwf []) as Hb. cbn [trivia_bytes map List.concat app] in Hb.
  pose proof (group_wf ps Hwf [] Hs eq_refl (fun E => ltac:(discriminate))) as Hl.
  rewrite <- Hb. rewrite (lex_ltoks_bytes _ _ Hl). destruct (group [] ps); reflexivity.
Qed.

Lemma group_toks : forall ps pending, map snd (fst (group pending ps)) = piece_toks ps.
Proof.
  induction ps as [|p r IH]; intro pending; [reflexivity|].
  destruct p as [t|text|ws|c]; cbn [group piece_toks flat_map app].
  - specialize (IH []). destruct (group [] r). cbn [fst map snd] in *. rewrite IH. reflexivity.
  - specialize (IH []). destruct (group [] r). cbn [fst map snd] in *. rewrite IH. reflexivity.
  - apply IH.
  - apply IH.
Qed.

Definition split_sign (s : bytes) : bytes * bytes :=
  match s with
  | c :: r => if is_sign c then ([c], r) else ([], s)
  | [] => ([], s)
  end.

(* the texts strconv writes for finite doubles with format g: an integer, or digits with a
   fraction and / or an exponent *)
Definition num_shape_b (text : bytes) : bool :=
  let (sg, r0) := split_sign text in
  let (d1, r1) := span is_digit r0 in
  match r1 with
  | c :: r2 =>
    if Byte.eqb c c_dot then
      let (d2, ex) := span is_digit r2 in nonempty d2 && exp_ok ex
    else nonempty d1 && exp_ok r1
  | [] => nonempty d1
  end.

Lemma num_shape_cases text : num_shape_b text = true -> int_shape text \/ double_shape text.
Proof.
  unfold num_shape_b. destruct (split_sign text) as [sg r0] eqn:Es.
  destruct (split_sign_spec _ _ _ Es) as [-> Hsg].
  destruct (span is_digit r0) as [d1 r1] eqn:E1. destruct (span_spec _ _ _ _ E1) as [-> Hd1].
  destruct r1 as [|c r2].
  - intro H. left. rewrite app_nil_r. constructor; assumption.
  - destruct (Byte.eqb c c_dot) eqn:Ec.
    + apply byte_eqb_eq in Ec. subst c.
      destruct (span is_digit r2) as [d2 ex] eqn:E2. destruct (span_spec _ _ _ _ E2) as [-> Hd2].
      intro H. apply andb_true_iff in H. destruct H as [Hn Hex]. right.
      apply dbl_frac; assumption.
    + intro H. apply andb_true_iff in H. destruct H as [Hn Hex]. right.
      apply dbl_exp; try assumption. reflexivity.
Qed.

Lemma num_shape_wf text : num_shape_b text = true ->
  token_wf (num_token text) /\ token_bytes (num_token text) = text.
Proof.
  intro H. unfold num_token. destruct (num_shape_cases text H) as [Hi|Hd].
  - pose proof (lex_number_int text [] Hi I) as E. rewrite app_nil_r in E. rewrite E.
    split; [constructor; exact Hi | reflexivity].
  - pose proof (lex_number_double text [] Hd I) as E. rewrite app_nil_r in E. rewrite E.
    split; [constructor; exact Hd | reflexivity].
Qed.

Lemma print_Z_shape z : int_shape (print_Z z).
Proof.
  destruct z as [|p|p]; cbn [print_Z].
  - apply (int_dec [] [x30]); reflexivity.
  - destruct (digitsN_spec (Npos p) eq_refl) as (k0 & t & -> & _ & _ & Hd & _). apply (int_dec []); auto.
  - destruct (digitsN_spec (Npos p) eq_refl) as (k0 & t & -> & _ & _ & Hd & _). apply (int_dec [c_minus]); auto.
Qed.

Definition annos_lex (a : annotations) : bool :=
  forallb (fun x => word_ok (an_key x) && forallb lit_ok (an_values x)) a.

Fixpoint ty_lex (t : ty) : bool :=
  match t with
  | Ty n k v _ an _ _ _ =>
    word_ok n && annos_lex an &&
    match k with Some x => ty_lex x | None => true end &&
    match v with Some x => ty_lex x | None => true end
  end.

(* a recorded comment is blank (then it is not written) or reads back as trivia *)
Definition cmt_lex (c : bytes) : bool := forallb go_space c || comment_ok c.

Section LexOk.
  Variable fmt : N -> bytes.

  Fixpoint cv_lex (c : const_value) : bool :=
    match c with
    | CDouble d => num_shape_b (fmt d)
    | CInt _ => true
    | CLiteral s => lit_ok s
    | CIdent s _ => word_ok s
    | CList l => forallb cv_lex l
    | CMap l => forallb (fun kv => cv_lex (fst kv) && cv_lex (snd kv)) l
    end.

  Definition field_lex (f : field) : bool :=
    word_ok (fd_name f) && ty_lex (fd_type f) &&
    match fd_default f with Some v => cv_lex v | None => true end &&
    annos_lex (fd_annos f) && cmt_lex (fd_comments f).
  Definition struct_lex (s : struct_like) : bool :=
    word_ok (sl_name s) && forallb field_lex (sl_fields s) && annos_lex (sl_annos s) && cmt_lex (sl_comments s).
  Definition function_lex (f : function) : bool :=
    word_ok (fn_name f) && ty_lex (fn_type f) && forallb field_lex (fn_args f) && forallb field_lex (fn_throws f) &&
    annos_lex (fn_annos f) && cmt_lex (fn_comments f).
  Definition service_lex (s : service) : bool :=
    word_ok (sv_name s) && (match sv_extends s with [] => true | e => word_ok e end) &&
    forallb function_lex (sv_functions s) && annos_lex (sv_annos s) && cmt_lex (sv_comments s).
  Definition enum_lex (e : enum) : bool :=
    word_ok (en_name e) &&
    forallb (fun v => word_ok (ev_name v) && annos_lex (ev_annos v) && cmt_lex (ev_comments v)) (en_values e) &&
    annos_lex (en_annos e) && cmt_lex (en_comments e).
  Definition typedef_lex (t : typedef) : bool :=
    ty_lex (td_type t) && word_ok (td_alias t) && annos_lex (td_annos t) && cmt_lex (td_comments t).
  Definition constant_lex (c : constant) : bool :=
    ty_lex (co_type c) && word_ok (co_name c) && cv_lex (co_value c) && annos_lex (co_annos c) &&
    cmt_lex (co_comments c).
  Definition namespace_lex (n : namespace) : bool :=
    (beqb (ns_language n) [p_star] || word_ok (ns_language n)) && word_ok (ns_name n) && annos_lex (ns_annos n).

  (* names are words of the grammar, literal values are in the domain of quoteLiteral,
     double texts have a number shape, recorded comments read back as trivia *)
  Definition lex_ok (a : file) : bool :=
    forallb (fun i => lit_ok (in_path i)) (f_includes a) && forallb lit_ok (f_cpp_includes a) &&
    forallb namespace_lex (f_namespaces a) && forallb typedef_lex (f_typedefs a) &&
    forallb constant_lex (f_constants a) && forallb enum_lex (f_enums a) &&
    forallb struct_lex (f_structs a) && forallb struct_lex (f_unions a) &&
    forallb struct_lex (f_exceptions a) && forallb service_lex (f_services a).
End LexOk.

(* both facts at once, in continuation style:
   [adm x ps]: every piece of ps is well formed, and for every continuation [rest] that
   tolerates a word-like predecessor, ps ++ rest can follow a piece of kind x *)
Definition adm (x : bool) (ps : list piece) : Prop :=
  Forall piece_wf ps /\ forall rest, sepb true rest = true -> sepb x (ps ++ rest) = true.

Lemma adm_nil_true : adm true [].
Proof. split; [constructor | intros rest H; exact H]. Qed.
Lemma adm_nil_false : adm false [].
Proof. split; [constructor | intros rest H; apply sepb_mono; exact H]. Qed.
Lemma adm_weaken ps : adm true ps -> adm false ps.
Proof. intros [H1 H2]. split; [exact H1|]. intros rest Hr. apply sepb_mono. apply H2. exact Hr. Qed.

Lemma adm_punct x c ps : is_punct c = true -> adm false ps -> adm x (punct c :: ps).
Proof.
  intros Hc [H1 H2]. split; [constructor; [constructor; exact Hc | exact H1]|].
  intros rest Hr. cbn [app sepb punct wordlike]. rewrite andb_false_r. cbn [negb andb]. apply H2. exact Hr.
Qed.
Lemma adm_lit x s ps : lit_ok s = true -> adm false ps -> adm x (lit s :: ps).
Proof.
  intros Hs [H1 H2]. split; [constructor; [exact (lit_token_wf s Hs) | exact H1]|].
  intros rest Hr. cbn [app sepb lit].
  destruct (lit_token_roundtrip s Hs) as (q & raw & -> & _).
  cbn [wordlike]. rewrite andb_false_r. cbn [negb andb]. apply H2. exact Hr.
Qed.
Lemma adm_ws x c ws ps : forallb is_space (c :: ws) = true -> adm false ps -> adm x (PW (c :: ws) :: ps).
Proof.
  intros Hc [H1 H2]. split; [constructor; [exact Hc | exact H1]|].
  intros rest Hr. cbn [app sepb]. apply H2. exact Hr.
Qed.
Lemma adm_word w ps : word_ok w = true -> adm true ps -> adm false (word w :: ps).
Proof.
  intros Hw [H1 H2]. split; [constructor; [constructor; exact Hw | exact H1]|].
  intros rest Hr. cbn [app sepb word wordlike andb negb]. apply H2. exact Hr.
Qed.
Lemma adm_int z ps : adm true ps -> adm false (int_piece z :: ps).
Proof.
  intros [H1 H2]. split; [constructor; [constructor; apply print_Z_shape | exact H1]|].
  intros rest Hr. cbn [app sepb int_piece wordlike andb negb]. apply H2. exact Hr.
Qed.
Lemma adm_num text ps : num_shape_b text = true -> adm true ps -> adm false (PN text :: ps).
Proof.
  intros Hn [H1 H2]. split; [constructor; [exact (num_shape_wf text Hn) | exact H1]|].
  intros rest Hr. cbn [app sepb negb andb]. apply H2. exact Hr.
Qed.

Lemma adm_app x y ps qs :
  Forall piece_wf ps -> (forall rest, sepb y rest = true -> sepb x (ps ++ rest) = true) ->
  adm y qs -> adm x (ps ++ qs).
Proof.
  intros Hp Hs [Hq Hsq]. split; [apply Forall_app; split; assumption|].
  intros rest Hr. rewrite <- app_assoc. apply Hs. apply Hsq. exact Hr.
Qed.
Lemma adm_seq x ps qs : adm x ps -> adm true qs -> adm x (ps ++ qs).
Proof.
  intros [Hp Hs] Hq. apply (adm_app x true); [exact Hp | exact Hs | exact Hq].
Qed.

(* right-nested lists with the known elements in front *)
Ltac norm := cbn [app]; repeat (rewrite <- app_assoc; cbn [app]).

Section Admissible.
  Variable fmt : N -> bytes.

  Lemma adm_comment x c qs : comment_ok c = true -> adm false qs -> adm x (PC c :: nl :: qs).
  Proof.
    intros Hc [H1 H2]. split; [constructor; [exact Hc | constructor; [reflexivity | exact H1]]|].
    intros rest Hr. cbn [app sepb nl starts_nl].
    assert (E : is_nl x0a = true) by reflexivity. rewrite E.
    destruct (ends_lc (tr_of c)); cbn [andb]; (destruct c; apply H2; exact Hr).
  Qed.

  Lemma comment_then prefix c : cmt_lex c = true -> (prefix = [] \/ prefix = [indent4]) ->
    forall qs, adm false qs -> adm false (comment_pieces prefix c ++ qs).
  Proof.
    unfold cmt_lex, comment_pieces. intros H Hp qs Hq.
    destruct (forallb go_space c); [exact Hq|]. cbn [orb] in H.
    destruct Hp as [-> | ->]; cbn [app].
    - apply adm_comment; assumption.
    - apply adm_ws; [reflexivity|]. apply adm_comment; assumption.
  Qed.

  Ltac sp1 := apply adm_ws; [reflexivity|]; norm.
  Ltac blk := norm;
    match goal with Hb : cmt_lex ?c = true |- adm false (comment_pieces _ ?c ++ _) =>
      apply (comment_then _ c Hb); [first [left; reflexivity | right; reflexivity]|] end.
  Ltac pu := apply adm_punct; [reflexivity|]; norm.

  Lemma adm_true_of_false_start c ws ps : forallb is_space (c :: ws) = true -> adm false ps -> adm true (PW (c :: ws) :: ps).
  Proof. apply adm_ws. Qed.

  Lemma anno_values_then k : word_ok k = true -> forall vs last qs,
    forallb lit_ok vs = true -> adm false qs -> adm false (anno_values_pieces k vs last ++ qs).
  Proof.
    intros Hk. induction vs as [|v r IH]; intros last qs Hl Hq; [exact Hq|].
    cbn [forallb] in Hl. apply andb_true_iff in Hl. destruct Hl as [Hv Hr].
    cbn [anno_values_pieces]. norm.
    apply adm_word; [exact Hk|]. sp1. pu. sp1. apply adm_lit; [exact Hv|].
    destruct (last && match r with [] => true | _ :: _ => false end).
    - cbn [app]. apply IH; assumption.
    - unfold comma_sp. cbn [app]. pu. sp1. apply IH; assumption.
  Qed.

  Lemma anno_list_then : forall a qs, annos_lex a = true -> adm false qs -> adm false (anno_list_pieces a ++ qs).
  Proof.
    induction a as [|x r IH]; intros qs Ha Hq; [exact Hq|].
    cbn [annos_lex forallb] in Ha. apply andb_true_iff in Ha. destruct Ha as [Hx Hr].
    apply andb_true_iff in Hx. destruct Hx as [Hk Hv].
    cbn [anno_list_pieces]. norm. apply anno_values_then; [exact Hk | exact Hv|].
    apply IH; assumption.
  Qed.

  Lemma annos_then a : annos_lex a = true -> forall x qs, adm true qs -> adm x (annos_pieces a ++ qs).
  Proof.
    intros Ha x qs Hq. destruct a as [|y r].
    - cbn [annos_pieces app]. destruct x; [exact Hq | apply adm_weaken; exact Hq].
    - unfold annos_pieces. norm. pu. apply anno_list_then; [exact Ha|]. pu. apply adm_weaken. exact Hq.
  Qed.

  Lemma type_then : forall t, ty_lex t = true -> forall qs, adm true qs -> adm false (type_pieces t ++ qs).
  Proof.
    induction t as [n k v c an cat r td IHk IHv] using ty_ind'. intros H qs Hq.
    cbn [ty_lex] in H. repeat (apply andb_true_iff in H; destruct H as [H ?]).
    cbn [type_pieces].
    destruct k as [kt|], v as [vt|]; norm.
    - apply adm_word; [assumption|]. pu. apply (IHk kt eq_refl); [assumption|].
      pu. apply (IHv vt eq_refl); [assumption|]. pu. apply annos_then; assumption.
    - apply adm_word; [assumption|]. apply annos_then; assumption.
    - apply adm_word; [assumption|]. pu. apply (IHv vt eq_refl); [assumption|]. pu. apply annos_then; assumption.
    - apply adm_word; [assumption|]. apply annos_then; assumption.
  Qed.

  Lemma cv_then : forall c, cv_lex fmt c = true -> forall qs, adm true qs -> adm false (cv_pieces fmt c ++ qs).
  Proof.
    induction c as [d|z|s|s e|l IH|l IH] using const_value_ind'; intros H qs Hq; cbn [cv_lex] in H; cbn [cv_pieces]; norm.
    - apply adm_num; assumption.
    - apply adm_int; assumption.
    - apply adm_lit; [assumption | apply adm_weaken; assumption].
    - apply adm_word; assumption.
    - pu.
      induction IH as [|x r Hx _ IHr]; cbn [app].
      + pu. apply adm_weaken. exact Hq.
      + cbn [forallb] in H. apply andb_true_iff in H. destruct H as [H1 H2]. norm.
        apply Hx; [exact H1|]. destruct r as [|y r'].
        * cbn [app]. pu. apply adm_weaken. exact Hq.
        * unfold comma_sp. cbn [app]. pu. sp1. specialize (IHr H2). repeat rewrite <- app_assoc in IHr. cbn [app] in IHr. exact IHr.
    - pu.
      induction IH as [|[k v] r [Hk Hv] _ IHr]; cbn [app].
      + sp1. pu. apply adm_weaken. exact Hq.
      + cbn [forallb fst snd] in H. apply andb_true_iff in H. destruct H as [H1 H2].
        apply andb_true_iff in H1. destruct H1 as [H1k H1v]. cbn [fst snd] in Hk, Hv. norm.
        apply adm_ws; [reflexivity|]. apply Hk; [exact H1k|]. pu. sp1. apply Hv; [exact H1v|].
        destruct r as [|y r'].
        * cbn [app]. sp1. pu. apply adm_weaken. exact Hq.
        * unfold comma_sp. cbn [app]. pu. sp1. specialize (IHr H2). repeat rewrite <- app_assoc in IHr. cbn [app] in IHr. exact IHr.
  Qed.

  Lemma req_then r qs : adm false qs -> adm false (req_pieces r ++ qs).
  Proof.
    intro Hq. destruct r; cbn [req_pieces app]; [exact Hq | |]; (apply adm_word; [reflexivity|]; sp1; exact Hq).
  Qed.

  Lemma field_then f : field_lex fmt f = true -> forall qs, adm true qs -> adm false (field_pieces fmt f ++ qs).
  Proof.
    unfold field_lex. intros H qs Hq. repeat (apply andb_true_iff in H; destruct H as [H ?]).
    unfold field_pieces. norm. apply adm_int. pu. sp1. apply req_then.
    apply type_then; [assumption|]. sp1. apply adm_word; [assumption|].
    destruct (fd_default f) as [v|]; norm.
    - sp1. pu. sp1. apply cv_then; [assumption|]. apply annos_then; assumption.
    - apply annos_then; assumption.
  Qed.

  Lemma sep_fields_then : forall l qs, forallb (field_lex fmt) l = true -> adm true qs ->
    adm false (sep_fields fmt l ++ qs).
  Proof.
    induction l as [|f r IH]; intros qs H Hq; [cbn [sep_fields app]; apply adm_weaken; exact Hq|].
    cbn [forallb] in H. apply andb_true_iff in H. destruct H as [H1 H2].
    cbn [sep_fields]. norm. apply field_then; [exact H1|].
    destruct r as [|g r'].
    - cbn [sep_fields app]. exact Hq.
    - unfold comma_sp. cbn [app]. pu. sp1. apply IH; assumption.
  Qed.

  (* the hypothesis has the shape of the lemma of one production *)
  Lemma flat_map_then {A} (f : A -> list piece) (p : A -> bool) :
    (forall x, p x = true -> forall qs, adm false qs -> adm false (f x ++ qs)) ->
    forall l, forallb p l = true -> forall qs, adm false qs -> adm false (flat_map f l ++ qs).
  Proof.
    intro Hf. induction l as [|x r IH]; intros H qs Hq; [exact Hq|].
    cbn [forallb] in H. apply andb_true_iff in H. destruct H as [H1 H2].
    cbn [flat_map]. norm. apply Hf; [exact H1|]. apply IH; assumption.
  Qed.

  Lemma struct_then kw : word_ok kw = true -> forall s, struct_lex fmt s = true ->
    forall qs, adm false qs -> adm false (struct_pieces fmt kw s ++ qs).
  Proof.
    unfold struct_lex. intros Hkw s H qs Hq. repeat (apply andb_true_iff in H; destruct H as [H ?]).
    unfold struct_pieces. blk.
    apply adm_word; [exact Hkw|]. sp1. apply adm_word; [assumption|]. sp1. pu. sp1.
    apply (flat_map_then _ (field_lex fmt)); [|assumption|].
    - intros f Hf qs' Hq'. unfold field_lex in Hf. pose proof Hf as Hf'.
      repeat (apply andb_true_iff in Hf; destruct Hf as [Hf ?]).
      blk.
      norm. sp1. apply field_then; [exact Hf'|]. sp1. exact Hq'.
    - pu. sp1. apply annos_then; [assumption|]. sp1. sp1. exact Hq.
  Qed.

  Lemma oneway_then (b : bool) qs : adm false qs -> adm false ((if b then [word kw_oneway; sp] else []) ++ qs).
  Proof. intro Hq. destruct b; cbn [app]; [apply adm_word; [reflexivity|]; sp1|]; exact Hq. Qed.

  Lemma throws_then l qs : forallb (field_lex fmt) l = true -> (forall x, adm x qs) ->
    adm false (match l with
               | [] => []
               | _ :: _ => [word kw_throws; sp; punct p_lpar] ++ sep_fields fmt l ++ [punct p_rpar]
               end ++ qs).
  Proof.
    intros Hl Hq. destruct l as [|t ts]; [apply Hq|]. norm.
    apply adm_word; [reflexivity|]. sp1. pu. apply sep_fields_then; [exact Hl|]. pu. apply Hq.
  Qed.

  Lemma function_then f : function_lex fmt f = true ->
    forall qs, adm false qs -> adm false (function_pieces fmt f ++ qs).
  Proof.
    unfold function_lex. intros H qs Hq. repeat (apply andb_true_iff in H; destruct H as [H ?]).
    unfold function_pieces. blk. sp1. apply oneway_then, type_then; [assumption|].
    sp1. apply adm_word; [assumption|]. pu. apply sep_fields_then; [assumption|]. pu.
    apply throws_then; [assumption|]. intro x. apply annos_then; [assumption|]. sp1. exact Hq.
  Qed.

  Lemma extends_then e qs : match e with [] => true | b :: l => word_ok (b :: l) end = true -> adm false qs ->
    adm false (match e with [] => [] | b :: l => [word kw_extends; sp; word (b :: l); sp] end ++ qs).
  Proof.
    intros He Hq. destruct e as [|e0 e]; [exact Hq|]. cbn [app].
    apply adm_word; [reflexivity|]. sp1. apply adm_word; [exact He|]. sp1. exact Hq.
  Qed.

  Lemma service_then s : service_lex fmt s = true ->
    forall qs, adm false qs -> adm false (service_pieces fmt s ++ qs).
  Proof.
    unfold service_lex. intros H qs Hq. repeat (apply andb_true_iff in H; destruct H as [H ?]).
    unfold service_pieces. blk.
    apply adm_word; [reflexivity|]. sp1. apply adm_word; [assumption|]. sp1. apply extends_then; [assumption|].
    pu. sp1. apply (flat_map_then _ _ function_then); [assumption|].
    pu. sp1. apply annos_then; [assumption|]. sp1. sp1. exact Hq.
  Qed.

  Lemma enum_values_then : forall l qs,
    forallb (fun v => word_ok (ev_name v) && annos_lex (ev_annos v) && cmt_lex (ev_comments v)) l = true ->
    adm false qs -> adm false (enum_values_pieces l ++ qs).
  Proof.
    induction l as [|v r IH]; intros qs H Hq; [exact Hq|].
    cbn [forallb] in H. apply andb_true_iff in H. destruct H as [H1 H2].
    repeat (apply andb_true_iff in H1; destruct H1 as [H1 ?]).
    cbn [enum_values_pieces]. blk.
    sp1. apply adm_word; [assumption|]. sp1. pu. sp1. apply adm_int. sp1.
    apply annos_then; [assumption|]. sp1.
    destruct r as [|w r'].
    - cbn [app enum_values_pieces]. exact Hq.
    - cbn [app]. sp1. apply IH; assumption.
  Qed.

  Lemma enum_then e : enum_lex e = true -> forall qs, adm false qs -> adm false (enum_pieces e ++ qs).
  Proof.
    unfold enum_lex. intros H qs Hq. repeat (apply andb_true_iff in H; destruct H as [H ?]).
    unfold enum_pieces. blk.
    apply adm_word; [reflexivity|]. sp1. apply adm_word; [assumption|]. sp1. pu. sp1.
    apply enum_values_then; [assumption|]. cbn [app]. pu. sp1. apply annos_then; [assumption|]. sp1. sp1. exact Hq.
  Qed.

  Lemma typedef_then t : typedef_lex t = true -> forall qs, adm false qs -> adm false (typedef_pieces t ++ qs).
  Proof.
    unfold typedef_lex. intros H qs Hq. repeat (apply andb_true_iff in H; destruct H as [H ?]).
    unfold typedef_pieces. blk.
    apply adm_word; [reflexivity|]. sp1. apply type_then; [assumption|]. sp1. apply adm_word; [assumption|]. sp1.
    apply annos_then; [assumption|]. sp1. exact Hq.
  Qed.

  Lemma constant_then c : constant_lex fmt c = true -> forall qs, adm false qs -> adm false (constant_pieces fmt c ++ qs).
  Proof.
    unfold constant_lex. intros H qs Hq. repeat (apply andb_true_iff in H; destruct H as [H ?]).
    unfold constant_pieces. blk.
    apply adm_word; [reflexivity|]. sp1. apply type_then; [assumption|]. sp1. apply adm_word; [assumption|]. sp1. pu. sp1.
    apply cv_then; [assumption|]. apply annos_then; [assumption|]. sp1. exact Hq.
  Qed.

  Lemma namespace_then n : namespace_lex n = true -> forall qs, adm false qs -> adm false (namespace_pieces n ++ qs).
  Proof.
    unfold namespace_lex. intros H qs Hq. repeat (apply andb_true_iff in H; destruct H as [H ?]).
    unfold namespace_pieces, scope_piece. norm. apply adm_word; [reflexivity|]. sp1.
    destruct (beqb (ns_language n) [p_star]) eqn:E.
    - pu. sp1. apply adm_word; [assumption|]. apply annos_then; [assumption|]. sp1. exact Hq.
    - cbn [orb] in H. apply adm_word; [assumption|]. sp1. apply adm_word; [assumption|].
      apply annos_then; [assumption|]. sp1. exact Hq.
  Qed.

  Lemma section_then {A} (f : A -> list piece) (p : A -> bool) :
    (forall x, p x = true -> forall qs, adm false qs -> adm false (f x ++ qs)) ->
    forall l, forallb p l = true -> forall qs, adm false qs -> adm false (section f l ++ qs).
  Proof.
    intros Hf l H qs Hq. unfold section. norm. apply (flat_map_then f p Hf l H).
    destruct l; cbn [app]; [exact Hq | sp1; exact Hq].
  Qed.

  Lemma lit_line_then kw : word_ok kw = true -> forall s, lit_ok s = true ->
    forall qs, adm false qs -> adm false ([word kw; sp; lit s; nl] ++ qs).
  Proof.
    intros Hkw s Hs qs Hq. cbn [app]. apply adm_word; [exact Hkw|]. sp1. apply adm_lit; [exact Hs|]. sp1. exact Hq.
  Qed.

  Theorem dump_pieces_ok a : lex_ok fmt a = true -> pieces_ok (dump_pieces fmt a).
  Proof.
    unfold lex_ok. intro H. repeat (apply andb_true_iff in H; destruct H as [H ?]).
    assert (Hadm : adm false (dump_pieces fmt a ++ [])).
    { unfold dump_pieces. norm.
      apply (section_then _ (fun i => lit_ok (in_path i)) (fun i => lit_line_then kw_include eq_refl (in_path i)));
        [assumption|].
      apply (section_then _ _ namespace_then); [assumption|].
      apply (section_then _ _ (lit_line_then kw_cpp_include eq_refl)); [assumption|].
      apply (section_then _ _ typedef_then); [assumption|].
      apply (section_then _ _ constant_then); [assumption|].
      apply (section_then _ _ enum_then); [assumption|].
      apply (section_then _ _ (struct_then kw_struct eq_refl)); [assumption|].
      apply (section_then _ _ (struct_then kw_union eq_refl)); [assumption|].
      apply (section_then _ _ (struct_then kw_exception eq_refl)); [assumption|].
      apply (flat_map_then _ _ service_then); [assumption|].
      apply adm_nil_false. }
    rewrite app_nil_r in Hadm. destruct Hadm as [Hwf Hs]. split; [exact Hwf|].
    specialize (Hs [] eq_refl). rewrite app_nil_r in Hs. exact Hs.
  Qed.

  Theorem lex_dump a : lex_ok fmt a = true ->
    lex (dump fmt a) = Some (group [] (dump_pieces fmt a)).
  Proof. intro H. unfold dump. apply lex_pieces. apply dump_pieces_ok. exact H. Qed.
End Admissible.
