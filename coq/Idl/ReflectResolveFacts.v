(* Idl/ReflectResolveFacts.v — the descriptor lookups against the symbol resolution of property C05:
   a qualified type name that semantic.ResolveSymbols (model Idl/Resolve.v) binds to include index i
   and name m is found, through the descriptors, as the definition m of the file include i refers to. *)
From Coq Require Import List Bool ZArith.
From Verif Require Import Base.Bytes Idl.Ast Idl.AstUtil Idl.Resolve Idl.ResolveSpec Idl.ResolveInv Idl.ResolveFacts
  Idl.ResolveService Idl.ResolveSyntax Idl.Reflect Idl.ReflectFacts.
Import ListNotations.
Local Open Scope list_scope.
Local Open Scope resolve_scope.

Theorem resolve_keeps_defs p r :
  resolve_program p = Ok r ->
  forall gn g, prog_file p gn = Some g -> exists g', prog_file r gn = Some g' /\ file_defs g' = file_defs g.
Proof.
  intros H gn g Hg. destruct (resolution_preserves_definitions p r H) as (G & N & _).
  destruct (prog_file r gn) as [g'|] eqn:R.
  - destruct (G gn g' R) as (g0 & Hg0 & Hd & _). exists g'. split; [reflexivity | congruence].
  - apply N in R. congruence.
Qed.

Lemma no_byte_rev c s : no_byte c (rev s) = no_byte c s.
Proof.
  unfold no_byte. destruct (forallb (fun b => negb (Byte.eqb b c)) s) eqn:E.
  - rewrite forallb_forall in *. intros x Hx. apply E. apply in_rev. exact Hx.
  - destruct (forallb (fun b => negb (Byte.eqb b c)) (rev s)) eqn:E2; [|reflexivity].
    rewrite forallb_forall in E2. assert (forallb (fun b => negb (Byte.eqb b c)) s = true); [|congruence].
    apply forallb_forall. intros x Hx. apply E2. apply in_rev. rewrite rev_involutive. exact Hx.
Qed.

Lemma split_on_pieces c : forall s cur, no_byte c cur = true -> Forall (fun x => no_byte c x = true) (split_on c s cur).
Proof.
  induction s as [|b r IH]; intros cur Hc; cbn [split_on].
  - constructor; [rewrite no_byte_rev; exact Hc|constructor].
  - destruct (Byte.eqb b c) eqn:E.
    + constructor; [rewrite no_byte_rev; exact Hc|apply IH; reflexivity].
    + apply IH. unfold no_byte. cbn [forallb]. rewrite E. exact Hc.
Qed.

Lemma join_with_snoc c B x : B <> [] -> join_with c (B ++ [x]) = join_with c B ++ c :: x.
Proof.
  destruct B as [|y B]; [congruence|]. intros _. unfold join_with. cbn [app]. rewrite map_app. cbn [map].
  rewrite !concat_cons, concat_app. cbn [List.concat]. rewrite app_nil_r, app_assoc. reflexivity.
Qed.

Lemma last_index_split_inv c s a b : last_index_split c s = Some (a, b) -> s = a ++ c :: b /\ no_byte c b = true.
Proof.
  unfold last_index_split. intro H.
  pose proof (join_split c s []) as J. cbn [rev app] in J.
  pose proof (split_on_pieces c s [] eq_refl) as P.
  remember (split_on c s []) as parts eqn:Ep. clear Ep.
  destruct (rev parts) as [|lst before_rev] eqn:Er; [discriminate|]. destruct before_rev as [|y ys]; [discriminate|].
  injection H as Ha Hb. subst b.
  assert (Eparts : parts = rev (y :: ys) ++ [lst]).
  { rewrite <- (rev_involutive parts), Er. reflexivity. }
  split.
  - rewrite <- J, Eparts, join_with_snoc.
    + f_equal. rewrite <- Ha. reflexivity.
    + intro E. apply (f_equal (@List.length bytes)) in E. rewrite rev_length in E. discriminate.
  - rewrite Eparts in P. apply Forall_app in P as [_ P]. inversion P; assumption.
Qed.

Lemma is_empty_neg (s : bytes) : negb (match s with [] => true | _ => false end) = true -> s <> [].
Proof. destruct s; [discriminate|discriminate]. Qed.

(* what [lookup_by_name_through_include] asks of the qualified name [name] = pre.m that the
   specification sends through include number [i0] of [fn], to the file [gn] *)
Lemma bound_through_include p r fn f f' name pre m i0 gn k :
  resolve_program p = Ok r -> prog_file p fn = Some f -> prog_file r fn = Some f' ->
  includes_plain f' = true -> includes_named f' = true ->
  split_type name = [pre; m] -> nth_error (file_incs f) i0 = Some (pre, Some gn) -> def_of p gn m = Some k ->
  exists i g', nth_error (f_includes f') i0 = Some i /\ in_ref i = Some gn /\ prog_file r gn = Some g' /\
    lookup m (file_defs g') = Some k /\ gn <> [] /\ include_alias gn <> [] /\
    name = include_alias gn ++ dot :: m /\ no_byte dot m = true.
Proof.
  intros Hr Hpf Hf Hpl Hnm Es Hnth Hdef.
  destruct (proj1 (resolution_preserves_definitions p r Hr) fn f' Hf) as (f2 & Hpf2 & _ & Eincs).
  assert (f2 = f) by congruence. subst f2.
  rewrite <- Eincs in Hnth. unfold file_incs in Hnth. rewrite nth_error_map in Hnth.
  destruct (nth_error (f_includes f') i0) as [i|] eqn:Ei; [|discriminate]. cbn [option_map] in Hnth.
  injection Hnth as Hpre Hiref.
  assert (HinI : In i (f_includes f')) by (eapply nth_error_In; exact Ei).
  assert (Hname : name = pre ++ dot :: m /\ no_byte dot m = true).
  { unfold split_type in Es. destruct name as [|c0 rest]; [discriminate|].
    destruct (last_index_split dot (c0 :: rest)) as [[a b]|] eqn:El; [|discriminate].
    injection Es as <- <-. apply last_index_split_inv. exact El. }
  unfold def_of in Hdef. destruct (prog_file p gn) as [g|] eqn:Hg; [|discriminate].
  destruct (resolve_keeps_defs p r Hr gn g Hg) as (g' & Hg' & Hdefs).
  assert (Epath : include_path i = gn) by (unfold include_path; rewrite Hiref; reflexivity).
  assert (Ealias : include_alias gn = pre).
  { rewrite <- Epath, <- Hpre. apply include_alias_prefix. unfold includes_plain in Hpl. rewrite forallb_forall in Hpl. exact (Hpl i HinI). }
  unfold includes_named in Hnm. rewrite forallb_forall in Hnm. specialize (Hnm i HinI). apply andb_true_iff in Hnm as [Hn1 Hn2].
  rewrite Epath in Hn1, Hn2. apply is_empty_neg in Hn1. apply is_empty_neg in Hn2.
  exists i, g'. rewrite <- Ealias in Hname. rewrite Hdefs. destruct Hname. repeat split; auto.
Qed.

(* A type expression of a resolved file that the resolver bound through an include (ty_ref = include
   index and name) is found, by every descriptor lookup, as the definition of that name in the file
   that include refers to — and the file has such a definition, of a type kind. *)
Theorem qualified_type_lookup_right p r fn f' t m idx :
  parsed_program p = true -> resolve_program p = Ok r -> prog_ok r = true ->
  prog_file r fn = Some f' -> f_name2cat f' <> None ->
  distinct_basenames f' = true -> includes_plain f' = true -> includes_named f' = true ->
  In t (file_occs f') -> ty_ref t = Some (Ref m idx) -> m <> [] ->
  exists i gn g' k,
    nth_include f' idx = Some i /\ in_ref i = Some gn /\ prog_file r gn = Some g' /\
    lookup m (file_defs g') = Some k /\ is_type_kind k = true /\
    get_struct (registry_of r) (descriptor_of f') (ty_name t) = omap (struct_desc (f_filename g')) (find_struct g' m) /\
    get_union (registry_of r) (descriptor_of f') (ty_name t) = omap (struct_desc (f_filename g')) (find_union g' m) /\
    get_exception (registry_of r) (descriptor_of f') (ty_name t) = omap (struct_desc (f_filename g')) (find_exception g' m) /\
    get_enum (registry_of r) (descriptor_of f') (ty_name t) = omap (enum_desc (f_filename g')) (find_enum g' m) /\
    get_typedef (registry_of r) (descriptor_of f') (ty_name t) = omap (typedef_desc (f_filename g')) (find_typedef g' m).
Proof.
  intros Hp Hr HPok Hf Hn Hd Hpl Hnm Hin Href Hm.
  pose proof (resolve_reference_index p r Hp Hr fn f' t Hf Hn Hin) as RI.
  destruct (builtin_category (ty_name t)); [rewrite RI in Href; discriminate|].
  destruct (split_type (ty_name t)) as [|pre [|m0 [|? ?]]] eqn:Es; try (rewrite RI in Href; discriminate).
  destruct RI as (f & i0 & gn & k & Hpf & Hr' & Hnth & Hdef & Hk & _).
  rewrite Hr' in Href. injection Href as <- <-.
  destruct (bound_through_include p r fn f f' _ pre m0 i0 gn k Hr Hpf Hf Hpl Hnm Es Hnth Hdef)
    as (i & g' & Ei & Hiref & Hg' & Hl & Hn1 & Hn2 & Hname & Hnodot).
  pose proof (lookup_by_name_through_include r f' i gn g' m0 HPok Hd (nth_error_In _ _ Ei) Hiref Hn1 Hn2 Hg' Hm Hnodot) as L.
  cbv zeta in L. rewrite <- Hname in L. destruct L as (L1 & L2 & L3 & L4 & L5 & _ & _).
  exists i, gn, g', k. rewrite nth_include_nat. repeat split; assumption.
Qed.

(* The base service the resolver bound through an include (sv_ref = include index idx and name m) is
   the service the descriptors find: GetServiceDescriptor of the written base name, and GetParent,
   return the descriptor of service m of the file include idx refers to, which defines it. *)
Theorem base_service_lookup_right p r fn f' sv' m idx :
  parsed_program p = true -> resolve_program p = Ok r -> prog_ok r = true ->
  prog_file r fn = Some f' -> f_name2cat f' <> None ->
  distinct_basenames f' = true -> includes_plain f' = true -> includes_named f' = true ->
  In sv' (f_services f') -> sv_ref sv' = Some (Ref m idx) -> m <> [] ->
  exists i gn g',
    nth_include f' idx = Some i /\ in_ref i = Some gn /\ prog_file r gn = Some g' /\
    lookup m (file_defs g') = Some DkService /\
    get_service (registry_of r) (descriptor_of f') (sv_extends sv') = omap (service_desc (f_filename g')) (find_service g' m) /\
    get_parent (registry_of r) (service_desc fn sv') = omap (service_desc (f_filename g')) (find_service g' m).
Proof.
  intros Hp Hr HPok Hf Hn Hd Hpl Hnm Hin Href Hm.
  destruct (resolve_service_ref p r Hp Hr fn f' sv' Hf Hn Hin) as (f & Hpf & Hg).
  unfold sv_good in Hg. rewrite Href in Hg.
  destruct (split_type (sv_extends sv')) as [|pre [|m0 [|? ?]]] eqn:Es; try discriminate; [destruct Hg; discriminate|].
  destruct Hg as (i0 & gn & Hs & Hdef & [= <- ->]).
  destruct (spec_include_nth _ _ _ _ _ _ _ _ Hs) as (_ & Hnth & _). rewrite Nat.sub_0_r in Hnth.
  destruct (bound_through_include p r fn f f' _ pre m i0 gn _ Hr Hpf Hf Hpl Hnm Es Hnth Hdef)
    as (i & g' & Ei & Hiref & Hg' & Hl & Hn1 & Hn2 & Hname & Hnodot).
  pose proof (lookup_by_name_through_include r f' i gn g' m HPok Hd (nth_error_In _ _ Ei) Hiref Hn1 Hn2 Hg' Hm Hnodot) as L.
  cbv zeta in L. rewrite <- Hname in L. destruct L as (_ & _ & _ & _ & _ & _ & L7).
  exists i, gn, g'. rewrite nth_include_nat.
  split; [exact Ei|]. split; [exact Hiref|]. split; [exact Hg'|]. split; [exact Hl|]. split; [exact L7|].
  unfold get_parent, service_desc at 1. cbn [svd_filepath svd_base].
  rewrite (lookup_fd_registry r fn HPok), Hf. cbn [omap]. exact L7.
Qed.
