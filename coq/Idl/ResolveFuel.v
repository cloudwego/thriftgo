(* Idl/ResolveFuel.v — the concrete fuels of the model suffice: [deref_fuel] for Deref
   (this file), [enum_fuel] for getEnum (Idl/ResolveFuelEnum.v).  The typedef fixpoint
   fuel is [te_fix_complete] of Idl/ResolveTd.v. *)
From Coq Require Import List Lia ZArith.
From Verif Require Import Base.Bytes Idl.Ast Idl.AstUtil Idl.AstFacts Idl.Resolve Idl.ResolveSpec Idl.ResolveTd Idl.ResolveLemmas
  Idl.ResolveInv Idl.ResolveProg Idl.ResolveDeref Idl.ResolvePath.
Import ListNotations.
Local Open Scope resolve_scope.

Definition deref_within (r : program) (g' : file) (t : ty) (d : tdef) (k : nat) : Prop :=
  exists h' t',
    (forall fuel, k <= fuel -> deref fuel r g' t = Ok (h', t')) /\
    ty_category t' = kind d /\ ty_ref t' = None /\ ty_is_typedef t' <> Some true /\
    match d with
    | TBuiltin c => builtin_category (ty_name t') = Some c
    | TEnum gn m | TStruct gn m _ => prog_file r gn = Some h' /\ ty_name t' = m
    end.

Lemma deref_within_to r g' t d k : deref_within r g' t d k -> deref_to r g' t d.
Proof. intros (h' & t' & H). exists k, h', t'. exact H. Qed.

Section DerefFuel.
  Variables (p done r : program).
  Hypothesis Hinv : inv p done.
  Hypothesis Hr : forall gn g', lookup gn done = Some g' -> prog_file r gn = Some g'.

  (* the definition [m] of [g] yields [d] along the path [l]: an enum or struct is [d] itself; for a
     typedef, Deref from the type of its resolved form in [g'] arrives at [d] with fuel [length l] *)
  Definition def_yields_n (gn : bytes) (g g' : file) (m : bytes) (d : tdef) (l : list (bytes * bytes)) : Prop :=
    (exists vs, lookup m (file_defs g) = Some (DkEnum vs) /\ d = TEnum gn m) \/
    (exists k, lookup m (file_defs g) = Some (DkStruct k) /\ d = TStruct gn m k) \/
    (exists tgt td', lookup m (file_defs g) = Some (DkTypedef tgt) /\ find_typedef g' m = Some td' /\
                     deref_within r g' (td_type td') d (length l)).

  Lemma deref_path :
    (forall gn m d l, def_path p gn m d l ->
       forall g g', prog_file p gn = Some g -> lookup gn done = Some g' -> good p done gn g g' ->
       def_yields_n gn g g' m d l /\ incl l (all_typedefs r)) /\
    (forall fn n d l, name_path p fn n d l ->
       forall g g' t, prog_file p fn = Some g -> lookup fn done = Some g' -> good p done fn g g' ->
       occ_good p fn g t -> ty_name t = n -> deref_within r g' t d (S (length l)) /\ incl l (all_typedefs r)).
  Proof.
    apply path_mutind.
    - intros gn m vs H g g' Hg Hl Gd. split; [|intros x []]. left. exists vs. rewrite <- (def_of_file p gn g m Hg). auto.
    - intros gn m k H g g' Hg Hl Gd. split; [|intros x []]. right. left. exists k. rewrite <- (def_of_file p gn g m Hg). auto.
    - intros gn m tgt d l H _ IH g g' Hg Hl Gd. rewrite (def_of_file p gn g m Hg) in H.
      destruct (good_find_typedef p done gn g g' m tgt Gd H) as (td' & Ft & Hn & Ho).
      destruct (IH g g' _ Hg Hl Gd Ho Hn) as (Hw & Hi). split.
      + right. right. exists tgt, td'. split; [exact H|]. split; [exact Ft|]. exact Hw.
      + intros x [<-|Hx]; [exact (in_all_typedefs r gn g' m td' (Hr _ _ Hl) Ft) | auto].
    - (* builtin *)
      intros fn n c Hb g g' t Hg Hl Gd Ho Hn. split; [|intros x []]. unfold occ_good in Ho. rewrite Hn, Hb in Ho.
      destruct Ho as (Hc & Hr0 & Ht). exists g', t. split.
      + intros [|k] Hle; [cbn in Hle; lia|]. cbn [deref]. rewrite Hr0, Ht. reflexivity.
      + rewrite Hn. repeat split; auto. rewrite Ht. discriminate.
    - (* local *)
      intros fn n a d l Hb Hs Hd IH g g' t Hg Hl Gd Ho Hn. unfold occ_good in Ho. rewrite Hn, Hb, Hs in Ho.
      destruct Ho as (k & d0 & Hk & _ & Hd0 & Hc & Hr0 & Ht).
      pose proof (def_denotes_fun p _ _ _ Hd0 _ (proj1 (path_denotes p) _ _ _ _ Hd)) as ->.
      pose proof (split_type_single _ _ Hs) as ->. rewrite (def_of_file p fn g n Hg) in Hk.
      destruct (IH g g' Hg Hl Gd) as (Hy & Hi). split; [|exact Hi].
      destruct Hy as [(vs & Hlk & ->)|[(s & Hlk & ->)|(tgt & td' & Hlk & Ft & Hdt)]];
        rewrite Hk in Hlk; injection Hlk as ->.
      + exists g', t. split.
        * intros [|k] Hle; [lia|]. cbn [deref]. rewrite Hr0, Ht. reflexivity.
        * repeat split; auto. rewrite Ht. discriminate.
      + exists g', t. split.
        * intros [|k] Hle; [lia|]. cbn [deref]. rewrite Hr0, Ht. cbn. destruct s; reflexivity.
        * repeat split; auto. rewrite Ht. cbn. destruct s; discriminate.
      + destruct Hdt as (h' & t' & Hrun & Hrest). exists h', t'. split; [|exact Hrest].
        intros [|k] Hle; [lia|]. cbn [deref]. rewrite Hr0, Ht. cbn [typedef_flag dkind_cat is_typedef_cat].
        rewrite Hn, Ft. apply Hrun. lia.
    - (* qualified *)
      intros fn f n pre m i gn d l Hb Hs Hf Hsi Hd IH g g' t Hg Hl Gd Ho Hn.
      assert (f = g) by congruence. subst f.
      unfold occ_good in Ho. rewrite Hn, Hb, Hs in Ho.
      destruct Ho as (i0 & gn0 & k & d0 & Hsi0 & Hk & Hd0 & Hc & Hr0 & Ht).
      rewrite Hsi in Hsi0. injection Hsi0 as <- <-.
      pose proof (def_denotes_fun p _ _ _ Hd0 _ (proj1 (path_denotes p) _ _ _ _ Hd)) as ->.
      destruct (spec_include_target p done g g' _ _ _ _ _ Hinv (gd_incs _ _ _ _ _ Gd) (gd_targets _ _ _ _ _ Gd) Hsi)
        as (x' & h & h' & Nx' & Hrx' & Lh & Hh & Gh).
      assert (Tgt : reference_target r g' (Ref m (Z.of_nat i)) = Some h').
      { rewrite (reference_target_nth r g' m i x' gn Nx' Hrx'). apply Hr. exact Lh. }
      assert (Hn2c : exists mm, f_name2cat h' = Some mm /\ forall a, lookup a mm = option_map dkind_cat (lookup a (file_defs h))).
      { pose proof (gd_resolved _ _ _ _ _ Gh) as Hres. pose proof (gd_n2c _ _ _ _ _ Gh) as Hn2. unfold n2c_of in Hn2.
        destruct (f_name2cat h') as [mm|]; [|congruence]. eauto. }
      destruct Hn2c as (mm & Hmm & Hlm).
      destruct (IH h h' Hh Lh Gh) as (Hy & Hi). split; [|exact Hi].
      destruct Hy as [(vs & Hlk & ->)|[(s & Hlk & ->)|(tgt & td' & Hlk & Ft & Hdt)]].
      + exists h', (Ty m None None [] [] CatEnum None None). split.
        * intros [|k0] Hle; [lia|]. cbn [deref]. rewrite Hr0, Tgt, Hmm. cbn [ref_name]. rewrite Hlm, Hlk. reflexivity.
        * cbn. repeat split; auto; try discriminate.
      + exists h', (Ty m None None [] [] (sl_kind_category s) None None). split.
        * intros [|k0] Hle; [lia|]. cbn [deref]. rewrite Hr0, Tgt, Hmm. cbn [ref_name]. rewrite Hlm, Hlk.
          cbn. destruct s; reflexivity.
        * cbn. repeat split; auto; try discriminate.
      + destruct Hdt as (h2 & t' & Hrun & Hrest). exists h2, t'. split; [|exact Hrest].
        intros [|k0] Hle; [lia|]. cbn [deref]. rewrite Hr0, Tgt, Hmm. cbn [ref_name]. rewrite Hlm, Hlk.
        cbn [option_map dkind_cat]. rewrite Ft. apply Hrun. lia.
  Qed.
End DerefFuel.

Theorem deref_spec_fuel p r :
  parsed_program p = true -> resolve_program p = Ok r ->
  forall fn f' t, prog_file r fn = Some f' -> f_name2cat f' <> None -> In t (file_occs f') ->
  exists d, name_denotes p fn (ty_name t) d /\ deref_within r f' t d (deref_fuel r).
Proof.
  intros Hp Hr fn f' t Hf Hn Ht. destruct (resolve_program_done p r Hp Hr) as (done & Hinv & Hd1 & Hd2).
  pose proof (Hd1 fn f' Hf Hn) as Hl. destruct (Hinv fn f' Hl) as (f & Hpf & Gd).
  pose proof (gd_occs _ _ _ _ _ Gd) as Ho. rewrite Forall_forall in Ho. specialize (Ho t Ht).
  destruct (occ_good_denotes p fn f t Hpf Ho) as (d & Hden & _). exists d. split; [exact Hden|].
  destruct (proj2 (denotes_path p) _ _ _ Hden) as (l & Hpath).
  destruct (proj2 (deref_path p done r Hinv Hd2) _ _ _ _ Hpath f f' t Hpf Hl Gd Ho eq_refl) as ((h' & t' & Hrun & Hrest) & Hincl).
  exists h', t'. split; [|exact Hrest]. intros fuel Hle. apply Hrun.
  (* the path visits no typedef twice and only typedefs of [r], so it is no longer than their number *)
  assert (ND : NoDup l).
  { destruct Hpath as [| ? ? ? ? ? _ _ Hd | ? ? ? ? ? ? ? ? ? _ _ _ _ Hd]; [constructor | |]; eapply def_path_NoDup; eauto. }
  assert (Hb : length l <= prog_typedef_count r).
  { rewrite <- all_typedefs_length. apply NoDup_incl_length; assumption. }
  unfold deref_fuel in Hle. lia.
Qed.
