(* Idl/ResolvableFacts.v — laws of the decidable predicates of Idl/ResolvableSpec.v and
   Idl/ResolvableConst.v against the relations of Idl/ResolveSpec.v. *)
From Coq Require Import List Arith Lia.
From Verif Require Import Base.Bytes Idl.Ast Idl.AstUtil Idl.ResolveSpec Idl.ResolveConst Idl.ResolvableSpec
  Idl.ResolvableConst Idl.ResolveCompleteConst.
Import ListNotations.

Lemma count_name_pos v vs : 1 <= count_name v vs -> In v vs.
Proof.
  unfold count_name. induction vs as [|x vs IH]; cbn [filter length]; [lia|].
  destruct (beqb x v) eqn:E; [apply beqb_true in E; subst; intros _; left; reflexivity | intros H; right; auto].
Qed.

Lemma sum_incs_pos cnt pre : forall incs, 1 <= sum_incs cnt pre incs ->
  exists i gn, nth_error incs i = Some (pre, Some gn) /\ 1 <= cnt gn.
Proof.
  induction incs as [|[pre' ref] incs IH]; cbn [sum_incs]; [lia|]. intros H.
  destruct (beqb pre' pre) eqn:E.
  - apply beqb_true in E. subst. destruct ref as [gn|].
    + destruct (cnt gn) as [|k] eqn:C.
      * destruct IH as (i & gn' & Hn & Hc); [lia|]. exists (S i), gn'. auto.
      * exists 0, gn. cbn. split; [reflexivity | lia].
    + destruct IH as (i & gn' & Hn & Hc); [lia|]. exists (S i), gn'. auto.
  - destruct IH as (i & gn' & Hn & Hc); [lia|]. exists (S i), gn'. auto.
Qed.

Lemma const_count_pos p gn v : 1 <= const_count p gn v -> def_of p gn v = Some DkConst.
Proof. unfold const_count. destruct (def_of p gn v) as [k|]; [|lia]. destruct k; try lia. reflexivity. Qed.

Lemma enum_value_count_pos p gn e v : 1 <= enum_value_count p gn e v ->
  exists efn vs i, enum_denotes p gn e efn vs i /\ In v vs.
Proof.
  unfold enum_value_count. destruct (enum_values_of p gn e) as [vs|] eqn:E; [|lia]. intros H.
  apply enum_values_of_spec in E. destruct E as (efn & i & He). exists efn, vs, i. split; [exact He | apply count_name_pos; exact H].
Qed.

Lemma alt_count_pos p fn f ss : prog_file p fn = Some f -> 1 <= alt_count p fn f ss -> exists x, alt_denotes p fn ss x.
Proof.
  intros Hf. destruct ss as [|a [|b [|c [|? ?]]]]; cbn [alt_count alt_denotes]; try lia.
  - intros H. eexists. split; [apply const_count_pos; exact H | reflexivity].
  - intros H. destruct (enum_value_count p fn a b) as [|k] eqn:C.
    + destruct (sum_incs_pos _ _ _ H) as (i & gn & Hn & Hc). eexists. right. exists f, i, gn.
      split; [exact Hf|]. split; [exact Hn|]. split; [apply const_count_pos; exact Hc | reflexivity].
    + destruct (enum_value_count_pos p fn a b) as (efn & vs & i & He & Hv); [lia|]. eexists. left. eauto 8.
  - intros H. destruct (sum_incs_pos _ _ _ H) as (i & gn & Hn & Hc).
    destruct (enum_value_count_pos p gn b c Hc) as (efn & vs & j & He & Hv). eexists. exists f, i, gn, efn, vs, j. auto 8.
Qed.

Theorem ident_ok_denotes p fn s : ident_ok p fn s = true -> exists e, const_denotes p fn s e.
Proof.
  unfold ident_ok. destruct (prog_file p fn) as [f|] eqn:Hf; [|discriminate]. intros H. apply Nat.eqb_eq in H.
  unfold explanations in H.
  assert (G : forall sss, 1 <= fold_right (fun ss acc => alt_count p fn f ss + acc) 0 sss ->
              exists ss, In ss sss /\ 1 <= alt_count p fn f ss).
  { induction sss as [|ss sss IH]; cbn [fold_right]; [lia|]. intros Hs.
    destruct (alt_count p fn f ss) as [|k] eqn:C.
    - destruct IH as (ss' & Hin & Hc); [lia|]. exists ss'. cbn. auto.
    - exists ss. cbn. split; [auto | lia]. }
  destruct (G (split_value s)) as (ss & Hin & Hc); [lia|].
  destruct (alt_count_pos p fn f ss Hf Hc) as (x & Hx). exists x. apply const_denotes_alt. eauto.
Qed.

Lemma includes_ok_ext p q :
  (forall fn, option_map (fun f => map in_ref (f_includes f)) (prog_file p fn) =
              option_map (fun f => map in_ref (f_includes f)) (prog_file q fn)) ->
  forall n fn, includes_ok n p fn = includes_ok n q fn.
Proof.
  intros H. induction n as [|k IH]; intros fn; cbn [includes_ok]; [reflexivity|].
  specialize (H fn). destruct (prog_file p fn) as [f|], (prog_file q fn) as [g|]; cbn [option_map] in H; try discriminate; [|reflexivity].
  injection H as H. revert H. generalize (f_includes g). induction (f_includes f) as [|i l IHl]; intros [|j l'] E; try discriminate; [reflexivity|].
  cbn [map] in E. injection E as Ei El. cbn [forallb]. rewrite (IHl _ El), Ei. destruct (in_ref j); [rewrite IH|]; reflexivity.
Qed.
