(* Idl/ConstsFacts.v — proofs about Idl/Consts.v (property C06); the statements are collected
   in Props/C06.v.  The predicates the statements of Props/C06.v are written with
   ([plain_byte], [known_escape], [int_category], [self_equal], [base_scalar], [kind_ok],
   [scalar_or_struct], [double_ty], [lit_file] ...) are defined here, each in front of the
   first lemma that needs it. *)
From Coq.Strings Require Import String.
From Coq Require Import List Bool ZArith Lia.
From Coq.Strings Require Import Byte.
From Verif Require Import Base.Bytes Idl.Ast Idl.AstUtil Idl.Consts.
Import ListNotations.
Local Open Scope Z_scope.
Local Open Scope consts_scope.

Lemma bind_ok {A B} (r : result A) (k : A -> result B) b :
  bind r k = Ok b -> exists a, r = Ok a /\ k a = Ok b.
Proof. destruct r as [a|e]; cbn; [eauto | discriminate]. Qed.

Lemma mapM_ok {A B} (f : A -> result B) l vs :
  mapM f l = Ok vs <-> Forall2 (fun x y => f x = Ok y) l vs.
Proof.
  revert vs. induction l as [|x l IH]; intros vs; cbn.
  - split; [intros [= <-]; constructor | intros H; inversion H; reflexivity].
  - split.
    + intros H. apply bind_ok in H as (y & Hy & H). apply bind_ok in H as (ys & Hys & H).
      injection H as <-. constructor; [exact Hy | apply IH; exact Hys].
    + intros H. inversion H as [|? y ? ys Hy Hys]; subst. rewrite Hy. cbn.
      apply IH in Hys. rewrite Hys. reflexivity.
Qed.

Lemma mapM_In {A B} (f : A -> result B) l vs x :
  mapM f l = Ok vs -> In x l -> exists y, f x = Ok y /\ In y vs.
Proof.
  intros H. apply mapM_ok in H. induction H as [|a b l vs Hab _ IH]; intros Hin; [contradiction|].
  destruct Hin as [<-|Hin]; [exists b; split; [assumption | left; reflexivity]|].
  destruct (IH Hin) as (y & Hy & Hiy). exists y. split; [assumption | right; assumption].
Qed.

Lemma Forall2_impl {A B} (P Q : A -> B -> Prop) la lb :
  (forall a b, P a b -> Q a b) -> Forall2 P la lb -> Forall2 Q la lb.
Proof. intros H F. induction F; constructor; auto. Qed.

Lemma mapM_length {A B} (f : A -> result B) l vs : mapM f l = Ok vs -> length vs = length l.
Proof. intros H. apply mapM_ok in H. induction H; cbn; congruence. Qed.

Lemma mapM_ext {A B} (f g : A -> result B) l : (forall x, In x l -> f x = g x) -> mapM f l = mapM g l.
Proof.
  induction l as [|x l IH]; intros H; cbn; [reflexivity|].
  rewrite (H x (or_introl eq_refl)). rewrite IH; [reflexivity | intros; apply H; right; assumption].
Qed.

(* a byte the literal rule copies unchanged: not a backslash, not a control byte other
   than tab; the double quote is allowed: it is re-escaped and read back *)
Definition plain_byte (c : byte) : bool :=
  negb (Byte.eqb c c_bs) && negb ((Z.of_N (Byte.to_N c) <? 32) && negb (Byte.eqb c x09)).

Lemma byte_eqb_refl c : Byte.eqb c c = true.
Proof. apply byte_eqb_eq. reflexivity. Qed.

Lemma go_unquote_bs r : go_unquote (c_bs :: c_bs :: r) = (t <- go_unquote r ;; Ok (c_bs :: t)).
Proof. reflexivity. Qed.
Lemma go_unquote_dq r : go_unquote (c_bs :: c_dq :: r) = (t <- go_unquote r ;; Ok (c_dq :: t)).
Proof. reflexivity. Qed.
Lemma go_unquote_n r : go_unquote (c_bs :: x6e :: r) = (t <- go_unquote r ;; Ok (x0a :: t)).
Proof. reflexivity. Qed.
Lemma go_unquote_t r : go_unquote (c_bs :: x74 :: r) = (t <- go_unquote r ;; Ok (x09 :: t)).
Proof. reflexivity. Qed.
Lemma go_unquote_r r : go_unquote (c_bs :: x72 :: r) = (t <- go_unquote r ;; Ok (x0d :: t)).
Proof. reflexivity. Qed.
Lemma go_unquote_x h1 h2 a b r :
  hexv h1 = Some a -> hexv h2 = Some b ->
  go_unquote (c_bs :: x78 :: h1 :: h2 :: r) = (t <- go_unquote r ;; Ok (byte_of_Z (a * 16 + b) :: t)).
Proof. intros H1 H2. cbn -[hexv byte_of_Z Z.mul Z.add]. rewrite H1, H2. reflexivity. Qed.
Lemma go_unquote_u h1 h2 h3 h4 a b c d enc r :
  hexv h1 = Some a -> hexv h2 = Some b -> hexv h3 = Some c -> hexv h4 = Some d ->
  utf8 (((a * 16 + b) * 16 + c) * 16 + d) = Some enc ->
  go_unquote (c_bs :: x75 :: h1 :: h2 :: h3 :: h4 :: r) = (t <- go_unquote r ;; Ok (enc ++ t)).
Proof. intros H1 H2 H3 H4 Hu. cbn -[hexv utf8 Z.mul Z.add]. rewrite H1, H2, H3, H4, Hu. reflexivity. Qed.

Lemma go_unquote_plain c r :
  Byte.eqb c c_dq = false -> plain_byte c = true -> go_unquote (c :: r) = (t <- go_unquote r ;; Ok (c :: t)).
Proof.
  unfold plain_byte. intros Hq Hc. apply andb_true_iff in Hc as [Hbs Hctl].
  apply negb_true_iff in Hbs. apply negb_true_iff in Hctl.
  cbn [go_unquote]. rewrite Hq, Hbs, Hctl. reflexivity.
Qed.

Lemma go_string_plain s : forallb plain_byte s = true -> go_string s = Ok s.
Proof.
  unfold go_string. induction s as [|c s IH]; intros H; [reflexivity|].
  cbn [forallb] in H. apply andb_true_iff in H as [Hc Hs].
  cbn [go_escape_dq]. destruct (Byte.eqb c c_dq) eqn:Hq.
  - apply byte_eqb_eq in Hq. subst c. rewrite go_unquote_dq, (IH Hs). reflexivity.
  - rewrite (go_unquote_plain c _ Hq Hc), (IH Hs). reflexivity.
Qed.

(* a bare double quote or a newline never occurs inside a Go literal; an escape outside the
   set is refused *)
Lemma go_unquote_bare_quote r : go_unquote (c_dq :: r) = Error ELiteral.
Proof. reflexivity. Qed.
Lemma go_unquote_newline r : go_unquote (x0a :: r) = Error ELiteral.
Proof. reflexivity. Qed.
Definition known_escape (e : byte) : bool :=
  Byte.eqb e c_bs || Byte.eqb e c_dq || Byte.eqb e x6e || Byte.eqb e x74 || Byte.eqb e x72 || Byte.eqb e x78 || Byte.eqb e x75.
Lemma go_unquote_unsupported e r : known_escape e = false -> go_unquote (c_bs :: e :: r) = Error EUnsupportedEscape.
Proof.
  unfold known_escape. rewrite !orb_false_iff. intros [[[[[[H1 H2] H3] H4] H5] H6] H7].
  cbn -[hexv utf8 Z.mul Z.add]. rewrite H1, H2, H3, H4, H5, H6, H7. reflexivity.
Qed.
(* the single quote is such an escape: Go accepts it in rune literals only *)
Lemma go_unquote_single_quote r : go_unquote (c_bs :: x27 :: r) = Error EUnsupportedEscape.
Proof. apply go_unquote_unsupported. reflexivity. Qed.

Definition int_category (c : category) : bool :=
  match c with CatByte | CatI16 | CatI32 | CatI64 => true | _ => false end.

Lemma int_category_value c : int_category c = true -> value_category c = true.
Proof. destruct c; cbn; congruence. Qed.

Section Literals.
  Context (q : quirks) (n : nat) (p : program) (vf tf : file) (t : ty).

  Lemma eval_int_literal z :
    int_category (ty_category t) = true -> in_int_range (ty_category t) z = true ->
    eval q (S n) p vf tf t (CInt z) = Ok (VInt z).
  Proof.
    cbn [eval]. destruct (ty_category t); intros Hc Hr; cbn in Hc; try discriminate.
    all: cbn - [in_int_range]; rewrite Hr; reflexivity.
  Qed.

  Lemma eval_int_out_of_range z :
    int_category (ty_category t) = true -> in_int_range (ty_category t) z = false ->
    eval q (S n) p vf tf t (CInt z) = Error ERange.
  Proof.
    cbn [eval]. destruct (ty_category t); intros Hc Hr; cbn in Hc; try discriminate.
    all: cbn - [in_int_range]; rewrite Hr; reflexivity.
  Qed.

  Lemma eval_int_true_false s ex :
    int_category (ty_category t) = true -> is_true s || is_false s = true ->
    eval q (S n) p vf tf t (CIdent s ex) = Ok (VInt (if is_true s then 1 else 0)).
  Proof.
    cbn [eval]. unfold bool_word. destruct (ty_category t); intros Hc Hs; rewrite Hs; cbn in Hc; try discriminate.
    all: reflexivity.
  Qed.

  Lemma eval_string_literal s :
    ty_category t = CatString -> eval q (S n) p vf tf t (CLiteral s) = (b <- go_string s ;; Ok (VStr b)).
  Proof. intros Hc. cbn [eval]. rewrite Hc. reflexivity. Qed.
  Lemma eval_binary_literal s :
    ty_category t = CatBinary -> eval q (S n) p vf tf t (CLiteral s) = (b <- go_string s ;; Ok (VBin b)).
  Proof. intros Hc. cbn [eval]. rewrite Hc. reflexivity. Qed.
  Lemma eval_string_plain s :
    ty_category t = CatString -> forallb plain_byte s = true -> eval q (S n) p vf tf t (CLiteral s) = Ok (VStr s).
  Proof. intros Hc Hs. rewrite eval_string_literal by assumption. rewrite go_string_plain by assumption. reflexivity. Qed.

  (* boolean: true / false and 0 / 1 (any integer: positive means true) *)
  Lemma eval_bool_word s ex :
    ty_category t = CatBool -> is_true s || is_false s = true ->
    eval q (S n) p vf tf t (CIdent s ex) = Ok (VBool (is_true s)).
  Proof. intros Hc Hs. cbn [eval]. unfold bool_word. rewrite Hc, Hs. reflexivity. Qed.
  Lemma eval_bool_int z :
    ty_category t = CatBool -> eval q (S n) p vf tf t (CInt z) = Ok (VBool (0 <? z)).
  Proof. intros Hc. cbn [eval]. rewrite Hc. reflexivity. Qed.
  Lemma eval_bool_0 : ty_category t = CatBool -> eval q (S n) p vf tf t (CInt 0) = Ok (VBool false).
  Proof. apply eval_bool_int. Qed.
  Lemma eval_bool_1 : ty_category t = CatBool -> eval q (S n) p vf tf t (CInt 1) = Ok (VBool true).
  Proof. apply eval_bool_int. Qed.

  Lemma eval_enum_by_number z :
    ty_category t = CatEnum -> eval q (S n) p vf tf t (CInt z) = Ok (VInt z).
  Proof. intros Hc. cbn [eval]. rewrite Hc. reflexivity. Qed.

  Lemma eval_enum_by_name s ex g en ev :
    ty_category t = CatEnum -> ex_is_enum ex = true ->
    hop p vf (ex_index ex) = Ok g -> find_enum g (ex_sel ex) = Some en -> find_enum_value en (ex_name ex) = Some ev ->
    eval q (S n) p vf tf t (CIdent s (Some ex)) = Ok (VInt (ev_value ev)).
  Proof.
    intros Hc He Hh Hen Hev. cbn [eval]. rewrite Hc. cbn [value_category is_base_category is_container_category is_struct_like_category negb orb category_code].
    replace (bool_word CatEnum s) with (@None (result cval)) by (unfold bool_word; destruct (is_true s || is_false s); reflexivity).
    unfold denotes. rewrite Hh. cbn [bind]. rewrite He, Hen, Hev. cbn [bind]. unfold expect. rewrite Hc. reflexivity.
  Qed.

  Lemma eval_int_for_double z :
    ty_category t = CatDouble -> eval q (S n) p vf tf t (CInt z) = Ok (VDbl (z_to_double z)).
  Proof. intros Hc. cbn [eval]. rewrite Hc. reflexivity. Qed.

  Lemma eval_double_literal b :
    ty_category t = CatDouble -> dbl_finite (Z.of_N b) = true ->
    (q_negzero_lost q && dbl_is_zero (Z.of_N b) = false) ->
    eval q (S n) p vf tf t (CDouble b) = Ok (VDbl (Z.of_N b)).
  Proof. intros Hc Hf Hz. cbn [eval]. rewrite Hc. cbn. unfold go_double. rewrite Hf, Hz. reflexivity. Qed.
  Lemma eval_double_true_false s ex :
    ty_category t = CatDouble -> is_true s || is_false s = true ->
    eval q (S n) p vf tf t (CIdent s ex) = Ok (VDbl (if is_true s then z_to_double 1 else z_to_double 0)).
  Proof. intros Hc Hs. cbn [eval]. unfold bool_word. rewrite Hc, Hs. destruct (is_true s); vm_compute; reflexivity. Qed.
End Literals.

Lemma div_rne_1 a : Lex.div_rne a 1 = a.
Proof. unfold Lex.div_rne. rewrite Z.div_1_r, Z.mod_1_r. reflexivity. Qed.

(* an integer with e + 1 bits, e <= 52, is a normal number with mantissa z * 2^(52 - e): nothing is rounded away *)
Lemma round_binary64_normal z e :
  0 <= e <= 52 -> 2 ^ e <= z < 2 ^ (e + 1) ->
  exists m, two52 <= m < 2 * two52 /\ m * 2 ^ e = z * two52 /\
            Lex.round_binary64 z 1 = (e + 1023) * two52 + (m - two52).
Proof.
  intros He Hz. exists (z * 2 ^ (52 - e)).
  assert (Hm : 2 ^ 52 <= z * 2 ^ (52 - e) < 2 ^ 53).
  { split.
    - replace (2 ^ 52) with (2 ^ e * 2 ^ (52 - e)) by (rewrite <- Z.pow_add_r by lia; f_equal; lia).
      apply Z.mul_le_mono_nonneg_r; [apply Z.pow_nonneg; lia | lia].
    - replace (2 ^ 53) with (2 ^ (e + 1) * 2 ^ (52 - e)) by (rewrite <- Z.pow_add_r by lia; f_equal; lia).
      apply Z.mul_lt_mono_pos_r; [apply Z.pow_pos_nonneg; lia | lia]. }
  split; [exact Hm|]. split.
  { rewrite <- Z.mul_assoc, <- Z.pow_add_r by lia. replace (52 - e + e) with 52 by lia. reflexivity. }
  unfold Lex.round_binary64. rewrite (Z.log2_unique z e); [| lia | rewrite <- Z.add_1_r; exact Hz].
  change (Z.log2 1) with 0. rewrite Z.sub_0_r.
  rewrite (proj2 (Z.leb_le 0 e)), (proj2 (Z.leb_le (1 * 2 ^ e) z)), (proj2 (Z.leb_le 0 (e + 1))), (proj2 (Z.leb_gt (1 * 2 ^ (e + 1)) z)),
    (proj2 (Z.ltb_ge e (-1022))), (proj2 (Z.leb_le 0 (52 - e))), div_rne_1, (proj2 (Z.eqb_neq _ (2 ^ 53))),
    Z.gtb_ltb, (proj2 (Z.ltb_ge 1023 e)) by lia.
  reflexivity.
Qed.

(* the float64 of a small integer is exact: mantissa * 2^(e - 52) = z *)
Lemma z_to_double_exact z :
  0 < z < 2 ^ 53 ->
  let b := z_to_double z in
  let e := b / two52 - 1023 in
  0 <= e <= 52 /\ (two52 + b mod two52) * 2 ^ e = z * two52.
Proof.
  intros [Hpos Hlt]. cbn zeta. unfold z_to_double.
  rewrite (proj2 (Z.eqb_neq z 0)), (proj2 (Z.ltb_lt 0 z)) by lia.
  assert (Hl := Z.log2_spec z Hpos). rewrite <- Z.add_1_r in Hl. set (e := Z.log2 z) in *.
  assert (He : 0 <= e <= 52).
  { split; [apply Z.log2_nonneg|]. destruct (Z_le_gt_dec e 52) as [?|Hg]; [assumption|].
    assert (2 ^ 53 <= 2 ^ e) by (apply Z.pow_le_mono_r; lia). lia. }
  destruct (round_binary64_normal z e He Hl) as (m & Hm & Hme & ->).
  rewrite Z.add_comm, Z.div_add, Z.mod_add, Z.div_small, Z.mod_small by lia.
  replace (0 + (e + 1023) - 1023) with e by lia. rewrite Zplus_minus. split; assumption.
Qed.

Lemma denotes_local_const p vf ex co :
  ex_index ex = -1 -> ex_is_enum ex = false -> find_constant vf (ex_name ex) = Some co ->
  denotes p vf ex = Ok (DConst vf co).
Proof. intros Hi He Hc. unfold denotes, hop. rewrite Hi. cbn. rewrite He, Hc. reflexivity. Qed.

Lemma denotes_included_const p vf ex inc g co :
  ex_index ex <> -1 -> nth_include vf (ex_index ex) = Some inc -> include_target p inc = Some g ->
  ex_is_enum ex = false -> find_constant g (ex_name ex) = Some co ->
  denotes p vf ex = Ok (DConst g co).
Proof.
  intros Hi Hn Ht He Hc. unfold denotes, hop.
  replace (ex_index ex =? -1) with false by (symmetry; apply Z.eqb_neq; assumption).
  rewrite Hn, Ht. cbn. rewrite He, Hc. reflexivity.
Qed.

(* an identifier evaluates to what the constant it denotes evaluates to (in that
   constant's own file, at its own type), provided the value fits the position *)
Lemma eval_ref_transparent q n p vf tf t s ex g co :
  value_category (ty_category t) = true -> bool_word (ty_category t) s = None ->
  denotes p vf ex = Ok (DConst g co) ->
  eval q (S n) p vf tf t (CIdent s (Some ex)) =
  (v <- eval_top q n p g (co_type co) (co_value co) ;; expect n p tf t v).
Proof. intros Hv Hb Hd. cbn [eval]. rewrite Hv, Hb, Hd. reflexivity. Qed.

Lemma expect_scalar_id k p tf t v :
  match ty_category t, v with
  | CatBool, VBool _ | CatDouble, VDbl _ | CatString, VStr _ | CatBinary, VBin _ | CatEnum, VInt _ => True
  | (CatByte | CatI16 | CatI32 | CatI64), VInt z => in_int_range (ty_category t) z = true
  | _, _ => False
  end -> expect k p tf t v = Ok v.
Proof.
  unfold expect. destruct (ty_category t), v; try contradiction; try reflexivity; intros H; rewrite H; reflexivity.
Qed.

Lemma eval_list_pointwise q n p vf tf t et l :
  (ty_category t = CatList \/ ty_category t = CatSet) -> ty_value t = Some et -> l <> [] ->
  eval q (S n) p vf tf t (CList l) = (vs <- mapM (eval q n p vf tf et) l ;; Ok (VList vs)).
Proof.
  intros Hc Ht Hl. cbn [eval]. destruct l as [|c l]; [congruence|]. rewrite Ht.
  destruct Hc as [-> | ->]; reflexivity.
Qed.

Lemma eval_list_forall2 q n p vf tf t et l vs :
  (ty_category t = CatList \/ ty_category t = CatSet) -> ty_value t = Some et -> l <> [] ->
  (eval q (S n) p vf tf t (CList l) = Ok (VList vs) <->
   Forall2 (fun c v => eval q n p vf tf et c = Ok v) l vs).
Proof.
  intros Hc Ht Hl. rewrite (eval_list_pointwise q n p vf tf t et l Hc Ht Hl). rewrite <- mapM_ok.
  destruct (mapM (eval q n p vf tf et) l) as [ws|e]; cbn; split; intros H; try discriminate; congruence.
Qed.

Lemma eval_list_empty q n p vf tf t :
  (ty_category t = CatList \/ ty_category t = CatSet) -> eval q (S n) p vf tf t (CList []) = Ok (VList []).
Proof. intros [Hc|Hc]; cbn [eval]; rewrite Hc; reflexivity. Qed.

(* a non-empty literal for a typedef'd container: the backend dereferences the missing element type *)
Lemma typedef_container_is_error q n p vf tf t c l :
  (ty_category t = CatList \/ ty_category t = CatSet) -> ty_value t = None ->
  eval q (S n) p vf tf t (CList (c :: l)) = Error EInternal.
Proof. intros [Hc|Hc] Hv; cbn [eval]; rewrite Hc, Hv; reflexivity. Qed.

Lemma eval_map_pointwise q n p vf tf t kt vt l :
  ty_category t = CatMap -> ty_key t = Some kt -> ty_value t = Some vt -> l <> [] ->
  eval q (S n) p vf tf t (CMap l) =
  (kvs <- mapM (fun kv => a <- eval q n p vf tf (bin2str kt) (fst kv) ;;
                          b <- eval q n p vf tf vt (snd kv) ;; Ok (a, b)) l ;;
   Ok (VMap (collapse_empty kvs))).
Proof. intros Hc Hk Hv Hl. cbn [eval]. rewrite Hc. destruct l; [congruence|]. rewrite Hk, Hv. reflexivity. Qed.

Lemma eval_map_forall2 q n p vf tf t kt vt l kvs :
  ty_category t = CatMap -> ty_key t = Some kt -> ty_value t = Some vt -> l <> [] ->
  Forall2 (fun kv ab => eval q n p vf tf (bin2str kt) (fst kv) = Ok (fst ab) /\
                        eval q n p vf tf vt (snd kv) = Ok (snd ab)) l kvs ->
  eval q (S n) p vf tf t (CMap l) = Ok (VMap (collapse_empty kvs)).
Proof.
  intros Hc Hk Hv Hl H. rewrite (eval_map_pointwise q n p vf tf t kt vt l Hc Hk Hv Hl).
  assert (Hm : mapM (fun kv => a <- eval q n p vf tf (bin2str kt) (fst kv) ;;
                               b <- eval q n p vf tf vt (snd kv) ;; Ok (a, b)) l = Ok kvs).
  { apply mapM_ok. clear Hl. induction H as [|kv ab l kvs [Ha Hb] _ IH]; constructor; [|exact IH].
    rewrite Ha, Hb. cbn. destruct ab; reflexivity. }
  rewrite Hm. reflexivity.
Qed.

(* keys that are not pointers to field-less structs are kept as written *)
Lemma collapse_empty_id kvs : forallb (fun kv => negb (is_empty_struct (fst kv))) kvs = true -> collapse_empty kvs = kvs.
Proof.
  induction kvs as [|kv r IH]; intros H; [reflexivity|]. cbn in H. apply andb_true_iff in H as [H1 H2].
  cbn [collapse_empty]. apply negb_true_iff in H1. rewrite H1. cbn. rewrite IH by assumption. reflexivity.
Qed.

(* a container written with a value of another kind: tolerated by the generator, an error by
   the IDL's rules *)
Definition container_kind_ok (cat : category) (c : const_value) : bool :=
  match c with
  | CIdent _ _ => true
  | CList _ => match cat with CatList | CatSet => true | _ => false end
  | CMap _ => true     (* a map literal, or "{}" for an empty list in the C++ tradition *)
  | _ => false
  end.

Lemma container_kind_mismatch q n p vf tf t c :
  is_container_category (ty_category t) = true ->
  match c with CInt _ | CDouble _ | CLiteral _ => True | CList _ => ty_category t = CatMap | _ => False end ->
  eval q (S n) p vf tf t c =
  if q_fault_tolerant q then Ok (empty_container (ty_category t)) else Error EKind.
Proof.
  intros Hc Hk. cbn [eval]. destruct (ty_category t) eqn:E; cbn in Hc; try discriminate;
    destruct c; try contradiction; try discriminate; reflexivity.
Qed.

Lemma eval_struct_literal q n p vf tf t l :
  is_struct_like_category (ty_category t) = true ->
  eval q (S n) p vf tf t (CMap l) =
  (gs <- get_struct_like p tf t ;;
   fs <- struct_slots q (eval q n p vf (fst gs)) (snd gs) l ;; Ok (VStruct fs)).
Proof. intros Hc. cbn [eval]. destruct (ty_category t); cbn in Hc; try discriminate; reflexivity. Qed.

(* each field the literal mentions (once) holds the value of what was written for it, at the
   field's type — types read in the file of the struct, identifiers in the file of the
   literal — stored the way the Go field stores it; every other field is Go zero *)
Lemma eval_struct_literal_fields q n p vf tf t l g s fs fd :
  is_struct_like_category (ty_category t) = true ->
  get_struct_like p tf t = Ok (g, s) ->
  eval q (S n) p vf tf t (CMap l) = Ok (VStruct fs) ->
  In fd (sl_fields s) ->
  (forall kv, filter (key_names fd) l = [kv] ->
     exists v sl, eval q n p vf g (fd_type fd) (snd kv) = Ok v /\ mention_slot fd (snd kv) v = Ok sl /\
                  In (fd_id fd, sl) fs) /\
  (filter (key_names fd) l = [] ->
     In (fd_id fd, if q_unmentioned_any q then VAny else zero_slot fd) fs).
Proof.
  intros Hc Hg He Hin. rewrite eval_struct_literal in He by assumption. rewrite Hg in He. cbn [bind fst snd] in He.
  apply bind_ok in He as (fs' & Hs & He). injection He as <-.
  unfold struct_slots in Hs. destruct (negb (keys_ok s l)); [discriminate|].
  destruct (mapM_In _ _ _ fd Hs Hin) as (y & Hy & Hiy). split.
  - intros kv Hf. rewrite Hf in Hy. apply bind_ok in Hy as (v & Hv & Hy). apply bind_ok in Hy as (sl & Hsl & Hy).
    injection Hy as <-. exists v, sl. auto.
  - intros Hf. rewrite Hf in Hy. injection Hy as <-. exact Hiy.
Qed.

Lemma eval_struct_literal_shape q n p vf tf t l g s fs :
  is_struct_like_category (ty_category t) = true ->
  get_struct_like p tf t = Ok (g, s) ->
  eval q (S n) p vf tf t (CMap l) = Ok (VStruct fs) ->
  map fst fs = map fd_id (sl_fields s).
Proof.
  intros Hc Hg He. rewrite eval_struct_literal in He by assumption. rewrite Hg in He. cbn [bind fst snd] in He.
  apply bind_ok in He as (fs' & Hs & He). injection He as <-.
  unfold struct_slots in Hs. destruct (negb (keys_ok s l)); [discriminate|].
  apply mapM_ok in Hs. induction Hs as [|fd e fds fs' He _ IH]; [reflexivity|]. cbn [map]. f_equal; [|exact IH].
  destruct (filter (key_names fd) l) as [|kv [|? ?]]; try discriminate.
  - injection He as <-. reflexivity.
  - apply bind_ok in He as (v & _ & He). apply bind_ok in He as (sl & _ & He). injection He as <-. reflexivity.
Qed.

Lemma new_struct_shape q n p f s fs :
  new_struct q n p f s = Ok (VStruct fs) -> map fst fs = map fd_id (sl_fields s).
Proof.
  unfold new_struct. intros H. apply bind_ok in H as (fs' & Hm & H). injection H as <-.
  apply mapM_ok in Hm. induction Hm as [|fd e fds fs' He _ IH]; [reflexivity|]. cbn [map]. f_equal; [|exact IH].
  apply bind_ok in He as (v & _ & He). injection He as <-. reflexivity.
Qed.

Lemma find_slot_In (fs : list (Z * cval)) id v :
  NoDup (map fst fs) -> In (id, v) fs ->
  find (fun e => fst e =? id) fs = Some (id, v).
Proof.
  induction fs as [|[i w] fs IH]; intros Hnd Hin; [contradiction|]. cbn [find fst].
  inversion Hnd as [|? ? Hni Hnd']; subst. destruct Hin as [Heq|Hin].
  - injection Heq as -> ->. rewrite Z.eqb_refl. reflexivity.
  - destruct (i =? id) eqn:E.
    + apply Z.eqb_eq in E. subst i. exfalso. apply Hni. change id with (fst (id, v)). apply in_map. exact Hin.
    + apply IH; assumption.
Qed.

(* a freshly constructed struct: a field with a declared default holds the value of that
   default, every other field is zero / nil *)
Lemma new_struct_defaults q n p f s x fd :
  new_struct q n p f s = Ok x -> NoDup (map fd_id (sl_fields s)) -> In fd (sl_fields s) ->
  (forall c, fd_default fd = Some c ->
     exists v, eval_top q n p f (fd_type fd) c = Ok v /\ get_slot x (fd_id fd) = Some v) /\
  (fd_default fd = None -> get_slot x (fd_id fd) = Some (zero_slot fd)).
Proof.
  intros Hn Hnd Hin. assert (Hn' := Hn). unfold new_struct in Hn. apply bind_ok in Hn as (fs & Hm & Hn). injection Hn as <-.
  assert (Hsh := new_struct_shape _ _ _ _ _ _ Hn'). rewrite <- Hsh in Hnd.
  destruct (mapM_In _ _ _ fd Hm Hin) as (e & He & Hie).
  apply bind_ok in He as (v & Hv & He). injection He as <-.
  unfold init_slot, default_value in Hv. cbn [get_slot]. split.
  - intros c Hc. rewrite Hc in Hv. apply bind_ok in Hv as (d & Hd & Hv). apply bind_ok in Hd as (w & Hw & Hd).
    injection Hd as <-. injection Hv as <-. exists w. split; [exact Hw|].
    rewrite (find_slot_In fs (fd_id fd) w Hnd Hie). reflexivity.
  - intros Hc. rewrite Hc in Hv. cbn in Hv. injection Hv as <-.
    rewrite (find_slot_In fs (fd_id fd) (zero_slot fd) Hnd Hie). reflexivity.
Qed.

(* InitDefault() on the zero object gives exactly what NewX() gives *)
Lemma init_fields_zero q n p f fds :
  init_fields q n p f fds (map (fun fd => (fd_id fd, zero_slot fd)) fds) =
  mapM (fun fd => v <- init_slot q n p f fd ;; Ok (fd_id fd, v)) fds.
Proof.
  induction fds as [|fd fds IH]; [reflexivity|]. cbn [map init_fields mapM]. rewrite IH. unfold init_slot.
  destruct (default_value q n p f fd) as [[v|]|e]; cbn [bind]; try reflexivity;
    destruct (mapM _ fds); reflexivity.
Qed.

Lemma init_default_on_zero q n p f s :
  init_default q n p f s (zero_struct s) = new_struct q n p f s.
Proof. unfold init_default, zero_struct, new_struct. rewrite init_fields_zero. reflexivity. Qed.

(* InitDefault() on any object: defaults are (re)assigned, nothing else is touched *)
Lemma init_default_slots q n p f fds slots fs :
  init_fields q n p f fds slots = Ok fs ->
  Forall2 (fun fd_slot e =>
             match fd_default (fst fd_slot) with
             | Some c => exists v, eval_top q n p f (fd_type (fst fd_slot)) c = Ok v /\ e = (fd_id (fst fd_slot), v)
             | None => e = snd fd_slot
             end) (combine fds slots) fs.
Proof.
  revert slots fs. induction fds as [|fd fds IH]; intros [|sl slots] fs H; cbn in H; try discriminate.
  - injection H as <-. constructor.
  - apply bind_ok in H as (d & Hd & H). apply bind_ok in H as (rest & Hr & H). injection H as <-.
    cbn [combine]. constructor; [|apply IH; exact Hr]. cbn [fst snd]. unfold default_value in Hd.
    destruct (fd_default fd) as [c|].
    + apply bind_ok in Hd as (v & Hv & Hd). injection Hd as <-. exists v. auto.
    + injection Hd as <-. reflexivity.
Qed.

Lemma getter_unset_is_default fd dv slot :
  support_isset fd = true -> is_set fd dv slot = false -> getter fd dv slot = default_var fd dv.
Proof. intros Hs Hi. unfold getter. rewrite Hs, Hi. reflexivity. Qed.

Lemma getter_set_is_value fd dv slot :
  support_isset fd = true -> is_set fd dv slot = true ->
  getter fd dv slot = if need_redirect fd && is_base_or_enum (fd_cat fd) then unsome slot else slot.
Proof. intros Hs Hi. unfold getter. rewrite Hs, Hi. reflexivity. Qed.

Lemma getter_plain_field fd dv slot : support_isset fd = false -> getter fd dv slot = slot.
Proof. intros Hs. unfold getter. rewrite Hs. reflexivity. Qed.

(* a value Go compares equal to itself: everything except NaN *)
Definition self_equal (v : cval) : bool :=
  match v with VDbl b => negb (dbl_is_nan b) | VBool _ | VInt _ | VStr _ => true | _ => false end.

Lemma feq_refl b : dbl_is_nan b = false -> feq b b = true.
Proof. intros H. unfold feq. rewrite H. cbn. rewrite Z.eqb_refl. reflexivity. Qed.

Lemma is_set_default_itself fd d :
  is_base_or_enum (fd_cat fd) = true -> self_equal d = true -> is_set fd (Some d) d = false.
Proof.
  intros Hb Hs. unfold is_set. rewrite Hb. destruct (is_binary (fd_cat fd)).
  - rewrite beqb_refl. reflexivity.
  - destruct d; cbn in Hs; try discriminate; cbn [go_neq].
    + rewrite Bool.eqb_reflx. reflexivity.
    + rewrite Z.eqb_refl. reflexivity.
    + apply negb_true_iff in Hs. rewrite feq_refl by assumption. reflexivity.
    + rewrite beqb_refl. reflexivity.
Qed.

Lemma is_set_default_itself_binary fd d :
  is_binary (fd_cat fd) = true -> is_set fd (Some d) d = false.
Proof.
  intros Hb. unfold is_set. replace (is_base_or_enum (fd_cat fd)) with true by (destruct (fd_cat fd); cbn in Hb; try discriminate; reflexivity).
  rewrite Hb, beqb_refl. reflexivity.
Qed.

Lemma forallb_impl {A} (f g : A -> bool) l :
  (forall x, In x l -> f x = true -> g x = true) -> forallb f l = true -> forallb g l = true.
Proof.
  induction l as [|x l IH]; intros H Hf; [reflexivity|]. cbn in *. apply andb_true_iff in Hf as [H1 H2].
  rewrite (H x (or_introl eq_refl) H1). cbn. apply IH; [intros; apply H; [right|]; assumption | assumption].
Qed.

Lemma forall2b_impl {A B} (f g : A -> B -> bool) la lb :
  (forall a b, f a b = true -> g a b = true) -> forall2b f la lb = true -> forall2b g la lb = true.
Proof.
  intros H. revert lb. induction la as [|a la IH]; intros [|b lb] Hf; cbn in *; try discriminate; [reflexivity|].
  apply andb_true_iff in Hf as [H1 H2]. rewrite (H _ _ H1). cbn. apply IH. assumption.
Qed.

Lemma slot_ok_mono (ht ht' : ty -> cval -> bool) fd sl :
  (forall t v, ht t v = true -> ht' t v = true) -> slot_ok ht fd sl = true -> slot_ok ht' fd sl = true.
Proof.
  intros H. unfold slot_ok.
  (* a slot that holds a value, directly or behind one or two pointers, is accepted by a test
     that does not mention [ht] together with [ht] of that value *)
  assert (Hand : forall (c : bool) t v, c && ht t v = true -> c && ht' t v = true).
  { intros c t v Hs. apply andb_true_iff in Hs as [H1 H2]. rewrite H1. cbn [andb]. apply H. exact H2. }
  destruct sl as [b|z|b|s|s|l|kvs|fs| |x]; try apply Hand; try (intros Hs; exact Hs).
  destruct x as [b|z|b|s|s|l|kvs|fs| |y]; try apply Hand.
  destruct y; try apply Hand.
  intros _. reflexivity.
Qed.

Lemma field_slot_mono (ht ht' : ty -> cval -> bool) fd (e : Z * cval) :
  (forall t v, ht t v = true -> ht' t v = true) ->
  (fst e =? fd_id fd) && slot_ok ht fd (snd e) = true -> (fst e =? fd_id fd) && slot_ok ht' fd (snd e) = true.
Proof. intros H He. apply andb_true_iff in He as [H1 H2]. rewrite H1. exact (slot_ok_mono ht ht' fd _ H H2). Qed.

Lemma entry_mono (ht ht' : ty -> cval -> bool) kt vt (kv : cval * cval) :
  (forall t v, ht t v = true -> ht' t v = true) ->
  ht kt (fst kv) && ht vt (snd kv) = true -> ht' kt (fst kv) && ht' vt (snd kv) = true.
Proof. intros H Hkv. apply andb_true_iff in Hkv as [H1 H2]. rewrite (H _ _ H1). exact (H _ _ H2). Qed.

Lemma has_type_S k : forall p tf t v, has_type k p tf t v = true -> has_type (S k) p tf t v = true.
Proof.
  induction k as [|k IH]; intros p tf t v H; [discriminate|].
  remember (S k) as k1 eqn:Ek. cbn [has_type]. rewrite Ek in H. cbn [has_type] in H.
  destruct (ty_category t); try exact H; destruct v; try discriminate.
  1: { (* map *)
    destruct kvs as [|kv kvs]; [reflexivity|].
    destruct (ty_key t) as [kt|]; [|discriminate]. destruct (ty_value t) as [vt|]; [|discriminate].
    revert H. apply forallb_impl. intros x _. apply (entry_mono (has_type k p tf) (has_type k1 p tf)). apply IH. }
  (* list, set *)
  1-2: destruct l as [|x l]; [reflexivity|]; destruct (ty_value t) as [et|]; [|discriminate];
       revert H; apply forallb_impl; intros y _; apply IH.
  (* struct, union, exception *)
  all: destruct (get_struct_like p tf t) as [[g s]|]; [|discriminate];
       revert H; apply forall2b_impl; intros fd e; apply field_slot_mono; apply IH.
Qed.

Lemma has_type_le k m p tf t v : (k <= m)%nat -> has_type k p tf t v = true -> has_type m p tf t v = true.
Proof. induction 1 as [|m _ IH]; intros H; [exact H | apply has_type_S, IH, H]. Qed.

(* a typed value is a proper Go value: never nil, never a pointer to a base value *)
Definition proper (v : cval) : bool := match v with VNil | VSome _ => false | _ => true end.
Lemma has_type_proper k p tf t v : has_type k p tf t v = true -> proper v = true.
Proof.
  destruct k as [|k]; [discriminate|]. cbn [has_type]. destruct (ty_category t), v; try discriminate; reflexivity.
Qed.

Lemma slot_ok_proper ht fd v :
  proper v = true -> slot_ok ht fd v = negb (need_redirect fd && is_base_or_enum (fd_cat fd)) && ht (fd_type fd) v.
Proof. destruct v; cbn; try discriminate; reflexivity. Qed.

(* the values typed without looking inside them: scalars and empty containers *)
Definition flat_typed (c : category) (v : cval) : bool :=
  match c, v with
  | CatBool, VBool _ | CatDouble, VDbl _ | CatString, VStr _ | CatBinary, VBin _ | CatEnum, VInt _ => true
  | (CatByte | CatI16 | CatI32 | CatI64), VInt z => in_int_range c z
  | (CatList | CatSet), VList [] | CatMap, VMap [] => true
  | _, _ => false
  end.

Lemma has_type_flat p tf t v : flat_typed (ty_category t) v = true -> exists m, has_type m p tf t v = true.
Proof.
  intros H. exists 1%nat. cbn [has_type].
  destruct (ty_category t), v as [| | | | |[|]|[|]| | |]; try discriminate H; exact H.
Qed.

Lemma has_type_struct k p tf t fs g s :
  is_struct_like_category (ty_category t) = true -> get_struct_like p tf t = Ok (g, s) ->
  has_type (S k) p tf t (VStruct fs) =
  forall2b (fun fd e => (fst e =? fd_id fd) && slot_ok (has_type k p g) fd (snd e)) (sl_fields s) fs.
Proof. intros Hc Hg. cbn [has_type]. rewrite Hg. destruct (ty_category t); try discriminate; reflexivity. Qed.

(* finitely many facts, each true from some fuel on, are all true at one fuel *)
Lemma common_fuel {A B} (ht : nat -> A -> B -> bool) la lb :
  (forall k a b, ht k a b = true -> ht (S k) a b = true) ->
  Forall2 (fun a b => exists m, ht m a b = true) la lb -> exists m, forall2b (ht m) la lb = true.
Proof.
  intros Hmono H.
  assert (Hle : forall k j a b, (k <= j)%nat -> ht k a b = true -> ht j a b = true).
  { intros k j a b Hkj. induction Hkj; [auto | intros; apply Hmono; auto]. }
  induction H as [|a b la lb [m Hm] _ [m' IH]]; [exists O; reflexivity|].
  exists (Nat.max m m'). cbn [forall2b]. rewrite (Hle m _ a b (Nat.le_max_l _ _) Hm).
  revert IH. apply forall2b_impl. intros a0 b0. apply Hle, Nat.le_max_r.
Qed.

Lemma forall2b_forallb {A B} (g : B -> bool) (la : list A) lb :
  forall2b (fun _ b => g b) la lb = true -> forallb g lb = true.
Proof.
  revert lb. induction la as [|a la IH]; intros [|b lb] H; cbn in *; try discriminate; [reflexivity|].
  apply andb_true_iff in H as [H1 H2]. rewrite H1. exact (IH _ H2).
Qed.

Lemma mapM_common_fuel {A B} (f : A -> result B) (ht : nat -> B -> bool) l vs :
  mapM f l = Ok vs ->
  (forall k v, ht k v = true -> ht (S k) v = true) ->
  (forall x v, f x = Ok v -> exists m, ht m v = true) ->
  exists m, forallb (ht m) vs = true.
Proof.
  intros H Hmono Hf. apply mapM_ok in H.
  destruct (common_fuel (fun m (_ : A) v => ht m v) l vs) as [m Hm].
  - intros k _. apply Hmono.
  - revert H. apply Forall2_impl. exact Hf.
  - exists m. exact (forall2b_forallb _ _ _ Hm).
Qed.

Lemma zero_slot_ok ht fd :
  (forall t, ht t (zero_plain (ty_category t)) = true \/ zero_plain (ty_category t) = VNil) ->
  slot_ok ht fd (zero_slot fd) = true.
Proof.
  intros H. unfold zero_slot. destruct (need_redirect fd) eqn:Hn; [cbn; rewrite Hn; reflexivity|].
  destruct (H (fd_type fd)) as [Hz|Hz].
  - unfold fd_cat. destruct (zero_plain (ty_category (fd_type fd))) eqn:E; cbn; rewrite ?Hn; cbn; try exact Hz.
    + (* VNil *) unfold fd_cat. destruct (ty_category (fd_type fd)); cbn in E; try discriminate; reflexivity.
    + destruct (ty_category (fd_type fd)); cbn in E; discriminate.
  - unfold fd_cat. rewrite Hz. cbn. rewrite Hn. cbn.
    unfold fd_cat. destruct (ty_category (fd_type fd)); cbn in Hz; try discriminate; reflexivity.
Qed.

Lemma has_type_zero_plain k p tf t :
  has_type (S k) p tf t (zero_plain (ty_category t)) = true \/ zero_plain (ty_category t) = VNil.
Proof. cbn [has_type]. destruct (ty_category t); cbn; auto. Qed.

Lemma collapse_empty_forallb (f : cval * cval -> bool) kvs :
  forallb f kvs = true -> forallb f (collapse_empty kvs) = true.
Proof.
  induction kvs as [|kv r IH]; intros H; [reflexivity|]. cbn in H. apply andb_true_iff in H as [H1 H2].
  cbn [collapse_empty]. destruct (is_empty_struct (fst kv) && existsb _ r); [auto|]. cbn. rewrite H1. auto.
Qed.

Lemma expect_typed k p tf t v w :
  value_category (ty_category t) = true -> expect k p tf t v = Ok w -> exists m, has_type m p tf t w = true.
Proof.
  intros Hv. unfold expect.
  destruct (ty_category t) eqn:E; cbn in Hv; try discriminate;
    try (destruct (has_type k p tf t v) eqn:Hh; [intros [= <-]; exists k; exact Hh | discriminate]);
    destruct v; try discriminate.
  all: try (intros [= <-]; apply has_type_flat; rewrite E; reflexivity).
  all: destruct (in_int_range _ z) eqn:Hr; try discriminate; intros [= <-]; apply has_type_flat; rewrite E; exact Hr.
Qed.

(* a container position given a value of another kind, as the generator tolerates it *)
Lemma tolerant_typed q p tf t cat e v :
  ty_category t = cat -> is_container_category cat = true ->
  (if q_fault_tolerant q then Ok (empty_container cat) else Error e) = Ok v ->
  exists m, has_type m p tf t v = true.
Proof.
  intros <- Hc H. destruct (q_fault_tolerant q); [|discriminate]. injection H as <-.
  apply has_type_flat. destruct (ty_category t); try discriminate Hc; reflexivity.
Qed.

Lemma mention_slot_ok ht fd c v sl :
  mention_slot fd c v = Ok sl -> proper v = true -> ht (fd_type fd) v = true -> slot_ok ht fd sl = true.
Proof.
  unfold mention_slot. intros H Hp Hv. destruct (need_redirect fd) eqn:Hn.
  - destruct (is_base_category (fd_cat fd)) eqn:Hb.
    + injection H as <-. cbn [slot_ok]. rewrite Hn.
      replace (is_base_or_enum (fd_cat fd)) with true by (unfold is_base_or_enum; rewrite Hb; reflexivity).
      destruct v; cbn in Hp; try discriminate; cbn; exact Hv.
    + destruct (is_struct_like_category (fd_cat fd)) eqn:Hs; [|discriminate].
      destruct c; try discriminate. injection H as <-. rewrite slot_ok_proper by assumption. rewrite Hv.
      replace (is_base_or_enum (fd_cat fd)) with false; [rewrite andb_false_r; reflexivity|].
      destruct (fd_cat fd); cbn in Hs; try discriminate; reflexivity.
  - injection H as <-. rewrite slot_ok_proper by assumption. rewrite Hn, Hv. reflexivity.
Qed.

(* integer, double and string literals are typed without looking inside them *)
Lemma scalar_literal_flat q k p vf tf t c v :
  match c with CInt _ | CDouble _ | CLiteral _ => True | _ => False end ->
  eval q (S k) p vf tf t c = Ok v -> flat_typed (ty_category t) v = true.
Proof.
  intros Hc. cbn [eval]. destruct (value_category (ty_category t)); [|discriminate]. cbn [negb].
  destruct c as [b|z|s| | |]; try contradiction; destruct (ty_category t); intros H; try discriminate H;
    try (destruct (q_fault_tolerant q); [|discriminate H]); try (injection H as <-; reflexivity).
  - unfold go_double in H. destruct (negb (dbl_finite (Z.of_N b))); [discriminate|].
    destruct (q_negzero_lost q && dbl_is_zero (Z.of_N b)); injection H as <-; reflexivity.
  - destruct (in_int_range _ z) eqn:Hr; [|discriminate H]. injection H as <-. exact Hr.
  - destruct (in_int_range _ z) eqn:Hr; [|discriminate H]. injection H as <-. exact Hr.
  - destruct (in_int_range _ z) eqn:Hr; [|discriminate H]. injection H as <-. exact Hr.
  - destruct (in_int_range _ z) eqn:Hr; [|discriminate H]. injection H as <-. exact Hr.
  - apply bind_ok in H as (b & _ & H). injection H as <-. reflexivity.
  - apply bind_ok in H as (b & _ & H). injection H as <-. reflexivity.
Qed.

Lemma ident_typed q k p vf tf t s extra v :
  eval q (S k) p vf tf t (CIdent s extra) = Ok v -> exists m, has_type m p tf t v = true.
Proof.
  cbn [eval]. destruct (value_category (ty_category t)) eqn:Hvc; [|discriminate]. cbn [negb].
  destruct (bool_word (ty_category t) s) as [r|] eqn:Hb.
  - intros ->. unfold bool_word in Hb. destruct (is_true s || is_false s); [|discriminate].
    apply has_type_flat. destruct (ty_category t); try discriminate; injection Hb as <-; try reflexivity;
      destruct (is_true s); reflexivity.
  - destruct extra as [ex|]; [|discriminate]. destruct (denotes p vf ex) as [d|e] eqn:Hd; intros H.
    + apply bind_ok in H as (w & _ & H). eapply expect_typed; eassumption.
    + destruct e; try discriminate. destruct (is_container_category (ty_category t)) eqn:Hc; [|discriminate].
      exact (tolerant_typed q p tf t _ _ v eq_refl Hc H).
Qed.

(* nested literals, given that the nested evaluations produce typed values *)
Lemma list_literal_typed q k p vf tf t l v :
  (forall et c w, eval q k p vf tf et c = Ok w -> exists m, has_type m p tf et w = true) ->
  (ty_category t = CatList \/ ty_category t = CatSet) ->
  eval q (S k) p vf tf t (CList l) = Ok v -> exists m, has_type m p tf t v = true.
Proof.
  intros IH Hcat H. destruct l as [|c0 l0].
  - rewrite eval_list_empty in H by exact Hcat. injection H as <-.
    apply has_type_flat. destruct Hcat as [-> | ->]; reflexivity.
  - destruct (ty_value t) as [et|] eqn:Hev; [|rewrite typedef_container_is_error in H by assumption; discriminate].
    rewrite (eval_list_pointwise q k p vf tf t et _ Hcat Hev) in H by discriminate.
    apply bind_ok in H as (vs & Hm & H). injection H as <-.
    destruct (mapM_common_fuel _ (fun m => has_type m p tf et) _ _ Hm (fun m => has_type_S m p tf et) (IH et)) as [m Hall].
    exists (S m). cbn [has_type]. rewrite Hev.
    destruct vs as [|v0 vs]; destruct Hcat as [-> | ->]; try reflexivity; exact Hall.
Qed.

Lemma struct_literal_typed q k p vf tf t l v :
  (forall g t c v, eval q k p vf g t c = Ok v -> exists m, has_type m p g t v = true) ->
  is_struct_like_category (ty_category t) = true ->
  eval q (S k) p vf tf t (CMap l) = Ok v -> exists m, has_type m p tf t v = true.
Proof.
  intros IH Hc H. rewrite eval_struct_literal in H by exact Hc.
  apply bind_ok in H as ([g s] & Hg & H). cbn [fst snd] in H.
  apply bind_ok in H as (fs & Hs & H). injection H as <-.
  unfold struct_slots in Hs. destruct (negb (keys_ok s l)); [discriminate|]. apply mapM_ok in Hs.
  destruct (common_fuel (fun m fd e => (fst e =? fd_id fd) && slot_ok (has_type m p g) fd (snd e)) (sl_fields s) fs) as [m Hm].
  - intros m fd e. apply field_slot_mono. intros t0 v0. apply has_type_S.
  - revert Hs. apply Forall2_impl. intros fd e He. destruct (filter (key_names fd) l) as [|kv [|? ?]]; try discriminate.
    + injection He as <-. cbn [fst snd]. rewrite Z.eqb_refl. cbn [andb]. destruct (q_unmentioned_any q).
      * exists O. reflexivity.
      * exists 1%nat. apply zero_slot_ok. intros t0. apply has_type_zero_plain.
    + apply bind_ok in He as (v & Hv & He). apply bind_ok in He as (sl & Hsl & He). injection He as <-. cbn [fst snd].
      rewrite Z.eqb_refl. cbn [andb]. destruct (IH _ _ _ _ Hv) as [m Hm]. exists m.
      eapply mention_slot_ok; [exact Hsl | eapply has_type_proper; exact Hm | exact Hm].
  - exists (S m). rewrite (has_type_struct m p tf t fs g s Hc Hg). exact Hm.
Qed.

(* every value the evaluator produces is a Go value of the declared type *)
Lemma eval_typed q n : forall p vf tf t c v,
  eval q n p vf tf t c = Ok v -> exists m, has_type m p tf t v = true.
Proof.
  induction n as [|k IH]; intros p vf tf t c v H0; [discriminate|].
  destruct c as [b|z|s|s extra|l|l].
  1-3: apply has_type_flat; revert H0; apply scalar_literal_flat; exact I.
  1: exact (ident_typed q k p vf tf t s extra v H0).
  all: assert (H := H0); cbn [eval] in H; destruct (value_category (ty_category t)); [|discriminate]; cbn [negb] in H;
    destruct (ty_category t) eqn:E; try discriminate H; try exact (tolerant_typed q p tf t _ _ v E eq_refl H).
  (* struct, union, exception *)
  4-6: apply (struct_literal_typed q k p vf tf t l v (IH p vf)); [rewrite E; reflexivity | exact H0].
  - exact (list_literal_typed q k p vf tf t l v (IH p vf tf) (or_introl E) H0).
  - exact (list_literal_typed q k p vf tf t l v (IH p vf tf) (or_intror E) H0).
  - (* a map *)
    destruct l as [|kv0 l0]; [injection H as <-; apply has_type_flat; rewrite E; reflexivity|].
    destruct (ty_key t) as [kt|] eqn:Hk; [|discriminate]. destruct (ty_value t) as [vt|] eqn:Hv; [|discriminate].
    apply bind_ok in H as (kvs & Hm & H). injection H as <-.
    destruct (mapM_common_fuel _ (fun m ab => has_type m p tf (bin2str kt) (fst ab) && has_type m p tf vt (snd ab)) _ _ Hm)
      as [m Hc].
    + intros m ab. apply (entry_mono (has_type m p tf) (has_type (S m) p tf)). intros t0 v0. apply has_type_S.
    + intros kv ab Hab. apply bind_ok in Hab as (a & Ha & Hab). apply bind_ok in Hab as (b & Hb & Hab).
      injection Hab as <-. cbn [fst snd]. destruct (IH _ _ _ _ _ _ Ha) as [m1 H1]. destruct (IH _ _ _ _ _ _ Hb) as [m2 H2].
      exists (Nat.max m1 m2). rewrite (has_type_le m1 _ _ _ _ _ (Nat.le_max_l _ _) H1).
      exact (has_type_le m2 _ _ _ _ _ (Nat.le_max_r _ _) H2).
    + exists (S m). cbn [has_type]. rewrite E.
      apply collapse_empty_forallb in Hc. destruct (collapse_empty kvs) as [|x r]; [reflexivity|]. rewrite Hk, Hv. exact Hc.
Qed.

Definition base_scalar (c : category) : bool := is_base_or_enum c && negb (is_binary c).

(* an optional scalar field with a declared default d that holds a value Go's "!=" tells
   apart from d reports itself as set *)
Lemma isset_when_differs fd d v :
  base_scalar (fd_cat fd) = true -> go_neq v d = true -> is_set fd (Some d) v = true.
Proof.
  unfold base_scalar. intros Hb Hn. apply andb_true_iff in Hb as [Hb Hnb]. apply negb_true_iff in Hnb.
  unfold is_set. rewrite Hb, Hnb. exact Hn.
Qed.

Lemma isset_when_differs_binary fd d v :
  is_binary (fd_cat fd) = true -> bin_bytes v <> bin_bytes d -> is_set fd (Some d) v = true.
Proof.
  intros Hb Hn. unfold is_set.
  replace (is_base_or_enum (fd_cat fd)) with true by (destruct (fd_cat fd); cbn in Hb; try discriminate; reflexivity).
  rewrite Hb. apply negb_true_iff. apply beqb_false. exact Hn.
Qed.

(* containers, struct-likes, and every optional field without a default: set = not nil *)
Lemma isset_pointer fd dv v :
  (dv = None \/ is_base_or_enum (fd_cat fd) = false) -> is_set fd dv v = negb (is_nil v).
Proof. intros [-> | H]; unfold is_set; [reflexivity|]. destruct dv; [rewrite H|]; reflexivity. Qed.

Lemma go_neq_int a b : go_neq (VInt a) (VInt b) = true <-> a <> b.
Proof. cbn. rewrite negb_true_iff. apply Z.eqb_neq. Qed.
Lemma go_neq_bool a b : go_neq (VBool a) (VBool b) = true <-> a <> b.
Proof. cbn. rewrite negb_true_iff. destruct a, b; cbn; split; congruence. Qed.
Lemma go_neq_str a b : go_neq (VStr a) (VStr b) = true <-> a <> b.
Proof. cbn. rewrite negb_true_iff. apply beqb_false. Qed.

Lemma get_set_slot fs id v :
  In id (map fst fs) -> get_slot (set_slot (VStruct fs) id v) id = Some v.
Proof.
  cbn [set_slot get_slot]. induction fs as [|[i w] fs IH]; intros Hin; [contradiction|]. cbn [set_slot_in fst].
  destruct (i =? id) eqn:E.
  - cbn [find fst]. rewrite Z.eqb_refl. reflexivity.
  - cbn [find fst]. rewrite E. apply IH. destruct Hin as [Heq|Hin]; [cbn in Heq; apply Z.eqb_neq in E; congruence | exact Hin].
Qed.

(* the property's sentence, on an object: store a value that differs from the declared
   default into an optional scalar field; the field then reports itself as set and its getter
   returns the stored value *)
Lemma isset_after_set fs fd d v slot :
  is_optional fd = true -> base_scalar (fd_cat fd) = true -> fd_default fd <> None ->
  In (fd_id fd) (map fst fs) -> go_neq v d = true ->
  get_slot (set_slot (VStruct fs) (fd_id fd) v) (fd_id fd) = Some slot ->
  is_set fd (Some d) slot = true /\ getter fd (Some d) slot = v.
Proof.
  intros Ho Hb Hd Hin Hn Hg. rewrite get_set_slot in Hg by assumption. injection Hg as <-.
  assert (Hs := isset_when_differs fd d v Hb Hn). split; [exact Hs|].
  unfold getter, support_isset. rewrite Ho, orb_true_r, Hs.
  replace (need_redirect fd) with false; [reflexivity|].
  unfold need_redirect. unfold base_scalar in Hb. apply andb_true_iff in Hb as [Hb _].
  replace (is_struct_like_category (fd_cat fd)) with false by (destruct (fd_cat fd); cbn in Hb; try discriminate; reflexivity).
  replace (has_default fd) with true by (unfold has_default; destruct (fd_default fd); congruence).
  rewrite Ho. reflexivity.
Qed.

(* the getter of an optional field of a freshly constructed struct returns the declared default *)
Lemma getter_new_struct_default q n p f s x fd c :
  new_struct q n p f s = Ok x -> NoDup (map fd_id (sl_fields s)) -> In fd (sl_fields s) ->
  is_optional fd = true -> fd_default fd = Some c ->
  exists v, eval_top q n p f (fd_type fd) c = Ok v /\ get_slot x (fd_id fd) = Some v /\
            (base_scalar (fd_cat fd) = true -> self_equal v = true -> getter fd (Some v) v = v).
Proof.
  intros Hn Hnd Hin Ho Hc. destruct (new_struct_defaults q n p f s x fd Hn Hnd Hin) as [H1 _].
  destruct (H1 c Hc) as (v & Hv & Hg). exists v. split; [exact Hv|]. split; [exact Hg|].
  intros Hb Hs. unfold base_scalar in Hb. apply andb_true_iff in Hb as [Hb _].
  rewrite getter_unset_is_default; [reflexivity | unfold support_isset; rewrite Ho; apply orb_true_r |].
  apply is_set_default_itself; assumption.
Qed.

(* which kinds of initializer a scalar or struct-like position takes *)
Definition kind_ok (cat : category) (c : const_value) : bool :=
  match c with
  | CInt _ => match cat with CatBool | CatByte | CatI16 | CatI32 | CatI64 | CatDouble | CatEnum => true | _ => false end
  | CDouble _ => match cat with CatBool | CatDouble => true | _ => false end
  | CLiteral _ => match cat with CatString | CatBinary => true | _ => false end
  | CIdent s _ => negb ((is_true s || is_false s) && match cat with CatString | CatBinary => true | _ => false end)
  | CList _ => false
  | CMap _ => is_struct_like_category cat
  end.

Definition scalar_or_struct (c : category) : bool :=
  is_base_category c || is_struct_like_category c || match c with CatEnum => true | _ => false end.

Lemma kind_mismatch_is_error q n p vf tf t c :
  scalar_or_struct (ty_category t) = true -> kind_ok (ty_category t) c = false ->
  eval q (S n) p vf tf t c = Error EKind.
Proof.
  intros Hs Hk. cbn [eval].
  destruct (ty_category t) eqn:E; cbn in Hs; try discriminate; destruct c; cbn in Hk; try discriminate; try reflexivity.
  all: try (rewrite andb_false_r in Hk; discriminate).
  all: unfold bool_word; cbn [negb value_category is_base_category is_container_category is_struct_like_category category_code orb andb N.leb];
    apply negb_false_iff in Hk; try rewrite andb_true_r in Hk; rewrite Hk; reflexivity.
Qed.

(* a struct literal must name fields, each at most once, with literal keys *)
Lemma struct_literal_bad_key q n p vf tf t l g s :
  is_struct_like_category (ty_category t) = true -> get_struct_like p tf t = Ok (g, s) ->
  keys_ok s l = false -> eval q (S n) p vf tf t (CMap l) = Error EField.
Proof.
  intros Hc Hg Hk. rewrite eval_struct_literal by assumption. rewrite Hg. cbn [bind fst snd].
  unfold struct_slots. rewrite Hk. reflexivity.
Qed.

(* a field that the Go struct stores by pointer cannot be given by an identifier (struct-like)
   or at all (optional enum without default): the emitted address-of does not compile *)
Lemma mention_slot_addr fd c v :
  need_redirect fd = true -> is_base_category (fd_cat fd) = false ->
  match c with CMap _ => is_struct_like_category (fd_cat fd) = false | _ => True end ->
  mention_slot fd c v = Error EAddr.
Proof.
  intros Hn Hb Hc. unfold mention_slot. rewrite Hn, Hb. destruct (is_struct_like_category (fd_cat fd)); [|reflexivity].
  destruct c; try reflexivity. discriminate.
Qed.

(* an enum member written through a typedef of the enum is refused (the semantic pass accepts
   it): the selector is not an enum of the scope *)
Lemma enum_via_typedef_is_error q n p vf tf t s ex g :
  ty_category t = CatEnum -> ex_is_enum ex = true -> hop p vf (ex_index ex) = Ok g ->
  find_enum g (ex_sel ex) = None ->
  eval q (S n) p vf tf t (CIdent s (Some ex)) = Error EUndefined.
Proof.
  intros Hc He Hh Hf. cbn [eval]. rewrite Hc.
  cbn [negb value_category is_base_category is_container_category is_struct_like_category category_code orb andb N.leb].
  replace (bool_word CatEnum s) with (@None (result cval)) by (unfold bool_word; destruct (is_true s || is_false s); reflexivity).
  unfold denotes. rewrite Hh. cbn [bind]. rewrite He, Hf. reflexivity.
Qed.

(* the generator's reading and the IDL's reading of a double differ exactly on -0.0 *)
Definition neg_zero : N := 9223372036854775808.
Definition double_ty : ty := Ty (B "double") None None [] [] CatDouble None None.

Lemma eval_negative_zero_refuted :
  exists f c, eval_top go_rules 1 [] f double_ty c = Ok (VDbl 0) /\
              eval_top idl_rules 1 [] f double_ty c = Ok (VDbl two63) /\ two63 <> 0.
Proof. exists (empty_file []), (CDouble neg_zero). split; [vm_compute; reflexivity|]. split; [vm_compute; reflexivity | discriminate]. Qed.

(* everywhere else the two readings of a scalar initializer coincide *)
Lemma go_double_agree b : dbl_is_zero b = false -> go_double go_rules b = go_double idl_rules b.
Proof. intros H. unfold go_double, go_rules, idl_rules. cbn [q_negzero_lost andb]. rewrite H. destruct (negb (dbl_finite b)); reflexivity. Qed.

(* fields a struct literal does not mention are Go zero, NOT the field's declared default *)
Definition lit_field (d : option const_value) : field := Field 1 (B "a") ReqDefault (Ty (B "i32") None None [] [] CatI32 None None) d [] [].
Definition lit_file : file :=
  File (B "m.thrift") [] [] [] [] [] [] [StructLike SKStruct (B "S") [lit_field (Some (CInt 7))] [] []] [] [] []
       (Some [(B "S", CatStruct)]).
Definition lit_ty : ty := Ty (B "S") None None [] [] CatStruct None None.

Lemma struct_literal_unmentioned_is_zero_not_default :
  eval_top go_rules 3 [(B "m.thrift", lit_file)] lit_file lit_ty (CMap []) = Ok (VStruct [(1, VInt 0)]) /\
  new_struct go_rules 3 [(B "m.thrift", lit_file)] lit_file (StructLike SKStruct (B "S") [lit_field (Some (CInt 7))] [] [])
  = Ok (VStruct [(1, VInt 7)]).
Proof. split; vm_compute; reflexivity. Qed.
