(* Idl/ResolveConst.v — identifiers used as values: getEnum and the candidate lists of
   ResolveConstValue against [enum_denotes] / [const_denotes]. *)
From Coq Require Import List Lia ZArith.
From Verif Require Import Base.Bytes Idl.Ast Idl.AstUtil Idl.AstFacts Idl.Resolve Idl.ResolveSpec Idl.ResolveTd
     Idl.ResolveLemmas Idl.ResolveInv.
Import ListNotations.
Local Open Scope resolve_scope.

Lemma plain_def p fn n k : plain_names p = true -> def_of p fn n = Some k -> plain_name n = true.
Proof.
  unfold plain_names, def_of, prog_file. intros Hp H. destruct (lookup fn p) as [f|] eqn:L; [|discriminate].
  apply lookup_In in L. apply lookup_In in H. rewrite forallb_forall in Hp. specialize (Hp _ L). cbn [snd] in Hp.
  rewrite forallb_forall in Hp. exact (Hp _ H).
Qed.

Lemma plain_lookup_none p gn g tgt :
  plain_names p = true -> prog_file p gn = Some g -> plain_name tgt = false -> lookup tgt (file_defs g) = None.
Proof.
  intros Hplain Hg Hp. destruct (lookup tgt (file_defs g)) as [k|] eqn:L; [|reflexivity]. exfalso.
  assert (plain_name tgt = true) by (eapply plain_def; [exact Hplain | rewrite (def_of_file p gn g tgt Hg); exact L]). congruence.
Qed.

Lemma enum_denotes_fun p fn n efn vs i :
  enum_denotes p fn n efn vs i -> forall efn' vs' i', enum_denotes p fn n efn' vs' i' ->
  efn' = efn /\ vs' = vs /\ i' = i.
Proof.
  induction 1 as [fn n vs H | fn n tgt a efn vs i H Hb Hs _ IH | fn f n tgt pre m i gn efn vs j H Hb Hs Hf Hi _ IH];
    intros efn' vs' i' H'; inversion H'; subst; try congruence.
  - assert (vs' = vs) by congruence. auto.
  - match goal with H2 : def_of p fn n = Some (DkTypedef ?t) |- _ => assert (t = tgt) by congruence; subst end.
    match goal with H2 : split_type tgt = [?x] |- _ => assert (x = a) by congruence; subst end. auto.
  - match goal with H2 : def_of p fn n = Some (DkTypedef ?t) |- _ => assert (t = tgt) by congruence; subst end.
    match goal with H2 : split_type tgt = [?x; ?y] |- _ => assert (x = pre /\ y = m) as (-> & ->) by (split; congruence) end.
    match goal with H2 : prog_file p fn = Some ?x |- _ => assert (x = f) by congruence; subst end.
    match goal with H2 : spec_include _ _ _ _ _ _ = Some (?a, ?x) |- _ => assert (x = gn /\ a = i) as (-> & ->) by (split; congruence) end.
    match goal with H2 : enum_denotes p gn m _ _ _ |- _ => destruct (IH _ _ _ H2) as (-> & -> & _) end. auto.
Qed.

Lemma enum_denotes_def p gn name efn vs idx :
  enum_denotes p gn name efn vs idx ->
  (exists vs', def_of p gn name = Some (DkEnum vs')) \/ (exists tgt, def_of p gn name = Some (DkTypedef tgt)).
Proof. destruct 1; eauto. Qed.

Lemma enum_denotes_none p gn name :
  (forall vs, def_of p gn name <> Some (DkEnum vs)) -> (forall tgt, def_of p gn name <> Some (DkTypedef tgt)) ->
  forall efn vs idx, ~ enum_denotes p gn name efn vs idx.
Proof. intros N1 N2 efn vs idx Hd. destruct (enum_denotes_def _ _ _ _ _ _ Hd) as [(? & E)|(? & E)]; [exact (N1 _ E) | exact (N2 _ E)]. Qed.

Lemma enum_denotes_typedef_inv p gn name tgt efn vs idx :
  def_of p gn name = Some (DkTypedef tgt) -> enum_denotes p gn name efn vs idx ->
  builtin_category tgt = None /\
  ((exists a, split_type tgt = [a] /\ enum_denotes p gn a efn vs idx) \/
   (exists f pre m i hn j, split_type tgt = [pre; m] /\ prog_file p gn = Some f /\
      spec_include p is_type_kind pre m (file_incs f) 0 = Some (i, hn) /\ enum_denotes p hn m efn vs j)).
Proof.
  intros Hd H. destruct H as [fn n vs H | fn n tgt' a efn vs i H Hb Hs H1 | fn f n tgt' pre m i gn efn vs j H Hb Hs Hf Hi H1].
  - congruence.
  - assert (tgt' = tgt) by congruence. subst. split; [exact Hb|]. left. eauto.
  - assert (tgt' = tgt) by congruence. subst. split; [exact Hb|]. right. exists f, pre, m, i, gn, j. auto.
Qed.

Lemma file_defs_enum g en :
  NoDup (map fst (file_defs g)) -> In en (f_enums g) ->
  lookup (en_name en) (file_defs g) = Some (DkEnum (map ev_name (en_values en))).
Proof.
  intros ND Hin. apply lookup_NoDup_In; [exact ND|]. unfold file_defs.
  apply in_or_app. right. apply in_or_app. right. apply in_or_app. left.
  apply (in_map (fun e => (en_name e, DkEnum (map ev_name (en_values e))))). exact Hin.
Qed.

Lemma file_defs_enum_inv g n vs :
  NoDup (map fst (file_defs g)) -> lookup n (file_defs g) = Some (DkEnum vs) ->
  exists en, find_enum g n = Some en /\ map ev_name (en_values en) = vs.
Proof.
  intros ND Hl. pose proof (lookup_In _ _ _ Hl) as Hin. unfold file_defs in Hin.
  assert (Hen : exists en, In en (f_enums g) /\ en_name en = n).
  { apply in_app_or in Hin. destruct Hin as [Hin|Hin]; [apply in_map_iff in Hin; destruct Hin as (? & [= _ ?] & _); discriminate|].
    apply in_app_or in Hin. destruct Hin as [Hin|Hin]; [apply in_map_iff in Hin; destruct Hin as (? & [= _ ?] & _); discriminate|].
    apply in_app_or in Hin. destruct Hin as [Hin|Hin].
    - apply in_map_iff in Hin. destruct Hin as (en & [= Hn _] & Hin). eauto.
    - apply in_app_or in Hin. destruct Hin as [Hin|Hin]; apply in_map_iff in Hin; destruct Hin as (? & [= _ ?] & _); discriminate. }
  destruct Hen as (en0 & Hin0 & Hn0).
  unfold find_enum. destruct (find_by en_name n (f_enums g)) as [en|] eqn:F.
  - destruct (find_by_In _ _ _ _ F) as (Hi & Hn). exists en. split; [reflexivity|].
    pose proof (file_defs_enum g en ND Hi) as Hl'. rewrite Hn in Hl'. congruence.
  - exfalso. apply find_by_none in F. apply F. rewrite <- Hn0. apply in_map. exact Hin0.
Qed.

Section GetEnum.
  Variables (p done : program).
  Hypothesis Hinv : inv p done.
  Hypothesis Hplain : plain_names p = true.

  (* what getEnum reads of a file [g'] (a resolved file of [done], or the file being
     resolved once its typedef types went through ResolveType) *)
  Record ectx (gn : bytes) (g g' : file) : Prop := {
    ec_file : prog_file p gn = Some g;
    ec_nodup : NoDup (map fst (file_defs g));
    ec_n2c : forall n, lookup n (n2c_of g') = option_map dkind_cat (lookup n (file_defs g));
    ec_enums : f_enums g' = f_enums g;
    ec_td : forall n tgt, lookup n (file_defs g) = Some (DkTypedef tgt) ->
      exists td', find_typedef g' n = Some td' /\ ty_name (td_type td') = tgt /\
        match builtin_category tgt with
        | Some _ => ty_ref (td_type td') = None
        | None =>
          match split_type tgt with
          | [_] => ty_ref (td_type td') = None
          | [pre; m] => exists i hn h',
              spec_include p is_type_kind pre m (file_incs g) 0 = Some (i, hn) /\
              ty_ref (td_type td') = Some (Ref m (Z.of_nat i)) /\
              reference_target done g' (Ref m (Z.of_nat i)) = Some h' /\ lookup hn done = Some h'
          | _ => False
          end
        end }.

  Lemma good_ectx gn g g' : prog_file p gn = Some g -> good p done gn g g' -> ectx gn g g'.
  Proof.
    intros Hg Gd. constructor.
    - exact Hg.
    - exact (gd_nodup _ _ _ _ _ Gd).
    - exact (gd_n2c _ _ _ _ _ Gd).
    - exact (gd_enums _ _ _ _ _ Gd).
    - intros n tgt Hl. destruct (good_find_typedef p done gn g g' n tgt Gd Hl) as (td' & Ft & Hn & Ho).
      exists td'. split; [exact Ft|]. split; [exact Hn|].
      unfold occ_good in Ho. rewrite Hn in Ho. destruct (builtin_category tgt); [tauto|].
      destruct (split_type tgt) as [|a [|m [|? ?]]] eqn:Sn; try contradiction.
      + destruct Ho as (? & ? & _ & _ & _ & _ & Hr0 & _). exact Hr0.
      + destruct Ho as (i & hn & k & d & Hs & _ & _ & _ & Hr0 & _).
        destruct (spec_include_target p done g g' _ _ _ _ _ Hinv (gd_incs _ _ _ _ _ Gd) (gd_targets _ _ _ _ _ Gd) Hs)
          as (x' & h & h' & Nx' & Hrx' & Lh & _).
        exists i, hn, h'. split; [exact Hs|]. split; [exact Hr0|]. split; [|exact Lh].
        rewrite (reference_target_nth done g' m i x' hn Nx' Hrx'). exact Lh.
  Qed.

  Lemma get_enum_spec : forall fuel gn g g' name res,
    ectx gn g g' -> get_enum fuel done g' name = Ok res ->
    match res with
    | Some (en, idx) => exists efn, enum_denotes p gn name efn (map ev_name (en_values en)) idx
    | None => forall efn vs idx, ~ enum_denotes p gn name efn vs idx
    end.
  Proof.
    induction fuel as [|k IH]; intros gn g g' name res Ec H; cbn [get_enum] in H; [discriminate|].
    pose proof (ec_file _ _ _ Ec) as Hg.
    rewrite (ec_n2c _ _ _ Ec) in H.
    destruct (lookup name (file_defs g)) as [kd|] eqn:Lk; cbn [option_map] in H.
    2:{ injection H as <-. apply enum_denotes_none; intros ?; rewrite (def_of_file p gn g name Hg), Lk; discriminate. }
    destruct kd as [tgt| |vs|s|]; cbn [dkind_cat] in H.
    - (* typedef *)
      destruct (ec_td _ _ _ Ec name tgt Lk) as (td' & Ft & Hn & Href). rewrite Ft in H.
      assert (Hnone : forall efn vs idx, (forall a efn vs i, split_type tgt = [a] -> builtin_category tgt = None -> ~ enum_denotes p gn a efn vs i) ->
                      (forall f pre m i hn efn vs j, split_type tgt = [pre; m] -> builtin_category tgt = None -> prog_file p gn = Some f ->
                          spec_include p is_type_kind pre m (file_incs f) 0 = Some (i, hn) -> ~ enum_denotes p hn m efn vs j) ->
                      ~ enum_denotes p gn name efn vs idx).
      { intros efn vs idx N1 N2 Hd.
        assert (Hdef : def_of p gn name = Some (DkTypedef tgt)) by (rewrite (def_of_file p gn g name Hg); exact Lk).
        destruct (enum_denotes_typedef_inv _ _ _ _ _ _ _ Hdef Hd) as (Hb & [(a & Hs & H1)|(f & pre & m & i & hn & j & Hs & Hf & Hi & H1)]).
        - exact (N1 _ _ _ _ Hs Hb H1).
        - exact (N2 _ _ _ _ _ _ _ _ Hs Hb Hf Hi H1). }
      (* a target that is not a local name: the recursive call answers None, unless the fuel is spent;
         then that call is an Error, which [H] excludes where this is used *)
      assert (Hlocal_none : lookup tgt (file_defs g) = None -> get_enum k done g' tgt = Ok None \/ k = 0).
      { intros Ln. destruct k as [|k']; [auto|]. left. cbn [get_enum]. rewrite (ec_n2c _ _ _ Ec), Ln. reflexivity. }
      destruct (builtin_category tgt) as [cb|] eqn:Bt.
      + rewrite Href in H. cbn [bind] in H. rewrite Hn in H.
        assert (Ln : lookup tgt (file_defs g) = None)
          by (apply (plain_lookup_none p gn g tgt Hplain Hg); unfold plain_name; rewrite Bt; reflexivity).
        destruct (Hlocal_none Ln) as [E | ->]; [|discriminate]. rewrite E in H. injection H as <-.
        intros efn vs idx. apply Hnone; intros; congruence.
      + destruct (split_type tgt) as [|a [|m [|? ?]]] eqn:St; try contradiction.
        * rewrite Href in H. cbn [bind] in H. rewrite Hn in H. pose proof (split_type_single _ _ St) as ->.
          specialize (IH gn g g' tgt res Ec H). destruct res as [[en idx]|].
          -- destruct IH as (efn & Hd). exists efn. eapply ed_local; eauto. rewrite (def_of_file p gn g name Hg). exact Lk.
          -- intros efn vs idx. apply Hnone; [|intros; congruence]. intros a0 efn0 vs0 i0 [= <-] _. apply IH.
        * destruct Href as (i & hn & h' & Hs & Hr0 & Htg & Lh). rewrite Hr0, Htg in H. cbn [ref_name ref_index] in H.
          destruct (Hinv hn h' Lh) as (h & Hh & Gh).
          destruct (get_enum k done h' m) as [r1|] eqn:G1; cbn [bind] in H; [|discriminate].
          pose proof (IH hn h h' m r1 (good_ectx hn h h' Hh Gh) G1) as IH1.
          destruct r1 as [[en idx1]|].
          -- injection H as <-. destruct IH1 as (efn & Hd). exists efn.
             eapply ed_qualified; eauto. rewrite (def_of_file p gn g name Hg). exact Lk.
          -- rewrite Hn in H.
             assert (Ln : lookup tgt (file_defs g) = None)
               by (apply (plain_lookup_none p gn g tgt Hplain Hg); unfold plain_name; rewrite Bt, St; reflexivity).
             destruct (Hlocal_none Ln) as [E | ->]; [|discriminate]. rewrite E in H. injection H as <-.
             intros efn vs idx. apply Hnone; [intros; congruence|].
             intros f pre0 m0 i0 hn0 efn0 vs0 j0 [= <- <-] _ Hf Hs0.
             assert (f = g) by congruence. subst f. rewrite Hs in Hs0. injection Hs0 as <- <-. apply IH1.
    - injection H as <-. apply enum_denotes_none; intros ?; rewrite (def_of_file p gn g name Hg), Lk; discriminate.
    - (* enum *)
      destruct (file_defs_enum_inv g name vs (ec_nodup _ _ _ Ec) Lk) as (en & Fe & Hvs).
      unfold find_enum in *. rewrite (ec_enums _ _ _ Ec), Fe in H. injection H as <-.
      exists gn. rewrite Hvs. apply ed_enum. rewrite (def_of_file p gn g name Hg). exact Lk.
    - assert (res = None) as -> by (destruct s; cbn in H; congruence).
      apply enum_denotes_none; intros ?; rewrite (def_of_file p gn g name Hg), Lk; discriminate.
    - injection H as <-. apply enum_denotes_none; intros ?; rewrite (def_of_file p gn g name Hg), Lk; discriminate.
  Qed.
End GetEnum.

Lemma dkind_const k : dkind_cat k = CatConstant <-> k = DkConst.
Proof. split; [destruct k as [t| |vs|s|]; cbn; try discriminate; [reflexivity | destruct s; discriminate] | intros ->; reflexivity]. Qed.

Lemma enum_cands_In en v x e' : In e' (enum_cands en v x) <-> e' = x /\ In v (map ev_name (en_values en)).
Proof.
  unfold enum_cands. rewrite in_map_iff. split.
  - intros (ev & <- & Hin). apply filter_In in Hin. destruct Hin as (Hin & E). apply beqb_true in E.
    split; [reflexivity|]. rewrite <- E. apply in_map. exact Hin.
  - intros (-> & Hin). apply in_map_iff in Hin. destruct Hin as (ev & <- & Hin). exists ev. split; [reflexivity|].
    apply filter_In. split; [exact Hin | apply beqb_refl].
Qed.

Lemma const_cands_In (o : option category) (x e' : const_extra) :
  In e' (match o with Some CatConstant => [x] | _ => [] end) <-> o = Some CatConstant /\ e' = x.
Proof.
  destruct o as [c|]; [destruct c|]; cbn; split; try (intros []; fail); try (intros (? & _); discriminate).
  - intros [<-|[]]. auto.
  - intros (_ & ->). auto.
Qed.

Lemma opt_dkind_const (o : option dkind) : option_map dkind_cat o = Some CatConstant <-> o = Some DkConst.
Proof.
  destruct o as [k|]; cbn; split; try discriminate.
  - intros [= E]. apply dkind_const in E. congruence.
  - intros [= ->]. reflexivity.
Qed.

(* one explanation of an identifier, per SplitValue alternative *)
Definition alt_denotes (p : program) (fn : bytes) (ss : list bytes) (x : const_extra) : Prop :=
  match ss with
  | [a] => def_of p fn a = Some DkConst /\ x = Extra false (-1)%Z a []
  | [e; v] =>
    (exists efn vs i, enum_denotes p fn e efn vs i /\ In v vs /\ x = Extra true i v e) \/
    (exists f i gn, prog_file p fn = Some f /\ nth_error (file_incs f) i = Some (e, Some gn) /\
                    def_of p gn v = Some DkConst /\ x = Extra false (Z.of_nat i) v e)
  | [pre; e; v] =>
    exists f i gn efn vs j, prog_file p fn = Some f /\ nth_error (file_incs f) i = Some (pre, Some gn) /\
                            enum_denotes p gn e efn vs j /\ In v vs /\ x = Extra true (Z.of_nat i) v e
  | _ => False
  end.

Lemma const_denotes_alt p fn s x :
  const_denotes p fn s x <-> exists ss, In ss (split_value s) /\ alt_denotes p fn ss x.
Proof.
  split.
  - destruct 1 as [a Hin Hd | e v efn vs i Hin He Hv | f pre v i gn Hin Hf Hn Hd | f pre e v i gn efn vs j Hin Hf Hn He Hv].
    + exists [a]. split; [exact Hin|]. cbn. auto.
    + exists [e; v]. split; [exact Hin|]. cbn. left. eauto 6.
    + exists [pre; v]. split; [exact Hin|]. cbn. right. eauto 8.
    + exists [pre; e; v]. split; [exact Hin|]. cbn. eauto 12.
  - intros (ss & Hin & Ha). destruct ss as [|a [|b [|c [|? ?]]]]; cbn in Ha; try contradiction.
    + destruct Ha as (Hd & ->). eapply cd_local; eauto.
    + destruct Ha as [(efn & vs & i & He & Hv & ->)|(f & i & gn & Hf & Hn & Hd & ->)].
      * eapply cd_enum_value; eauto.
      * eapply cd_include_const; eauto.
    + destruct Ha as (f & i & gn & efn & vs & j & Hf & Hn & He & Hv & ->). eapply cd_include_enum_value; eauto.
Qed.

Definition cvs_bound (p : program) (fn : bytes) (c : const_value) : Prop := Forall (cv_bound p fn) (cv_subvalues c).

Section Cands.
  Variables (p done : program).
  Hypothesis Hinv : inv p done.
  Hypothesis Hplain : plain_names p = true.
  Variables (fn : bytes) (f f1 : file).
  Hypothesis Hctx : ectx p done fn f f1.
  Hypothesis Hincs : f_includes f1 = f_includes f.
  Hypothesis Htargets : forall i, In i (f_includes f) -> exists hn, in_ref i = Some hn /\ lookup hn done <> None.

  Lemma inc_cands_spec h pre : forall incs idx cs,
    (forall x, In x incs -> exists hn, in_ref x = Some hn /\ lookup hn done <> None) ->
    inc_cands done h pre incs idx = Ok cs ->
    forall e', In e' cs <->
      exists i x hn g' csi, idx <= i /\ nth_error incs (i - idx) = Some x /\ idl_prefix (in_path x) = pre /\
                            in_ref x = Some hn /\ lookup hn done = Some g' /\ h i g' = Ok csi /\ In e' csi.
  Proof.
    induction incs as [|x incs IH]; intros idx cs Hin H e'; cbn [inc_cands] in H.
    - injection H as <-. split; [intros []|]. intros (i & x & ? & ? & ? & _ & Hn & _). destruct (i - idx); discriminate.
    - inv_bind H. injection H as <-. rename x0 into here, x1 into rest.
      assert (Hin' : forall y, In y incs -> exists hn, in_ref y = Some hn /\ lookup hn done <> None)
        by (intros y Hy; apply Hin; right; exact Hy).
      specialize (IH (S idx) rest Hin' E0 e'). rewrite in_app_iff, IH. clear IH. split.
      + intros [Hh|(i & y & hn & g' & csi & Hle & Hn & R)].
        * destruct (beqb (idl_prefix (in_path x)) pre) eqn:Ep; [|injection E as <-; destruct Hh].
          destruct (Hin x (or_introl eq_refl)) as (hn & Hr & Hd). rewrite (include_target_done done x hn Hr) in E.
          destruct (lookup hn done) as [g'|] eqn:Lg; [|discriminate]. apply beqb_true in Ep.
          exists idx, x, hn, g', here. rewrite Nat.sub_diag. cbn. auto 10.
        * exists i, y, hn, g', csi. split; [lia|]. replace (i - idx) with (S (i - S idx)) by lia. cbn. auto.
      + intros (i & y & hn & g' & csi & Hle & Hn & Hp & Hr & Lg & Hh & Hc).
        destruct (Nat.eq_dec i idx) as [->|Hne].
        * left. rewrite Nat.sub_diag in Hn. cbn in Hn. injection Hn as <-.
          rewrite <- Hp, beqb_refl, (include_target_done done x hn Hr), Lg, Hh in E. injection E as <-. exact Hc.
        * right. exists i, y, hn, g', csi. split; [lia|]. replace (i - idx) with (S (i - S idx)) in Hn by lia. cbn in Hn. auto 10.
  Qed.

  Lemma inc_cands_call h pre : forall incs idx cs i x hn g',
    inc_cands done h pre incs idx = Ok cs -> nth_error incs i = Some x ->
    idl_prefix (in_path x) = pre -> in_ref x = Some hn -> lookup hn done = Some g' ->
    exists csi, h (idx + i) g' = Ok csi.
  Proof.
    induction incs as [|z incs IH]; intros idx cs i x hn g' H Hn Hp Hr Lg; [destruct i; discriminate|].
    cbn [inc_cands] in H. inv_bind H. destruct i as [|i]; cbn [nth_error] in Hn.
    - injection Hn as ->. rewrite Hp, beqb_refl, (include_target_done done x hn Hr), Lg in E.
      rewrite Nat.add_0_r. eauto.
    - destruct (IH _ _ _ _ _ _ E0 Hn Hp Hr Lg) as (csi & Hc). exists csi.
      replace (idx + S i) with (S idx + i) by lia. exact Hc.
  Qed.

  Lemma nth_file_incs i x : nth_error (f_includes f) i = Some x ->
    nth_error (file_incs f) i = Some (idl_prefix (in_path x), in_ref x).
  Proof. intros H. unfold file_incs. rewrite nth_error_map, H. reflexivity. Qed.

  Lemma nth_file_incs_inv i pre gn : nth_error (file_incs f) i = Some (pre, Some gn) ->
    exists x, nth_error (f_includes f) i = Some x /\ idl_prefix (in_path x) = pre /\ in_ref x = Some gn.
  Proof.
    unfold file_incs. rewrite nth_error_map. destruct (nth_error (f_includes f) i) as [x|]; [|discriminate].
    cbn. intros [= <- <-]. eauto.
  Qed.

  Lemma alt_cands_spec fuel ss cs :
    alt_cands fuel done f1 ss = Ok cs -> forall x, In x cs <-> alt_denotes p fn ss x.
  Proof.
    pose proof (ec_file _ _ _ _ _ Hctx) as Hf.
    intros H x. destruct ss as [|a [|b [|c [|? ?]]]]; cbn [alt_cands] in H; cbn [alt_denotes].
    - injection H as <-. split; [intros [] | tauto].
    - injection H as <-. rewrite const_cands_In, (ec_n2c _ _ _ _ _ Hctx), <- (def_of_file p fn f a Hf), opt_dkind_const.
      split; intros (? & ?); auto.
    - inv_bind H. injection H as <-. rename x0 into ge, x1 into c2. rewrite Hincs in E0.
      pose proof (get_enum_spec p done Hinv Hplain _ _ _ _ _ _ Hctx E) as Hge.
      pose proof (inc_cands_spec _ _ _ _ _ Htargets E0 x) as Hc2. rewrite in_app_iff, Hc2. clear Hc2. split.
      + intros [H1|(i & y & hn & g' & csi & _ & Hn & Hp & Hr & Lg & Hh & Hc)].
        * left. destruct ge as [[en idx]|]; [|destruct H1]. destruct Hge as (efn & Hd).
          apply enum_cands_In in H1. destruct H1 as (-> & Hv). eauto 8.
        * right. rewrite Nat.sub_0_r in Hn. injection Hh as <-.
          destruct (Hinv hn g' Lg) as (g & Hg & Gd).
          rewrite const_cands_In, (gd_n2c _ _ _ _ _ Gd), <- (def_of_file p hn g b Hg), opt_dkind_const in Hc.
          destruct Hc as (Dk & ->). exists f, i, hn. split; [exact Hf|]. split; [|auto].
          rewrite (nth_file_incs _ _ Hn), Hp, Hr. reflexivity.
      + intros [(efn & vs & i & Hd & Hv & ->)|(f0 & i & gn & Hf0 & Hn & Hd & ->)].
        * left. destruct ge as [[en idx]|]; [|exfalso; eapply Hge; eauto]. destruct Hge as (efn' & Hd').
          destruct (enum_denotes_fun _ _ _ _ _ _ Hd' _ _ _ Hd) as (_ & -> & ->).
          apply enum_cands_In. auto.
        * right. assert (f0 = f) by congruence. subst f0.
          destruct (nth_file_incs_inv _ _ _ Hn) as (y & Hy & Hp & Hr).
          destruct (Htargets y (nth_error_In _ _ Hy)) as (hn & Hr' & Hl). assert (hn = gn) by congruence. subst hn.
          destruct (lookup gn done) as [g'|] eqn:Lg; [|congruence].
          destruct (Hinv gn g' Lg) as (g & Hg & Gd).
          eexists i, y, gn, g', _. split; [lia|]. rewrite Nat.sub_0_r. split; [exact Hy|]. split; [exact Hp|].
          split; [exact Hr|]. split; [exact Lg|]. split; [reflexivity|].
          rewrite const_cands_In, (gd_n2c _ _ _ _ _ Gd), <- (def_of_file p gn g b Hg), opt_dkind_const. auto.
    - rewrite Hincs in H.
      pose proof (inc_cands_spec _ _ _ _ _ Htargets H x) as Hc2. rewrite Hc2. clear Hc2. split.
      + intros (i & y & hn & g' & csi & _ & Hn & Hp & Hr & Lg & Hh & Hc). rewrite Nat.sub_0_r in Hn.
        inv_bind Hh. injection Hh as <-. rename x0 into ge.
        destruct (Hinv hn g' Lg) as (g & Hg & Gd).
        pose proof (get_enum_spec p done Hinv Hplain _ _ _ _ _ _ (good_ectx p done Hinv hn g g' Hg Gd) E) as Hge.
        destruct ge as [[en idx]|]; [|destruct Hc]. destruct Hge as (efn & Hd).
        apply enum_cands_In in Hc. destruct Hc as (-> & Hv).
        exists f, i, hn, efn, (map ev_name (en_values en)), idx. split; [exact Hf|]. split; [|auto].
        rewrite (nth_file_incs _ _ Hn), Hp, Hr. reflexivity.
      + intros (f0 & i & gn & efn & vs & j & Hf0 & Hn & Hd & Hv & ->). assert (f0 = f) by congruence. subst f0.
        destruct (nth_file_incs_inv _ _ _ Hn) as (y & Hy & Hp & Hr).
        destruct (Htargets y (nth_error_In _ _ Hy)) as (hn & Hr' & Hl). assert (hn = gn) by congruence. subst hn.
        destruct (lookup gn done) as [g'|] eqn:Lg; [|congruence].
        destruct (Hinv gn g' Lg) as (g & Hg & Gd).
        destruct (inc_cands_call _ _ _ _ _ _ _ _ _ H Hy Hp Hr Lg) as (csi & Hcall). cbn [plus] in Hcall.
        exists i, y, gn, g', csi. split; [lia|]. rewrite Nat.sub_0_r. split; [exact Hy|]. split; [exact Hp|].
        split; [exact Hr|]. split; [exact Lg|]. split; [exact Hcall|].
        inv_bind Hcall. injection Hcall as <-. rename x into ge.
        pose proof (get_enum_spec p done Hinv Hplain _ _ _ _ _ _ (good_ectx p done Hinv gn g g' Hg Gd) E) as Hge.
        destruct ge as [[en idx]|]; [|exfalso; eapply Hge; eauto]. destruct Hge as (efn' & Hd').
        destruct (enum_denotes_fun _ _ _ _ _ _ Hd' _ _ _ Hd) as (_ & -> & _).
        apply enum_cands_In. auto.
    - injection H as <-. split; [intros [] | tauto].
  Qed.

  Lemma all_cands_spec fuel : forall sss cs,
    all_cands fuel done f1 sss = Ok cs ->
    forall x, In x cs <-> exists ss, In ss sss /\ alt_denotes p fn ss x.
  Proof.
    induction sss as [|ss sss IH]; intros cs H x; cbn [all_cands] in H.
    - injection H as <-. split; [intros [] | intros (? & [] & _)].
    - inv_bind H. injection H as <-. rewrite in_app_iff, (alt_cands_spec _ _ _ E x), (IH _ E0 x). split.
      + intros [Ha|(ss' & Hin & Ha)]; [exists ss; cbn; auto | exists ss'; cbn; auto].
      + intros (ss' & [<-|Hin] & Ha); [left; exact Ha | right; eauto].
  Qed.

  Lemma resolve_ident_good fuel s e :
    resolve_ident fuel done f1 s = Ok (Some e) ->
    const_denotes p fn s e /\ forall e', const_denotes p fn s e' -> e' = e.
  Proof.
    unfold resolve_ident. destruct (ident_is_bool s); [discriminate|]. intros H. inv_bind H.
    destruct x as [|e0 [|? ?]]; try discriminate. injection H as <-.
    pose proof (all_cands_spec _ _ _ E) as Hs. split.
    - apply const_denotes_alt. apply Hs. left. reflexivity.
    - intros e' Hd. apply const_denotes_alt in Hd. apply Hs in Hd. destruct Hd as [<-|[]]. reflexivity.
  Qed.

  Lemma resolve_cv_good fuel : forall c c', resolve_cv fuel done f1 c = Ok c' -> cvs_bound p fn c'.
  Proof.
    unfold cvs_bound. induction c as [b|z|s|s e|l IHl|l IHl] using const_value_ind'; intros c' H; cbn [resolve_cv] in H.
    - injection H as <-. repeat constructor.
    - injection H as <-. repeat constructor.
    - injection H as <-. repeat constructor.
    - inv_bind H. injection H as <-. cbn [cv_subvalues]. constructor; [|constructor].
      unfold cv_bound. destruct x as [e0|]; [|exact I]. exact (resolve_ident_good _ _ _ E).
    - inv_bind H. injection H as <-. cbn [cv_subvalues]. constructor; [exact I|].
      revert x E. induction IHl as [|y l Hy _ IH2]; intros l' E.
      + injection E as <-. constructor.
      + inv_bind E. injection E as <-. cbn [map concat]. apply Forall_app. split; [eapply Hy; eauto | apply IH2; assumption].
    - inv_bind H. injection H as <-. cbn [cv_subvalues]. constructor; [exact I|].
      revert x E. induction IHl as [|[k v] l (Hk & Hv) _ IH2]; intros l' E.
      + injection E as <-. constructor.
      + inv_bind E. injection E as <-. cbn [map concat fst snd]. apply Forall_app. split; [|apply IH2; assumption].
        apply Forall_app. split; [eapply Hk; eauto | eapply Hv; eauto].
  Qed.
End Cands.

Lemma cur_ectx p done fn f n2c tds1 :
  inv p done -> prog_file p fn = Some f ->
  (forall i, In i (f_includes f) -> exists hn, in_ref i = Some hn /\ lookup hn done <> None) ->
  register (file_def_names f) [] = Ok n2c ->
  mapM (resolve_typedef done (with_name2cat f (Some n2c))) (f_typedefs f) = Ok tds1 ->
  ectx p done fn f (cur1 f n2c tds1).
Proof.
  intros Hinv Hf Htg Hreg Htds. constructor.
  - exact Hf.
  - exact (cur_nodup f n2c Hreg).
  - intros n. exact (proj2 (register_file f n2c Hreg) n).
  - reflexivity.
  - intros n tgt Hl.
    pose proof (tds1_aligned done f n2c tds1 Htds) as Hal.
    destruct (file_defs_typedef_inv f n tgt Hl) as (td & Hin & Ha & Hn).
    destruct (Forall2_In_l _ _ _ _ Hal Hin) as (td1 & Hin1 & (Ha1 & Hn1 & Ho)).
    assert (NDa : NoDup (map td_alias tds1))
      by (rewrite (resolve_typedefs_alias _ _ _ _ Htds); exact (typedefs_nodup f n2c Hreg)).
    exists td1. split; [|split; [congruence|]].
    { unfold find_typedef. cbn [cur1 with_typedefs f_typedefs]. rewrite <- Ha, <- Ha1. apply find_by_NoDup; assumption. }
    assert (Hh : head1 done (cur1 f n2c tds1) (td_type td1)) by (destruct (td_type td1); exact (Forall_inv Ho)).
    unfold head1 in Hh. rewrite Hn1, Hn in Hh.
    destruct (builtin_category tgt); [tauto|].
    destruct (split_type tgt) as [|a [|m [|? ?]]] eqn:Sn; try contradiction.
    + destruct Hh as (? & _ & _ & _ & Hr0 & _). exact Hr0.
    + destruct Hh as (idx & c & Fi & _ & Hr0 & _).
      destruct (cur_find_include p done f Hinv Htg n2c tds1 is_type_cat is_type_kind a m idx c (fun k => eq_refl) Fi) as (gn & k & Hs & _ & _).
      destruct (spec_include_target p done f (cur1 f n2c tds1) _ _ _ _ _ Hinv eq_refl Htg Hs) as (x & h & h' & Nx & Hrx & Lh & _).
      exists idx, gn, h'. split; [exact Hs|]. split; [exact Hr0|]. split; [|exact Lh].
      rewrite (reference_target_nth done _ m idx x gn Nx Hrx). exact Lh.
Qed.

Section ConstFile.
  Variables (p done : program) (fn : bytes) (f f1 : file).
  Hypothesis Hinv : inv p done.
  Hypothesis Hplain : plain_names p = true.
  Hypothesis Hctx : ectx p done fn f f1.
  Hypothesis Hincs : f_includes f1 = f_includes f.
  Hypothesis Htargets : forall i, In i (f_includes f) -> exists hn, in_ref i = Some hn /\ lookup hn done <> None.
  Variable st : list tde.

  Let rcv := resolve_cv_good p done Hinv Hplain fn f f1 Hctx Hincs Htargets.

  Definition default_values (fd : field) : list const_value :=
    match fd_default fd with Some c => [c] | None => [] end.

  Definition default_bound (fd : field) : Prop := Forall (cvs_bound p fn) (default_values fd).

  Lemma constant_cv fuel c c1 c2 :
    resolve_constant fuel done f1 c = Ok c1 -> fix_constant done f1 st c1 = Ok c2 -> cvs_bound p fn (co_value c2).
  Proof.
    unfold resolve_constant, fix_constant. intros H1 H2. inv_bind H1. inv_bind H2.
    injection H1 as <-. injection H2 as <-. cbn [co_value]. exact (rcv _ _ _ E0).
  Qed.

  Lemma field_cv fuel b fd fd1 fd2 :
    resolve_field fuel done f1 b fd = Ok fd1 -> fix_field done f1 st fd1 = Ok fd2 -> default_bound fd2.
  Proof.
    unfold resolve_field, fix_field. intros H1 H2. inv_bind H1. inv_bind H2.
    injection H1 as <-. injection H2 as <-. unfold default_bound, default_values. cbn [fd_default].
    destruct (fd_default fd) as [c|]; [inv_bind E0; injection E0 as <- | injection E0 as <-; constructor].
    constructor; [exact (rcv _ _ _ E2) | constructor].
  Qed.

  Lemma fields_cv fuel b l l1 l2 :
    mapM (resolve_field fuel done f1 b) l = Ok l1 -> mapM (fix_field done f1 st) l1 = Ok l2 ->
    Forall default_bound l2.
  Proof. intros H1 H2. exact (two_mapM_Forall _ _ _ _ _ _ H1 H2 (field_cv fuel b)). Qed.

  Lemma struct_cv fuel s s1 s2 :
    resolve_struct_like fuel done f1 s = Ok s1 -> fix_struct_like done f1 st s1 = Ok s2 ->
    Forall default_bound (sl_fields s2).
  Proof.
    unfold resolve_struct_like, fix_struct_like. intros H1 H2. inv_bind H1. inv_bind H2.
    injection H1 as <-. injection H2 as <-. cbn [sl_fields]. eapply fields_cv; eauto.
  Qed.

  Lemma function_cv fuel fu fu1 fu2 :
    resolve_function fuel done f1 fu = Ok fu1 -> fix_function done f1 st fu1 = Ok fu2 ->
    Forall default_bound (function_fields fu2).
  Proof.
    unfold resolve_function, fix_function. intros H1 H2. inv_bind H1. inv_bind H2.
    injection H1 as <-. injection H2 as <-. unfold function_fields. cbn [fn_args fn_throws].
    apply Forall_app. split; [exact (fields_cv _ _ _ _ _ E0 E3) | exact (fields_cv _ _ _ _ _ E1 E4)].
  Qed.

  Lemma service_cv fuel sv sv1 sv2 :
    resolve_service fuel done f1 sv = Ok sv1 -> fix_service done f1 st sv1 = Ok sv2 ->
    Forall default_bound (service_fields sv2).
  Proof.
    unfold resolve_service, fix_service. intros H1 H2. inv_bind H1. inv_bind H2.
    injection H1 as <-. injection H2 as <-. unfold service_fields. cbn [sv_functions].
    apply Forall_flat_map'. exact (two_mapM_Forall _ _ _ _ _ _ E E1 (function_cv fuel)).
  Qed.
End ConstFile.
