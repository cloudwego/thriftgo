(* Idl/ResolveProg.v — one file resolves to a good file; the depth-first driver keeps
   the invariant; what the resolved program says about every type occurrence. *)
From Coq Require Import List.
From Verif Require Import Base.Bytes Idl.Ast Idl.AstUtil Idl.Resolve Idl.ResolveSpec Idl.ResolveLemmas Idl.ResolveInv
  Idl.ResolveConst.
Import ListNotations.
Local Open Scope resolve_scope.

Lemma mark_includes_map {A} (h : bytes -> option bytes -> A) marks : forall incs idx,
  map (fun i => h (in_path i) (in_ref i)) (mark_includes marks incs idx) = map (fun i => h (in_path i) (in_ref i)) incs.
Proof. induction incs as [|i incs IH]; intros idx; cbn [mark_includes map in_path in_ref]; [reflexivity|]. rewrite IH. reflexivity. Qed.

Lemma resolve_file_good p done fn f f' :
  inv p done -> prog_file p fn = Some f ->
  (forall i, In i (f_includes f) -> exists hn, in_ref i = Some hn /\ lookup hn done <> None) ->
  resolve_file_in done f = Ok f' -> good p done fn f f'.
Proof.
  intros Hinv Hf Htg H.
  destruct (resolve_file_in_ok _ _ _ H) as
    (n2c & tds1 & cs1 & ss1 & us1 & es1 & sv1 & st & tds2 & cs2 & ss2 & us2 & es2 & sv2 &
    E & E0 & E1 & E2 & E3 & E4 & E5 & E6 & E7 & E8 & E9 & E10 & E11 & E12 & ->).
  pose proof (typedef_good p done fn f Hinv Hf Htg n2c E tds1 E0 st E6) as Gtd.
  constructor.
  - exact (cur_nodup f n2c E).
  - intros n. exact (proj2 (register_file f n2c E) n).
  - cbn. discriminate.
  - cbn [with_includes f_includes]. apply (mark_includes_map pair).
  - exact Htg.
  - reflexivity.
  - cbn [with_includes f_typedefs]. eapply Forall2_impl'; [|exact (two_mapM _ _ _ _ _ E0 E7)].
    intros td td2 (td1 & H1 & H2). destruct (Gtd td td1 td2 H1 H2) as (? & ? & _). auto.
  - unfold file_occs. apply Forall_flat_map'. unfold file_top_occs, struct_likes.
    cbn [with_includes f_typedefs f_constants f_structs f_unions f_exceptions f_services].
    rewrite !Forall_app, !Forall_map, !Forall_flat_map', !Forall_app.
    pose proof (struct_good p done fn f Hinv Hf Htg n2c E tds1 E0 st E6 (enum_fuel done (cur1 f n2c tds1))) as Gsl.
    split; [|split; [|split; [split; [|split]|]]].
    + exact (two_mapM_Forall _ _ _ _ _ _ E0 E7 (fun td td1 td2 H1 H2 => proj2 (proj2 (Gtd td td1 td2 H1 H2)))).
    + exact (two_mapM_Forall _ _ _ _ _ _ E1 E8 (constant_good p done fn f Hinv Hf Htg n2c E tds1 E0 st E6 _)).
    + exact (two_mapM_Forall _ _ _ _ _ _ E2 E9 Gsl).
    + exact (two_mapM_Forall _ _ _ _ _ _ E3 E10 Gsl).
    + exact (two_mapM_Forall _ _ _ _ _ _ E4 E11 Gsl).
    + exact (two_mapM_Forall _ _ _ _ _ _ E5 E12 (service_good p done fn f Hinv Hf Htg n2c E tds1 E0 st E6 _)).
  - reflexivity.
  - intros Hplain.
    pose proof (cur_ectx p done fn f n2c tds1 Hinv Hf Htg E E0) as Hctx.
    unfold file_const_values. apply Forall_flat_map'. unfold file_top_const_values, file_fields, struct_likes.
    cbn [with_includes f_constants f_structs f_unions f_exceptions f_services].
    rewrite Forall_app, Forall_map, Forall_flat_map', Forall_app, !Forall_flat_map', !Forall_app.
    pose proof (struct_cv p done fn f _ Hinv Hplain Hctx eq_refl Htg st (enum_fuel done (cur1 f n2c tds1))) as Gsl.
    split; [|split; [split; [|split]|]].
    + exact (two_mapM_Forall _ _ _ _ _ _ E1 E8 (constant_cv p done fn f _ Hinv Hplain Hctx eq_refl Htg st _)).
    + exact (two_mapM_Forall _ _ _ _ _ _ E2 E9 Gsl).
    + exact (two_mapM_Forall _ _ _ _ _ _ E3 E10 Gsl).
    + exact (two_mapM_Forall _ _ _ _ _ _ E4 E11 Gsl).
    + exact (two_mapM_Forall _ _ _ _ _ _ E5 E12 (service_cv p done fn f _ Hinv Hplain Hctx eq_refl Htg st _)).
Qed.

Definition extends (d d1 : program) : Prop := forall k v, lookup k d = Some v -> lookup k d1 = Some v.

Lemma extends_refl d : extends d d. Proof. intros k v H. exact H. Qed.
Lemma extends_trans a b c : extends a b -> extends b c -> extends a c.
Proof. intros H1 H2 k v H. auto. Qed.
Lemma extends_some d d1 k : extends d d1 -> lookup k d <> None -> lookup k d1 <> None.
Proof. intros He H. destruct (lookup k d) as [v|] eqn:L; [|congruence]. rewrite (He k v L). discriminate. Qed.

Lemma good_mono p done done' gn g g' : extends done done' -> good p done gn g g' -> good p done' gn g g'.
Proof.
  intros He [H1 H2 H3 H4 H5 H6 H7 H8 H9 H10]. constructor; auto.
  intros i Hi. destruct (H5 i Hi) as (hn & Hr & Hl). exists hn. split; [exact Hr|]. eapply extends_some; eauto.
Qed.

Lemma extends_cons done fn (f' : file) : lookup fn done = None -> extends done ((fn, f') :: done).
Proof.
  intros Hn k v H. cbn [lookup]. destruct (beqb k fn) eqn:E; [|exact H]. apply beqb_true in E. subst. congruence.
Qed.

Lemma inv_cons p done fn f f' :
  inv p done -> lookup fn done = None -> prog_file p fn = Some f -> good p done fn f f' ->
  inv p ((fn, f') :: done) /\ extends done ((fn, f') :: done).
Proof.
  intros Hinv Hn Hf Gd.
  pose proof (extends_cons done fn f' Hn) as He.
  split; [|exact He]. intros gn g' H. cbn [lookup] in H. destruct (beqb gn fn) eqn:E.
  - apply beqb_true in E. subst. injection H as <-. exists f. split; [exact Hf|]. eapply good_mono; eauto.
  - destruct (Hinv gn g' H) as (g & Hg & Gg). exists g. split; [exact Hg|]. eapply good_mono; eauto.
Qed.

Lemma go_includes_ind k p (I : program -> Prop) :
  (forall d g d', I d -> resolve_rec k p d g = Ok d' -> I d' /\ extends d d' /\ lookup g d' <> None) ->
  forall incs d d1, I d -> go_includes k p incs d = Ok d1 ->
  I d1 /\ extends d d1 /\ forall i, In i incs -> exists hn, in_ref i = Some hn /\ lookup hn d1 <> None.
Proof.
  intros Hrec. induction incs as [|i incs IHi]; intros d d1 Hd Hgo; cbn [go_includes] in Hgo.
  - injection Hgo as <-. split; [exact Hd|]. split; [apply extends_refl | intros i []].
  - destruct (in_ref i) as [g|] eqn:Ri; [|discriminate]. inv_bind Hgo.
    destruct (Hrec _ _ _ Hd E) as (I1 & X1 & L1). destruct (IHi _ _ I1 Hgo) as (I2 & X2 & L2).
    split; [exact I2|]. split; [eapply extends_trans; eauto|].
    intros j [<-|Hj]; [|apply L2; exact Hj]. exists g. split; [exact Ri|]. eapply extends_some; eauto.
Qed.

(* The depth-first driver keeps every property of the accumulator that adding one resolved
   file, all of whose include targets are finished, keeps. *)
Lemma resolve_rec_ind p (I : program -> Prop) :
  (forall done fn f f', I done -> lookup fn done = None -> prog_file p fn = Some f ->
     (forall i, In i (f_includes f) -> exists hn, in_ref i = Some hn /\ lookup hn done <> None) ->
     resolve_file_in done f = Ok f' -> I ((fn, f') :: done)) ->
  forall fuel done fn done', I done -> resolve_rec fuel p done fn = Ok done' ->
  I done' /\ extends done done' /\ lookup fn done' <> None.
Proof.
  intros Hstep. induction fuel as [|k IH]; intros done fn done' HI H.
  - cbn [resolve_rec] in H. destruct (lookup fn done) eqn:L; [|discriminate]. injection H as <-.
    split; [exact HI|]. split; [apply extends_refl | congruence].
  - rewrite resolve_rec_unfold in H. destruct (lookup fn done) eqn:L.
    { injection H as <-. split; [exact HI|]. split; [apply extends_refl | congruence]. }
    destruct (prog_file p fn) as [f|] eqn:Pf; [|discriminate]. inv_bind H. rename x into done1.
    destruct (go_includes_ind k p I IH _ _ _ HI E) as (I1 & X1 & T1).
    destruct (lookup fn done1) eqn:L1; [discriminate|]. inv_bind H. injection H as <-.
    split; [exact (Hstep _ _ _ _ I1 L1 Pf T1 E0)|].
    split; [exact (extends_trans _ _ _ X1 (extends_cons _ _ _ L1))|]. cbn [lookup]. rewrite beqb_refl. discriminate.
Qed.

Lemma resolve_rec_inv p : forall fuel done fn done',
  inv p done -> resolve_rec fuel p done fn = Ok done' ->
  inv p done' /\ extends done done' /\ lookup fn done' <> None.
Proof.
  apply resolve_rec_ind. intros done fn f f' Hinv L Pf Htg E.
  exact (proj1 (inv_cons p done fn f f' Hinv L Pf (resolve_file_good p done fn f f' Hinv Pf Htg E))).
Qed.

Lemma inv_nil p : inv p [].
Proof. intros gn g' H. discriminate. Qed.

Lemma lookup_map_done (done p : program) fn :
  lookup fn (map (fun e => (fst e, match lookup (fst e) done with Some f' => f' | None => snd e end)) p) =
  match lookup fn p with
  | Some f => Some (match lookup fn done with Some f' => f' | None => f end)
  | None => None
  end.
Proof.
  induction p as [|[k f] p IH]; cbn [map lookup fst snd]; [reflexivity|].
  destruct (beqb fn k) eqn:E; [|exact IH]. apply beqb_true in E. subst. reflexivity.
Qed.

Lemma parsed_file p fn f : parsed_program p = true -> prog_file p fn = Some f -> unresolved_file f = true.
Proof.
  unfold parsed_program, prog_file. intros H L. apply lookup_In in L. rewrite forallb_forall in H.
  exact (H (fn, f) L).
Qed.

Lemma resolve_program_rec p r : resolve_program p = Ok r ->
  exists done, (done = [] \/ exists fn, resolve_rec (S (length p)) p [] fn = Ok done) /\
    forall gn, prog_file r gn = match lookup gn p with
                                | Some f => Some (match lookup gn done with Some f' => f' | None => f end)
                                | None => None
                                end.
Proof.
  unfold resolve_program. destruct p as [|[mainfn mf] p'] eqn:Ep.
  - intros [= <-]. exists []. split; [left; reflexivity | reflexivity].
  - rewrite <- Ep. intros H. inv_bind H. injection H as <-. exists x. split; [right; eauto|].
    intros gn. apply lookup_map_done.
Qed.

Definition files_are (p : program) (Q : bytes -> file -> file -> Prop) (done : program) : Prop :=
  forall gn g', lookup gn done = Some g' -> exists g, prog_file p gn = Some g /\ Q gn g g'.

Section PerFile.
  Variables (p : program) (Q : bytes -> file -> file -> Prop).
  Hypothesis HQ : forall done fn f f', inv p done -> prog_file p fn = Some f ->
    (forall i, In i (f_includes f) -> exists hn, in_ref i = Some hn /\ lookup hn done <> None) ->
    resolve_file_in done f = Ok f' -> Q fn f f'.

  Lemma resolve_rec_files fuel done fn done' :
    inv p done -> files_are p Q done -> resolve_rec fuel p done fn = Ok done' -> files_are p Q done'.
  Proof.
    intros Hinv HQd H.
    apply (resolve_rec_ind p (fun d => inv p d /\ files_are p Q d)) with (3 := H); [|split; assumption].
    clear done fn done' Hinv HQd H. intros done fn f f' (Hinv & HQd) L Pf Htg E. split.
    - exact (proj1 (inv_cons p done fn f f' Hinv L Pf (resolve_file_good p done fn f f' Hinv Pf Htg E))).
    - intros gn g' Hl. cbn [lookup] in Hl. destruct (beqb gn fn) eqn:Eg; [|exact (HQd gn g' Hl)].
      apply beqb_true in Eg. subst. injection Hl as <-. eauto.
  Qed.

  (* the files of the result: the finished ones, each a good image of its source and
     related to it by [Q]; the others untouched *)
  Theorem resolve_program_inv r : resolve_program p = Ok r ->
    exists done, inv p done /\ files_are p Q done /\
      forall fn, prog_file r fn = match lookup fn done with Some f' => Some f' | None => prog_file p fn end.
  Proof.
    intros H. destruct (resolve_program_rec p r H) as (done & Hd & Hr). exists done.
    assert (Hi : inv p done /\ files_are p Q done).
    { destruct Hd as [->|(fn & E)]; [split; [apply inv_nil | intros ? ? [=]]|].
      assert (F0 : files_are p Q []) by (intros ? ? [=]).
      split; [exact (proj1 (resolve_rec_inv p _ _ _ _ (inv_nil p) E)) | exact (resolve_rec_files _ _ _ _ (inv_nil p) F0 E)]. }
    split; [exact (proj1 Hi)|]. split; [exact (proj2 Hi)|]. intros fn. rewrite Hr. unfold prog_file.
    destruct (lookup fn done) as [f'|] eqn:Ld; [|destruct (lookup fn p); reflexivity].
    destruct (proj1 Hi fn f' Ld) as (g & Hg & _). unfold prog_file in Hg. rewrite Hg. reflexivity.
  Qed.
End PerFile.

Lemma resolved_in_done p r done :
  parsed_program p = true ->
  (forall fn, prog_file r fn = match lookup fn done with Some f' => Some f' | None => prog_file p fn end) ->
  forall fn f', prog_file r fn = Some f' -> f_name2cat f' <> None -> lookup fn done = Some f'.
Proof.
  intros Hp Hr fn f' Hf Hn. rewrite Hr in Hf. destruct (lookup fn done); [exact Hf|].
  pose proof (parsed_file p fn f' Hp Hf) as Hu. unfold unresolved_file in Hu.
  destruct (f_name2cat f'); [discriminate | congruence].
Qed.

Theorem resolve_program_done p r :
  parsed_program p = true -> resolve_program p = Ok r ->
  exists done, inv p done /\
    (forall fn f', prog_file r fn = Some f' -> f_name2cat f' <> None -> lookup fn done = Some f') /\
    (forall gn g', lookup gn done = Some g' -> prog_file r gn = Some g').
Proof.
  intros Hp H. destruct (resolve_program_inv p (fun _ _ _ => True) (fun _ _ _ _ _ _ _ _ => I) r H) as (done & Hinv & _ & Hr).
  exists done. split; [exact Hinv|]. split; [exact (resolved_in_done p r done Hp Hr)|].
  intros gn g' Hl. rewrite Hr, Hl. reflexivity.
Qed.

(* every file of the result that carries a name table is a good image of its source *)
Theorem resolve_program_good p r :
  parsed_program p = true -> resolve_program p = Ok r ->
  exists done, inv p done /\
    forall fn f', prog_file r fn = Some f' -> f_name2cat f' <> None ->
      exists f, prog_file p fn = Some f /\ good p done fn f f'.
Proof.
  intros Hp H. destruct (resolve_program_done p r Hp H) as (done & Hinv & Hd & _).
  exists done. split; [exact Hinv|]. intros fn f' Hf Hn. exact (Hinv fn f' (Hd fn f' Hf Hn)).
Qed.
