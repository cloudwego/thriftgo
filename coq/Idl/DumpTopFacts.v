(* Idl/DumpTopFacts.v — property C17: the round trip as one statement, the empty file, what the
   property does not constrain (cpp_type), and a sample file in the domain. *)
From Coq Require Import List ZArith.
From Coq.Strings Require Import String.
From Verif Require Import Base.Bytes Idl.Ast Idl.AstFacts Idl.Parse Idl.Dump Idl.DumpFacts.
From Verif Require Import Idl.DumpParseFacts.
Import ListNotations.

Lemma c17_norm_strip b : c17_norm (strip_comments b) = c17_norm b.
Proof. unfold c17_norm, strip_comments. rewrite map_file_compose. reflexivity. Qed.

Theorem dump_roundtrip fmt a : dump_ok fmt a = true -> view_ok fmt a = true ->
  exists b, parse (f_filename a) (dump fmt a) = Some b /\ c17_norm b = c17_norm a.
Proof.
  intros Hd Hv. destruct (parse_dump fmt a Hd) as (b & Hp & Hs).
  exists b. split; [exact Hp|].
  rewrite <- (c17_norm_strip b), Hs, c17_norm_strip. apply dump_view_equal. exact Hv.
Qed.

(* a file with nothing to print is dumped as the empty text, which the parser reads as the
   empty file.  This is parser.parse() of /repo from commit 6a3edb3 on; [parse_unrepaired] models
   the parser of the commits before it, for which the zero-byte document is an error. *)
Theorem dump_empty_file n fmt :
  dump fmt (empty_file n) = [] /\ parse n (dump fmt (empty_file n)) = Some (empty_file n) /\
  dump_ok fmt (empty_file n) = true /\ parse_unrepaired n (dump fmt (empty_file n)) = None.
Proof. repeat split. Qed.

(* not constrained by the property: the cpp_type of a container is not written *)
Definition cpp_type_sample : file :=
  File (B "m.thrift") [] [] [] [Typedef (ty_plain kw_list None (Some (ty_named (B "i32"))) (B "std::list") []) (B "L") [] []]
       [] [] [] [] [] [] None.

Theorem dump_drops_cpp_type :
  exists b, parse (B "m.thrift") (dump (fun _ => []) cpp_type_sample) = Some b /\
            file_eqb b cpp_type_sample = false /\ c17_eqb b cpp_type_sample = true.
Proof. eexists. split; [vm_compute; reflexivity | split; vm_compute; reflexivity]. Qed.

(* the hypotheses are satisfiable: a file with every kind of node in the domain *)
Definition sample_fmt (d : N) : bytes := if N.eqb d 4609434218613702656 then B "1.5" else if N.eqb d 4617315517961601024 then B "5" else [].
Definition sample_file : file :=
  File (B "s.thrift")
    [Include (B "a""b.thrift") None None]
    [B "<x&y>"]
    [Namespace (B "go") (B "a.b") [Anno (B "k") [B "&"; hx "61 5c 22 62"]]; Namespace [p_star] (B "n") []]
    [Typedef (ty_plain kw_map (Some (ty_named (B "string"))) (Some (ty_plain kw_list None (Some (ty_plain (B "i32") None None [] [Anno (B "e") [B "#OUTQUOTES"]])) [] [])) [] []) (B "T") [Anno (B "t") [B "##34;"]] (B "// leading comment of T")]
    [Constant (B "c") (ty_named (B "double")) (CList [CDouble 4609434218613702656; CDouble 4617315517961601024; CInt (-7); CLiteral (B "it's"); CMap [(CIdent (B "E.A") None, CList [])]]) [] []]
    [Enum (B "E") [EnumValue (B "A") (-3) [] (hx "2f 2f 20 61 0a 2f 2a 20 62 20 2a 2f"); EnumValue (B "B") 0 [Anno (B "x") [B "y"]] []] [] (B "/* block */")]
    [StructLike SKStruct (B "S") [Field (-1) (B "a") ReqOptional (ty_named (B "i32")) (Some (CInt 5)) [Anno (B "k") [B "v"]] []; Field 2 (B "b") ReqDefault (ty_named (B "T")) None [] (B "// end of line comment of b")] [] (hx "2f 2f 20 6f 6e 65 0a 2f 2f 20 74 77 6f")]
    [StructLike SKUnion (B "U") [] [] []]
    [StructLike SKException (B "X") [Field 1 (B "m") ReqRequired (ty_named (B "string")) None [] []] [] []]
    [Service (B "Sv") (B "Base") [Function (B "f") true true (ty_named kw_void) [Field 1 (B "a") ReqDefault (ty_named (B "i32")) (Some (CInt 5)) [Anno (B "k") [B "v"]] []] [] [] (B "// doc of f");
                                   Function (B "g") false false (ty_named (B "S")) [] [Field 1 (B "e") ReqOptional (ty_named (B "X")) None [] []; Field 2 (B "e2") ReqOptional (ty_named (B "X")) None [] []] [Anno (B "fn") [B "z"]] []] [] None []]
    None.

Example sample_in_domain : dump_ok sample_fmt sample_file = true /\ view_ok sample_fmt sample_file = true.
Proof. split; vm_compute; reflexivity. Qed.
