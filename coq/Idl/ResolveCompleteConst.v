(* Idl/ResolveCompleteConst.v — completeness for identifiers used as values: the number
   of candidates ResolveConstValue collects is the number of explanations the
   specification counts ([explanations]); hence [resolve_complete]. *)
From Coq Require Import List Bool Lia ZArith.
From Verif Require Import Base.Bytes Idl.Ast Idl.AstUtil Idl.Resolve Idl.ResolveSpec Idl.ResolveInv Idl.ResolveConst
  Idl.ResolveDeref Idl.ResolvableSpec Idl.ResolveComplete Idl.ResolvePath Idl.ResolveFuelEnum Idl.ResolvableConst.
Import ListNotations.
Local Open Scope resolve_scope.

Lemma enum_denotes_enum p fn n efn vs i :
  enum_denotes p fn n efn vs i -> exists x, def_denotes p fn n (TEnum efn x) /\ def_of p efn x = Some (DkEnum vs).
Proof.
  induction 1 as [fn n vs H | fn n tgt a efn vs i H Hb Hs _ (x & Hd & Hx) | fn f n tgt pre m i gn efn vs j H Hb Hs Hf Hi _ (x & Hd & Hx)].
  - exists n. split; [eapply dd_enum; eauto | exact H].
  - exists x. split; [|exact Hx]. eapply dd_typedef; [exact H|]. eapply nd_local; eauto.
  - exists x. split; [|exact Hx]. eapply dd_typedef; [exact H|]. eapply nd_qualified; eauto.
Qed.

Lemma def_enum_denotes p :
  (forall fn n d, def_denotes p fn n d -> forall efn x vs, d = TEnum efn x -> def_of p efn x = Some (DkEnum vs) ->
     exists i, enum_denotes p fn n efn vs i) /\
  (forall fn n d, name_denotes p fn n d -> forall efn x vs, d = TEnum efn x -> def_of p efn x = Some (DkEnum vs) ->
     builtin_category n = None /\
     ((exists a i, split_type n = [a] /\ enum_denotes p fn a efn vs i) \/
      (exists f pre m i gn j, split_type n = [pre; m] /\ prog_file p fn = Some f /\
         spec_include p is_type_kind pre m (file_incs f) 0 = Some (i, gn) /\ enum_denotes p gn m efn vs j))).
Proof.
  apply denotes_mutind.
  - intros fn n vs0 H efn x vs [= <- <-] Hx. assert (vs0 = vs) by congruence. subst. eexists. eapply ed_enum; eauto.
  - intros fn n k H efn x vs E. discriminate.
  - intros fn n tgt d H _ IH efn x vs E Hx. destruct (IH efn x vs E Hx) as (Hb & [(a & i & Hs & He)|(f & pre & m & i & gn & j & Hs & Hf & Hi & He)]).
    + exists i. eapply ed_local; eauto.
    + eexists. eapply ed_qualified; eauto.
  - intros fn n c H efn x vs E. discriminate.
  - intros fn n a d Hb Hs _ IH efn x vs E Hx. split; [exact Hb|]. destruct (IH efn x vs E Hx) as (i & He). left. eauto.
  - intros fn f n pre m i gn d Hb Hs Hf Hi _ IH efn x vs E Hx. split; [exact Hb|]. destruct (IH efn x vs E Hx) as (j & He).
    right. exists f, pre, m, i, gn, j. auto.
Qed.

Lemma enum_values_of_spec p fn e vs :
  enum_values_of p fn e = Some vs <-> exists efn i, enum_denotes p fn e efn vs i.
Proof.
  unfold enum_values_of. split.
  - destruct (denote_def (denote (denote_fuel p) p) p fn e) as [d|] eqn:E; [|discriminate].
    destruct d as [c|efn x|? ? ?]; try discriminate.
    destruct (def_of p efn x) as [kd|] eqn:Dx; [|discriminate]. destruct kd; try discriminate. intros [= <-].
    destruct (proj1 (def_enum_denotes p) _ _ _ (denote_def_sound p _ _ _ _ (fun gn n => denote_sound p _ gn n _) E) efn x values eq_refl Dx) as (i & Hi). eauto.
  - intros (efn & i & He). destruct (enum_denotes_enum _ _ _ _ _ _ He) as (x & Hd & Hx).
    destruct (proj1 (denotes_path p) _ _ _ Hd) as (l & Hl).
    rewrite (proj1 (denote_path p) _ _ _ _ Hl (denote_fuel p)); [rewrite Hx; reflexivity|].
    pose proof (def_path_bound _ _ _ _ _ Hl). unfold denote_fuel. lia.
Qed.

Lemma enum_cands_length en v x : length (enum_cands en v x) = count_name v (map ev_name (en_values en)).
Proof.
  unfold enum_cands, count_name. rewrite map_length. induction (en_values en) as [|ev l IH]; cbn [filter map]; [reflexivity|].
  destruct (beqb (ev_name ev) v); cbn [length]; rewrite IH; reflexivity.
Qed.

Section Count.
  Variables (p done : program) (fn : bytes) (f : file).
  Hypothesis Hinv : inv p done.
  Hypothesis Hf : prog_file p fn = Some f.
  Hypothesis Htargets : forall i, In i (f_includes f) -> exists hn, in_ref i = Some hn /\ lookup hn done <> None.
  Hypothesis Hplain : plain_names p = true.
  Hypothesis Hall_td : forall gn n tgt, def_of p gn n = Some (DkTypedef tgt) -> exists d, def_denotes p gn n d.
  Variable n2c : list (bytes * category).
  Hypothesis Hreg : register (file_def_names f) [] = Ok n2c.
  Variable tds1 : list typedef.
  Hypothesis Htds1 : mapM (resolve_typedef done (with_name2cat f (Some n2c))) (f_typedefs f) = Ok tds1.

  Let f1 := cur1 f n2c tds1.
  Let fuel := enum_fuel done f1.

  (* [x] is a function of get_enum's answer: the extra the model gives the candidates holds the index in it *)
  Lemma get_enum_count gn g g' e v x : ectx p done gn g g' -> near done fn gn ->
    exists ge, get_enum fuel done g' e = Ok ge /\
      length (match ge with Some (en, _) => enum_cands en v (x ge) | None => [] end) = enum_value_count p gn e v.
  Proof.
    intros Ec Hn.
    destruct (enum_fuel_suffices p done fn f Hinv Hf Htargets Hplain Hall_td n2c tds1 gn g g' e Htds1 Ec Hn) as (ge & Hge).
    exists ge. split; [exact Hge|].
    pose proof (get_enum_spec p done Hinv Hplain _ _ _ _ _ _ Ec Hge) as Hs. unfold enum_value_count.
    destruct ge as [[en idx]|].
    - destruct Hs as (efn & He). rewrite enum_cands_length.
      rewrite (proj2 (enum_values_of_spec p gn e _) (ex_intro _ efn (ex_intro _ idx He))). reflexivity.
    - destruct (enum_values_of p gn e) as [vs|] eqn:Ev; [|reflexivity].
      apply enum_values_of_spec in Ev. destruct Ev as (efn & i & He). exfalso. eapply Hs; eauto.
  Qed.

  Lemma inc_cands_length h cnt pre : forall incs idx,
    (forall x, In x incs -> exists hn, in_ref x = Some hn /\ lookup hn done <> None) ->
    (forall idx0 x hn g', In x incs -> in_ref x = Some hn -> lookup hn done = Some g' ->
        exists csi, h idx0 g' = Ok csi /\ length csi = cnt hn) ->
    exists cs, inc_cands done h pre incs idx = Ok cs /\ length cs = sum_incs cnt pre (map inc_key incs).
  Proof.
    induction incs as [|x incs IH]; intros idx Hin Hh; cbn [inc_cands map sum_incs]; [eauto|].
    destruct (IH (S idx)) as (rest & Hr & Lr); [intros y Hy; apply Hin; right; exact Hy | intros; eapply Hh; eauto; right; assumption|].
    unfold inc_key at 1. destruct (beqb (idl_prefix (in_path x)) pre).
    - destruct (Hin x (or_introl eq_refl)) as (hn & Hrx & Hl). rewrite (include_target_done done x hn Hrx), Hrx.
      destruct (lookup hn done) as [g'|] eqn:Lg; [|congruence].
      destruct (Hh idx x hn g' (or_introl eq_refl) Hrx Lg) as (csi & -> & Lc). cbn [bind]. rewrite Hr. cbn [bind].
      eexists. split; [reflexivity|]. rewrite app_length, Lc, Lr. reflexivity.
    - cbn [bind]. rewrite Hr. cbn [bind]. eexists. split; [reflexivity|]. cbn [app]. rewrite Lr. reflexivity.
  Qed.

  Lemma f1_ectx : ectx p done fn f f1.
  Proof. exact (cur_ectx p done fn f n2c tds1 Hinv Hf Htargets Hreg Htds1). Qed.

  Lemma alt_cands_length ss : exists cs, alt_cands fuel done f1 ss = Ok cs /\ length cs = alt_count p fn f ss.
  Proof.
    destruct ss as [|a [|b [|c [|? ?]]]]; cbn [alt_cands alt_count]; eauto.
    - eexists. split; [reflexivity|]. unfold const_count.
      rewrite (ec_n2c _ _ _ _ _ f1_ectx), <- (def_of_file p fn f a Hf).
      destruct (def_of p fn a) as [k|]; [|reflexivity]. destruct k as [| | |s|]; try reflexivity. destruct s; reflexivity.
    - destruct (get_enum_count fn f f1 a b (fun ge => match ge with Some (_, idx) => Extra true idx b a | None => Extra true 0 b a end) f1_ectx (or_introl eq_refl)) as (ge & Hge & Lge).
      rewrite Hge. cbn [bind].
      destruct (inc_cands_length (fun idx g => Ok match lookup b (n2c_of g) with Some CatConstant => [Extra false (Z.of_nat idx) b a] | _ => [] end)
                  (fun gn => const_count p gn b) a (f_includes f) 0 Htargets) as (c2 & Hc2 & Lc2).
      { intros idx0 x hn g' _ _ Lg. eexists. split; [reflexivity|].
        destruct (Hinv hn g' Lg) as (g & Hg & Gd). unfold const_count.
        rewrite (gd_n2c _ _ _ _ _ Gd), <- (def_of_file p hn g b Hg).
        destruct (def_of p hn b) as [k|]; [|reflexivity]. destruct k as [| | |s|]; try reflexivity. destruct s; reflexivity. }
      change (f_includes f1) with (f_includes f). rewrite Hc2. cbn [bind]. eexists. split; [reflexivity|].
      rewrite app_length, Lc2. f_equal. rewrite <- Lge. destruct ge as [[en idx]|]; reflexivity.
    - change (f_includes f1) with (f_includes f).
      apply (inc_cands_length _ (fun gn => enum_value_count p gn b c) a (f_includes f) 0 Htargets).
      intros idx0 x hn g' _ _ Lg. destruct (Hinv hn g' Lg) as (g & Hg & Gd).
      assert (Hnear : near done fn hn) by (right; congruence).
      destruct (get_enum_count hn g g' b c (fun ge => match ge with Some (_, _) => Extra true (Z.of_nat idx0) c b | None => Extra true 0 c b end)
                  (good_ectx p done Hinv hn g g' Hg Gd) Hnear) as (ge & Hge & Lge).
      rewrite Hge. cbn [bind]. eexists. split; [reflexivity|]. rewrite <- Lge. destruct ge as [[en idx]|]; reflexivity.
  Qed.

  Lemma all_cands_length : forall sss, exists cs, all_cands fuel done f1 sss = Ok cs /\
    length cs = fold_right (fun ss acc => alt_count p fn f ss + acc) 0 sss.
  Proof.
    induction sss as [|ss sss (rest & Hr & Lr)]; cbn [all_cands fold_right]; [eauto|].
    destruct (alt_cands_length ss) as (a & -> & La). cbn [bind]. rewrite Hr. cbn [bind].
    eexists. split; [reflexivity|]. rewrite app_length, La, Lr. reflexivity.
  Qed.

  Lemma ident_ok_resolves s : ident_ok p fn s = true -> exists e, resolve_ident fuel done f1 s = Ok e.
  Proof.
    unfold ident_ok. rewrite Hf. intros H. apply Nat.eqb_eq in H. unfold resolve_ident.
    destruct (ident_is_bool s); [eauto|].
    destruct (all_cands_length (split_value s)) as (cs & -> & Lc). cbn [bind]. unfold explanations in H. rewrite H in Lc.
    destruct cs as [|e [|? ?]]; cbn in Lc; try lia. eauto.
  Qed.
End Count.

Lemma resolvable_typedefs_denote p idok :
  resolvable_with idok p = true ->
  forall gn n tgt, def_of p gn n = Some (DkTypedef tgt) -> exists d, def_denotes p gn n d.
Proof.
  intros H gn n tgt Hd. unfold resolvable_with in H. destruct p as [|[mainfn mf] p'] eqn:Ep; [discriminate|].
  rewrite <- Ep in *. apply andb_true_iff in H. destruct H as (_ & Hall). rewrite forallb_forall in Hall.
  pose proof Hd as Hd0. unfold def_of, prog_file in Hd. destruct (lookup gn p) as [g|] eqn:Lg; [|discriminate].
  pose proof (Hall (gn, g) (lookup_In _ _ _ Lg)) as Hok. cbn [fst snd] in Hok. unfold file_ok in Hok.
  repeat (apply andb_true_iff in Hok; destruct Hok as (Hok & ?)). rename H2 into Hty. rewrite forallb_forall in Hty.
  destruct (file_defs_typedef_inv g n tgt Hd) as (td & Hin & Ha & Ht).
  assert (Hto : ty_ok p gn (td_type td) = true).
  { apply Hty. unfold file_top_occs. apply in_or_app. left. apply in_map. exact Hin. }
  destruct (ty_ok_head_denotes p gn _ Hto) as (d & Hden). rewrite Ht in Hden.
  exists d. eapply dd_typedef; eauto.
Qed.

Theorem resolve_complete p : resolvable p = true -> exists r, resolve_program p = Ok r.
Proof.
  unfold resolvable. intros H. apply andb_true_iff in H. destruct H as (Hplain & Hres).
  apply (resolve_complete_with p (ident_ok p)); [|exact Hres].
  intros done fn f n2c tds1 s Hinv Hf Htg Hreg Htds Hs.
  exact (ident_ok_resolves p done fn f Hinv Hf Htg Hplain (resolvable_typedefs_denote p _ Hres) n2c Hreg tds1 Htds s Hs).
Qed.
