(* Idl/Accept.v — executable model of the accept / reject decision of the thriftgo
   pipeline on a parsed program (sdk/invoke.go; property C04).  Definitions only;
   proofs are in Idl/CheckFacts.v, Idl/AcceptBackend.v, Idl/AcceptSound.v,
   Idl/AcceptComplete.v.

     InvokeThriftgo        [accepts] = [front_end] ; [backend_stage]
       parser.CircleDetect       [circle_detect]  (parser/circle_detect.go searchCircle:
                                 depth-first along the include statements with the
                                 path so far, no memo)
       checker.CheckAll          Idl/Check.v [check_program]
       semantic.ResolveSymbols   Idl/Resolve.v [resolve_program] (model of C05)
       g.Generate / Persist      [backend_stage]: of the Go backend only the decisions
                                 the property lists — the kind errors of constant and
                                 default values (generator/golang/resolver.go
                                 resolveConst, onBool .. onStructLike; they end in
                                 os.Exit(2) inside ensureCode, or, when they panic, in
                                 the recover of Scope.init) [kind_check], applied to the
                                 files a Scope is built for [scope_files]:
                                   -r      every file DepthFirstSearch delivers;
                                   else    the main file and, transitively, the
                                           includes marked Used (Scope.buildIncludes)
                                 The fastgo backend runs the go backend first
                                 (FastGoBackend.Generate), so both languages decide alike.
     args.Parse / Targets  [run_cmdline] over an abstract command line [cmdline]

   Not modelled (outside the rule catalogue): Go name reservation failures, template
   errors, plugins, I/O errors.  Identifiers: after ResolveSymbols every identifier
   other than true / false carries its binding; the model takes getIDValue to succeed
   on a bound identifier. *)
From Coq Require Import List Bool Arith NArith ZArith.
From Coq.Strings Require Import Byte String.
From Verif Require Import Base.Bytes Idl.Ast Idl.AstUtil Idl.Resolve Idl.Check.
Import ListNotations.

Inductive lang := LGo | LFastGo.
Record backend := Backend { be_lang : lang; be_recursive : bool }.

Inductive const_error :=
| EKindMismatch      (* errTypeMissMatch / "expect const value ... is a int or enum" / "type error" *)
| EBadKey            (* "expect literals as keys in default value of struct type" *)
| EUnknownField      (* "field %q not found in %q" *)
| EBackendInternal   (* a recovered Go panic: nil ValueType of a typedef'd container, nil Extra *)
| EBackendFuel.      (* model fuel exhausted *)

Inductive reject :=
| RIncludeCycle
| RCheck (e : check_error)
| RResolve (e : resolve_error)
| RConst (e : const_error).

(* result unit *)
Inductive aresult := AOk | ARej (r : reject).

(* model fuel ran out (never on the domain; the correspondence check reports it) *)
Definition is_fuel_reject (r : reject) : bool :=
  match r with
  | RCheck ECheckFuel | RConst EBackendFuel => true
  | _ => false
  end.

(* ---------------------------------------------------------------- CircleDetect *)

(* searchCircle(cur, nodes): true = a circle was found.  Out of fuel counts as found
   (the caller rejects); fuel = number of files + 2 is enough for every program: the
   path holds distinct Filenames of the program *)
Fixpoint search_circle (fuel : nat) (p : program) (path : list bytes) (fn : bytes) : bool :=
  match fuel with
  | O => true
  | S k =>
    match prog_file p fn with
    | None => false                                   (* cur == nil *)
    | Some f =>
      if memb fn path then true
      else existsb (search_circle k p (fn :: path)) (inc_refs f)
    end
  end.

Definition circle_detect (p : program) : bool :=
  match p with
  | [] => false
  | (m, _) :: _ => search_circle (S (S (List.length p))) p [] m
  end.

(* ---------------------------------------------------------------- constant kinds (Go backend) *)

(* an identifier: true / false carry no binding; any other is bound after resolution
   (an unbound one makes getIDValue dereference nil) *)
Definition ident_check (s : bytes) (e : option const_extra) : option const_error :=
  if ident_is_bool s then None
  else match e with Some _ => None | None => Some EBackendInternal end.
Definition bound_check (e : option const_extra) : option const_error :=
  match e with Some _ => None | None => Some EBackendInternal end.

Fixpoint first_err {A} (chk : A -> option const_error) (l : list A) : option const_error :=
  match l with
  | [] => None
  | x :: r => match chk x with Some e => Some e | None => first_err chk r end
  end.

(* resolveConst(g, name, t, v) on the resolved program [r]; None = code was produced *)
Fixpoint kind_check (fuel : nat) (r : program) (g : file) (t : ty) (v : const_value) : option const_error :=
  match fuel with
  | O => Some EBackendFuel
  | S k =>
    match ty_category t with
    | CatBool | CatDouble =>
      match v with
      | CInt _ | CDouble _ => None
      | CIdent s e => ident_check s e
      | _ => Some EKindMismatch
      end
    | CatByte | CatI16 | CatI32 | CatI64 =>
      match v with
      | CInt _ => None
      | CIdent s e => ident_check s e
      | _ => Some EKindMismatch
      end
    | CatString | CatBinary =>
      match v with
      | CLiteral _ => None
      | CIdent s e => if ident_is_bool s then Some EKindMismatch else bound_check e
      | _ => Some EKindMismatch
      end
    | CatEnum =>
      match v with
      | CInt _ => None
      | CIdent _ e => bound_check e
      | _ => Some EKindMismatch
      end
    | CatSet | CatList =>
      match v with
      | CList l =>
        match ty_value t with
        | Some et => first_err (kind_check k r g et) l
        | None => match l with [] => None | _ => Some EBackendInternal end
        end
      | CIdent _ e => bound_check e
      | _ => None                                     (* "fault tolerance": T{} *)
      end
    | CatMap =>
      match v with
      | CMap l =>
        match l with
        | [] => None
        | _ =>
          match ty_key t, ty_value t with
          | Some kt, Some vt =>
            first_err (fun kv => match kind_check k r g kt (fst kv) with
                                 | Some e => Some e
                                 | None => kind_check k r g vt (snd kv)
                                 end) l
          | _, _ => Some EBackendInternal
          end
        end
      | CIdent _ e => bound_check e
      | _ => None
      end
    | CatStruct | CatUnion | CatException =>
      match v with
      | CIdent _ e => bound_check e
      | CMap l =>
        (* getStructLike: semantic.Deref, then the struct-like of that name *)
        match deref (deref_fuel r) r g t with
        | Ok (h, x) =>
          match find_struct_like h (ty_name x) with
          | Some s =>
            first_err (fun kv =>
                         match fst kv with
                         | CLiteral n =>
                           match find_field s n with
                           | Some fd => kind_check k r h (fd_type fd) (snd kv)
                           | None => Some EUnknownField
                           end
                         | _ => Some EBadKey
                         end) l
          | None => Some EBackendInternal
          end
        | Error _ => Some EBackendInternal
        end
      | _ => Some EKindMismatch
      end
    | _ => Some EKindMismatch                         (* "type error: ... was declared as type" *)
    end
  end.

(* what resolveTypesAndValues hands to GetFieldInit / GetConstInit for one file: the
   defaults of all fields (struct-likes, then the synthesized argument and result
   structs), then the constants *)
Definition backend_values (g : file) : list (ty * const_value) :=
  flat_map (fun fd => match fd_default fd with Some v => [(fd_type fd, v)] | None => [] end) (file_fields g) ++
  map (fun c => (co_type c, co_value c)) (f_constants g).

Definition check_scope (r : program) (fn : bytes) : option const_error :=
  match prog_file r fn with
  | Some g => first_err (fun tv => kind_check (S (cv_depth (snd tv))) r g (fst tv) (snd tv)) (backend_values g)
  | None => None
  end.

(* the includes a Scope is built for: Include.Used *)
Definition used_refs (g : file) : list bytes :=
  flat_map (fun i => match in_used i, in_ref i with
                     | Some true, Some h => [h]
                     | _, _ => []
                     end) (f_includes g).

(* BuildScope(main): the main file and, transitively, its used includes *)
Fixpoint scope_closure (fuel : nat) (r : program) (visited : list bytes) (fn : bytes) : list bytes :=
  match fuel with
  | O => visited
  | S k =>
    if memb fn visited then visited
    else
      match prog_file r fn with
      | None => visited
      | Some g => fold_left (scope_closure k r) (used_refs g) (fn :: visited)
      end
  end.

(* [order]: the files DepthFirstSearch delivers (computed on the parsed program;
   resolution changes neither Filenames nor include references) *)
Definition scope_files (r : program) (order : list bytes) (b : backend) : list bytes :=
  if be_recursive b then order
  else match r with
       | [] => []
       | (m, _) :: _ => scope_closure (S (List.length r)) r [] m
       end.

Definition backend_stage (r : program) (order : list bytes) (b : backend) : option const_error :=
  first_err (check_scope r) (scope_files r order b).

(* ---------------------------------------------------------------- the pipeline *)

Inductive front := FrontOk (r : program) (order : list bytes) | FrontRej (why : reject).

(* CircleDetect ; CheckAll ; ResolveSymbols *)
Definition front_end (p : program) : front :=
  if circle_detect p then FrontRej RIncludeCycle
  else
    match dfs_order p with
    | None => FrontRej (RCheck ECheckFuel)
    | Some order =>
      match call_all (check_named p) order with
      | CErr e => FrontRej (RCheck e)
      | COk =>
        match resolve_program p with
        | Error e => FrontRej (RResolve e)
        | Ok r => FrontOk r order
        end
      end
    end.

Definition accepts (p : program) (b : backend) : aresult :=
  match front_end p with
  | FrontRej why => ARej why
  | FrontOk r order =>
    match backend_stage r order b with
    | Some e => ARej (RConst e)
    | None => AOk
    end
  end.

(* ---------------------------------------------------------------- the command line *)

(* what args.Parse / Arguments.Targets / Generator.Generate look at *)
Record cmdline := Cmdline {
  cl_flags_ok : bool;        (* the flag package accepted every option and its value *)
  cl_idl_args : nat;         (* number of positional arguments *)
  cl_specs_ok : bool;        (* every -g string parses (ParseCompactArguments, option values) *)
  cl_langs : list bytes;     (* the language of every -g, in order *)
  cl_recursive : bool }.

Definition lang_of (l : bytes) : option lang :=
  if beqb l (B "go") then Some LGo else if beqb l (B "fastgo") then Some LFastGo else None.

Definition cmdline_valid (c : cmdline) : bool :=
  cl_flags_ok c && (cl_idl_args c =? 1) && cl_specs_ok c &&
  negb (is_nil (cl_langs c)) &&
  forallb (fun l => match lang_of l with Some _ => true | None => false end) (cl_langs c).

Record outcome := Outcome {
  exit0 : bool;              (* exit status 0 *)
  wrote : bool }.            (* generated files were written *)

(* the loop over the -g languages: each one is generated and persisted before the
   next is looked at *)
Fixpoint gen_langs (r : program) (order : list bytes) (rec : bool) (langs : list bytes) (w : bool) : outcome :=
  match langs with
  | [] => Outcome true w
  | l :: rest =>
    match lang_of l with
    | None => Outcome false w                          (* "No generator for language" *)
    | Some lg =>
      match backend_stage r order (Backend lg rec) with
      | Some _ => Outcome false w
      | None => gen_langs r order rec rest true
      end
    end
  end.

Definition run_cmdline (c : cmdline) (p : program) : outcome :=
  if negb (cl_flags_ok c && (cl_idl_args c =? 1)) then Outcome false false
  else
    match front_end p with
    | FrontRej _ => Outcome false false
    | FrontOk r order =>
      if negb (cl_specs_ok c) then Outcome false false
      else match cl_langs c with
           | [] => Outcome false false               (* "No output language(s) specified" *)
           | langs => gen_langs r order (cl_recursive c) langs false
           end
    end.
