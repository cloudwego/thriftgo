(* Idl/ResolveFuelEnum.v — getEnum with the fuel the model gives it ([enum_fuel]) never
   runs out, provided every typedef of the program denotes something (no cycle, no
   dangling end) and definition names are plain. *)
From Coq Require Import List Arith Lia.
From Verif Require Import Base.Bytes Idl.Ast Idl.AstUtil Idl.AstFacts Idl.Resolve Idl.ResolveSpec Idl.ResolveTd Idl.ResolveLemmas
  Idl.ResolveInv Idl.ResolveConst Idl.ResolvePath.
Import ListNotations.
Local Open Scope resolve_scope.

Lemma def_path_typedef_inv p gn name tgt d l :
  def_of p gn name = Some (DkTypedef tgt) -> def_path p gn name d l ->
  exists l', l = (gn, name) :: l' /\ name_path p gn tgt d l'.
Proof.
  intros Hd H. destruct H as [? ? ? H | ? ? ? H | ? ? tgt' ? l' H Hn]; try congruence.
  assert (tgt' = tgt) by congruence. subst. eauto.
Qed.

Lemma name_path_inv p gn tgt d l :
  name_path p gn tgt d l ->
  (exists c, builtin_category tgt = Some c) \/
  (builtin_category tgt = None /\ exists a, split_type tgt = [a] /\ def_path p gn a d l) \/
  (builtin_category tgt = None /\ exists f pre m i hn, split_type tgt = [pre; m] /\ prog_file p gn = Some f /\
     spec_include p is_type_kind pre m (file_incs f) 0 = Some (i, hn) /\ def_path p hn m d l).
Proof.
  destruct 1 as [? ? c Hb | ? ? a ? ? Hb Hs Hdp | ? f0 ? pre m i hn ? ? Hb Hs Hf0 Hsi Hdp].
  - left. eauto.
  - right. left. eauto.
  - right. right. split; [exact Hb|]. exists f0, pre, m, i, hn. auto.
Qed.

Section EnumFuel.
  Variables (p done : program).
  Hypothesis Hinv : inv p done.
  Hypothesis Hplain : plain_names p = true.
  Hypothesis Hall_td : forall gn n tgt, def_of p gn n = Some (DkTypedef tgt) -> exists d, def_denotes p gn n d.

  Lemma get_enum_total : forall fuel gn g g' name,
    ectx p done gn g g' -> 0 < fuel ->
    (forall tgt d l, lookup name (file_defs g) = Some (DkTypedef tgt) -> def_path p gn name d l -> length l < fuel) ->
    exists res, get_enum fuel done g' name = Ok res.
  Proof.
    induction fuel as [|k IH]; intros gn g g' name Ec Hpos Hlen; [lia|]. cbn [get_enum].
    pose proof (ec_file _ _ _ _ _ Ec) as Hg. rewrite (ec_n2c _ _ _ _ _ Ec).
    destruct (lookup name (file_defs g)) as [kd|] eqn:Lk; cbn [option_map]; [|eauto].
    destruct kd as [tgt| |vs|s|]; cbn [dkind_cat]; eauto.
    - (* typedef *)
      destruct (Hall_td gn name tgt ltac:(rewrite (def_of_file p gn g name Hg); exact Lk)) as (d & Hd).
      destruct (proj1 (denotes_path p) _ _ _ Hd) as (l & Hl). pose proof (Hlen tgt d l eq_refl Hl) as Hlt.
      destruct (def_path_typedef_inv p gn name tgt d l ltac:(rewrite (def_of_file p gn g name Hg); exact Lk) Hl) as (l' & -> & Hnp).
      cbn [length] in Hlt.
      destruct (ec_td _ _ _ _ _ Ec name tgt Lk) as (td' & Ft & Hn & Href). rewrite Ft, Hn.
      assert (Hfallback : lookup tgt (file_defs g) = None -> exists res, get_enum k done g' tgt = Ok res).
      { intros Ln. destruct k as [|k']; [lia|]. cbn [get_enum]. rewrite (ec_n2c _ _ _ _ _ Ec), Ln. cbn. eauto. }
      destruct (name_path_inv p gn tgt d l' Hnp) as [(c & Hb)|[(Hb & a & Hs & Hdp)|(Hb & f0 & pre & m & i & hn & Hs & Hf0 & Hsi & Hdp)]].
      + rewrite Hb in Href. rewrite Href. cbn [bind].
        apply Hfallback, (plain_lookup_none p gn g tgt Hplain Hg). unfold plain_name. rewrite Hb. reflexivity.
      + rewrite Hb, Hs in Href. rewrite Href. cbn [bind]. pose proof (split_type_single _ _ Hs) as ->.
        apply (IH gn g g' tgt Ec); [lia|]. intros tgt2 d2 l2 _ Hp2. rewrite (proj1 (path_fun p) _ _ _ _ Hdp _ _ Hp2). lia.
      + rewrite Hb, Hs in Href. destruct Href as (i' & hn' & h' & Hsi' & Hr0 & Htg & Lh).
        assert (f0 = g) by congruence. subst f0. rewrite Hsi in Hsi'. injection Hsi' as <- <-.
        rewrite Hr0, Htg. cbn [ref_name ref_index].
        destruct (Hinv hn h' Lh) as (h & Hh & Gh).
        destruct (IH hn h h' m (good_ectx p done Hinv hn h h' Hh Gh)) as (r1 & ->); [lia| |].
        { intros tgt2 d2 l2 _ Hp2. rewrite (proj1 (path_fun p) _ _ _ _ Hdp _ _ Hp2). lia. }
        cbn [bind]. destruct r1 as [[en idx]|]; [eauto|].
        apply Hfallback, (plain_lookup_none p gn g tgt Hplain Hg). unfold plain_name. rewrite Hb, Hs. reflexivity.
    - (* enum *)
      destruct (file_defs_enum_inv g name vs (ec_nodup _ _ _ _ _ Ec) Lk) as (en & Fe & _).
      unfold find_enum in *. rewrite (ec_enums _ _ _ _ _ Ec), Fe. eauto.
    - destruct s; cbn; eauto.
  Qed.
End EnumFuel.

(* chains stay inside the finished files and the current one, which bounds their length *)
Section EnumBound.
  Variables (p done : program) (fn : bytes) (f : file).
  Hypothesis Hinv : inv p done.
  Hypothesis Hf : prog_file p fn = Some f.
  Hypothesis Htargets : forall i, In i (f_includes f) -> exists hn, in_ref i = Some hn /\ lookup hn done <> None.

  Definition near (gn : bytes) : Prop := gn = fn \/ lookup gn done <> None.
  Definition near_typedefs : list (bytes * bytes) :=
    map (fun td => (fn, td_alias td)) (f_typedefs f) ++ all_typedefs done.

  Lemma near_typedefs_length : length near_typedefs = length (f_typedefs f) + prog_typedef_count done.
  Proof. unfold near_typedefs. rewrite app_length, map_length, all_typedefs_length. reflexivity. Qed.

  Lemma near_path :
    (forall gn m d l, def_path p gn m d l -> near gn -> incl l near_typedefs) /\
    (forall gn n d l, name_path p gn n d l -> near gn -> incl l near_typedefs).
  Proof.
    apply path_mutind; try (intros; intros x []; fail).
    - intros gn m tgt d l H _ IH Hn x [<-|Hx]; [|apply IH; assumption]. unfold near_typedefs. apply in_or_app.
      destruct (lookup gn done) as [g'|] eqn:Lg.
      + right. destruct (Hinv gn g' Lg) as (g & Hg & Gd). rewrite (def_of_file p gn g m Hg) in H.
        destruct (good_find_typedef p done gn g g' m tgt Gd H) as (td' & Ft & _).
        exact (in_all_typedefs done gn g' m td' Lg Ft).
      + left. destruct Hn as [->|Hn]; [|congruence]. rewrite (def_of_file p fn f m Hf) in H.
        destruct (file_defs_typedef_inv f m tgt H) as (td & Hin & <- & _). apply in_map_iff. exists td. auto.
    - intros gn n a d l Hb Hs _ IH Hn. apply IH. exact Hn.
    - intros gn f0 n pre m i hn d l Hb Hs Hf0 Hsi _ IH Hn. apply IH. right.
      destruct (spec_include_nth _ _ _ _ _ _ _ _ Hsi) as (_ & Hnth & _). rewrite Nat.sub_0_r in Hnth.
      unfold file_incs in Hnth. rewrite nth_error_map in Hnth.
      destruct (nth_error (f_includes f0) i) as [x|] eqn:Nx; [|discriminate]. cbn [option_map] in Hnth. injection Hnth as _ Hrx.
      destruct (lookup gn done) as [g'|] eqn:Lg.
      + destruct (Hinv gn g' Lg) as (g & Hg & Gd). assert (f0 = g) by congruence. subst f0.
        destruct (gd_targets _ _ _ _ _ Gd x (nth_error_In _ _ Nx)) as (hn2 & Hr2 & Hl2). congruence.
      + destruct Hn as [->|Hn]; [|congruence]. assert (f0 = f) by congruence. subst f0.
        destruct (Htargets x (nth_error_In _ _ Nx)) as (hn2 & Hr2 & Hl2). congruence.
  Qed.

  Lemma near_path_length gn m d l : def_path p gn m d l -> near gn ->
    length l <= length (f_typedefs f) + prog_typedef_count done.
  Proof.
    intros H Hn. rewrite <- near_typedefs_length. apply NoDup_incl_length; [eapply def_path_NoDup; eauto|].
    eapply (proj1 near_path); eauto.
  Qed.

  Hypothesis Hplain : plain_names p = true.
  Hypothesis Hall_td : forall gn n tgt, def_of p gn n = Some (DkTypedef tgt) -> exists d, def_denotes p gn n d.

  (* getEnum with the model's fuel never runs out *)
  Theorem enum_fuel_suffices n2c tds1 gn g g' name :
    mapM (resolve_typedef done (with_name2cat f (Some n2c))) (f_typedefs f) = Ok tds1 ->
    ectx p done gn g g' -> near gn ->
    exists res, get_enum (enum_fuel done (cur1 f n2c tds1)) done g' name = Ok res.
  Proof.
    intros Htds Ec Hn. apply (get_enum_total p done Hinv Hplain Hall_td _ gn g g' name Ec).
    - unfold enum_fuel. lia.
    - intros tgt d l _ Hp. pose proof (near_path_length _ _ _ _ Hp Hn) as Hb.
      assert (length tds1 = length (f_typedefs f)) as El.
      { symmetry. eapply Forall2_len. exact (mapM_Forall2 _ _ _ Htds). }
      unfold enum_fuel. change (f_typedefs (cur1 f n2c tds1)) with tds1. rewrite El. lia.
  Qed.
End EnumBound.
