(* Props/C13.v — property C13: field-mask filtered serialization emits exactly the selected data.
   Statements only; models in Wire/Masked.v (on Wire/Std.v and the field-mask library model
   Mask/Trie.v of property C14), proofs in Wire/MaskedFacts.v, MaskedPathSet.v, MaskedReadFacts.v,
   MaskedReadInit.v, MaskedHalfwayFacts.v and MaskedOwnFacts.v.

   cfg : mcfg             generator options field_mask_halfway / field_mask_zero_required (and
                          [pinned]: the list/set pre-count loop of the pinned source, kept only for
                          the witness C13_list_hdr_count_refuted)
   m : option mask        p._fieldmask; None is the nil mask
   to_wire_masked         X.Write under the mask: a raw wire tree whose container headers carry the
                          count computed by the generated pre-count loop
   restrict_mask rq       the value a peer ends up with, defined from the answers of
                          Field / Int / Str alone; restrict_ps black rq the same from a path SET;
                          restrict_fn (Wire/MaskedFacts.v) is its per-field function: what becomes of one slot
   wfield_m               the per-field function of Write under a mask (Wire/MaskedFacts.v): what
                          Write emits for one slot, None when the field is left out
   The theorems hold for EVERY mask (any tree of the library's FieldMask type, whether or not
   NewFieldMask can build it), every schema, every well-typed value. *)
From Coq Require Import List ZArith Bool.
From Verif Require Import Base.Bytes Base.BE Wire.TType Wire.WVal Wire.Codec Wire.CodecFacts
  Wire.Schema Wire.Value Wire.Std Wire.StdFacts Wire.Masked Wire.MaskedFacts
  Wire.MaskedPathSet Wire.MaskedRead Wire.MaskedReadFacts Wire.MaskedHalfway Wire.MaskedHalfwayFacts
  Wire.MaskedOwn Wire.MaskedOwnFacts Wire.MaskedReadInit.
From Verif Require Mask.Path Mask.Desc Mask.Trie Mask.Spec.
Import ListNotations.
Open Scope Z_scope.

(* ---- well-formed encoding ---- *)

(* the generated pre-count loop gives the number of elements the filtering loop writes: every
   mask, every key function (list index, int key, string key), every list *)
Theorem C13_hdr_count_eq_written : forall A (key : nat -> A -> qkey) (m : option mask) (l : list A),
  hdr_count (option mask) mquery mlive key m l = count_sel (option mask) mquery key m 0 l.
Proof. exact @hdr_count_eq_written_mask. Qed.
Print Assumptions C13_hdr_count_eq_written.

(* every list / set / map header count of what Write emits under a mask equals the number of
   elements that follow, so the bytes are the standard encoding of a generic wire value *)
Theorem C13_masked_well_formed : forall cfg m e s v r,
  pinned cfg = false -> to_wire_masked cfg m e s v = Ok r ->
  counts_ok r = true /\ enc_r r = enc (cook r).
Proof. exact masked_counts. Qed.
Print Assumptions C13_masked_well_formed.

(* ... and it decodes: at byte level, for a well-typed value *)
Theorem C13_masked_bytes_decode : forall cfg m e s v,
  pinned cfg = false -> wf_env e = true -> find_struct e (s_name s) = Some s -> wt e s v = true ->
  (zero_required cfg = true -> zero_okb e = true) ->
  exists bs, write_bytes_masked cfg m e s v = Ok bs /\
    forall rest, read_bytes e s (new_struct e s) (bs ++ rest)
                 = Ok (restrict_mask (wmode cfg) e m (TRef (s_name s)) v).
Proof. exact masked_write_bytes. Qed.
Print Assumptions C13_masked_bytes_decode.

(* the pre-count loop of the pinned source (without C13-1-list-set-header-count-loop.patch; its bound
   is the counter it decrements) writes header 2 followed by one element for $.l[3] over four
   elements; the bytes do not decode *)
From Coq Require Import String.
Local Open Scope string_scope.
Definition w_S : sschema := mkstruct (B "a.S") KStruct [mkfield 1 (B "l") Default (TList TI32) None false].
Definition w_E : env := mkenv [w_S] [].
Definition w_v : value := VStruct [(1, VList [VInt 40; VInt 41; VInt 42; VInt 43])].
Definition w_pinned : mcfg := mkcfg false false true.

Theorem C13_list_hdr_count_refuted :
  exists m r, mask_for w_E w_S false [B "$.l[3]"] = Mask.Trie.Ok m /\
    to_wire_masked w_pinned (Some m) w_E w_S w_v = Ok r /\
    r = RStruct [(T_LIST, 1, RList T_I32 2 [RV (WI32 43)])] /\
    counts_ok r = false /\ dec_struct (enc_r r) = None.
Proof.
  eexists. eexists. split; [vm_compute; reflexivity|]. split; [vm_compute; reflexivity|].
  split; [reflexivity|]. split; vm_compute; reflexivity.
Qed.
Print Assumptions C13_list_hdr_count_refuted.

(* the same input with the loop of C13-1-list-set-header-count-loop.patch: count 1, one element, decodes *)
Example C13_list_hdr_count_now :
  exists m r, mask_for w_E w_S false [B "$.l[3]"] = Mask.Trie.Ok m /\
    to_wire_masked (mkcfg false false false) (Some m) w_E w_S w_v = Ok r /\
    counts_ok r = true /\ dec_struct (enc_r r) = Some (WStruct [(T_LIST, 1, WList T_I32 [WI32 43])], []).
Proof.
  eexists. eexists. split; [vm_compute; reflexivity|]. split; [vm_compute; reflexivity|]. split; vm_compute; reflexivity.
Qed.

(* ---- exactly the selected data ---- *)

(* Write under a mask, decoded by a plain peer into a fresh object, is the restriction of the value *)
Theorem C13_masked_write_spec : forall cfg m e s v,
  wf_env e = true -> find_struct e (s_name s) = Some s -> wt e s v = true ->
  (zero_required cfg = true -> zero_okb e = true) ->
  exists r, to_wire_masked cfg m e s v = Ok r /\
            read_new e s (cook r) = Ok (restrict_mask (wmode cfg) e m (TRef (s_name s)) v).
Proof. exact masked_write_value. Qed.
Print Assumptions C13_masked_write_spec.

(* plain Write, Read under a mask into a fresh object: exactly the selected part is stored, the
   rest is skipped without error (filtered required fields do not count as missing) *)
Theorem C13_masked_read_spec : forall cfg m e s v,
  wf_env e = true -> find_struct e (s_name s) = Some s -> wt e s v = true ->
  exists wfs, to_wire e s v = Ok (WStruct wfs) /\
              read_new_masked cfg m e s (WStruct wfs) = Ok (restrict_mask RqDrop e m (TRef (s_name s)) v).
Proof. exact masked_read_value. Qed.
Print Assumptions C13_masked_read_spec.

(* the restriction in terms of a path SET: whenever the mask answers along every position as the
   path-set semantics of C14 does (C14's build_sound: every mask NewFieldMask builds from a
   conflict-free, well-typed path list; black lists without a trailing star), restrict_mask is
   restrict_ps: white list - present iff a path covers the position or runs through it; black
   list - iff no path ends at it or above it; required fields kept / zeroed / dropped *)
Theorem C13_restrict_mask_pathset : forall black ps m rq e t v,
  (forall q, Mask.Trie.walk m q = Mask.Spec.spec_pass black ps q) ->
  restrict_mask rq e m t v = restrict_ps black rq e ps t v.
Proof. exact restrict_mask_pathset. Qed.
Print Assumptions C13_restrict_mask_pathset.

Theorem C13_masked_write_pathset : forall cfg black ps m e s v,
  wf_env e = true -> find_struct e (s_name s) = Some s -> wt e s v = true ->
  (zero_required cfg = true -> zero_okb e = true) ->
  (forall q, Mask.Trie.walk m q = Mask.Spec.spec_pass black ps q) ->
  exists r, to_wire_masked cfg m e s v = Ok r /\
            read_new e s (cook r) = Ok (restrict_ps black (wmode cfg) e ps (TRef (s_name s)) v).
Proof. exact masked_write_pathset. Qed.
Print Assumptions C13_masked_write_pathset.

Theorem C13_masked_read_pathset : forall cfg black ps m e s v,
  wf_env e = true -> find_struct e (s_name s) = Some s -> wt e s v = true ->
  (forall q, Mask.Trie.walk m q = Mask.Spec.spec_pass black ps q) ->
  exists wfs, to_wire e s v = Ok (WStruct wfs) /\
              read_new_masked cfg m e s (WStruct wfs) = Ok (restrict_ps black RqDrop e ps (TRef (s_name s)) v).
Proof. exact masked_read_pathset. Qed.
Print Assumptions C13_masked_read_pathset.

(* the residual path sets of the specification answer, along every position, as Mask.Spec.spec_pass *)
Theorem C13_ps_walk_spec : forall black ps q, ps_walk black ps q = Mask.Spec.spec_pass black ps q.
Proof. exact ps_walk_spec. Qed.
Print Assumptions C13_ps_walk_spec.

(* ---- the nil mask ---- *)

(* a nil mask behaves exactly like code generated without the option: same wire value or same
   error, same bytes; same result of Read for every start object and every input *)
Theorem C13_nil_mask_identity_write : forall cfg e s v,
  map_res cook (to_wire_masked cfg None e s v) = to_wire e s v.
Proof. exact nil_mask_write. Qed.
Print Assumptions C13_nil_mask_identity_write.

Theorem C13_nil_mask_identity_bytes : forall cfg e s v, pinned cfg = false ->
  write_bytes_masked cfg None e s v = write_bytes e s v.
Proof. exact nil_mask_write_bytes. Qed.
Print Assumptions C13_nil_mask_identity_bytes.

Theorem C13_nil_mask_identity_read : forall cfg e s init w,
  from_wire_masked cfg None e s init w = from_wire e s init w.
Proof. exact nil_mask_read. Qed.
Print Assumptions C13_nil_mask_identity_read.

Theorem C13_nil_mask_identity_read_bytes : forall cfg e s init bs,
  read_bytes_masked cfg None e s init bs = read_bytes e s init bs.
Proof. exact nil_mask_read_bytes. Qed.
Print Assumptions C13_nil_mask_identity_read_bytes.

(* '*'-like selection: the nil mask restricts to the plain round trip of property C02 *)
Theorem C13_restrict_nil_mask : forall rq e t v, restrict_mask rq e None t v = norm e t v.
Proof. exact restrict_nil_mask. Qed.
Print Assumptions C13_restrict_nil_mask.

(* ---- sub masks apply recursively ---- *)

Theorem C13_submask_recursive : forall rq e m n s fs,
  find_struct e n = Some s ->
  restrict_mask rq e m (TRef n) (VStruct fs) =
  VStruct (map (fun p =>
     match find_field (fst p) (s_fields s) with
     | Some f =>
         if present f (snd p) && snd (mquery m (QF (f_id f))) then
           (fst p, if base_ptr f
                   then match snd p with VSome x => VSome (restrict_mask rq e (fst (mquery m (QF (f_id f)))) (f_ty f) x) | o => o end
                   else restrict_mask rq e (fst (mquery m (QF (f_id f)))) (f_ty f) (snd p))
         else restrict_fn (option mask) mquery None e rq m s p
     | None => p end) fs).
Proof. exact submask_recursive. Qed.
Print Assumptions C13_submask_recursive.

(* the code: the payload of a selected field is written under the sub mask Field(id) returned
   (Set_FieldMask / Pass_FieldMask) *)
Theorem C13_submask_field : forall cfg e m s f x,
  find_field (f_id f) (s_fields s) = Some f -> present f x = true -> base_ptr f = false ->
  snd (mquery m (QF (f_id f))) = true ->
  wfield_m (option mask) mquery mlive None mall cfg e m s (f_id f, x) =
  bind (to_wm_mask cfg e (fst (mquery m (QF (f_id f)))) (f_ty f) x)
       (fun r => Ok (Some (ttype_of e (f_ty f), f_id f, r))).
Proof. exact submask_field. Qed.
Print Assumptions C13_submask_field.

(* ---- end to end: masks built by NewFieldMask from a path list of C14's domain ----

   in_mask_domain e s black strs ps gs: the path strings strs are the renderings of the syntax
   trees ps, which are grammatical and typed against the descriptor of struct s (elaboration gs)
   and conflict free; black lists have no path ending with a star.  C14's build_sound
   (Mask/C14Facts.v) supplies "the mask answers as the path set does"; no premise about the mask
   is left. *)

(* for every schema, well-typed value and in-domain path list: NewFieldMask succeeds, Write under
   the mask succeeds, and the bytes (followed by anything) decode, for a plain peer reading into a
   fresh object, to the value restricted to the path SET *)
Theorem C13_masked_write_end_to_end : forall cfg e s black strs ps gs v,
  pinned cfg = false -> wf_env e = true -> find_struct e (s_name s) = Some s -> wt e s v = true ->
  (zero_required cfg = true -> zero_okb e = true) ->
  in_mask_domain e s black strs ps gs ->
  exists m bs, mask_for e s black strs = Mask.Trie.Ok m /\
    write_bytes_masked cfg (Some m) e s v = Ok bs /\
    forall rest, read_bytes e s (new_struct e s) (bs ++ rest)%list
                 = Ok (restrict_ps black (wmode cfg) e (Mask.Spec.path_set gs) (TRef (s_name s)) v).
Proof. exact masked_write_end_to_end. Qed.
Print Assumptions C13_masked_write_end_to_end.

Theorem C13_masked_read_end_to_end : forall cfg e s black strs ps gs v,
  wf_env e = true -> find_struct e (s_name s) = Some s -> wt e s v = true ->
  in_mask_domain e s black strs ps gs ->
  exists m bs, mask_for e s black strs = Mask.Trie.Ok m /\
    write_bytes e s v = Ok bs /\
    forall rest, read_bytes_masked cfg (Some m) e s (new_struct e s) (bs ++ rest)%list
                 = Ok (restrict_ps black RqDrop e (Mask.Spec.path_set gs) (TRef (s_name s)) v).
Proof. exact masked_read_end_to_end. Qed.
Print Assumptions C13_masked_read_end_to_end.

Theorem C13_restrict_built_pathset : forall e s black strs ps gs rq t v,
  in_mask_domain e s black strs ps gs ->
  exists m, mask_for e s black strs = Mask.Trie.Ok m /\
            restrict_mask rq e (Some m) t v = restrict_ps black rq e (Mask.Spec.path_set gs) t v.
Proof. exact restrict_built_pathset. Qed.
Print Assumptions C13_restrict_built_pathset.

(* ---- Read under a mask on ARBITRARY wire input ----

   For any bytes that the plain code reads into a fresh object (unknown fields, duplicates, any
   field order, trailing bytes), Read under ANY mask succeeds as well - the rest is skipped without
   error, filtered required fields are not reported missing - and stores exactly what a plain
   reader with no field required reads from the message restricted to the mask (filter_w). *)
Theorem C13_masked_read_any_bytes : forall cfg m e s bs v0,
  find_struct e (s_name s) = Some s ->
  read_bytes e s (new_struct e s) bs = Ok v0 ->
  exists v w rest, dec_struct bs = Some (w, rest) /\
    read_bytes_masked cfg m e s (new_struct e s) bs = Ok v /\
    read_new (relax e) (relax_s s) (filter_w_mask e m (TRef (s_name s)) w) = Ok v.
Proof. exact masked_read_any_bytes. Qed.
Print Assumptions C13_masked_read_any_bytes.

(* the same for EVERY start object (Read into an object that already holds values), wire level *)
Theorem C13_masked_read_any_init : forall cfg m e s fs0 wfs v0,
  find_struct e (s_name s) = Some s ->
  from_wire e s (VStruct fs0) (WStruct wfs) = Ok v0 ->
  exists v, from_wire_masked cfg m e s (VStruct fs0) (WStruct wfs) = Ok v /\
            from_wire (relax e) (relax_s s) (VStruct fs0)
                      (filter_w_mask e m (TRef (s_name s)) (WStruct wfs)) = Ok v.
Proof. exact masked_read_any_init. Qed.
Print Assumptions C13_masked_read_any_init.

(* the two halves for every wire value, every type and every mask *)
Theorem C13_masked_read_total : forall e w t v, from_w e t w = Ok v ->
  forall m, exists v', from_wm_mask e m t w = Ok v'.
Proof. intros e w t v H m. exact (from_wm_total (option mask) mquery e w t v H m). Qed.
Print Assumptions C13_masked_read_total.

Theorem C13_masked_read_filter : forall e w t m v, from_wm_mask e m t w = Ok v ->
  from_w (relax e) t (filter_w_mask e m t w) = Ok v.
Proof. intros e w t m v H. exact (from_wm_filter (option mask) mquery None mquery_nil e w t m v H). Qed.
Print Assumptions C13_masked_read_filter.

(* why the specification is the restricted MESSAGE and not the restriction of the value a plain Read
   yields: a field that is absent from the message keeps its start value whole *)
Definition w_D : sschema :=
  mkstruct (B "a.D") KStruct [mkfield 1 (B "l") Default (TList TI32) (Some (LList [LInt 1; LInt 2; LInt 3])) false].
Definition w_ED : env := mkenv [w_D] [].

Theorem C13_restrict_of_plain_read_refuted :
  exists m v v', mask_for w_ED w_D false [B "$.l[0]"] = Mask.Trie.Ok m /\
    read_new w_ED w_D (WStruct []) = Ok v /\
    read_new_masked (mkcfg false false false) (Some m) w_ED w_D (WStruct []) = Ok v' /\
    v' = VStruct [(1, VList [VInt 1; VInt 2; VInt 3])] /\
    restrict_mask RqDrop w_ED (Some m) (TRef (s_name w_D)) v = VStruct [(1, VList [VInt 1])].
Proof.
  eexists. eexists. eexists. split; [vm_compute; reflexivity|]. split; [vm_compute; reflexivity|].
  split; [vm_compute; reflexivity|]. split; vm_compute; reflexivity.
Qed.
Print Assumptions C13_restrict_of_plain_read_refuted.

(* ---- field_mask_halfway on objects that carry sub masks ----

   second_write cfg m1 m2: x.Set_FieldMask(m1); x.Write; x.Set_FieldMask(m2); x.Write on a fresh x -
   the second Write (Wire/MaskedHalfway.v; compared with the real code on every run). *)

(* default code: the second Write is a Write under m2, whatever came before *)
Theorem C13_second_write_default : forall cfg m1 m2 e s v, halfway cfg = false ->
  second_write cfg m1 m2 e s v = to_wire_masked cfg m2 e s v.
Proof. exact second_write_default. Qed.
Print Assumptions C13_second_write_default.

(* halfway, fresh sub objects (first Write under the nil mask, or none): as the default code *)
Theorem C13_second_write_after_nil : forall cfg m2 e s fs, find_struct e (s_name s) = Some s ->
  second_write cfg None m2 e s (VStruct fs) = to_wire_masked cfg m2 e s (VStruct fs).
Proof. exact second_write_after_nil. Qed.
Print Assumptions C13_second_write_after_nil.

Theorem C13_to_wm_again_fresh : forall cfg e s2 t v, to_wm_again cfg e None s2 t v = to_wm_mask cfg e s2 t v.
Proof. exact to_wm_again_fresh. Qed.
Print Assumptions C13_to_wm_again_fresh.

(* halfway, known finding C13-halfway-stale-submask: after a Write under $.li[0].x the nil mask does
   NOT behave like code generated without the option: li[0] is still written with x only *)
Definition w_In : sschema :=
  mkstruct (B "a.In") KStruct [mkfield 1 (B "x") Default TI32 None false; mkfield 2 (B "y") Default TI32 None false].
Definition w_H : sschema := mkstruct (B "a.H") KStruct [mkfield 1 (B "li") Default (TList (TRef (B "a.In"))) None false].
Definition w_EH : env := mkenv [w_In; w_H] [].
Definition w_vH : value :=
  VStruct [(1, VList [VStruct [(1, VInt 7); (2, VInt 8)]; VStruct [(1, VInt 9); (2, VInt 10)]])].
Definition w_halfway : mcfg := mkcfg true false false.

Theorem C13_halfway_nil_mask_refuted :
  exists m1 r w, mask_for w_EH w_H false [B "$.li[0].x"] = Mask.Trie.Ok m1 /\
    second_write w_halfway (Some m1) None w_EH w_H w_vH = Ok r /\
    to_wire w_EH w_H w_vH = Ok w /\
    cook r = WStruct [(T_LIST, 1, WList T_STRUCT
                         [WStruct [(T_I32, 1, WI32 7)];
                          WStruct [(T_I32, 1, WI32 9); (T_I32, 2, WI32 10)]])] /\
    cook r <> w.
Proof.
  eexists. eexists. eexists. split; [vm_compute; reflexivity|]. split; [vm_compute; reflexivity|].
  split; [vm_compute; reflexivity|]. split; [vm_compute; reflexivity|]. vm_compute. discriminate.
Qed.
Print Assumptions C13_halfway_nil_mask_refuted.

(* ---- field_mask_halfway: a mask the user set on a non-root struct value ----

   to_wm_own cfg e path m_own st n v (Wire/MaskedOwn.v; compared with the real code on every run,
   driver verb mwrite_own): Write of the struct value v under st, when the sub object reached through
   the struct-typed fields [path] had Set_FieldMask(m_own) called on it. *)

(* with the option, the sub object is written exactly as a root object carrying m_own, whatever its
   parent passes: every theorem above about Write under a mask applies to it *)
Theorem C13_own_mask_halfway_at : forall cfg e m st n fs, halfway cfg = true ->
  to_wm_own cfg e [] (Some m) st n (VStruct fs) = to_wm_mask cfg e (Some m) (TRef n) (VStruct fs).
Proof. exact own_mask_halfway_at. Qed.
Print Assumptions C13_own_mask_halfway_at.

Theorem C13_own_mask_wins : forall cfg e m st n fs,
  to_wm_again cfg e (Some m) st (TRef n) (VStruct fs) = to_wm_mask cfg e (Some m) (TRef n) (VStruct fs).
Proof. exact own_mask_wins. Qed.
Print Assumptions C13_own_mask_wins.

Theorem C13_to_wm_again_same : forall cfg e m t v, to_wm_again cfg e m m t v = to_wm_mask cfg e m t v.
Proof. exact to_wm_again_same. Qed.
Print Assumptions C13_to_wm_again_same.

(* without the option the mask set on the sub object has no effect at all, for every path *)
Theorem C13_own_mask_default_ignored : forall cfg e m_own, halfway cfg = false ->
  forall path st n v, to_wm_own cfg e path m_own st n v = to_wm_mask cfg e st (TRef n) v.
Proof. exact own_mask_default_ignored. Qed.
Print Assumptions C13_own_mask_default_ignored.

(* a nil mask on the sub object: as if nothing had been set, with or without the option *)
Theorem C13_own_mask_nil : forall cfg e path st n v,
  to_wm_own cfg e path None st n v = to_wm_mask cfg e st (TRef n) v.
Proof. exact own_mask_nil. Qed.
Print Assumptions C13_own_mask_nil.

(* both at once on a concrete object: H2{1: In i}, i.Set_FieldMask($.x), root mask nil *)
Definition w_H2 : sschema := mkstruct (B "a.H2") KStruct [mkfield 1 (B "i") Default (TRef (B "a.In")) None false].
Definition w_EH2 : env := mkenv [w_In; w_H2] [].
Definition w_vH2 : value := VStruct [(1, VStruct [(1, VInt 7); (2, VInt 8)])].

Example C13_own_mask_example :
  exists m r1 r2, mask_for w_EH2 w_In false [B "$.x"] = Mask.Trie.Ok m /\
    write_with_own w_halfway None [1] (Some m) w_EH2 w_H2 w_vH2 = Ok r1 /\
    cook r1 = WStruct [(T_STRUCT, 1, WStruct [(T_I32, 1, WI32 7)])] /\
    write_with_own (mkcfg false false false) None [1] (Some m) w_EH2 w_H2 w_vH2 = Ok r2 /\
    cook r2 = WStruct [(T_STRUCT, 1, WStruct [(T_I32, 1, WI32 7); (T_I32, 2, WI32 8)])].
Proof.
  eexists. eexists. eexists. split; [vm_compute; reflexivity|]. split; [vm_compute; reflexivity|].
  split; [vm_compute; reflexivity|]. split; vm_compute; reflexivity.
Qed.

(* ---- the hypotheses are satisfiable ---- *)

Example C13_mask_domain_inhabited :
  exists gs, in_mask_domain w_E w_S false [B "$.l[3]"] [[Mask.Spec.PName (B "l"); Mask.Spec.PIdx [3]]] gs.
Proof. eexists. unfold in_mask_domain. repeat apply conj; vm_compute; reflexivity. Qed.


Example C13_domain_inhabited :
  wf_env w_E = true /\ find_struct w_E (s_name w_S) = Some w_S /\ wt w_E w_S w_v = true /\ zero_okb w_E = true.
Proof. vm_compute. repeat split; reflexivity. Qed.
