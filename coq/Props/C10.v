(* Props/C10.v — property C10: the fastgo codec agrees with the standard codec and BLength is exact.
   Statements only; proofs are in Wire/FastFacts.v, FastReadFacts.v, FastStdFacts.v, FastBitsetFacts.v,
   FastBitsetLink.v and FastRoundTrip.v.

   Model: Wire/Fast.v (blength, fast_append, fast_read: three separate functions that follow
   generator/fastgo/gen_blength.go, gen_fastwrite.go and gen_fastread.go; tied to the compiled output of
   `thriftgo -g fastgo` by the correspondence of Corr/C10.v on every run), Wire/Std.v (the standard
   generated codec, property C02), Wire/Codec.v (binary protocol), Wire/GenTables.v and
   Wire/FastTables.v (the three tables of generator/fastgo/consts.go, regenerated from /repo on every
   run: wire_size, wire_type and elem_const go through them, so a changed entry breaks these proofs).
   The statements also use sortw (Wire/Fast.v), conforms and skippable (Wire/StdFacts.v), uniqb
   (Wire/FastStdFacts.v) and req_ids (Wire/FastBitsetLink.v). *)
From Coq Require Import List ZArith Bool Lia.
From Coq.Strings Require Import Byte.
From Verif Require Import Base.Bytes Base.BE Wire.TType Wire.WVal Wire.Codec Wire.CodecFacts
  Wire.Schema Wire.Value Wire.Std Wire.StdFacts Wire.Fast Wire.FastFacts Wire.FastReadFacts Wire.FastStdFacts
  Wire.FastBitset Wire.FastBitsetFacts Wire.FastBitsetLink Wire.FastRoundTrip.
Import ListNotations.
Open Scope Z_scope.

(* ---- the tables of consts.go say what Thrift prescribes ---- *)

Theorem C10_wire_type_spec : forall e t, wire_type e t = code (spec_ttype t).
Proof. exact wire_type_spec. Qed.
Print Assumptions C10_wire_type_spec.

Theorem C10_elem_const_spec : forall e t, elem_const e t = code (spec_ttype t).
Proof. exact elem_const_spec. Qed.
Print Assumptions C10_elem_const_spec.

(* ---- BLength is exact: every schema, every struct-like, EVERY value (no typing premise: also unions
        with any number of members set, sets with duplicates, nil pointers anywhere) ---- *)

Theorem C10_blength_exact : forall e s v, blength e s v = Z.of_nat (length (fast_append e s v)).
Proof. exact blength_exact. Qed.
Print Assumptions C10_blength_exact.

(* the same at every type (field payloads, elements, keys) *)
Theorem C10_blength_exact_any_type : forall e v t, bl_val e t v = Z.of_nat (length (fa_val e t v)).
Proof. exact bl_val_exact. Qed.
Print Assumptions C10_blength_exact_any_type.

(* ---- FastAppend writes the binary-protocol encoding of what the standard Write emits, with the
        fields of every struct (at every level) in ascending id order ---- *)

Theorem C10_fast_append_is_std : forall e s v w,
  to_wire e s v = Ok w -> fast_append e s v = enc (sortw w).
Proof. exact fast_append_is_std. Qed.
Print Assumptions C10_fast_append_is_std.

Theorem C10_fast_append_is_std_any_type : forall e v t w,
  to_w e t v = Ok w -> fa_val e t v = enc (sortw w).
Proof. exact fa_val_is_std. Qed.
Print Assumptions C10_fast_append_is_std_any_type.

(* ---- ... and that encoding is read back as the value: for every schema (wf_env), struct-like and
        well-typed value, the bytes of FastAppend are the encoding of a well-formed wire struct w — the
        reference decoder returns it, whatever follows — and the standard generated Read, started from
        NewX(), turns them into the value (its normal form norm_struct: exactly what the standard
        Write/Read round trip of C02 shows) ---- *)

Theorem C10_fast_append_std_read : forall e s v,
  wf_env e = true -> find_struct e (s_name s) = Some s -> wt e s v = true ->
  exists w, wf w /\
    (forall rest, dec_struct (fast_append e s v ++ rest) = Some (w, rest)) /\
    read_new e s w = Ok (norm_struct e s v) /\
    (forall rest, read_bytes e s (new_struct e s) (fast_append e s v ++ rest) = Ok (norm_struct e s v)).
Proof. exact fast_append_std_read. Qed.
Print Assumptions C10_fast_append_std_read.

(* the standard Read does not depend on the order of the fields of a struct, at any level, when the ids of
   each struct are distinct and the read succeeds (why FastAppend may sort them) *)
Theorem C10_std_read_order_independent : forall e w t v,
  uniqb w = true -> from_w e t w = Ok v -> from_w e t (sortw w) = Ok v.
Proof. exact (fun e w => from_w_sortw e w). Qed.
Print Assumptions C10_std_read_order_independent.

(* ---- gopkg's Skip (as transcribed in fskip) consumes exactly a well-formed encoding of at most its
        depth limit ---- *)

Theorem C10_skip_enc : forall x r, wf x -> (depth x <= default_recursion_depth)%nat ->
  fskip_top (code (wtype x)) (enc x ++ r) = FOk (Z.of_nat (length (enc x))).
Proof. exact fskip_top_enc. Qed.
Print Assumptions C10_skip_enc.

(* ---- FastRead = the standard Read. For every schema e (ids unique: wf_env), every struct-like s, every
        start object, and every well-formed wire struct w nested at most 64 deep — whatever schema its
        writer had, so unknown ids and known ids with another wire type are included: on the bytes of w,
        followed by anything,
          the standard Read yields an object        => FastRead yields the same object and has consumed
                                                      exactly the encoding;
          the standard Read reports a missing
          required field                            => FastRead reports a missing required field
                                                      (the same error class; the two readers may name
                                                      different fields: declaration order / id order).
        Nothing is claimed for the other answers of the standard model: EHeader (a field the reader
        knows carries a container whose header contradicts the schema: outside the modelled behaviour
        of both), EBadValue (the object read into is not a struct value) and EUnknownStruct (the schema
        names a struct the env does not have). ---- *)

Theorem C10_fast_read_eq_std_read : forall e s init wfs rest v,
  wf_env e = true -> wf_struct s = true -> wf (WStruct wfs) ->
  (depth (WStruct wfs) <= default_recursion_depth)%nat ->
  read_bytes e s init (enc (WStruct wfs) ++ rest) = Ok v ->
  fast_read e s init (enc (WStruct wfs) ++ rest) = FOk (v, Z.of_nat (length (enc (WStruct wfs)))).
Proof. exact fast_read_eq_std_read. Qed.
Print Assumptions C10_fast_read_eq_std_read.

Theorem C10_fast_read_required_missing : forall e s init wfs rest id,
  wf_env e = true -> wf_struct s = true -> wf (WStruct wfs) ->
  (depth (WStruct wfs) <= default_recursion_depth)%nat ->
  read_bytes e s init (enc (WStruct wfs) ++ rest) = Err (ERequiredMissing id) ->
  exists id', fast_read e s init (enc (WStruct wfs) ++ rest) = FErr (FRequired id').
Proof. exact fast_read_required_missing. Qed.
Print Assumptions C10_fast_read_required_missing.

(* the same at every type, on wire values: FastRead of a field payload / element / key *)
Theorem C10_fast_read_any_type : forall e, wf_env e = true -> forall w fuel t,
  wf w -> (depth w <= fuel)%nat -> (depth w <= default_recursion_depth)%nat -> wtype w = spec_ttype t ->
  match from_w e t w with
  | Ok v => forall rest, fr_val fuel e t (enc w ++ rest) = FOk (v, rest)
  | Err (ERequiredMissing _) => forall rest, exists id, fr_val fuel e t (enc w ++ rest) = FErr (FRequired id)
  | Err _ => True
  end.
Proof. exact (fun e H w => fr_val_from_w e H w). Qed.
Print Assumptions C10_fast_read_any_type.

(* tolerance: fields the reader must skip do not change the object *)
Theorem C10_fast_read_ignores_unknown : forall e s init wfs rest v,
  wf_env e = true -> wf_struct s = true -> wf (WStruct wfs) ->
  (depth (WStruct wfs) <= default_recursion_depth)%nat ->
  from_wire e s init (WStruct (filter (fun wf => negb (skippable e s wf)) wfs)) = Ok v ->
  fast_read e s init (enc (WStruct wfs) ++ rest) = FOk (v, Z.of_nat (length (enc (WStruct wfs)))).
Proof. exact fast_read_ignores_unknown. Qed.
Print Assumptions C10_fast_read_ignores_unknown.

(* ---- the fast codec end to end. For every schema (wf_env), struct-like and well-typed value whose wire form
        nests at most 64 deep: FastRead, started from NewX(), of the bytes FastAppend wrote — followed by
        anything — yields the value (its normal form: the object the standard Write/Read round trip of C02
        yields) and has consumed exactly BLength() bytes. (The depth premise is inherited from
        fast_read_eq_std_read; no field is skipped here. Sorting the fields keeps the depth: depth_sortw.) ---- *)

Theorem C10_fast_round_trip : forall e s v w,
  wf_env e = true -> find_struct e (s_name s) = Some s -> wt e s v = true ->
  to_wire e s v = Ok w -> (depth w <= default_recursion_depth)%nat ->
  forall rest, fast_read e s (new_struct e s) (fast_append e s v ++ rest) = FOk (norm_struct e s v, blength e s v).
Proof. exact fast_round_trip_depth. Qed.
Print Assumptions C10_fast_round_trip.

(* ---- the required-field bit set (generator/fastgo/bitset.go; model Wire/FastBitset.v, tied to the emitted text
        for n = 0 .. 72 by the correspondence). For EVERY number n of required fields and every collection of
        fields read (any order, repeats allowed): the tests GenIfNotSet emits, run on the words the GenSetbit
        statements produced, report exactly the first added field that was not read; in particular they report
        something iff some required field is unset. ---- *)

Theorem C10_bitset_tests_spec : forall n seen, Forall (fun j => (j < n)%nat) seen ->
  run (state n seen) (gen_if_not_set n) = first_unset n seen.
Proof. exact gen_if_not_set_spec. Qed.
Print Assumptions C10_bitset_tests_spec.

Theorem C10_bitset_tests_fire_iff : forall n seen, Forall (fun j => (j < n)%nat) seen ->
  (exists v, run (state n seen) (gen_if_not_set n) = Some v) <-> (exists i, (i < n)%nat /\ ~ In i seen).
Proof. exact gen_if_not_set_fires_iff. Qed.
Print Assumptions C10_bitset_tests_fire_iff.

(* ... and that is the required-field check of the reader model: fields are added in id order, so the emitted
   code names the first missing required field in id order, which is Fast.fast_first_missing *)
Theorem C10_bitset_is_first_missing : forall s seen,
  wf_struct s = true -> Forall (fun id => In id (req_ids s)) seen ->
  bitset_first_missing s seen = fast_first_missing s seen.
Proof. exact bitset_first_missing_wf. Qed.
Print Assumptions C10_bitset_is_first_missing.

(* ---- truncated input. Every proper prefix of an encoding of a value of the struct itself — every field known
        to the reader and typed as its schema says (conforms: what to_wire produces, StdFacts.to_w_conforms),
        readable — is refused as too short: error class INVALID_DATA, in particular none of the panic
        classes. (For encodings that carry fields the reader must skip this is false: see the refutations
        below.) ---- *)

Theorem C10_fast_read_prefix_error : forall e s fs0 wfs v m,
  wf_env e = true -> find_struct e (s_name s) = Some s -> wf (WStruct wfs) ->
  (depth (WStruct wfs) <= default_recursion_depth)%nat ->
  conforms e (TRef (s_name s)) (WStruct wfs) = true ->
  from_wire e s (VStruct fs0) (WStruct wfs) = Ok v ->
  (m < length (enc (WStruct wfs)))%nat ->
  fast_read e s (VStruct fs0) (firstn m (enc (WStruct wfs))) = FErr FShort.
Proof. exact fast_read_prefix_error. Qed.
Print Assumptions C10_fast_read_prefix_error.

(* the same at every type *)
Theorem C10_fast_read_prefix_error_any_type : forall e, wf_env e = true -> forall w fuel t v,
  wf w -> (depth w <= default_recursion_depth)%nat -> conforms e t w = true -> from_w e t w = Ok v ->
  forall m, (m < length (enc w))%nat -> (m < fuel)%nat -> fr_val fuel e t (firstn m (enc w)) = FErr FShort.
Proof. exact (fun e H w => fr_val_prefix e H w). Qed.
Print Assumptions C10_fast_read_prefix_error_any_type.

(* ---- totality of the model: on EVERY byte string (any truncation, any corruption) and every start
        object fast_read answers with an object or with one of the error classes of the generated code;
        its own out-of-fuel answer is never given. Which of the classes are Go panics (FOverrun, FIndex)
        is stated by the refutations below; that the compiled code does what the model says is the
        correspondence of Corr/C10.v. ---- *)

Theorem C10_fast_read_total : forall e s init bs, fast_read e s init bs <> FErr FFuel.
Proof. exact fast_read_total. Qed.
Print Assumptions C10_fast_read_total.

(* ---- "returns an error instead of panicking" does NOT hold for the unchanged code: gopkg's Skip panics
        in two ways (index out of range, slice bounds), exhibited by the first three theorems on the model
        (and on the compiled code by the correspondence corpus); the fourth is about an allocation, not a
        panic ---- *)

(* one corrupted type byte (08 -> ff): Skip indexes typeToSize with a negative TType *)
Theorem C10_fast_read_corrupted_type_byte_refuted :
  exists e s v bs, wt e s v = true /\ fast_append e s v = x08 :: bs /\
                   fast_read e s (new_struct e s) (fast_append e s v) = FOk (v, Z.of_nat (length (fast_append e s v))) /\
                   fast_read e s (new_struct e s) (xff :: bs) = FErr FIndex.
Proof. exact fast_read_corrupted_type_byte_refuted. Qed.
Print Assumptions C10_fast_read_corrupted_type_byte_refuted.

(* a proper prefix of an accepted encoding that carries an unknown map<string,i64> field: Skip reports
   more bytes than its buffer has *)
Theorem C10_fast_read_truncated_refuted :
  exists e s w n, wf w /\ (n < length (enc w))%nat /\
                  (exists v, fast_read e s (new_struct e s) (enc w) = FOk (v, Z.of_nat (length (enc w)))) /\
                  fast_read e s (new_struct e s) (firstn n (enc w)) = FErr FOverrun.
Proof. exact fast_read_truncated_refuted. Qed.
Print Assumptions C10_fast_read_truncated_refuted.

(* one corrupted type byte (0c -> 0d) of an encoding of the struct's own value: the same overrun *)
Theorem C10_fast_read_corrupted_overrun_refuted :
  exists e s v bs, wt e s v = true /\ fast_append e s v = x0c :: bs /\
                   fast_read e s (new_struct e s) (x0d :: bs) = FErr FOverrun.
Proof. exact fast_read_corrupted_overrun_refuted. Qed.
Print Assumptions C10_fast_read_corrupted_overrun_refuted.

(* a container size taken from the input is accepted although nothing follows it: make(T, 2147483647) is
   executed before the first element read fails. The model answers with the error; under a memory limit the
   Go runtime aborts the process instead (the standard generated Read allocates alike) *)
Theorem C10_fast_read_hostile_size_refuted :
  exists e s bs n r,
    fast_read e s (new_struct e s) bs = FErr FShort /\
    rd_list_begin (skipn 3 bs) = FOk (n, r) /\ n = 2147483647 /\ r = [].
Proof.
  destruct fast_read_hostile_size_refuted as (e & s & bs & H1 & H2).
  exists e, s, bs, 2147483647, []. auto.
Qed.
Print Assumptions C10_fast_read_hostile_size_refuted.
