(* Props/C15.v — property C15: reflection descriptors describe the IDL exactly.
   Statements only; the proofs are in Idl/ReflectFacts.v and, for the three statements about resolved
   programs (resolve_keeps_defs, qualified_type_lookup_right, base_service_lookup_right), in
   Idl/ReflectResolveFacts.v.

   Model: Idl/Reflect.v
     descriptor_of            thrift_reflection.GetFileDescriptor (after the repair
                              proposed_fixes/C15-namespaces-first-wins and C15-include-prefix-any-extension)
     project_a / project_d    the items the property names, read off the AST (the specification) and
                              off a descriptor: names, field ids, requiredness, type expressions with
                              key / value types, default values, enum numbers, annotations key -> all
                              values, comments, base service, oneway, includes, namespaces; per
                              definition kind, in source order
     enc_fdesc / dec_fdesc    meta.Marshal / meta.Unmarshal as the Thrift binary encoding at the schema
                              T-thrift regenerates from descriptor.thrift (Wire/SchemaDescriptor.v)
     marshal / unmarshal      the same through gzip (a pair of functions with unzip (zip x) = Some x)
     registry_of, get_* , lookup_*, type_target   RegisterAST and the lookups
     go_type_table            registerGoTypes and the by-Go-type maps
   tied to /repo on every run by Corr/C15.v (in process and through compiled generated code).

   Premises are decidable tests:
     file_annos_ok f       the annotations of every node have pairwise distinct keys (what the parser
                           builds: Annotations.Append groups repeated keys)
     distinct_basenames f  no two includes of f have the same base name
     includes_named f      no include has an empty file name or prefix
     includes_plain f      every include was parsed and the file found has the base name the statement wrote
     prog_ok P             every file once, under its own Filename
     fdesc_ok d            the maps of d have pairwise distinct keys (Go maps), type numbers fit 32 bits
     wfb (enc_fdesc d)     strings / lists shorter than 2^31, the field ids d lists in 32 bits, its enum
                           values and integer constants in 64: d fits the wire format *)
From Coq Require Import List Bool.
From Verif Require Import Base.Bytes Wire.WVal Idl.Ast Idl.AstUtil Idl.Resolve Idl.ResolveSpec Idl.Reflect Idl.ReflectFacts
  Idl.ReflectResolveFacts.
Import ListNotations.
Local Open Scope list_scope.

(* the descriptor states exactly what the IDL states *)

Theorem C15_descriptor_faithful : forall f,
  file_annos_ok f = true -> distinct_basenames f = true -> includes_plain f = true ->
  project_d (descriptor_of f) = project_a f.
Proof. exact descriptor_faithful. Qed.
Print Assumptions C15_descriptor_faithful.

(* everything but the includes, for every file (also with two includes of one base name) *)
Theorem C15_descriptor_faithful_definitions : forall f,
  file_annos_ok f = true -> forget_includes (project_d (descriptor_of f)) = forget_includes (project_a f).
Proof. exact descriptor_faithful_definitions. Qed.
Print Assumptions C15_descriptor_faithful_definitions.

(* a difference in anything the property names shows in the descriptor *)
Theorem C15_descriptor_of_injective_on_projection : forall f g,
  file_annos_ok f = true -> distinct_basenames f = true -> includes_plain f = true ->
  file_annos_ok g = true -> distinct_basenames g = true -> includes_plain g = true ->
  descriptor_of f = descriptor_of g -> project_a f = project_a g.
Proof. exact descriptor_of_injective_on_projection. Qed.
Print Assumptions C15_descriptor_of_injective_on_projection.

(* and the descriptor holds nothing else: it is a function of these items *)
Theorem C15_descriptor_from_facts : forall f,
  file_annos_ok f = true -> distinct_basenames f = true -> includes_plain f = true ->
  descriptor_of f = fdesc_of_facts (project_a f).
Proof. exact descriptor_from_facts. Qed.
Print Assumptions C15_descriptor_from_facts.

Theorem C15_descriptor_determined_by_projection : forall f g,
  file_annos_ok f = true -> distinct_basenames f = true -> includes_plain f = true ->
  file_annos_ok g = true -> distinct_basenames g = true -> includes_plain g = true ->
  project_a f = project_a g -> descriptor_of f = descriptor_of g.
Proof. exact descriptor_determined_by_projection. Qed.
Print Assumptions C15_descriptor_determined_by_projection.

(* the namespace map is the one thriftgo itself reads from the header: first line of a language,
   last line of "*" — for every file *)
Theorem C15_namespaces_faithful : forall f, namespaces_map f = namespaces_x f.
Proof. exact namespaces_faithful. Qed.
Print Assumptions C15_namespaces_faithful.

Theorem C15_includes_faithful : forall f,
  distinct_basenames f = true -> includes_plain f = true -> includes_map f = includes_x f.
Proof. exact includes_faithful. Qed.
Print Assumptions C15_includes_faithful.

(* KNOWN FINDING: with two includes of one base name the descriptor does not state the includes *)
Theorem C15_includes_same_basename_refuted :
  exists f, file_annos_ok f = true /\ includes_plain f = true /\ distinct_basenames f = false /\
            x_includes (project_d (descriptor_of f)) <> x_includes (project_a f).
Proof. exact includes_same_basename_refuted. Qed.
Print Assumptions C15_includes_same_basename_refuted.

(* encoding a file descriptor and decoding it again is the identity *)

(* for EVERY descriptor (not only those GetFileDescriptor builds) *)
Theorem C15_wire_roundtrip : forall d, fdesc_ok d = true -> dec_fdesc (enc_fdesc d) = Some d.
Proof. exact fdesc_rt. Qed.
Print Assumptions C15_wire_roundtrip.

Theorem C15_meta_roundtrip : forall d rest,
  fdesc_ok d = true -> wfb (enc_fdesc d) = true -> meta_unmarshal (meta_marshal d ++ rest) = Some d.
Proof. exact meta_roundtrip. Qed.
Print Assumptions C15_meta_roundtrip.

Theorem C15_marshal_roundtrip : forall (zip : bytes -> bytes) (unzip : bytes -> option bytes),
  (forall x, unzip (zip x) = Some x) ->
  forall d, fdesc_ok d = true -> wfb (enc_fdesc d) = true -> unmarshal unzip (marshal zip d) = Some d.
Proof. exact marshal_roundtrip. Qed.
Print Assumptions C15_marshal_roundtrip.

(* Go maps have no order.  fdesc_equiv: equal up to the order in which the entries of the maps
   (annotations, includes, namespaces, Extra, value_map) are listed, at every level — an equivalence
   relation, and equivalent descriptors are in the domain of the round trip together *)
Theorem C15_fdesc_equiv_equivalence :
  (forall d, fdesc_equiv d d) /\ (forall a b, fdesc_equiv a b -> fdesc_equiv b a) /\
  (forall a b c, fdesc_equiv a b -> fdesc_equiv b c -> fdesc_equiv a c).
Proof. destruct fdesc_equiv_equiv as [R S T]. exact (conj R (conj S T)). Qed.
Print Assumptions C15_fdesc_equiv_equivalence.

Theorem C15_fdesc_ok_equiv : forall a b, fdesc_equiv a b -> fdesc_ok a = true -> fdesc_ok b = true.
Proof. exact fdesc_ok_equiv. Qed.
Print Assumptions C15_fdesc_ok_equiv.

(* decoding the encoding of ANY entry-order permutation d' of the maps of a descriptor d (whatever
   order the writer picks: the real one sorts by encoded key) yields a descriptor equivalent to d *)
Theorem C15_wire_roundtrip_any_order : forall d d',
  fdesc_ok d = true -> fdesc_equiv d d' ->
  exists d'', dec_fdesc (enc_fdesc d') = Some d'' /\ fdesc_equiv d'' d.
Proof. exact wire_roundtrip_any_order. Qed.
Print Assumptions C15_wire_roundtrip_any_order.

(* equivalent descriptors fit the wire widths together, so the premises speak about d only *)
Theorem C15_fdesc_wf_equiv : forall a b, fdesc_equiv a b -> wf (enc_fdesc a) -> wf (enc_fdesc b).
Proof. exact fdesc_wf_equiv. Qed.
Print Assumptions C15_fdesc_wf_equiv.

Theorem C15_meta_roundtrip_any_order : forall d d' rest,
  fdesc_ok d = true -> wfb (enc_fdesc d) = true -> fdesc_equiv d d' ->
  exists d'', meta_unmarshal (meta_marshal d' ++ rest) = Some d'' /\ fdesc_equiv d'' d.
Proof. exact meta_roundtrip_any_order. Qed.
Print Assumptions C15_meta_roundtrip_any_order.

Theorem C15_marshal_roundtrip_any_order : forall (zip : bytes -> bytes) (unzip : bytes -> option bytes),
  (forall x, unzip (zip x) = Some x) ->
  forall d d', fdesc_ok d = true -> wfb (enc_fdesc d) = true -> fdesc_equiv d d' ->
  exists d'', unmarshal unzip (marshal zip d') = Some d'' /\ fdesc_equiv d'' d.
Proof. exact marshal_roundtrip_every_order. Qed.
Print Assumptions C15_marshal_roundtrip_any_order.

(* every descriptor GetFileDescriptor builds is in the domain of the round trip *)
Theorem C15_descriptor_of_ok : forall f, fdesc_ok (descriptor_of f) = true.
Proof. exact descriptor_of_ok. Qed.
Print Assumptions C15_descriptor_of_ok.

(* lookups by name and id find the right entry, also across included files *)

Theorem C15_lookup_by_name_local : forall P f n,
  n <> [] -> no_byte dot n = true ->
  get_struct (registry_of P) (descriptor_of f) n = omap (struct_desc (f_filename f)) (find_struct f n) /\
  get_union (registry_of P) (descriptor_of f) n = omap (struct_desc (f_filename f)) (find_union f n) /\
  get_exception (registry_of P) (descriptor_of f) n = omap (struct_desc (f_filename f)) (find_exception f n) /\
  get_enum (registry_of P) (descriptor_of f) n = omap (enum_desc (f_filename f)) (find_enum f n) /\
  get_typedef (registry_of P) (descriptor_of f) n = omap (typedef_desc (f_filename f)) (find_typedef f n) /\
  get_const (registry_of P) (descriptor_of f) n = omap (const_desc (f_filename f)) (find_constant f n) /\
  get_service (registry_of P) (descriptor_of f) n = omap (service_desc (f_filename f)) (find_service f n).
Proof. exact lookup_by_name_local. Qed.
Print Assumptions C15_lookup_by_name_local.

(* a name written through the prefix of an include finds the definition of the included file *)
Theorem C15_lookup_by_name_and_id_right : forall P f i gname g n,
  prog_ok P = true -> distinct_basenames f = true ->
  In i (f_includes f) -> in_ref i = Some gname -> gname <> [] -> include_alias gname <> [] ->
  prog_file P gname = Some g -> n <> [] -> no_byte dot n = true ->
  let q := include_alias gname ++ dot :: n in
  get_struct (registry_of P) (descriptor_of f) q = omap (struct_desc (f_filename g)) (find_struct g n) /\
  get_union (registry_of P) (descriptor_of f) q = omap (struct_desc (f_filename g)) (find_union g n) /\
  get_exception (registry_of P) (descriptor_of f) q = omap (struct_desc (f_filename g)) (find_exception g n) /\
  get_enum (registry_of P) (descriptor_of f) q = omap (enum_desc (f_filename g)) (find_enum g n) /\
  get_typedef (registry_of P) (descriptor_of f) q = omap (typedef_desc (f_filename g)) (find_typedef g n) /\
  get_const (registry_of P) (descriptor_of f) q = omap (const_desc (f_filename g)) (find_constant g n) /\
  get_service (registry_of P) (descriptor_of f) q = omap (service_desc (f_filename g)) (find_service g n).
Proof. exact lookup_by_name_through_include. Qed.
Print Assumptions C15_lookup_by_name_and_id_right.

(* KNOWN FINDING: without distinct_basenames the lookup through the prefix can miss the definition *)
Theorem C15_lookup_same_basename_refuted :
  exists P f g n, prog_ok P = true /\ prog_file P (f_filename f) = Some f /\
    (exists i, In i (f_includes f) /\ in_ref i = Some (f_filename g)) /\
    prog_file P (f_filename g) = Some g /\ find_struct g n <> None /\
    get_struct (registry_of P) (descriptor_of f) (include_alias (f_filename g) ++ dot :: n)%list = None.
Proof. exact lookup_same_basename_refuted. Qed.
Print Assumptions C15_lookup_same_basename_refuted.

(* a type expression resolves through the file it was written in *)
Theorem C15_type_target_right : forall A (get : registry -> fdesc -> bytes -> option A) P f t,
  prog_ok P = true -> prog_file P (f_filename f) = Some f ->
  is_container (ty_name t) || is_basic (ty_name t) = false -> f_filename f <> [] ->
  type_target get (registry_of P) (type_desc (f_filename f) t) = get (registry_of P) (descriptor_of f) (ty_name t).
Proof. exact @type_target_right. Qed.
Print Assumptions C15_type_target_right.

Theorem C15_field_by_id_right : forall p s x,
  NoDup (map fd_id (sl_fields s)) -> In x (sl_fields s) ->
  get_field_by_id (struct_desc p s) (fd_id x) = Some (field_desc p x).
Proof. exact field_by_id_right. Qed.
Print Assumptions C15_field_by_id_right.

Theorem C15_field_by_name_right : forall p s x,
  NoDup (map fd_name (sl_fields s)) -> In x (sl_fields s) ->
  get_field_by_name (struct_desc p s) (fd_name x) = Some (field_desc p x).
Proof. exact field_by_name_right. Qed.
Print Assumptions C15_field_by_name_right.

Theorem C15_method_by_name_right : forall p s fn,
  NoDup (map fn_name (sv_functions s)) -> In fn (sv_functions s) ->
  get_method_by_name (service_desc p s) (fn_name fn) = Some (method_desc p fn).
Proof. exact method_by_name_right. Qed.
Print Assumptions C15_method_by_name_right.

(* Lookup*(name, path) with a path is the lookup of that file; without a path (the Go code ranges
   over a map) it is right when exactly one registered file answers, in whatever order *)
Theorem C15_lookup_with_path : forall A (get : registry -> fdesc -> bytes -> option A) P path f name,
  prog_ok P = true -> path <> [] -> prog_file P path = Some f ->
  lookup_in get (registry_of P) name path = get (registry_of P) (descriptor_of f) name.
Proof. exact @lookup_with_path. Qed.
Print Assumptions C15_lookup_with_path.

Theorem C15_lookup_without_path : forall A (get : registry -> fdesc -> bytes -> option A) reg name d0 x,
  In d0 reg -> get reg d0 name = Some x ->
  (forall d, In d reg -> get reg d name <> None -> d = d0) ->
  lookup_in get reg name [] = Some x.
Proof. exact @lookup_without_path. Qed.
Print Assumptions C15_lookup_without_path.

(* against property C05's model of semantic.ResolveSymbols: resolution keeps the definitions of every
   file, and a type expression the resolver bound through an include (ty_ref = include index idx and
   name m) is found by every descriptor lookup as the definition m of the file include idx refers
   to, which has such a definition of a type kind *)
Theorem C15_resolve_keeps_defs : forall p r,
  resolve_program p = Ok r ->
  forall gn g, prog_file p gn = Some g -> exists g', prog_file r gn = Some g' /\ file_defs g' = file_defs g.
Proof. exact resolve_keeps_defs. Qed.
Print Assumptions C15_resolve_keeps_defs.

Theorem C15_qualified_type_lookup_right : forall p r fn f' t m idx,
  parsed_program p = true -> resolve_program p = Ok r -> prog_ok r = true ->
  prog_file r fn = Some f' -> f_name2cat f' <> None ->
  distinct_basenames f' = true -> includes_plain f' = true -> includes_named f' = true ->
  In t (file_occs f') -> ty_ref t = Some (Ref m idx) -> m <> [] ->
  exists i gn g' k,
    nth_include f' idx = Some i /\ in_ref i = Some gn /\ prog_file r gn = Some g' /\
    lookup m (file_defs g') = Some k /\ is_type_kind k = true /\
    get_struct (registry_of r) (descriptor_of f') (ty_name t) = omap (struct_desc (f_filename g')) (find_struct g' m) /\
    get_union (registry_of r) (descriptor_of f') (ty_name t) = omap (struct_desc (f_filename g')) (find_union g' m) /\
    get_exception (registry_of r) (descriptor_of f') (ty_name t) = omap (struct_desc (f_filename g')) (find_exception g' m) /\
    get_enum (registry_of r) (descriptor_of f') (ty_name t) = omap (enum_desc (f_filename g')) (find_enum g' m) /\
    get_typedef (registry_of r) (descriptor_of f') (ty_name t) = omap (typedef_desc (f_filename g')) (find_typedef g' m).
Proof. exact qualified_type_lookup_right. Qed.
Print Assumptions C15_qualified_type_lookup_right.

(* the same for the base service of a service: what the resolver bound (sv_ref) is what
   GetServiceDescriptor of the written base name and GetParent return *)
Theorem C15_base_service_lookup_right : forall p r fn f' sv' m idx,
  parsed_program p = true -> resolve_program p = Ok r -> prog_ok r = true ->
  prog_file r fn = Some f' -> f_name2cat f' <> None ->
  distinct_basenames f' = true -> includes_plain f' = true -> includes_named f' = true ->
  In sv' (f_services f') -> sv_ref sv' = Some (Ref m idx) -> m <> [] ->
  exists i gn g',
    nth_include f' idx = Some i /\ in_ref i = Some gn /\ prog_file r gn = Some g' /\
    lookup m (file_defs g') = Some DkService /\
    get_service (registry_of r) (descriptor_of f') (sv_extends sv') = omap (service_desc (f_filename g')) (find_service g' m) /\
    get_parent (registry_of r) (service_desc fn sv') = omap (service_desc (f_filename g')) (find_service g' m).
Proof. exact base_service_lookup_right. Qed.
Print Assumptions C15_base_service_lookup_right.

(* GetAllMethods: the methods of the service followed by those of its base service, and so on, for an
   extends chain of any length (links inside a file or through an include prefix) *)
Theorem C15_all_methods_chain : forall P, prog_ok P = true -> forall f s l, base_chain P f s l ->
  forall fuel, (List.length l <= S fuel)%nat ->
  all_methods fuel (registry_of P) (service_desc (f_filename f) s) = chain_methods l.
Proof. exact all_methods_chain. Qed.
Print Assumptions C15_all_methods_chain.

Theorem C15_get_all_methods_chain : forall P f s l,
  prog_ok P = true -> base_chain P f s l -> (List.length l <= S (chain_fuel (registry_of P)))%nat ->
  get_all_methods (registry_of P) (service_desc (f_filename f) s) = chain_methods l.
Proof. exact get_all_methods_chain. Qed.
Print Assumptions C15_get_all_methods_chain.

(* an extends chain without repetition (the checker rejects cyclic chains) always fits the fuel of
   the model: no premise about it *)
Theorem C15_get_all_methods_acyclic : forall P f s l,
  prog_ok P = true -> base_chain P f s l -> NoDup (tl l) ->
  get_all_methods (registry_of P) (service_desc (f_filename f) s) = chain_methods l.
Proof. exact get_all_methods_acyclic. Qed.
Print Assumptions C15_get_all_methods_acyclic.

Theorem C15_method_from_all_chain : forall P f s l n,
  prog_ok P = true -> base_chain P f s l -> (List.length l <= S (chain_fuel (registry_of P)))%nat ->
  get_method_from_all (registry_of P) (service_desc (f_filename f) s) n = first_named md_name (chain_methods l) n.
Proof. exact method_from_all_chain. Qed.
Print Assumptions C15_method_from_all_chain.

(* each Go type maps to its own descriptor and back *)

Theorem C15_go_type_bijection : forall G (geqb : G -> G -> bool),
  (forall a b, geqb a b = true <-> a = b) ->
  forall d gs t',
  go_type_table geqb gtable_empty d gs = Some t' ->
  (forall kd g k, desc_of_go_type geqb t' kd g = Some k -> go_type_of t' k = Some g /\ kind_of k = kd) /\
  (forall k g, In (k, g) (combine (all_keys d) gs) ->
     go_type_of t' k = Some g /\
     ((forall k', In (k', g) (combine (all_keys d) gs) -> kind_of k' = kind_of k -> k' = k) ->
      desc_of_go_type geqb t' (kind_of k) g = Some k)).
Proof. exact @go_type_bijection. Qed.
Print Assumptions C15_go_type_bijection.

(* the same when the table already holds other files *)
Theorem C15_go_type_table_spec : forall G (geqb : G -> G -> bool),
  (forall a b, geqb a b = true <-> a = b) ->
  forall t d gs t',
  table_inv geqb t -> (forall k, In k (all_keys d) -> go_type_of t k = None) ->
  go_type_table geqb t d gs = Some t' ->
  table_inv geqb t' /\
  (forall k g, In (k, g) (combine (all_keys d) gs) ->
     go_type_of t' k = Some g /\
     ((forall k', In (k', g) (combine (all_keys d) gs) -> kind_of k' = kind_of k -> k' = k) ->
      desc_of_go_type geqb t' (kind_of k) g = Some k)).
Proof. exact @go_type_table_spec. Qed.
Print Assumptions C15_go_type_table_spec.

(* the premises are satisfiable *)
Example C15_hypotheses_satisfiable :
  file_annos_ok ex_api = true /\ distinct_basenames ex_api = true /\ includes_plain ex_api = true /\
  prog_ok ex_program = true /\ wfb (enc_fdesc (descriptor_of ex_api)) = true /\ fdesc_ok (descriptor_of ex_api) = true.
Proof. exact ex_hypotheses. Qed.
