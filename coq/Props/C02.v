(* Props/C02.v — property C02: generated Read/Write implement the Thrift wire format of the IDL.
   Statements only; proofs are in Wire/CodecFacts.v, StdFacts.v, StdPresFacts.v and StdMoreFacts.v.

   Model: Wire/Std.v (to_wire = generated Write, from_wire = generated Read, on compiled code tied by
   the correspondence of Corr/C02.v on every run), Wire/Codec.v (binary protocol, models apache/thrift
   TBinaryProtocol, trusted), Wire/GenTables.v (regenerated from /repo; ttype_of goes through it).
   The premises on schemas and objects are decidable booleans: wf_env e (ids unique and 16 bit, union fields
   optional: what thriftgo's checker guarantees) and wt e s v (Wire/Value.v); those on wire values and on
   pairs of schemas are propositions (wf, Wire/WVal.v; env_equiv, NoDup, Permutation).
   The statements also use conforms, skippable, emitted_hdrs (Wire/StdFacts.v), env_equiv
   (Wire/StdPresFacts.v), strip and slot_of (Wire/StdMoreFacts.v). *)
From Coq Require Import List ZArith Bool Lia Permutation.
From Verif Require Import Base.Bytes Base.BE Wire.TType Wire.WVal Wire.Codec Wire.CodecFacts
  Wire.Schema Wire.Value Wire.Std Wire.StdFacts Wire.StdPresFacts Wire.StdMoreFacts.
Import ListNotations.
Open Scope Z_scope.

(* ---- the binary protocol ---- *)

Theorem C02_dec_enc : forall n v r, (depth v <= n)%nat -> wf v ->
  dec n (wtype v) (enc v ++ r) = Some (v, r).
Proof. exact dec_enc. Qed.
Print Assumptions C02_dec_enc.

Theorem C02_skip_enc : forall n v r, (depth v <= n)%nat -> wf v -> skip n (wtype v) (enc v ++ r) = Some r.
Proof. exact skip_enc. Qed.
Print Assumptions C02_skip_enc.

Theorem C02_dec_local : forall f t bs v r, dec f t bs = Some (v, r) ->
  exists used, bs = used ++ r /\ forall r', dec f t (used ++ r') = Some (v, r').
Proof. exact (fun f t => dec_local f t). Qed.
Print Assumptions C02_dec_local.

Theorem C02_dec_prefix_fails : forall f v n, wf v -> (n < length (enc v))%nat ->
  dec f (wtype v) (firstn n (enc v)) = None.
Proof. exact dec_prefix_fails. Qed.
Print Assumptions C02_dec_prefix_fails.

Theorem C02_enc_length : forall v, length (enc v) = wsize v.
Proof. exact enc_length. Qed.
Print Assumptions C02_enc_length.

(* ---- Write then Read: every struct-like of every schema, every well-typed value ---- *)

(* Write succeeds and Read, started from NewX(), yields the normal form of the value
   (norm: enum truncated to i32, nil containers/binaries of written fields become empty, a nil struct
   in a non-optional position becomes NewX(), maps rebuilt by Go map assignment) *)
Theorem C02_write_read : forall e s v,
  wf_env e = true -> find_struct e (s_name s) = Some s -> wt e s v = true ->
  exists wfs, to_wire e s v = Ok (WStruct wfs) /\ read_new e s (WStruct wfs) = Ok (norm_struct e s v).
Proof. exact write_read. Qed.
Print Assumptions C02_write_read.

(* the same at every type (fields, elements, keys) *)
Theorem C02_write_read_any_type : forall e, wf_env e = true -> forall v t key,
  wt_val e key t v = true ->
  exists w, to_w e t v = Ok w /\ from_w e t w = Ok (norm e t v).
Proof. exact to_from. Qed.
Print Assumptions C02_write_read_any_type.

(* through bytes: the bytes of Write, followed by anything, read back to the value *)
Theorem C02_write_read_bytes : forall e s v,
  wf_env e = true -> find_struct e (s_name s) = Some s -> wt e s v = true ->
  exists bs, write_bytes e s v = Ok bs /\
    forall rest, read_bytes e s (new_struct e s) (bs ++ rest) = Ok (norm_struct e s v).
Proof. exact write_read_bytes. Qed.
Print Assumptions C02_write_read_bytes.

(* what Write emits is a well-formed wire value of the wire type Thrift prescribes *)
Theorem C02_written_well_formed : forall e, wf_env e = true -> forall v t key w,
  wt_val e key t v = true -> to_w e t v = Ok w -> wf w /\ wtype w = ttype_of e t.
Proof. exact to_w_wf. Qed.
Print Assumptions C02_written_well_formed.

(* ---- wire shape ---- *)

(* the wire type computed through the table regenerated from generator/golang/types.go is the one
   Thrift prescribes: enum as I32, binary as STRING, struct / union / exception as STRUCT *)
Theorem C02_wire_types : forall e t, ttype_of e t = spec_ttype t.
Proof. exact ttype_of_spec. Qed.
Print Assumptions C02_wire_types.

(* emitted fields = the present ones (non-optional always, optional iff set), declaration order,
   schema ids, prescribed wire types; every nested container header and nested field conforms too *)
Theorem C02_wire_shape : forall e s fs wfs,
  find_struct e (s_name s) = Some s ->
  to_wire e s (VStruct fs) = Ok (WStruct wfs) ->
  map hdr wfs = emitted_hdrs s fs /\
  Forall (fun wf => wtype (snd wf) = fst (fst wf)) wfs /\
  conforms e (TRef (s_name s)) (WStruct wfs) = true.
Proof. exact wire_shape. Qed.
Print Assumptions C02_wire_shape.

(* ---- Read ---- *)

(* fields with an id the schema does not have, or with a wire type other than the schema's, are
   skipped wherever they stand: reading equals reading the input without them *)
Theorem C02_read_ignores_unknown : forall e s init wfs,
  from_wire e s init (WStruct wfs) =
  from_wire e s init (WStruct (filter (fun wf => negb (skippable e s wf)) wfs)).
Proof. exact read_ignores_unknown. Qed.
Print Assumptions C02_read_ignores_unknown.

Theorem C02_read_ignores_inserted : forall e s init l1 u l2,
  skippable e s u = true ->
  from_wire e s init (WStruct (l1 ++ u :: l2)) = from_wire e s init (WStruct (l1 ++ l2)).
Proof. exact read_ignores_inserted. Qed.
Print Assumptions C02_read_ignores_inserted.

(* a required field that no input field provides (same id and the schema's wire type) makes Read
   fail; when the field loop itself succeeds the error is "required field not set" *)
Theorem C02_read_required_missing : forall e s init wfs f,
  wf_struct s = true -> In f (s_fields s) -> is_required f = true ->
  (forall x, ~ In (ttype_of e (f_ty f), f_id f, x) wfs) ->
  exists er, from_wire e s init (WStruct wfs) = Err er /\
    (forall st, (exists fs0, init = VStruct fs0 /\ foldM (read_step e s) wfs (fs0, []) = Ok st) ->
                exists id, er = ERequiredMissing id).
Proof. exact read_required_missing. Qed.
Print Assumptions C02_read_required_missing.

(* ---- unions ---- *)

Theorem C02_union_write_refused : forall e s fs,
  find_struct e (s_name s) = Some s -> is_union s = true ->
  count_set (s_fields s) fs <> 1%nat ->
  to_wire e s (VStruct fs) = Err (EUnionCount (count_set (s_fields s) fs)).
Proof. exact union_write_refused. Qed.
Print Assumptions C02_union_write_refused.

Theorem C02_union_write_exactly_one : forall e s fs w,
  find_struct e (s_name s) = Some s -> is_union s = true ->
  to_wire e s (VStruct fs) = Ok w -> count_set (s_fields s) fs = 1%nat.
Proof. exact union_write_exactly_one. Qed.
Print Assumptions C02_union_write_exactly_one.

(* ---- presentation-only options ---- *)

(* to_wire takes the schema and the value and nothing else: naming style, tags, setters, nil_safe,
   json_enum_as_text, type aliases, enum_as_int_32, value_type_in_container ... are not inputs.
   reorder_fields permutes the field lists of the struct-likes: the result of Write on an object does
   not change at all between two envs that answer every struct and field lookup alike (env_equiv); a
   permuted field list with distinct ids answers every field lookup alike (the second theorem; that a
   whole reordered env satisfies env_equiv is not put together here) ... *)
Theorem C02_presentation_invariance : forall e e', env_equiv e e' -> forall v t, to_w e t v = to_w e' t v.
Proof. exact to_w_env_equiv. Qed.
Print Assumptions C02_presentation_invariance.

Theorem C02_reordered_schema_equiv : forall l l', NoDup (map f_id l) -> Permutation l l' ->
  forall id, find_field id l = find_field id l'.
Proof. exact find_field_perm. Qed.
Print Assumptions C02_reordered_schema_equiv.

(* ... and visiting the slots of the object in the reordered order yields a permutation of the fields *)
Theorem C02_reorder_fields_permutation : forall e s fs fs' wfs,
  find_struct e (s_name s) = Some s -> Permutation fs fs' ->
  to_wire e s (VStruct fs) = Ok (WStruct wfs) ->
  exists wfs', to_wire e s (VStruct fs') = Ok (WStruct wfs') /\ Permutation wfs wfs'.
Proof. exact to_wire_reorder. Qed.
Print Assumptions C02_reorder_fields_permutation.

(* ---- Read, at full strength: every nesting level, bytes, existing objects ---- *)

(* [strip e t w] removes, at EVERY struct level of w (inside list / set elements, map keys and values,
   nested fields), the fields a reader of the schema must skip; reading w is reading strip w *)
Theorem C02_read_ignores_nested : forall e w t, from_w e t (strip e t w) = from_w e t w.
Proof. exact read_ignores_nested. Qed.
Print Assumptions C02_read_ignores_nested.

Theorem C02_read_ignores_nested_top : forall e s init wfs,
  from_wire e s init (WStruct (strip_fields e s wfs)) = from_wire e s init (WStruct wfs).
Proof. exact read_ignores_nested_top. Qed.
Print Assumptions C02_read_ignores_nested_top.

(* two inputs that differ only in skippable fields, anywhere, read the same *)
Theorem C02_read_same_modulo_skippable : forall e t w1 w2,
  strip e t w1 = strip e t w2 -> from_w e t w1 = from_w e t w2.
Proof. exact read_same_modulo_skippable. Qed.
Print Assumptions C02_read_same_modulo_skippable.

(* byte level: the encoding of a skippable field spliced in at any field boundary changes nothing *)
Theorem C02_read_bytes_ignores_inserted : forall e s init l1 u l2 rest,
  wf (WStruct (l1 ++ u :: l2)) -> skippable e s u = true ->
  read_bytes e s init (flat_map enc_field l1 ++ enc_field u ++ enc (WStruct l2) ++ rest) =
  read_bytes e s init (flat_map enc_field l1 ++ enc (WStruct l2) ++ rest).
Proof. exact read_bytes_ignores_inserted. Qed.
Print Assumptions C02_read_bytes_ignores_inserted.

(* no proper prefix of the bytes Write produced is accepted, whatever object is read into *)
Theorem C02_written_bytes_truncated : forall e s v bs init n,
  wf_env e = true -> wt e s v = true -> write_bytes e s v = Ok bs -> (n < length bs)%nat ->
  read_bytes e s init (firstn n bs) = Err EDecode.
Proof. exact written_bytes_truncated. Qed.
Print Assumptions C02_written_bytes_truncated.

(* the reader never fails for lack of fuel: a decode consumes at least as many bytes as its result is
   deep, a result needs no more fuel than its depth, hence dec_struct (fuel = input length + 1) decodes
   whatever any amount of fuel decodes *)
Theorem C02_dec_consumed : forall f t bs v r, dec f t bs = Some (v, r) -> (depth v + length r <= length bs)%nat.
Proof. exact dec_consumed. Qed.
Print Assumptions C02_dec_consumed.

Theorem C02_dec_fuel_depth : forall f t bs v r, dec f t bs = Some (v, r) ->
  forall f', (depth v <= f')%nat -> dec f' t bs = Some (v, r).
Proof. exact dec_fuel_depth. Qed.
Print Assumptions C02_dec_fuel_depth.

Theorem C02_dec_struct_complete : forall f bs v r, dec f T_STRUCT bs = Some (v, r) -> dec_struct bs = Some (v, r).
Proof. exact dec_struct_complete. Qed.
Print Assumptions C02_dec_struct_complete.

(* Read into an existing object touches only the slots whose ids occur on the wire *)
Theorem C02_read_frame : forall e s fs0 wfs fs',
  from_wire e s (VStruct fs0) (WStruct wfs) = Ok (VStruct fs') ->
  map fst fs' = map fst fs0 /\
  forall id, ~ In id (map (fun wf => snd (fst wf)) wfs) -> slot_of id fs' = slot_of id fs0.
Proof. exact read_frame. Qed.
Print Assumptions C02_read_frame.

(* duplicates: the last occurrence of a field replaces the whole slot *)
Theorem C02_read_last_wins : forall e s fs0 wfs f x v fs',
  find_field (f_id f) (s_fields s) = Some f ->
  from_w e (f_ty f) x = Ok v ->
  from_wire e s (VStruct fs0) (WStruct (wfs ++ [(ttype_of e (f_ty f), f_id f, x)])) = Ok (VStruct fs') ->
  In (f_id f) (map fst fs0) ->
  slot_of (f_id f) fs' = Some (wrap_slot f v).
Proof. exact read_last_wins. Qed.
Print Assumptions C02_read_last_wins.

(* getters: a set field shows its payload, an unset one the declared default (or the zero value), a
   field without IsSet its slot; the pointer slot Read stores for an optional base field shows the payload *)
Theorem C02_getters : forall f v,
  (supports_isset f = true -> isset f v = true -> getter f v = deref f v) /\
  (supports_isset f = true -> isset f v = false -> getter f v = default_var f) /\
  (supports_isset f = false -> getter f v = v) /\
  (base_ptr f = true -> getter f (wrap_slot f v) = v).
Proof. exact getters_show. Qed.
Print Assumptions C02_getters.

(* ---- the hypotheses are satisfiable, and what lies outside them ---- *)

From Coq Require Import String.
Open Scope string_scope.
Definition exK := mkstruct (B "a.K") KStruct
  [mkfield 1 (B "x") Required TI32 None false; mkfield 2 (B "s") Optional TString (Some (LStr (B "hi"))) false].
Definition exU := mkstruct (B "a.U") KUnion
  [mkfield 1 (B "a") Optional TI32 None false; mkfield 2 (B "b") Optional TString None false].
Definition exS := mkstruct (B "a.S") KStruct [
  mkfield 1 (B "b") Default TBool None false;
  mkfield 2 (B "r") Required TByte None false;
  mkfield 3 (B "o") Optional TI16 None false;
  mkfield 4 (B "e") Default (TEnum (B "a.E")) None false;
  mkfield 5 (B "l") Default (TList (TRef (B "a.K"))) None false;
  mkfield 6 (B "m") Optional (TMap TString (TSet TDouble)) None false;
  mkfield 7 (B "u") Optional (TRef (B "a.U")) None false;
  mkfield (-3) (B "k") Default (TRef (B "a.K")) None false].
Definition exE := mkenv [exK; exU; exS] [mkenum (B "a.E") [(B "A", 1)]].
Definition exV := VStruct [(1, VBool true); (2, VInt (-3)); (3, VSome (VInt 300)); (4, VInt 4294967297);
  (5, VList [VStruct [(1, VInt 7); (2, VStr (B "hi"))]]); (6, VMap [(VStr (B "k"), VList [VDbl 0; VDbl 1])]);
  (7, VStruct [(1, VNil); (2, VSome (VStr (B "x")))]); (-3, VStruct [(1, VInt 0); (2, VStr [])])].

Example C02_domain_nonempty : (wf_env exE && wt exE exS exV) = true.
Proof. vm_compute. reflexivity. Qed.
Example C02_domain_nonempty_find : find_struct exE (s_name exS) = Some exS.
Proof. reflexivity. Qed.

(* outside wt: a nil struct pointer in a non-optional position whose target has a required field is
   written as an empty struct, which the reader of that struct rejects (modelled; not in the domain) *)
Definition exV2 := VStruct [(1, VBool true); (2, VInt 0); (3, VNil); (4, VInt 0); (5, VNil); (6, VNil); (7, VNil); (-3, VNil)].
Example C02_nil_struct_with_required_outside_domain : wt exE exS exV2 = false.
Proof. vm_compute. reflexivity. Qed.
Example C02_nil_struct_with_required_does_not_round_trip :
  match to_wire exE exS exV2 with Ok w => read_new exE exS w | Err er => Err er end = Err (ERequiredMissing 1).
Proof. vm_compute. reflexivity. Qed.

(* outside wt: a nil union pointer in a non-optional position makes the generated Write panic *)
Example C02_nil_union_panics :
  to_w exE (TList (TRef (B "a.U"))) (VList [VNil]) = Err ENilUnion.
Proof. vm_compute. reflexivity. Qed.
