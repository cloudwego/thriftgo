(* Props/C17.v — property C17 "Dumping an AST to IDL text and parsing it back gives the same
   IDL", stated about the model Idl/Dump.v of /repo/tool/trimmer/dump/dump.go (DumpIDL, as
   repaired by proposed_fixes/C17-1..3) and the parser model Idl/Lex.v + Idl/Parse.v of
   property C03.  Statements only: the proof of every Theorem is [exact lemma], followed by
   Print Assumptions; the Examples (closed instances showing that hypotheses can be met) are
   evaluations.

   [fmt : N -> bytes] stands for strconv.FormatFloat(v, 'g', -1, 64) (bit pattern -> text);
   it is universally quantified and constrained only through decidable hypotheses, which the
   correspondence check evaluates on every double text the implementation printed. *)
From Coq Require Import List NArith.
From Coq.Strings Require Import String.
From Verif Require Import Base.Bytes Idl.Ast Idl.Lex Idl.Parse Idl.Dump
  Idl.DumpFacts Idl.DumpLexFacts Idl.DumpNumFacts Idl.DumpParseFacts Idl.DumpTopFacts Idl.DumpLitFacts
  Idl.Resolve Idl.DumpResolveFacts Idl.DumpProgramFacts.
Import ListNotations.

(* string literals keep their exact characters (the escaping is exact).
   For every text in the domain [lit_ok] (no backslash at the end; not both a double and a
   single quote after an odd run of backslashes) the token quoteLiteral writes is a literal
   of the grammar, the lexer stops exactly at its closing quote whatever follows, and
   pegText's unescaping returns the text.  quoteLiteral is all the escaping the repaired
   DumpIDL does (it has no placeholder and no html.UnescapeString pass), so this is the whole
   statement about escaping. *)
Theorem C17_literal_roundtrip :
  forall s, lit_ok s = true ->
  exists q raw, lit_token s = TLit q raw /\ is_quote q = true /\
    (forall rest, lex_lit q (raw ++ q :: rest) = Some (raw, rest)) /\ unescape q raw = s.
Proof. exact lit_token_roundtrip. Qed.
Print Assumptions C17_literal_roundtrip.

(* every value a literal of the grammar can have is in that domain: whatever the lexer accepts
   between two quotes unescapes to a text quoteLiteral can write back *)
Theorem C17_literal_values_in_domain :
  forall q s raw rest, is_quote q = true -> lex_lit q s = Some (raw, rest) -> lit_ok (unescape q raw) = true.
Proof. exact unescape_in_domain. Qed.
Print Assumptions C17_literal_values_in_domain.

Example C17_literal_domain_inhabited :
  lit_ok (hx "61 5c 22 62 27 26 23"%string) = true /\ lit_ok (B "#OUTQUOTES ##34; &amp;"%string) = true.
Proof. split; reflexivity. Qed.

(* numbers: what fmt.Sprintf("%d") writes is read back by strconv.ParseInt as the same number,
   for every integer constant in the int64 range and every field id in the int32 range.  (An enum
   value is read by [enum_int_value], the same ParseInt call without the error flag; for it the
   fact is enum_int_value_print_Z of Idl/DumpNumFacts.v.) *)
Theorem C17_int_value_print_Z :
  forall z, in_i64 z = true -> int_value (print_Z z) = Some z.
Proof. exact int_value_print_Z. Qed.
Print Assumptions C17_int_value_print_Z.

Theorem C17_field_id_value_print_Z :
  forall z, in_i32 z = true -> field_id_value (print_Z z) = z.
Proof. exact field_id_value_print_Z. Qed.
Print Assumptions C17_field_id_value_print_Z.

(* dump_view_equal: the view (what the written text denotes) equals the original on
   everything the property lists: definitions, names, type expressions, field ids,
   requiredness, defaults and constant values, enum values, annotation key/value lists,
   includes, namespaces — up to recorded comments, cpp_type, resolution info, and a double
   read back as the integer of equal value ([c17_norm]).  [view_ok] is the shape of
   parser-built ASTs: annotation keys grouped, literal values in [lit_ok], include paths
   distinct and not empty, no explicit id equal to the parser's NOTSET sentinel, throws
   optional, each struct-like in the list of its kind, void flag consistent, and [fmt_ok]
   (text and double denote the same constant) for every double. *)
Theorem C17_dump_view_equal :
  forall (fmt : N -> bytes) (a : file), view_ok fmt a = true -> c17_norm (dump_view fmt a) = c17_norm a.
Proof. exact dump_view_equal. Qed.
Print Assumptions C17_dump_view_equal.

(* the dumped text lexes into exactly the tokens the dumper wrote, its white space as
   trivia, for every file whose names are words of the grammar, whose literal values are in
   [lit_ok], whose double texts have a number shape, and whose recorded comments are blank or
   read back as trivia ([cmt_lex]: what parseReservedComments records — line, hash and block
   comments joined by line feeds — satisfies it; the sample below carries every kind). *)
Theorem C17_lex_dump :
  forall (fmt : N -> bytes) (a : file), lex_ok fmt a = true ->
  lex (dump fmt a) = Some (group [] (dump_pieces fmt a)).
Proof. exact lex_dump. Qed.
Print Assumptions C17_lex_dump.

(* parse_dump: the parser accepts the dumped text and returns the view, up to the
   comment fields.  [dump_ok] (decidable, Idl/DumpParseFacts.v) = lex_ok, the parser-built
   shape with ids in i32 and integer values in i64 ([pd_ok]), the view is expressible by the token grammar
   (wf_file of Idl/Print.v: no keyword as a name, ids in i32, values in i64). *)
Theorem C17_parse_dump :
  forall (fmt : N -> bytes) (a : file), dump_ok fmt a = true ->
  exists b, parse (f_filename a) (dump fmt a) = Some b /\
            strip_comments b = strip_comments (dump_view fmt a).
Proof. exact parse_dump. Qed.
Print Assumptions C17_parse_dump.

(* the property: the dumped text is accepted and the AST read back equals the original
   on everything C17 lists. *)
Theorem C17_roundtrip :
  forall (fmt : N -> bytes) (a : file), dump_ok fmt a = true -> view_ok fmt a = true ->
  exists b, parse (f_filename a) (dump fmt a) = Some b /\ c17_norm b = c17_norm a.
Proof. exact dump_roundtrip. Qed.
Print Assumptions C17_roundtrip.

(* the hypotheses are satisfiable: a file with every kind of node (negative ids, both quote
   kinds, the texts #OUTQUOTES and ##34; that dump.go used as placeholders before
   proposed_fixes/C17-1..3, annotations on types and namespaces, nested constants,
   doubles, cpp_include, an empty union, oneway, two throws, recorded line / block / multi-line
   comments on a typedef, an enum, enum values, a struct, a field and a function) is in the domain *)
Example C17_domain_inhabited : dump_ok sample_fmt sample_file = true /\ view_ok sample_fmt sample_file = true.
Proof. exact sample_in_domain. Qed.

(* dump_passes_semantic: the dumped program is accepted by symbol resolution (the model
   Idl/Resolve.v of semantic.ResolveSymbols, property C05) whenever the original is.
   [sem_view] is what the dumper does to a file as far as resolution can see: recorded comments
   and cpp_type are dropped and a double is replaced by the constant its text denotes.
   Resolution commutes with it (for EVERY program, no hypothesis): *)
Theorem C17_resolve_commutes_with_view :
  forall (fmt : N -> bytes) (p : program),
  resolve_program (sem_view_program fmt p) = rmap (sem_view_program fmt) (resolve_program p).
Proof. exact resolve_program_sem_view. Qed.
Print Assumptions C17_resolve_commutes_with_view.

(* [dumped_program]: every file replaced by its [dump_view], its include statements pointing to
   the same files again (the recursive parser re-reads the dumped tree).  For programs as the
   parser produces them ([parsed_ok]: the parser-built shape [view_ok], no resolution info yet)
   it is the [sem_view] of the program, so it resolves, and to the view of the original result. *)
Theorem C17_dump_passes_semantic :
  forall (fmt : N -> bytes) (p r : program),
  forallb (fun e => parsed_ok fmt (snd e)) p = true ->
  resolve_program p = Ok r ->
  resolve_program (dumped_program fmt p) = Ok (sem_view_program fmt r).
Proof. exact dump_passes_semantic. Qed.
Print Assumptions C17_dump_passes_semantic.

Example C17_dump_passes_semantic_inhabited :
  forallb (fun e => parsed_ok sem_sample_fmt (snd e)) sem_sample = true /\
  (match resolve_program sem_sample with Ok _ => true | Error _ => false end) = true /\
  (match resolve_program (dumped_program sem_sample_fmt sem_sample) with Ok _ => true | Error _ => false end) = true.
Proof. exact sem_sample_ok. Qed.

(* the property for whole programs, about the files the parser ACTUALLY returns for the dumped
   texts (whatever comments it attaches; [reread p q]: every file of q is a result of parsing the
   dumped text of the file of p with the same name, its include statements pointing to the same
   files as before).  On the domain ([file_in_domain] = dump_ok and parsed_ok for every file):
   the parser accepts every dumped file (a re-read program exists); every re-read file equals the
   original on everything C17 lists; and every re-read program passes symbol resolution when the
   original does, to a result r' with sem_view r' = sem_view (sem_view r): r' is compared with
   the view of r under one more [sem_view], which forgets the comments the parser attached.  For
   an arbitrary [fmt] the second application may change a double again ([sem_view] is not
   idempotent), so this is not the same as sem_view r' = sem_view r. *)
Theorem C17_program_roundtrip :
  forall (fmt : N -> bytes) (p r : program),
  forallb (fun e => file_in_domain fmt (snd e)) p = true ->
  resolve_program p = Ok r ->
  (exists q, reread fmt p q) /\
  forall q, reread fmt p q ->
    Forall2 (fun e e' => fst e' = fst e /\ c17_norm (snd e') = c17_norm (snd e)) p q /\
    exists r', resolve_program q = Ok r' /\
               sem_view_program fmt r' = sem_view_program fmt (sem_view_program fmt r).
Proof. exact program_roundtrip. Qed.
Print Assumptions C17_program_roundtrip.

Example C17_program_roundtrip_inhabited :
  forallb (fun e => file_in_domain sem_sample_fmt (snd e)) sem_sample = true /\
  (match resolve_program sem_sample with Ok _ => true | Error _ => false end) = true.
Proof. exact program_roundtrip_sample. Qed.

(* a file with nothing to print is dumped as the empty text, satisfies [dump_ok], and is read
   back as the empty file by parser.parse() of /repo from commit 6a3edb3 on; the parser of the
   commits before it ([parse_unrepaired]) rejects the same text *)
Theorem C17_dump_empty_file :
  forall n fmt,
  dump fmt (empty_file n) = [] /\ parse n (dump fmt (empty_file n)) = Some (empty_file n) /\
  dump_ok fmt (empty_file n) = true /\ parse_unrepaired n (dump fmt (empty_file n)) = None.
Proof. exact dump_empty_file. Qed.
Print Assumptions C17_dump_empty_file.

(* outside the property: cpp_type is not written; the AST read back differs from the original
   ([file_eqb]) and agrees with it on everything the property lists ([c17_eqb]) *)
Theorem C17_dump_drops_cpp_type :
  exists b, parse (B "m.thrift"%string) (dump (fun _ => []) cpp_type_sample) = Some b /\
            file_eqb b cpp_type_sample = false /\ c17_eqb b cpp_type_sample = true.
Proof. exact dump_drops_cpp_type. Qed.
Print Assumptions C17_dump_drops_cpp_type.
