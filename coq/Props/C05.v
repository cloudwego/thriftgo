(* Props/C05.v — property C05: symbol resolution binds every reference to the
   definition the IDL names.  Statements, proved in Idl/Resolve*.v and Idl/Resolvable*.v;
   at the end a small program on which the hypotheses hold.

   Model: Idl/Resolve.v ([resolve_program] = semantic.ResolveSymbols on the main file of
   a parsed multi-file program, [deref] = semantic.Deref).  Specification:
   Idl/ResolveSpec.v ([name_denotes], [def_denotes], [spec_include], [names_typedef],
   [refers_through], [const_denotes], [te_chain], [program_perm]).

   Domain: [parsed_program p = true] — the input is what the parser delivers (no name
   table, no Used mark yet); [resolve_program p = Ok r] — the pass succeeded (this
   excludes the model's out-of-fuel value).  A theorem with these hypotheses holds for ALL such
   programs, every file [f'] of the result that the pass reached ([f_name2cat f' <> None])
   and, where it speaks of one, every type occurrence [t] the pass looks at ([file_occs]);
   the theorems about RegisterNames, the typedef fixpoint, completeness and fuel state
   their own domain. *)
From Coq Require Import List Bool Arith NArith ZArith Permutation.
From Coq.Strings Require Import String.
From Verif Require Import Base.Bytes Idl.Ast Idl.AstUtil Idl.Resolve Idl.ResolveSpec Idl.ResolveTd
     Idl.ResolveDeref Idl.ResolvePerm Idl.ResolvePermFile Idl.ResolveFacts
     Idl.ResolvableSpec Idl.ResolveComplete Idl.ResolvePath Idl.ResolveFuel Idl.ResolveFuelEnum
     Idl.ResolvableConst Idl.ResolveCompleteConst Idl.ResolvableFacts Idl.ResolveInv Idl.ResolveConst
     Idl.ResolveService Idl.ResolveSyntax.
Import ListNotations.
Local Open Scope string_scope.

(* every resolved type occurrence carries the category of the definition its name
   finally denotes: typedef chains followed to the end, across includes *)
Theorem resolve_category : forall p r,
  parsed_program p = true -> resolve_program p = Ok r ->
  forall fn f' t, prog_file r fn = Some f' -> f_name2cat f' <> None -> In t (file_occs f') ->
  exists d, name_denotes p fn (ty_name t) d /\ ty_category t = kind d.
Proof. exact ResolveFacts.resolve_category. Qed.
Print Assumptions resolve_category.

(* ... and that definition is unique: the specification is a function *)
Theorem denotes_functional : forall p fn n d d',
  name_denotes p fn n d -> name_denotes p fn n d' -> d = d'.
Proof. intros p fn n d d' H H'. exact (name_denotes_fun p fn n d H d' H'). Qed.
Print Assumptions denotes_functional.

(* flagged as typedef exactly when the name is that of a typedef (never [Some false]) *)
Theorem resolve_is_typedef_iff : forall p r,
  parsed_program p = true -> resolve_program p = Ok r ->
  forall fn f' t, prog_file r fn = Some f' -> f_name2cat f' <> None -> In t (file_occs f') ->
  (ty_is_typedef t = Some true <-> names_typedef p fn (ty_name t)) /\
  (ty_is_typedef t = Some true \/ ty_is_typedef t = None).
Proof. exact ResolveFacts.resolve_is_typedef_iff. Qed.
Print Assumptions resolve_is_typedef_iff.

(* a name written with an include prefix records the index of an include that has
   the prefix and whose file defines the name as a type — the first such include;
   every other occurrence records no reference *)
Theorem resolve_reference_index : forall p r,
  parsed_program p = true -> resolve_program p = Ok r ->
  forall fn f' t, prog_file r fn = Some f' -> f_name2cat f' <> None -> In t (file_occs f') ->
  match builtin_category (ty_name t), split_type (ty_name t) with
  | None, [pre; m] =>
    exists f i gn k,
      prog_file p fn = Some f /\ ty_ref t = Some (Ref m (Z.of_nat i)) /\
      nth_error (file_incs f) i = Some (pre, Some gn) /\
      def_of p gn m = Some k /\ is_type_kind k = true /\
      forall j gn' k', j < i -> nth_error (file_incs f) j = Some (pre, Some gn') ->
                       def_of p gn' m = Some k' -> is_type_kind k' = false
  | _, _ => ty_ref t = None
  end.
Proof. exact ResolveFacts.resolve_reference_index. Qed.
Print Assumptions resolve_reference_index.

(* resolution only fills in resolution fields: for ALL programs, every file of the result
   has the symbol table ([file_defs], [file_incs]) of the input file of the same name, the
   two programs have the same file names, hence [def_of] is the same before and after *)
Theorem C05_resolution_preserves_definitions : forall p r,
  resolve_program p = Ok r ->
  (forall fn f', prog_file r fn = Some f' ->
     exists f, prog_file p fn = Some f /\ file_defs f' = file_defs f /\ file_incs f' = file_incs f) /\
  (forall fn, prog_file r fn = None <-> prog_file p fn = None) /\
  (forall fn n, def_of r fn n = def_of p fn n).
Proof. exact ResolveSyntax.resolution_preserves_definitions. Qed.
Print Assumptions C05_resolution_preserves_definitions.

(* base services (the analogue of the type theorems for `extends`): a service that extends
   a local name extends a service of the file and records no reference; one that extends
   pre.m records the index of the FIRST include with the prefix whose file defines a
   service m ([spec_include is_service_kind]); no `extends` = no reference *)
Theorem resolve_service_ref : forall p r,
  parsed_program p = true -> resolve_program p = Ok r ->
  forall fn f' sv, prog_file r fn = Some f' -> f_name2cat f' <> None -> In sv (f_services f') ->
  exists f, prog_file p fn = Some f /\ sv_good p fn f sv.
Proof. exact ResolveService.resolve_service_ref. Qed.
Print Assumptions resolve_service_ref.

(* an include is marked used exactly when something of the file refers through it *)
Theorem used_iff : forall p r,
  parsed_program p = true -> resolve_program p = Ok r ->
  forall fn f', prog_file r fn = Some f' -> f_name2cat f' <> None ->
  forall idx i, nth_error (f_includes f') idx = Some i ->
    (in_used i = Some true <-> refers_through f' (Z.of_nat idx)) /\
    (in_used i = Some true \/ in_used i = None).
Proof. exact ResolveFacts.used_iff. Qed.
Print Assumptions used_iff.

(* every identifier used as a value is bound to the one constant or enum value it
   names — local constant, enum.value, include.constant, include.enum.value, also
   through typedef'd enums — and nothing else explains it: a second explanation
   (ambiguity) makes the pass fail.  [plain_names]: no definition is called like a
   builtin type or has a dot in its name (see Idl/ResolveSpec.v) *)
Theorem resolve_const_unique : forall p r,
  parsed_program p = true -> plain_names p = true -> resolve_program p = Ok r ->
  forall fn f' c s e, prog_file r fn = Some f' -> f_name2cat f' <> None ->
  In c (file_const_values f') -> c = CIdent s (Some e) ->
  const_denotes p fn s e /\ forall e', const_denotes p fn s e' -> e' = e.
Proof. exact ResolveFacts.resolve_const_unique. Qed.
Print Assumptions resolve_const_unique.

(* outside [plain_names] the unchanged code violates it (known finding
   C05-accepted-enum-named-like-a-base-type):  enum i32 { A }  typedef i32 T
   const T c = T.A  binds T.A to the value A of the enum called i32 although T is a
   typedef of the base type i32 *)
Theorem resolve_const_unique_refuted :
  exists p r fn f' s e,
    parsed_program p = true /\ plain_names p = false /\ resolve_program p = Ok r /\
    prog_file r fn = Some f' /\ f_name2cat f' <> None /\
    In (CIdent s (Some e)) (file_const_values f') /\ ~ const_denotes p fn s e.
Proof. exact ResolveFacts.resolve_const_unique_refuted. Qed.
Print Assumptions resolve_const_unique_refuted.

(* the typedef fixpoint: with the fuel resolve_file_in gives it, it succeeds on every
   state in which each typedef has a chain end (no cycle), and maps every alias to
   the end of its chain *)
Theorem typedef_fixpoint_complete : forall st0,
  NoDup (map te_alias st0) -> te_resolvable st0 ->
  exists st, te_fix (S (List.length st0)) st0 = Ok st /\
             forall a c, te_chain st0 a c -> te_lookup st a = Some c.
Proof. exact te_fix_complete. Qed.
Print Assumptions typedef_fixpoint_complete.

(* ... it succeeds only then, with nothing but chain ends *)
Theorem typedef_fixpoint_sound : forall st0 fuel st,
  te_fix fuel st0 = Ok st ->
  Forall2 (fun e0 e => te_alias e = te_alias e0 /\ te_local e = te_local e0 /\
                       is_typedef_cat (te_cat e) = false /\ te_chain st0 (te_alias e0) (te_cat e)) st0 st.
Proof. exact te_fix_sound. Qed.
Print Assumptions typedef_fixpoint_sound.

(* ... and neither depends on the order of the typedefs *)
Theorem typedef_fixpoint_perm : forall st0 st1 st,
  NoDup (map te_alias st0) -> Permutation st0 st1 ->
  te_fix (S (List.length st0)) st0 = Ok st ->
  exists st', te_fix (S (List.length st1)) st1 = Ok st' /\ forall a, te_lookup st' a = te_lookup st a.
Proof. exact te_fix_perm. Qed.
Print Assumptions typedef_fixpoint_perm.

(* Order independence: permuting the definitions of any files of the program (the AST
   keeps one list per kind of definition; [program_perm] permutes each of them) leaves
   each list of resolved definitions the same up to a permutation and changes nothing else — name table, Used
   marks, every annotation — and resolution fails on the one program exactly when it
   fails on the other.  For ALL programs (no hypothesis). *)
Theorem resolve_perm : forall p p',
  program_perm p p' ->
  match resolve_program p, resolve_program p' with
  | Ok r, Ok r' => program_perm r r'
  | Error _, Error _ => True
  | _, _ => False
  end.
Proof. exact ResolvePermFile.resolve_perm. Qed.
Print Assumptions resolve_perm.

(* in particular the name table does not depend on the order *)
Theorem register_names_perm : forall defs defs' m,
  Permutation defs defs' -> register defs [] = Ok m -> register defs' [] = Ok m.
Proof. exact register_perm. Qed.
Print Assumptions register_names_perm.

(* semantic.Deref on the resolved program arrives, for every resolved occurrence, at
   the definition the name denotes (with enough fuel; the fuel [deref_fuel] the
   correspondence check uses is compared with the Go function on every run) *)
Theorem deref_spec : forall p r,
  parsed_program p = true -> resolve_program p = Ok r ->
  forall fn f' t, prog_file r fn = Some f' -> f_name2cat f' <> None -> In t (file_occs f') ->
  exists d, name_denotes p fn (ty_name t) d /\ deref_to r f' t d.
Proof. exact ResolveFacts.deref_spec. Qed.
Print Assumptions deref_spec.

(* COMPLETENESS.  [resolvable p] (Idl/ResolvableSpec.v, Idl/ResolvableConst.v) is a boolean
   computed from the symbol table of the parsed program only: definition names are plain
   identifiers; per file the global names are distinct, every type occurrence has the
   parser's shape and every name in it denotes something ([denotes_b], which decides
   [name_denotes], see [denotes_decidable]), every base service exists, the type of a void
   function is the leaf the parser builds ([void_ok]), every identifier
   used as a value is true / false or has exactly one explanation ([explanations] counts
   the [const_denotes] alternatives); the include tree below the main file is present
   and free of cycles ([includes_ok]).  On every such program the resolver model succeeds. *)
Theorem resolve_complete : forall p, resolvable p = true -> exists r, resolve_program p = Ok r.
Proof. exact ResolveCompleteConst.resolve_complete. Qed.
Print Assumptions resolve_complete.

(* the type / service part alone (no identifier values), without [plain_names] *)
Theorem resolve_complete_types : forall p, resolvable_types p = true -> exists r, resolve_program p = Ok r.
Proof. exact ResolveComplete.resolve_complete_types. Qed.
Print Assumptions resolve_complete_types.

(* the executable denotation with the fuel [denote_fuel] decides the specification *)
Theorem denotes_decidable : forall p fn n, denotes_b p fn n = true <-> exists d, name_denotes p fn n d.
Proof. exact denotes_b_iff. Qed.
Print Assumptions denotes_decidable.

(* an identifier accepted by the count has an explanation *)
Theorem ident_ok_denotes : forall p fn s, ident_ok p fn s = true -> exists e, const_denotes p fn s e.
Proof. exact ResolvableFacts.ident_ok_denotes. Qed.
Print Assumptions ident_ok_denotes.

(* the pigeonhole behind every fuel: a typedef chain passes through pairwise distinct
   typedefs, so through at most as many as the program has *)
Theorem typedef_chain_bound : forall p fn n d l, def_path p fn n d l -> NoDup l /\ List.length l <= prog_typedef_count p.
Proof. intros p fn n d l H. split; [eapply def_path_NoDup; eauto | eapply def_path_bound; eauto]. Qed.
Print Assumptions typedef_chain_bound.

(* FUEL.  Deref with the fuel the model uses ([deref_fuel]) arrives at the denoted
   definition: [deref_spec] without its "for sufficient fuel" *)
Theorem deref_spec_fuel : forall p r,
  parsed_program p = true -> resolve_program p = Ok r ->
  forall fn f' t, prog_file r fn = Some f' -> f_name2cat f' <> None -> In t (file_occs f') ->
  exists d, name_denotes p fn (ty_name t) d /\ deref_within r f' t d (deref_fuel r).
Proof. exact ResolveFuel.deref_spec_fuel. Qed.
Print Assumptions deref_spec_fuel.

(* getEnum with the fuel the model gives it ([enum_fuel]) never runs out while a file
   is resolved, on a file of the finished ones or the current one ([ectx], [near]),
   provided every typedef of the program has a chain end and names are plain.
   (The fuel of the typedef fixpoint is [typedef_fixpoint_complete] above; the fuel of
   the include driver is part of [resolve_complete].) *)
Theorem enum_fuel_suffices : forall p done fn f,
  inv p done -> prog_file p fn = Some f ->
  (forall i, In i (f_includes f) -> exists hn, in_ref i = Some hn /\ lookup hn done <> None) ->
  plain_names p = true ->
  (forall gn n tgt, def_of p gn n = Some (DkTypedef tgt) -> exists d, def_denotes p gn n d) ->
  forall n2c tds1 gn g g' name,
  mapM (resolve_typedef done (with_name2cat f (Some n2c))) (f_typedefs f) = Ok tds1 ->
  ectx p done gn g g' -> near done fn gn ->
  exists res, get_enum (enum_fuel done (cur1 f n2c tds1)) done g' name = Ok res.
Proof. exact ResolveFuelEnum.enum_fuel_suffices. Qed.
Print Assumptions enum_fuel_suffices.

(* The hypotheses can be met: the examples below check them on a two-file program. *)

Definition ex_x : file :=
  File (B "x.thrift") [] [] []
       [Typedef (ty_named (B "E")) (B "TE") [] []]
       [Constant (B "K") (ty_named (B "i32")) (CInt 1) [] []]
       [Enum (B "E") [EnumValue (B "A") 0 [] []] [] []] [] [] [] [] None.
Definition ex_main : file :=
  File (B "main.thrift") [Include (B "x.thrift") (Some (B "x.thrift")) None] [] []
       [Typedef (ty_named (B "L")) (B "L2") [] []; Typedef (ty_named (B "x.TE")) (B "L") [] []]
       [Constant (B "c") (ty_named (B "L2")) (CIdent (B "L2.A") None) [] []] []
       [StructLike SKStruct (B "S")
          [Field 1 (B "a") ReqDefault (ty_plain (B "list") None (Some (ty_named (B "L2"))) [] []) None [] []] [] []]
       [] [] [] None.
Definition ex_p : program := [(B "main.thrift", ex_main); (B "x.thrift", ex_x)].

Example ex_parsed : parsed_program ex_p = true.
Proof. vm_compute. reflexivity. Qed.
Example ex_plain : plain_names ex_p = true.
Proof. vm_compute. reflexivity. Qed.

(* a typedef chain written backwards, crossing a file, ending in an enum: the pass
   succeeds, the element type of S.a gets CatEnum, the constant is bound through
   include 0, the include is marked used *)
Definition ex_check : bool :=
  match resolve_program ex_p with
  | Ok r =>
    match prog_file r (B "main.thrift") with
    | Some f' =>
      match f_name2cat f' with Some _ => true | None => false end &&
      list_eqb category_eqb (map ty_category (file_occs f')) [CatEnum; CatEnum; CatEnum; CatList; CatEnum] &&
      list_eqb const_value_eqb (map co_value (f_constants f'))
               [CIdent (B "L2.A") (Some (Extra true 0 (B "A") (B "L2")))] &&
      list_eqb (opt_eqb Bool.eqb) (map in_used (f_includes f')) [Some true]
    | None => false
    end
  | Error _ => false
  end.
Example ex_resolves : ex_check = true.
Proof. vm_compute. reflexivity. Qed.

(* the same program with the two typedefs of the main file in the other order *)
Definition ex_main_swapped : file :=
  File (B "main.thrift") [Include (B "x.thrift") (Some (B "x.thrift")) None] [] []
       [Typedef (ty_named (B "x.TE")) (B "L") [] []; Typedef (ty_named (B "L")) (B "L2") [] []]
       [Constant (B "c") (ty_named (B "L2")) (CIdent (B "L2.A") None) [] []] []
       [StructLike SKStruct (B "S")
          [Field 1 (B "a") ReqDefault (ty_plain (B "list") None (Some (ty_named (B "L2"))) [] []) None [] []] [] []]
       [] [] [] None.
Example ex_perm : program_perm ex_p [(B "main.thrift", ex_main_swapped); (B "x.thrift", ex_x)].
Proof.
  unfold ex_p. constructor; [|constructor; [|constructor]]; (split; [reflexivity|]).
  - unfold file_perm, ex_main, ex_main_swapped. cbn. repeat split; try apply Permutation_refl. apply perm_swap.
  - unfold file_perm. repeat split; apply Permutation_refl.
Qed.

(* the example program is resolvable in the decidable sense *)
Example ex_resolvable : resolvable ex_p = true.
Proof. vm_compute. reflexivity. Qed.
