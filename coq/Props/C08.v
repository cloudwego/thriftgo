(* Props/C08.v — property C08: the generated client and the generated processor carry a call
   end to end.  Statements only; the model is Wire/Rpc.v (no proofs there), the proofs are in
   Wire/RpcFacts.v on top of Wire/StdFacts.v (write_read, wire_shape) and Wire/CodecFacts.v.

   Reading guide.  E = rpc_env e ss is the user's env plus every synthesized <fn>_args /
   <fn>_result struct; rpc_wf e ss is a decidable check of what thriftgo's checker guarantees
   (arguments not optional, throws fields optional struct-likes, ids unique — in particular no
   exception under id 0 —, oneway functions void without throws, names of synthesized structs
   unique).  A method is (declaring service, function); tbl is the dispatch table of the service
   whose processor runs (own functions ++ table of the base service).  The handler h is an arbitrary
   function from (method, received arguments) to an outcome; hypotheses about it only say that what
   it returns is well typed.  apache/thrift v0.13.0 (TStandardClient, TApplicationException,
   TBinaryProtocol message framing) is modelled from its source: trusted, not verified. *)
From Coq Require Import List ZArith Bool.
From Verif Require Import Base.Bytes Base.BE Wire.TType Wire.WVal Wire.Codec Wire.Schema Wire.Value Wire.Std
  Wire.StdFacts Wire.Rpc Wire.RpcFacts.
Import ListNotations.
Open Scope Z_scope.

(* ---- message framing: what WriteMessageBegin (strict) writes, ReadMessageBegin reads back ---- *)

Theorem C08_message_header : forall name ty seq rest,
  len_ok name = true -> 0 <= ty < 256 -> in_srange 4 seq ->
  read_msg_begin (msg_begin name ty seq ++ rest) = Some (name, ty, seq, rest).
Proof. exact read_msg_begin_msg_begin. Qed.
Print Assumptions C08_message_header.

(* ---- call_roundtrip: for every declared (own or inherited) non-oneway method, all well-typed
        arguments and every handler: the caller gets the image of what the handler returned ---- *)

Theorem C08_call_roundtrip : forall e ss, rpc_wf e ss = true ->
  forall fuel svc tbl, method_table fuel ss svc = Some tbl ->
  forall (h : handler) (m : method) st args,
  find_method tbl (fn_name (snd m)) = Some m ->
  fn_oneway (snd m) = false ->
  wt_args (rpc_env e ss) m args = true ->
  outcome_ok (rpc_env e ss) (snd m) (h m (norm_args (rpc_env e ss) (snd m) args)) = true ->
  exists req,
    client_send (rpc_env e ss) m st args = Ok (next_seq st, req) /\
    client_recv (rpc_env e ss) m (next_seq st) (fst (process (rpc_env e ss) tbl h req)) =
      image (rpc_env e ss) (snd m) (h m (norm_args (rpc_env e ss) (snd m) args)).
Proof. exact call_roundtrip. Qed.
Print Assumptions C08_call_roundtrip.

(* ---- handler_sees_args: exactly one handler invocation, of that method, with norm args ---- *)

Theorem C08_handler_sees_args : forall e ss, rpc_wf e ss = true ->
  forall fuel svc tbl, method_table fuel ss svc = Some tbl ->
  forall (h : handler) (m : method) st args,
  find_method tbl (fn_name (snd m)) = Some m ->
  wt_args (rpc_env e ss) m args = true ->
  exists wfs,
    client_send (rpc_env e ss) m st args =
      Ok (next_seq st, msg_begin (fn_name (snd m)) M_CALL (next_seq st) ++ enc (WStruct wfs)) /\
    snd (process (rpc_env e ss) tbl h (msg_begin (fn_name (snd m)) M_CALL (next_seq st) ++ enc (WStruct wfs))) =
      [(m, norm_args (rpc_env e ss) (snd m) args)].
Proof. exact handler_sees_args. Qed.
Print Assumptions C08_handler_sees_args.

(* ---- everything about one call at once (oneway included) ---- *)

Theorem C08_call_carried : forall e ss, rpc_wf e ss = true ->
  forall fuel svc tbl, method_table fuel ss svc = Some tbl ->
  forall (h : handler) (m : method) st args,
  find_method tbl (fn_name (snd m)) = Some m ->
  wt_args (rpc_env e ss) m args = true ->
  (fn_oneway (snd m) = false ->
   outcome_ok (rpc_env e ss) (snd m) (h m (norm_args (rpc_env e ss) (snd m) args)) = true) ->
  exists req,
    client_send (rpc_env e ss) m st args = Ok (next_seq st, req) /\
    snd (process (rpc_env e ss) tbl h req) = [(m, norm_args (rpc_env e ss) (snd m) args)] /\
    client_recv (rpc_env e ss) m (next_seq st) (fst (process (rpc_env e ss) tbl h req)) =
      (if fn_oneway (snd m) then COneway
       else image (rpc_env e ss) (snd m) (h m (norm_args (rpc_env e ss) (snd m) args))) /\
    (fn_oneway (snd m) = true -> fst (process (rpc_env e ss) tbl h req) = None).
Proof. exact call_carried. Qed.
Print Assumptions C08_call_carried.

(* ---- unknown method name: UNKNOWN_METHOD application exception, handler untouched ---- *)

Theorem C08_unknown_method_reply : forall E tbl h bs name ty seq body,
  read_msg_begin bs = Some (name, ty, seq, body) -> find_method tbl name = None ->
  process E tbl h bs = (Some (exc_reply name seq (msg_unknown name) UNKNOWN_METHOD), []).
Proof. exact unknown_method_reply. Qed.
Print Assumptions C08_unknown_method_reply.

(* the client of [svc] (table tbl) calls a processor with table ptbl that lacks the method *)
Theorem C08_unknown_method_is_app_exception : forall e ss, rpc_wf e ss = true ->
  forall fuel svc tbl, method_table fuel ss svc = Some tbl ->
  forall (h : handler) (ptbl : list method) (m : method) st args,
  In m tbl -> fn_oneway (snd m) = false -> wt_args (rpc_env e ss) m args = true ->
  find_method ptbl (fn_name (snd m)) = None ->
  len_ok (msg_unknown (fn_name (snd m))) = true ->
  exists req,
    client_send (rpc_env e ss) m st args = Ok (next_seq st, req) /\
    process (rpc_env e ss) ptbl h req =
      (Some (exc_reply (fn_name (snd m)) (next_seq st) (msg_unknown (fn_name (snd m))) UNKNOWN_METHOD), []) /\
    client_recv (rpc_env e ss) m (next_seq st) (fst (process (rpc_env e ss) ptbl h req)) = CAppExc UNKNOWN_METHOD.
Proof. exact unknown_method_is_app_exception. Qed.
Print Assumptions C08_unknown_method_is_app_exception.

(* ---- oneway: no reply, for any request bytes whose header names a oneway method ---- *)

Theorem C08_oneway_no_reply : forall E tbl h bs name ty seq body (m : method),
  read_msg_begin bs = Some (name, ty, seq, body) -> find_method tbl name = Some m ->
  fn_oneway (snd m) = true -> fst (process E tbl h bs) = None.
Proof. exact oneway_no_reply. Qed.
Print Assumptions C08_oneway_no_reply.

(* ---- inherited methods are dispatched (base service addressed by qualified name: same file or
        included file); through any number of extends steps the ancestor's table is contained ---- *)

Theorem C08_inherited_dispatch : forall ss k n s b tb name (m : method),
  find_service ss n = Some s -> sv_extends s = Some b -> method_table k ss b = Some tb ->
  find_method tb name = Some m -> find_method (own_methods s) name = None ->
  exists t, method_table (S k) ss n = Some t /\ find_method t name = Some m.
Proof. exact inherited_dispatch. Qed.
Print Assumptions C08_inherited_dispatch.

Theorem C08_inherited_table : forall ss n c, derives ss n c -> forall fuel t,
  method_table fuel ss n = Some t ->
  exists k tc, method_table k ss c = Some tc /\ incl tc t.
Proof. exact inherited_table. Qed.
Print Assumptions C08_inherited_table.

(* ---- wire_message_shape ---- *)

(* request = <name as written in the IDL, CALL (also for oneway: TStandardClient), next seqid> ++
   args struct: the arguments in declaration order under their IDL ids, wire types of the spec *)
Theorem C08_wire_message_shape_request : forall e ss, rpc_wf e ss = true ->
  forall fuel svc tbl, method_table fuel ss svc = Some tbl ->
  forall (m : method) st args,
  In m tbl -> wt_args (rpc_env e ss) m args = true ->
  exists wfs,
    client_send (rpc_env e ss) m st args =
      Ok (next_seq st, msg_begin (fn_name (snd m)) M_CALL (next_seq st) ++ enc (WStruct wfs)) /\
    map hdr wfs = map (fun a => (spec_ttype (f_ty a), f_id a)) (fn_args (snd m)) /\
    read_msg_begin (msg_begin (fn_name (snd m)) M_CALL (next_seq st) ++ enc (WStruct wfs)) =
      Some (fn_name (snd m), M_CALL, next_seq st, enc (WStruct wfs)).
Proof. exact request_shape. Qed.
Print Assumptions C08_wire_message_shape_request.

(* reply = <name, REPLY, same seqid> ++ result struct with success under id 0 (absent for nil),
   a declared exception under its IDL id as a STRUCT, nothing for void;
   <name, EXCEPTION, same seqid> ++ TApplicationException(INTERNAL_ERROR) for any other error *)
Theorem C08_wire_message_shape_reply : forall e ss, rpc_wf e ss = true ->
  forall fuel svc tbl, method_table fuel ss svc = Some tbl ->
  forall (m : method) seq oc,
  In m tbl -> fn_oneway (snd m) = false -> in_srange 4 seq ->
  outcome_ok (rpc_env e ss) (snd m) oc = true ->
  match oc with
  | Ret v =>
      exists rfs, reply_of (rpc_env e ss) m seq oc =
                    Some (msg_begin (fn_name (snd m)) M_REPLY seq ++ enc (WStruct rfs)) /\
                  map hdr rfs = match fn_ret (snd m) with
                                | Some t => if is_nil v then [] else [(spec_ttype t, 0)]
                                | None => [] end
  | Void => reply_of (rpc_env e ss) m seq oc =
              Some (msg_begin (fn_name (snd m)) M_REPLY seq ++ enc (WStruct []))
  | Throw n v =>
      match find_throw n (fn_throws (snd m)) with
      | Some g => exists rfs, reply_of (rpc_env e ss) m seq oc =
                                Some (msg_begin (fn_name (snd m)) M_REPLY seq ++ enc (WStruct rfs)) /\
                              map hdr rfs = [(T_STRUCT, f_id g)]
      | None => reply_of (rpc_env e ss) m seq oc =
                  Some (exc_reply (fn_name (snd m)) seq (msg_internal (fn_name (snd m)) msg_opaque) INTERNAL_ERROR)
      end
  | OtherError text =>
      reply_of (rpc_env e ss) m seq oc =
        Some (exc_reply (fn_name (snd m)) seq (msg_internal (fn_name (snd m)) text) INTERNAL_ERROR)
  end.
Proof. exact reply_shape. Qed.
Print Assumptions C08_wire_message_shape_reply.

(* ---- sequence_of_calls: any list of calls on one connection (induction over the list); hs k is
        the handler's behaviour during call k; per call: sequence id, caller's result, handler log ---- *)

Theorem C08_sequence_of_calls : forall e ss, rpc_wf e ss = true ->
  forall fuel svc tbl, method_table fuel ss svc = Some tbl ->
  forall (hs : nat -> handler) cs k st,
  calls_ok (rpc_env e ss) tbl hs k cs ->
  map view (run_calls (rpc_env e ss) tbl hs k st cs) = expected (rpc_env e ss) hs k st cs.
Proof. exact sequence_of_calls. Qed.
Print Assumptions C08_sequence_of_calls.

(* sequence ids: next_seq iterated (st+1, st+2, ... as long as int32 does not overflow) *)
Theorem C08_sequence_ids : forall e ss, rpc_wf e ss = true ->
  forall fuel svc tbl, method_table fuel ss svc = Some tbl ->
  forall (hs : nat -> handler) cs k st,
  calls_ok (rpc_env e ss) tbl hs k cs ->
  map o_seq (run_calls (rpc_env e ss) tbl hs k st cs) = seqs st (length cs).
Proof. exact sequence_ids. Qed.
Print Assumptions C08_sequence_ids.

Theorem C08_next_seq_small : forall st, in_srange 4 (st + 1) -> next_seq st = st + 1.
Proof. exact next_seq_small. Qed.
Print Assumptions C08_next_seq_small.

(* ---- streaming functions (annotation streaming.mode, no thrift_streaming option) are taken out of the
        services of the main file before generation; every other function stays and is
        dispatched under its IDL name; a removed function's name is unknown to the processor ---- *)

Theorem C08_streaming_removed : forall l g,
  In g (remove_streaming l) <-> exists f, In f l /\ fs_fn f = g /\ fs_stream f = None.
Proof. exact remove_streaming_spec. Qed.
Print Assumptions C08_streaming_removed.

Theorem C08_kept_function_dispatched : forall s f,
  In f (ss_funs s) -> fs_stream f = None ->
  NoDup (map fn_name (sv_funs (effective s))) ->
  find_method (own_methods (effective s)) (fn_name (fs_fn f)) = Some (ss_name s, fs_fn f).
Proof. exact kept_function_dispatched. Qed.
Print Assumptions C08_kept_function_dispatched.

Theorem C08_streaming_function_unknown : forall s name,
  ss_main s = true ->
  (forall f, In f (ss_funs s) -> fn_name (fs_fn f) = name -> fs_stream f <> None) ->
  find_method (own_methods (effective s)) name = None.
Proof. exact streaming_function_unknown. Qed.
Print Assumptions C08_streaming_function_unknown.

(* ---- the hypotheses are satisfiable: a base service in file "b", a service extending it in
        file "a" (value / void / oneway methods, two declared exceptions) ---- *)

From Coq.Strings Require Import String.
Local Open Scope string_scope.

Definition ex_E1 : sschema :=
  mkstruct (B "b.E1") KException [mkfield 1 (B "msg") Default TString None false; mkfield 2 (B "code") Required TI32 None false].
Definition ex_E2 : sschema := mkstruct (B "a.E2") KException [mkfield 1 (B "why") Optional TString None false].
Definition ex_env : env := mkenv [ex_E1; ex_E2] [].
Definition ex_ping : function :=
  mkfun (B "ping") false (Some TI32) [mkfield 1 (B "a") Default TI32 None false]
        [mkfield 1 (B "e") Optional (TRef (B "b.E1")) None false].
Definition ex_add : function :=
  mkfun (B "add") false (Some (TList TString))
        [mkfield 1 (B "type") Default TI32 None false; mkfield 4 (B "err") Required (TList TI64) None false]
        [mkfield 1 (B "e1") Optional (TRef (B "b.E1")) None false; mkfield 3 (B "e2") Optional (TRef (B "a.E2")) None false].
Definition ex_fire : function := mkfun (B "fire") true None [mkfield 1 (B "msg") Default TString None false] [].
Definition ex_nop : function := mkfun (B "nop") false None [] [].
Definition ex_ss : list service :=
  [mksvc (B "b.Base") None [ex_ping]; mksvc (B "a.Svc") (Some (B "b.Base")) [ex_add; ex_fire; ex_nop]].
Definition ex_tbl : list method :=
  [(B "a.Svc", ex_add); (B "a.Svc", ex_fire); (B "a.Svc", ex_nop); (B "b.Base", ex_ping)].

Example ex_wf : rpc_wf ex_env ex_ss = true.
Proof. vm_compute. reflexivity. Qed.
Example ex_table : method_table 2 ex_ss (B "a.Svc") = Some ex_tbl.
Proof. vm_compute. reflexivity. Qed.
Example ex_inherited : find_method ex_tbl (B "ping") = Some (B "b.Base", ex_ping).
Proof. vm_compute. reflexivity. Qed.

(* a scripted handler: add throws E2, ping returns 7, the others return nothing *)
Definition ex_handler : handler := fun m _ =>
  if beqb (fn_name (snd m)) (B "add") then Throw (B "a.E2") (VStruct [(1, VSome (VStr (B "no")))])
  else if beqb (fn_name (snd m)) (B "ping") then Ret (VInt 7) else Void.
Definition ex_calls : list call :=
  [mkcall (B "a.Svc", ex_add) [VInt 5; VNil]; mkcall (B "a.Svc", ex_fire) [VStr (B "x")];
   mkcall (B "b.Base", ex_ping) [VInt (-1)]; mkcall (B "a.Svc", ex_nop) []].

Example ex_calls_ok : calls_ok (rpc_env ex_env ex_ss) ex_tbl (fun _ => ex_handler) 0 ex_calls.
Proof. vm_compute. repeat split; try reflexivity; intros; reflexivity. Qed.

Example ex_run :
  map view (run_calls (rpc_env ex_env ex_ss) ex_tbl (fun _ => ex_handler) 0 0 ex_calls) =
  [ (1, CExc (B "a.E2") (VStruct [(1, VSome (VStr (B "no")))]), [((B "a.Svc", ex_add), [VInt 5; VList []])]);
    (2, COneway, [((B "a.Svc", ex_fire), [VStr (B "x")])]);
    (3, CRet (VInt 7), [((B "b.Base", ex_ping), [VInt (-1)])]);
    (4, CVoid, [((B "a.Svc", ex_nop), [])]) ].
Proof. vm_compute. reflexivity. Qed.

(* the same service as written in the IDL, with a streaming function between add and fire *)
Definition ex_src : service_src :=
  mksrc (B "a.Svc") (Some (B "b.Base")) true
        [mkfsrc ex_add None;
         mkfsrc (mkfun (B "watch") false (Some TString) [mkfield 1 (B "req") Default TString None false] []) (Some [mode_server]);
         mkfsrc ex_fire None; mkfsrc ex_nop None].
Example ex_effective : effective ex_src = mksvc (B "a.Svc") (Some (B "b.Base")) [ex_add; ex_fire; ex_nop].
Proof. vm_compute. reflexivity. Qed.
