(* Props/C12.v — property C12 "Output assembly loses nothing", stated about the model
   Gen/FileManager.v of generator/file_manager.go.  This file holds statements; the proofs
   are in Gen/FileManagerFacts.v, FileManagerExpand.v, FileManagerFull.v, FileManagerText.v and
   MarkerFacts.v; the examples at the end are evaluated.  Each is followed by Print Assumptions. *)
From Coq Require Import List Permutation.
From Verif Require Import Base.Bytes Gen.FileManager Gen.FileManagerFacts Corr.C12 Gen.FileManagerText Gen.FileManagerExpand Gen.FileManagerFull Gen.MarkerTable Gen.MarkerFacts.
Import ListNotations.

(* Every history of Feed calls (any number of calls, any items): the assembled output never
   contains two files with one name. *)
Theorem C12_output_names_unique :
  forall (h : list (list gen)) outs, run h = Ok outs -> NoDup (map fst outs).
Proof. exact output_names_unique. Qed.
Print Assumptions C12_output_names_unique.

(* A file accepted after a prefix of the history keeps its position, its name and its submitted
   content whatever is fed later: later conflicting submissions never overwrite or merge. *)
Theorem C12_never_overwritten :
  forall h1 h2 m1 m2, feeds fm0 h1 = Ok m1 -> feeds m1 h2 = Ok m2 ->
  forall i f, nth_error (files m1) i = Some f -> nth_error (files m2) i = Some f.
Proof. exact never_overwritten. Qed.
Print Assumptions C12_never_overwritten.

(* The response lists exactly the kept files, in order, under their names. *)
Theorem C12_response_lists_kept_files : forall m, map fst (build m) = map fst (files m).
Proof. exact build_names. Qed.
Print Assumptions C12_response_lists_kept_files.

(* A file with a name not seen before is appended with exactly its content. *)
Theorem C12_new_name_appended :
  forall f m n c rest last, lookup n (index m) = None ->
  feed_items (S f) m last (Fl n c :: rest) = feed_items f (add_file m n c) n rest.
Proof. exact new_name_appended. Qed.
Print Assumptions C12_new_name_appended.

(* A later file with an existing name and identical content is dropped together with the
   unnamed patches that follow it. *)
Theorem C12_identical_resubmission_dropped :
  forall f m n c rest last idx, lookup n (index m) = Some idx -> content_at m idx = c ->
  feed_items (S f) m last (Fl n c :: rest) = feed_items f m last (drop_unnamed rest).
Proof. exact identical_resubmission_dropped. Qed.
Print Assumptions C12_identical_resubmission_dropped.

(* With different content it is kept under a name no file has yet, with its own content. *)
Theorem C12_conflicting_resubmission_kept :
  forall f m n c rest last idx rn k', lookup n (index m) = Some idx ->
  probe (get_count m n + List.length (files m) + 2) m n c idx 1 (get_count m n) = Fresh rn k' ->
  lookup rn (index m) = None /\
  feed_items (S f) m last (Fl n c :: rest) =
    feed_items f (mkfm (files m ++ [(rn, c)]) (patch m) (update rn (List.length (files m)) (index m))
                       (update n k' (count m)) (update rn n (origin m))) rn rest.
Proof. exact conflicting_resubmission_kept. Qed.
Print Assumptions C12_conflicting_resubmission_kept.

(* A patch with no target is an error: unnamed with nothing before it, or named for a file
   that was never submitted. *)
Theorem C12_unnamed_first_is_error :
  forall m g rest, g_name g = None -> feed m (g :: rest) = Err.
Proof. exact unnamed_first_is_error. Qed.
Print Assumptions C12_unnamed_first_is_error.

Theorem C12_named_patch_without_target_is_error :
  forall m n ip c rest, ip <> [] -> lookup n (index m) = None -> feed m (Np n ip c :: rest) = Err.
Proof. exact named_patch_without_target_is_error. Qed.
Print Assumptions C12_named_patch_without_target_is_error.

(* Patches for one insertion point are concatenated in submission order (and nothing else is). *)
Theorem C12_patch_order :
  forall ps pairs k,
  lookup k (fold_left (fun acc p => add_pair acc (marker (g_ip p)) (g_content p)) ps pairs) =
  match lookup k pairs with
  | Some old => Some (old ++ patch_text k ps)
  | None => if existsb (fun p => beqb (marker (g_ip p)) k) ps then Some (patch_text k ps) else None
  end.
Proof. exact patch_fold_lookup. Qed.
Print Assumptions C12_patch_order.

(* Every marker the scanner finds in a submitted file is a key of the table the replacer starts
   from (what becomes of a key occurrence is the next theorem). *)
Theorem C12_found_marker_is_replaced :
  forall content k, In k (find_markers content) -> lookup k (init_pairs content) <> None.
Proof. exact found_marker_is_key. Qed.
Print Assumptions C12_found_marker_is_replaced.

(* a key occurrence picked by the replacer is replaced by its text and scanning resumes after it *)
Theorem C12_replace_at_key :
  forall pairs k v rest, k <> [] -> first_match pairs (k ++ rest) = Some (k, v) ->
  replace pairs (k ++ rest) = v ++ replace pairs rest.
Proof. exact replace_step. Qed.
Print Assumptions C12_replace_at_key.

(* text in which no key matches at any position is unchanged *)
Theorem C12_text_outside_markers_unchanged :
  forall pairs s, no_key_anywhere pairs s -> replace pairs s = s.
Proof. exact replace_no_key. Qed.
Print Assumptions C12_text_outside_markers_unchanged.

(* The declarative specification of WHICH submissions are kept and UNDER WHICH NAME — written
   without index, count, origin or the rename walk (Corr/C12.v `bookkeeping`, the same function the
   check evaluates on the real FileManager's output as a property oracle): walking the submitted
   file items in order, an item (n, c) is dropped iff an earlier kept item has content c and was
   submitted as n or ended up named n; otherwise it is the next output file, named n when no
   earlier output has that name and in any case under a name no earlier output has; and there
   are no other output files.  It holds of the model on EVERY history. *)
Theorem C12_model_satisfies_bookkeeping :
  forall h outs, run h = Ok outs -> bookkeeping (file_items h) outs [] = true.
Proof. exact model_satisfies_bookkeeping. Qed.
Print Assumptions C12_model_satisfies_bookkeeping.

(* Text level, for every history without patch items (every item is a named file): the response
   is the list of kept files, each with its submitted text minus exactly the insertion-point
   markers (`strip_markers`, the declarative scanner of the check's oracle 6) — the regexp scan,
   the replacer's key set and the generic replacer agree with it at every position. *)
Theorem C12_no_patch_history_texts :
  forall h m, forallb no_patch_items h = true -> feeds fm0 h = Ok m ->
  build m = map (fun f => (fst f, strip_markers 0 (snd f))) (files m).
Proof. exact no_patch_history_texts. Qed.
Print Assumptions C12_no_patch_history_texts.

(* and for any history, a file that received no patch is written with its markers stripped *)
Theorem C12_unpatched_file_text :
  forall m name content, patches_of m name = [] ->
  build_one m (name, content) = (name, strip_markers 0 content).
Proof. exact build_one_no_patches. Qed.
Print Assumptions C12_unpatched_file_text.

(* Text level WITH patches, for every history whose insertion-point names are over the marker
   alphabet [$.0-9a-zA-Z_] (the empty name included): the response is the list of kept files, each
   with its submitted text in which every marker is replaced by the contents of the patches
   recorded for that point and that file, in submission order (nothing when there is none), every
   other byte kept, and inserted text not scanned again (`expand`, a declarative scanner that
   mentions neither the regexp result list, nor the replacer's key table, nor the replacer). *)
Theorem C12_history_texts :
  forall h m, forallb ips_wf h = true -> feeds fm0 h = Ok m ->
  build m = map (fun f => (fst f, expand (patches_of m (fst f)) 0 (snd f))) (files m).
Proof. exact history_texts. Qed.
Print Assumptions C12_history_texts.

Theorem C12_patched_file_text :
  forall m name content, ips_wf (patches_of m name) = true ->
  build_one m (name, content) = (name, expand (patches_of m name) 0 content).
Proof. exact build_one_patched. Qed.
Print Assumptions C12_patched_file_text.

(* what `expand` does, clause by clause: at a marker the patches of that point in order, then on
   after the marker; any other byte is copied; without patches it is `strip_markers` *)
Theorem C12_expand_at_marker :
  forall ps nm rest, forallb ip_char nm = true ->
  expand ps 0 (marker nm ++ rest) = patch_text (marker nm) ps ++ expand ps 0 rest.
Proof. exact expand_at_marker. Qed.
Print Assumptions C12_expand_at_marker.

Theorem C12_expand_other :
  forall ps c rest, marker_at (c :: rest) = None -> expand ps 0 (c :: rest) = c :: expand ps 0 rest.
Proof. exact expand_other. Qed.
Print Assumptions C12_expand_other.

Theorem C12_expand_without_patches : forall s skip, expand [] skip s = strip_markers skip s.
Proof. exact expand_nil. Qed.
Print Assumptions C12_expand_without_patches.

(* Text level at FULL strength — every history, any insertion point names: each output text is the
   submitted text in which, at every position, the LONGEST key of the file's table that matches
   there (the markers the scanner found in the submitted text and the markers of the patches
   recorded for the file, `table_keys`) is replaced by the patches of that key in submission order,
   a byte where no key matches is copied, and inserted text is not scanned again (`expand_keys`,
   which mentions neither the listing order nor the replacer).  `C12_longest_key_spec` says what
   `longest_key` returns; `C12_history_texts` above is the reading over the marker alphabet, where
   at most one key matches at a position. *)
Theorem C12_history_texts_full :
  forall h m, feeds fm0 h = Ok m ->
  build m = map (fun f => (fst f, expand_keys (table_keys (snd f) (patches_of m (fst f)))
                                              (patches_of m (fst f)) 0 (snd f))) (files m).
Proof. exact history_texts_full. Qed.
Print Assumptions C12_history_texts_full.

Theorem C12_file_text_full :
  forall m name content,
  build_one m (name, content) =
  (name, expand_keys (table_keys content (patches_of m name)) (patches_of m name) 0 content).
Proof. exact build_one_full. Qed.
Print Assumptions C12_file_text_full.

Theorem C12_longest_key_spec :
  forall ks s k, longest_key ks s = Some k ->
  In k ks /\ is_prefix k s = true /\
  forall k', In k' ks -> is_prefix k' s = true -> List.length k' <= List.length k.
Proof. exact longest_key_some. Qed.
Print Assumptions C12_longest_key_spec.

Theorem C12_no_key_matches_spec :
  forall ks s, longest_key ks s = None -> forall k, In k ks -> is_prefix k s = false.
Proof. exact longest_key_none. Qed.
Print Assumptions C12_no_key_matches_spec.

(* The replacer's table is a Go map.  BuildResponse lists its keys in descending string order
   before handing them to strings.NewReplacer (`listed_pairs`): the listing has the table's
   entries, is the same list whatever order the map delivers its entries in, and — the replacer
   preferring the pair listed first — of all keys matching at a position the longest is taken. *)
Theorem C12_listing_keeps_table : forall P k, lookup k (listed_pairs P) = lookup k P.
Proof. exact lookup_listed. Qed.
Print Assumptions C12_listing_keeps_table.

Theorem C12_replacer_table_order_irrelevant :
  forall P P', NoDup (map fst P) -> Permutation P P' -> listed_pairs P = listed_pairs P'.
Proof. exact listed_pairs_order_irrelevant. Qed.
Print Assumptions C12_replacer_table_order_irrelevant.

Theorem C12_longest_key_wins :
  forall P s k v, first_match (listed_pairs P) s = Some (k, v) ->
  forall k', In k' (map fst P) -> is_prefix k' s = true -> List.length k' <= List.length k.
Proof. exact listed_longest_first. Qed.
Print Assumptions C12_longest_key_wins.

(* The marker syntax of the model is the source's: `marker` is fmt.Sprintf(InsertionPointFormat, ip)
   and `ip_char` is the starred character class of insertReg, both as the translator read them from
   plugin/plugin.go and generator/file_manager.go on this run (Gen/MarkerTable.v is regenerated by
   every check; an edit of the format or of the class breaks these theorems). *)
Theorem C12_marker_syntax_is_source :
  forall ip, marker ip = src_marker_head ++ [Byte.x28] ++ ip ++ [Byte.x29].
Proof. exact marker_is_source. Qed.
Print Assumptions C12_marker_syntax_is_source.

Theorem C12_marker_alphabet_is_source : forall c, ip_char c = in_class src_ip_class c.
Proof. exact ip_char_is_source. Qed.
Print Assumptions C12_marker_alphabet_is_source.

(* Termination: for every history the model never exhausts the fuel it gives to the rename walk
   (the Go `for {}` loop) or to the item loop — the walk over own siblings ends, and among the
   candidate names `<stem>_<n><ext>` a free one is reached after at most as many steps as there are
   files (decimal printing is injective, pigeonhole).  So Feed always returns. *)
Theorem C12_feed_terminates : forall h, run h <> Fuel.
Proof. exact run_never_out_of_fuel. Qed.
Print Assumptions C12_feed_terminates.

Theorem C12_renamed_names_distinct : forall name a b, renamed name a = renamed name b -> a = b.
Proof. exact renamed_inj. Qed.
Print Assumptions C12_renamed_names_distinct.

(* Non-vacuity: concrete histories exercising the premises. *)
From Coq Require Import String.
Open Scope string_scope.
Example C12_example_rename :
  run [[Fl (B "a_1.go") (B "X"); Fl (B "a.go") (B "A"); Fl (B "a.go") (B "B")]]
  = Ok [(B "a_1.go", B "X"); (B "a.go", B "A"); (B "a_2.go", B "B")].
Proof. vm_compute. reflexivity. Qed.

Example C12_example_patches :
  run [[Fl (B "a.go") (B "x@@thriftgo_insertion_point(p)y@@thriftgo_insertion_point(q)");
        Up (B "p") (B "1"); Up (B "p") (B "2")]; [Np (B "a.go") (B "p") (B "3")]]
  = Ok [(B "a.go", B "x123y")].
Proof. vm_compute. reflexivity. Qed.

Example C12_example_patches_in_domain :
  forallb ips_wf [[Fl (B "a.go") (B "x@@thriftgo_insertion_point(p)y@@thriftgo_insertion_point(q)");
        Up (B "p") (B "1"); Up (B "p") (B "2")]; [Np (B "a.go") (B "p") (B "3")]] = true.
Proof. vm_compute. reflexivity. Qed.

(* an insertion point name outside the marker alphabet: one key is a prefix of the other *)
Example C12_example_overlapping_keys :
  run [[Fl (B "a.go") (B "x@@thriftgo_insertion_point(a)b)y@@thriftgo_insertion_point(a)z");
        Up (B "a") (B "1"); Up (B "a)b") (B "2")]]
  = Ok [(B "a.go", B "x2y1z")].
Proof. vm_compute. reflexivity. Qed.
