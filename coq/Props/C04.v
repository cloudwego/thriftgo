(* Props/C04.v — property C04: invalid input is diagnosed (non-zero exit, message, no
   output, no crash).  Statements only; proofs in Idl/CheckFacts.v, Idl/AcceptBackend.v,
   Idl/AcceptSound.v, Idl/AcceptComplete.v.

   Model: Idl/Accept.v [accepts p b] = the accept / reject decision of sdk.InvokeThriftgo
   on a parsed multi-file program [p] for backend configuration [b] (go / fastgo, with or
   without -r): parser.CircleDetect ; Idl/Check.v (CheckAll) ; Idl/Resolve.v
   (ResolveSymbols, the model of C05) ; the constant-kind decisions of the Go backend.
   Specification: Idl/Rules.v, the catalogue [rule] with the declarative decidable
   predicate [violates r p]: SOME file reachable from the main file through include
   statements has SOME site with the defect.

   The diagnosed_<rule> theorems whose name has no suffix, and accepts_sound, quantify over
   ALL programs, every position in the include graph and both backends; those named
   _partial, _recursive, _main carry the hypothesis the comment above them explains.
   All speak about the decision (accept / reject).  That a rejection
   comes out of the real binary as exit status <> 0, a diagnostic, no file, no Go
   trace and no hang is observed on every run of ./check C04 (Corr/C04.v), as are the
   rules that leave no AST: SyntaxError, MissingInclude, BadCommandLine.

   The model mirrors the REPAIRED checker (proposed_fixes/C04-1 .. C04-3): second
   union default, duplicate ids / names in argument and throws lists, throws id 0 on
   a non-void function.  For getEnum on cyclic typedefs (C04-4) the model
   [Resolve.get_enum] is the function WITHOUT the visited set: on a typedef cycle it
   runs out of every fuel (get_enum_cycle_diverges below), which stands for the stack
   overflow; the function with the visited set answers "not an enum" there. *)
From Coq Require Import List Bool Arith NArith ZArith.
From Coq.Strings Require Import String.
From Verif Require Import Base.Bytes Idl.Ast Idl.AstUtil Idl.Resolve Idl.ResolveSpec
     Idl.Check Idl.Rules Idl.CheckFacts Idl.Accept Idl.AcceptBackend Idl.AcceptSound
     Idl.ResolvableConst Idl.AcceptComplete Idl.RulesKinds.
Import ListNotations.
Local Open Scope string_scope.

(* diagnosed_<rule>: a violating program is not accepted *)

Theorem diagnosed_IncludeCycle : forall p b, violates IncludeCycle p = true -> accepts p b <> AOk.
Proof. intros p b. exact (diagnosed p b IncludeCycle eq_refl). Qed.
Print Assumptions diagnosed_IncludeCycle.

Theorem diagnosed_DupGlobal : forall p b, violates DupGlobal p = true -> accepts p b <> AOk.
Proof. intros p b. exact (diagnosed p b DupGlobal eq_refl). Qed.
Print Assumptions diagnosed_DupGlobal.

Theorem diagnosed_DupField : forall p b, violates DupField p = true -> accepts p b <> AOk.
Proof. intros p b. exact (diagnosed p b DupField eq_refl). Qed.
Print Assumptions diagnosed_DupField.

(* struct, union, exception, argument list, throws list; and the throws of a function
   that returns a value share their ids with the return value (field 0) *)
Theorem diagnosed_DupFieldId : forall p b, violates DupFieldId p = true -> accepts p b <> AOk.
Proof. intros p b. exact (diagnosed p b DupFieldId eq_refl). Qed.
Print Assumptions diagnosed_DupFieldId.

Theorem diagnosed_DupFunction : forall p b, violates DupFunction p = true -> accepts p b <> AOk.
Proof. intros p b. exact (diagnosed p b DupFunction eq_refl). Qed.
Print Assumptions diagnosed_DupFunction.

Theorem diagnosed_DupEnumName : forall p b, violates DupEnumName p = true -> accepts p b <> AOk.
Proof. intros p b. exact (diagnosed p b DupEnumName eq_refl). Qed.
Print Assumptions diagnosed_DupEnumName.

Theorem diagnosed_DupEnumNumber : forall p b, violates DupEnumNumber p = true -> accepts p b <> AOk.
Proof. intros p b. exact (diagnosed p b DupEnumNumber eq_refl). Qed.
Print Assumptions diagnosed_DupEnumNumber.

Theorem diagnosed_EnumOutOfInt32 : forall p b, violates EnumOutOfInt32 p = true -> accepts p b <> AOk.
Proof. intros p b. exact (diagnosed p b EnumOutOfInt32 eq_refl). Qed.
Print Assumptions diagnosed_EnumOutOfInt32.

Theorem diagnosed_UndefinedType : forall p b, violates UndefinedType p = true -> accepts p b <> AOk.
Proof. intros p b. exact (diagnosed p b UndefinedType eq_refl). Qed.
Print Assumptions diagnosed_UndefinedType.

Theorem diagnosed_NonTypeAsType : forall p b, violates NonTypeAsType p = true -> accepts p b <> AOk.
Proof. intros p b. exact (diagnosed p b NonTypeAsType eq_refl). Qed.
Print Assumptions diagnosed_NonTypeAsType.

Theorem diagnosed_TypedefCycle : forall p b, violates TypedefCycle p = true -> accepts p b <> AOk.
Proof. intros p b. exact (diagnosed p b TypedefCycle eq_refl). Qed.
Print Assumptions diagnosed_TypedefCycle.

Theorem diagnosed_OnewayReturns : forall p b, violates OnewayReturns p = true -> accepts p b <> AOk.
Proof. intros p b. exact (diagnosed p b OnewayReturns eq_refl). Qed.
Print Assumptions diagnosed_OnewayReturns.

Theorem diagnosed_OnewayThrows : forall p b, violates OnewayThrows p = true -> accepts p b <> AOk.
Proof. intros p b. exact (diagnosed p b OnewayThrows eq_refl). Qed.
Print Assumptions diagnosed_OnewayThrows.

Theorem diagnosed_UnknownBaseService : forall p b, violates UnknownBaseService p = true -> accepts p b <> AOk.
Proof. intros p b. exact (diagnosed p b UnknownBaseService eq_refl). Qed.
Print Assumptions diagnosed_UnknownBaseService.

Theorem diagnosed_SecondUnionDefault : forall p b, violates SecondUnionDefault p = true -> accepts p b <> AOk.
Proof. intros p b. exact (diagnosed p b SecondUnionDefault eq_refl). Qed.
Print Assumptions diagnosed_SecondUnionDefault.

(* Identifiers used as values.  Full statements:
     diagnosed_UndefinedConst : forall p b, violates UndefinedConst p = true -> accepts p b <> AOk
     diagnosed_AmbiguousConst : forall p b, violates AmbiguousConst p = true -> accepts p b <> AOk
   Proved for programs whose definition names are plain identifiers ([plain_names]: no
   definition is called like a builtin type or has a dot in its name) — the domain on
   which C05 proves that the model binds an identifier to what it denotes; outside it
   the unchanged code binds differently (C05: resolve_const_unique_refuted). *)
Theorem diagnosed_UndefinedConst_partial : forall p b,
  plain_names p = true -> violates UndefinedConst p = true -> accepts p b <> AOk.
Proof. intros p b Hp Hv Ha. rewrite (proj1 (accepts_sound_consts p b Ha Hp)) in Hv. discriminate. Qed.
Print Assumptions diagnosed_UndefinedConst_partial.

Theorem diagnosed_AmbiguousConst_partial : forall p b,
  plain_names p = true -> violates AmbiguousConst p = true -> accepts p b <> AOk.
Proof. intros p b Hp Hv Ha. rewrite (proj2 (accepts_sound_consts p b Ha Hp)) in Hv. discriminate. Qed.
Print Assumptions diagnosed_AmbiguousConst_partial.

(* the enumeration behind those two predicates lists, whenever it answers, exactly
   the explanations of the declarative relation of C05 *)
Theorem explanations_exact : forall p fn f s l,
  prog_file p fn = Some f -> Rules.explanations p fn f s = Some l ->
  forall x, In x l <-> const_denotes p fn s x.
Proof. exact explanations_spec. Qed.
Print Assumptions explanations_exact.

(* Kinds of constant and default values (checked by the Go backend).  Full statements:
     diagnosed_ConstKindMismatch   : forall p b, violates ConstKindMismatch p = true   -> accepts p b <> AOk
     diagnosed_StructLiteralBadKey : forall p b, violates StructLiteralBadKey p = true -> accepts p b <> AOk
   They hold with -r at every position of the include graph, and without -r when the
   defect sits in the main file; without -r a defect in an include that nothing refers
   through is accepted by the code (witness below, known finding
   C04-ConstKindMismatch-accepted-unused-include). *)
Theorem diagnosed_ConstKindMismatch_recursive : forall p b,
  be_recursive b = true -> violates ConstKindMismatch p = true -> accepts p b <> AOk.
Proof. intros p b Hr Hv Ha. rewrite (proj1 (accepts_sound_kinds p b Ha Hr)) in Hv. discriminate. Qed.
Print Assumptions diagnosed_ConstKindMismatch_recursive.

Theorem diagnosed_StructLiteralBadKey_recursive : forall p b,
  be_recursive b = true -> violates StructLiteralBadKey p = true -> accepts p b <> AOk.
Proof. intros p b Hr Hv Ha. rewrite (proj2 (accepts_sound_kinds p b Ha Hr)) in Hv. discriminate. Qed.
Print Assumptions diagnosed_StructLiteralBadKey_recursive.

Theorem diagnosed_ConstKindMismatch_main : forall p b,
  main_file p (kind_mismatch p) = true -> accepts p b <> AOk.
Proof. intros p b Hv Ha. rewrite (proj1 (accepts_sound_kinds_main p b Ha)) in Hv. discriminate. Qed.
Print Assumptions diagnosed_ConstKindMismatch_main.

Theorem diagnosed_StructLiteralBadKey_main : forall p b,
  main_file p (struct_literal_bad_key p) = true -> accepts p b <> AOk.
Proof. intros p b Hv Ha. rewrite (proj2 (accepts_sound_kinds_main p b Ha)) in Hv. discriminate. Qed.
Print Assumptions diagnosed_StructLiteralBadKey_main.

Theorem diagnosed_ConstKindMismatch_refuted :
  exists p b, be_recursive b = false /\ violates ConstKindMismatch p = true /\ accepts p b = AOk.
Proof. exact AcceptSound.diagnosed_ConstKindMismatch_refuted. Qed.
Print Assumptions diagnosed_ConstKindMismatch_refuted.

(* The same two rules for EVERY way the declared type can be written (Idl/RulesKinds.v,
   [violates_deep] / [value_defect] / [spec_kind]): through typedef chains, include
   prefixes, for the elements / keys / values of containers named directly, and for the
   values inside a struct literal against the field types read in the file that defines
   the struct-like; what a name stands for is C05's executable denotation on the PARSED
   program (the argument: Idl/AcceptSound.v, above [ty_sim]).
   [parsed_program]: the input is what the parser delivers (hypothesis of C05's theorems). *)
Theorem diagnosed_ConstKindMismatch_deep_recursive : forall p b, parsed_program p = true ->
  be_recursive b = true -> violates_deep ConstKindMismatch p = true -> accepts p b <> AOk.
Proof. intros p b Hp Hr Hv Ha. rewrite (proj1 (accepts_sound_kinds_deep p b Hp Ha Hr)) in Hv. discriminate. Qed.
Print Assumptions diagnosed_ConstKindMismatch_deep_recursive.

Theorem diagnosed_StructLiteralBadKey_deep_recursive : forall p b, parsed_program p = true ->
  be_recursive b = true -> violates_deep StructLiteralBadKey p = true -> accepts p b <> AOk.
Proof. intros p b Hp Hr Hv Ha. rewrite (proj2 (accepts_sound_kinds_deep p b Hp Ha Hr)) in Hv. discriminate. Qed.
Print Assumptions diagnosed_StructLiteralBadKey_deep_recursive.

(* without -r: the defect (of either kind) sits in the main file *)
Theorem diagnosed_value_defect_deep_main : forall p b d, parsed_program p = true ->
  main_file p (value_defect d p) = true -> accepts p b <> AOk.
Proof. intros p b d Hp Hv Ha. rewrite (accepts_sound_kinds_deep_main p b Hp Ha d) in Hv. discriminate. Qed.
Print Assumptions diagnosed_value_defect_deep_main.

(* accepts_sound: what acceptance excludes *)

Theorem accepts_sound : forall p b, accepts p b = AOk ->
  forall r, always_excluded r = true -> violates r p = false.
Proof. exact AcceptSound.accepts_sound. Qed.
Print Assumptions accepts_sound.

Theorem accepts_sound_consts : forall p b, accepts p b = AOk -> plain_names p = true ->
  violates UndefinedConst p = false /\ violates AmbiguousConst p = false.
Proof. exact AcceptSound.accepts_sound_consts. Qed.
Print Assumptions accepts_sound_consts.

Theorem accepts_sound_kinds : forall p b, accepts p b = AOk -> be_recursive b = true ->
  violates ConstKindMismatch p = false /\ violates StructLiteralBadKey p = false.
Proof. exact AcceptSound.accepts_sound_kinds. Qed.
Print Assumptions accepts_sound_kinds.

(* the walk of CheckAll (DepthFirstSearch) reaches every file that is reachable
   through include statements: no position of the include graph escapes the checker *)
Theorem checker_visits_every_reachable_file : forall p order, dfs_order p = Some order ->
  forall fn, reach p fn -> prog_file p fn <> None -> In fn order.
Proof. intros p order H fn Hr Pn. exact (proj2 (dfs_order_spec p order H fn) (conj Hr Pn)). Qed.
Print Assumptions checker_visits_every_reachable_file.

(* ... and symbol resolution resolves every one of them *)
Theorem resolver_visits_every_reachable_file : forall p r, resolve_program p = Ok r ->
  forall fn f, reach p fn -> prog_file p fn = Some f ->
  exists d1 f', ResolveInv.inv p d1 /\
    (forall i, In i (f_includes f) -> exists hn, in_ref i = Some hn /\ lookup hn d1 <> None) /\
    resolve_file_in d1 f = Ok f'.
Proof.
  intros p r H fn f Hr Pf. destruct (reachable_stepped p r H fn f Hr Pf) as (f' & d1 & St). exists d1, f'. exact St.
Qed.
Print Assumptions resolver_visits_every_reachable_file.

(* The front end rejects nothing the catalogue does not list: on a program inside C05's
   [resolvable] (every include present and no include cycle, global names distinct, every
   type name denotes a definition or builtin — no undefined or non-type symbol, no typedef
   cycle —, base services exist, every identifier value has exactly one explanation,
   plain definition names) that violates none of the rules the checker enforces,
   CircleDetect, CheckAll and ResolveSymbols all succeed.  ([resolvable] is C05's
   decidable description of the programs on which [resolve_complete] holds; it plays the
   part of "violates none of IncludeCycle / UndefinedType / NonTypeAsType / TypedefCycle /
   UnknownBaseService / UndefinedConst / AmbiguousConst", with missing includes too.) *)
Theorem front_end_complete : forall p, resolvable p = true ->
  (forall r, In r checker_rules -> violates r p = false) ->
  exists r order, front_end p = FrontOk r order.
Proof. exact AcceptComplete.front_end_complete. Qed.
Print Assumptions front_end_complete.

(* Full statement:
     accepts_complete : forall p b, resolvable p = true ->
       (forall r, ast_level r = true -> violates r p = false) -> accepts p b = AOk
   Proved for programs without constant and default values ([no_values]): for those the
   Go backend has no kind decision to take and the front end decides alone.  With values
   the declarative predicates ConstKindMismatch / StructLiteralBadKey cover directly
   named types only, so "violates none" does not imply that [kind_check] passes. *)
Theorem accepts_complete_partial : forall p b, resolvable p = true -> no_values p = true ->
  (forall r, In r checker_rules -> violates r p = false) -> accepts p b = AOk.
Proof. exact AcceptComplete.accepts_complete_no_values. Qed.
Print Assumptions accepts_complete_partial.

(* getEnum terminates on every file whose typedef chains end — which ResolveTypedefs
   establishes only after the constants have been resolved *)
Theorem get_enum_terminates : forall done g, typedef_acyclic done g ->
  forall name, exists n, forall m, n <= m -> get_enum m done g name <> Error ErrOutOfFuel.
Proof. exact AcceptSound.get_enum_terminates. Qed.
Print Assumptions get_enum_terminates.

(* ... and on  typedef B A  typedef A B  no fuel is enough (the unrepaired Go function
   overflowed its stack; the repaired one stops at the revisited typedef) *)
Theorem get_enum_cycle_diverges : forall n,
  get_enum n [] cyc_file (B "A") = Error ErrOutOfFuel /\ get_enum n [] cyc_file (B "B") = Error ErrOutOfFuel.
Proof. exact AcceptSound.get_enum_cycle_diverges. Qed.
Print Assumptions get_enum_cycle_diverges.

Theorem bad_cmdline_rejected : forall c p, cmdline_valid c = false -> exit0 (run_cmdline c p) = false.
Proof. exact AcceptSound.bad_cmdline_rejected. Qed.
Print Assumptions bad_cmdline_rejected.

Theorem rejected_program_no_output : forall c p why, front_end p = FrontRej why ->
  run_cmdline c p = Outcome false false.
Proof. exact AcceptSound.rejected_program_no_output. Qed.
Print Assumptions rejected_program_no_output.

Theorem single_language_no_partial_output : forall c p l,
  cl_langs c = [l] -> exit0 (run_cmdline c p) = false -> wrote (run_cmdline c p) = false.
Proof. exact AcceptSound.single_language_no_partial_output. Qed.
Print Assumptions single_language_no_partial_output.

(* with two -g the files of the first language are on disk when the second one is
   rejected (known finding C04-BadCommandLine-file-written-second-language) *)
Theorem bad_cmdline_no_output_refuted :
  exists c p, cmdline_valid c = false /\ run_cmdline c p = Outcome false true.
Proof. exact AcceptSound.bad_cmdline_no_output_refuted. Qed.
Print Assumptions bad_cmdline_no_output_refuted.

(* a valid two-file program: accepted by every backend configuration, no rule violated *)
Definition ex_inc : file :=
  File (B "x.thrift") [] [] []
       [Typedef (ty_named (B "E")) (B "TE") [] []]
       [Constant (B "K") (ty_named (B "i32")) (CInt 1) [] []]
       [Enum (B "E") [EnumValue (B "A") 0 [] []; EnumValue (B "Z") 1 [] []] [] []]
       [StructLike SKStruct (B "P") [Field 1 (B "a") ReqDefault (ty_named (B "i32")) (Some (CInt 3)) [] []] [] []]
       [] [] [Service (B "Base") [] [] [] None []] None.
Definition ex_main : file :=
  File (B "main.thrift") [Include (B "x.thrift") (Some (B "x.thrift")) None] [] []
       [Typedef (ty_named (B "x.TE")) (B "L") [] []]
       [Constant (B "c") (ty_named (B "x.P")) (CMap [(CLiteral (B "a"), CIdent (B "x.K") None)]) [] [];
        Constant (B "e") (ty_named (B "L")) (CIdent (B "x.E.Z") None) [] []]
       []
       [StructLike SKStruct (B "S") [Field 1 (B "p") ReqDefault (ty_named (B "x.P")) None [] []] [] []]
       [StructLike SKUnion (B "U") [Field 1 (B "a") ReqOptional (ty_named (B "i32")) (Some (CInt 1)) [] [];
                                    Field 2 (B "b") ReqOptional (ty_named (B "string")) None [] []] [] []]
       [StructLike SKException (B "X") [] [] []]
       [Service (B "Svc") (B "x.Base")
          [Function (B "f") false false (ty_named (B "i32"))
             [Field 1 (B "a") ReqDefault (ty_named (B "i32")) None [] []]
             [Field 1 (B "x") ReqOptional (ty_named (B "X")) None [] []] [] [];
           Function (B "g") true true (ty_named (B "void")) [] [] [] []] [] None []] None.
Definition ex_p : program := [(B "main.thrift", ex_main); (B "x.thrift", ex_inc)].

Example ex_accepted :
  forallb (fun b => match accepts ex_p b with AOk => true | ARej _ => false end)
          [Backend LGo false; Backend LFastGo false; Backend LGo true; Backend LFastGo true] = true.
Proof. vm_compute. reflexivity. Qed.
Example ex_violates_nothing : forallb (fun r => negb (violates r ex_p)) all_rules = true.
Proof. vm_compute. reflexivity. Qed.
Example ex_plain : plain_names ex_p = true.
Proof. vm_compute. reflexivity. Qed.
Example ex_resolvable : resolvable ex_p = true /\ forallb (fun r => negb (violates r ex_p)) checker_rules = true.
Proof. vm_compute. auto. Qed.
Example ex_no_values : resolvable wit_valid = true /\ no_values wit_valid = true /\
                       forallb (fun r => negb (violates r wit_valid)) checker_rules = true.
Proof. vm_compute. auto. Qed.
(* the deep predicates see what the direct ones do not: a string for a typedef of a typedef
   of i32, a string inside list<i32>, an unknown key for an include-qualified typedef of a
   struct, an integer inside the list<string> field of a struct of another file *)
Definition deep_inc : file :=
  File (B "x.thrift") [] [] [] [Typedef (ty_named (B "P")) (B "TP") [] []] [] []
       [StructLike SKStruct (B "P") [Field 1 (B "a") ReqDefault (ty_named (B "i32")) None [] []; Field 2 (B "l") ReqDefault (ty_plain (B "list") None (Some (ty_named (B "string"))) [] []) None [] []] [] []]
       [] [] [] None.
Definition deep_prog (c : constant) : program :=
  [(B "main.thrift", File (B "main.thrift") [Include (B "x.thrift") (Some (B "x.thrift")) None] [] []
      [Typedef (ty_named (B "i32")) (B "T") [] []; Typedef (ty_named (B "T")) (B "T2") [] []] [c] [] [] [] [] [] None);
   (B "x.thrift", deep_inc)].
Example ex_deep :
  forallb (fun rc => violates_deep (fst rc) (deep_prog (snd rc)) && negb (violates (fst rc) (deep_prog (snd rc))) &&
                     parsed_program (deep_prog (snd rc)) &&
                     match accepts (deep_prog (snd rc)) (Backend LGo false) with AOk => false | ARej _ => true end)
    [(ConstKindMismatch, Constant (B "c") (ty_named (B "T2")) (CLiteral (B "s")) [] []);
     (ConstKindMismatch, Constant (B "c") (ty_plain (B "list") None (Some (ty_named (B "i32"))) [] []) (CList [CInt 1; CLiteral (B "s")]) [] []);
     (StructLiteralBadKey, Constant (B "c") (ty_named (B "x.TP")) (CMap [(CLiteral (B "nope"), CInt 1)]) [] []);
     (ConstKindMismatch, Constant (B "c") (ty_named (B "x.P")) (CMap [(CLiteral (B "l"), CList [CInt 5])]) [] [])] = true.
Proof. vm_compute. reflexivity. Qed.
Example ex_acyclic : typedef_acyclic [] chain_file.
Proof. exact chain_file_acyclic. Qed.

(* for eight of the AST-level rules, a violating program that is rejected: one edit of
   the program above each (the same shapes the producer harness/cmd/c04 applies) *)
Definition with_main (f : file) : program := [(B "main.thrift", f); (B "x.thrift", ex_inc)].
Definition add_struct (s : struct_like) : program :=
  with_main (File (f_filename ex_main) (f_includes ex_main) [] [] (f_typedefs ex_main) (f_constants ex_main) []
                  (s :: f_structs ex_main) (f_unions ex_main) (f_exceptions ex_main) (f_services ex_main) None).
Definition add_const (c : constant) : program :=
  with_main (File (f_filename ex_main) (f_includes ex_main) [] [] (f_typedefs ex_main) (c :: f_constants ex_main) []
                  (f_structs ex_main) (f_unions ex_main) (f_exceptions ex_main) (f_services ex_main) None).
Definition fld (id : Z) (n : string) (t : string) : field := Field id (B n) ReqDefault (ty_named (B t)) None [] [].

Example ex_rejected_edits :
  forallb (fun rp => violates (fst rp) (snd rp) &&
                     match accepts (snd rp) (Backend LGo false) with AOk => false | ARej _ => true end)
    [(DupField, add_struct (StructLike SKStruct (B "M") [fld 1 "a" "i32"; fld 2 "a" "i32"] [] []));
     (DupFieldId, add_struct (StructLike SKStruct (B "M") [fld 1 "a" "i32"; fld 1 "b" "i32"] [] []));
     (DupGlobal, add_struct (StructLike SKStruct (B "S") [] [] []));
     (UndefinedType, add_struct (StructLike SKStruct (B "M") [fld 1 "a" "Nope"] [] []));
     (UndefinedType, add_struct (StructLike SKStruct (B "M") [fld 1 "a" "x.Nope"] [] []));
     (NonTypeAsType, add_struct (StructLike SKStruct (B "M") [fld 1 "a" "c"] [] []));
     (NonTypeAsType, add_struct (StructLike SKStruct (B "M") [fld 1 "a" "x.K"] [] []));
     (UndefinedConst, add_const (Constant (B "m") (ty_named (B "i32")) (CIdent (B "x.Nope") None) [] []));
     (ConstKindMismatch, add_const (Constant (B "m") (ty_named (B "i32")) (CLiteral (B "s")) [] []));
     (StructLiteralBadKey, add_const (Constant (B "m") (ty_named (B "S")) (CMap [(CLiteral (B "q"), CInt 1)]) [] []));
     (StructLiteralBadKey, add_const (Constant (B "m") (ty_named (B "S")) (CMap [(CInt 1, CInt 1)]) [] []))] = true.
Proof. vm_compute. reflexivity. Qed.
