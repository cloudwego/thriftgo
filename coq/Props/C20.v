(* Props/C20.v — property C20 "Every documented backend option switches exactly its own feature",
   stated about the model Gen/Options.v of generator/golang/option.go + util.go, args/args.go
   (checkOptions) and plugin/plugin.go (Pack / ParseCompactArguments), over the option table
   [table] regenerated from the repository on every run (Gen/OptionsTable.v) and the documentation
   tables [readme_options], [help_options] (Gen/OptionsDoc.v).
   Statements; the proofs are in Gen/OptionsFacts.v and are handed over here (a lemma, a component
   of one, or a tuple of them); the examples at the end are evaluated.  Each is followed by Print
   Assumptions. *)
From Coq Require Import String.
From Coq Require Import List Arith Bool.
From Verif Require Import Base.Bytes Gen.OptionsSyntax Gen.OptionsTable Gen.OptionsDoc Gen.Options Gen.OptionsFacts.
Import ListNotations.
Close Scope string_scope.

(* lookup: "first entry whose name is a prefix of the key" never diverts a documented name.
   For every entry of the regenerated table the prefix scan on the entry's own name returns that
   very entry (no earlier entry captures it, although code_ref is a prefix of code_ref_slim), and
   the same holds for every name in the README table. *)
Theorem C20_lookup_exact :
  forall n a, In (n, a) table -> find_entry n table = Some (n, a).
Proof. intros n a H. exact (proj1 (entry_facts n a H)). Qed.
Print Assumptions C20_lookup_exact.

Theorem C20_readme_names_are_options :
  forall n d, In (n, d) readme_options -> documented n.
Proof. intros n d H. exact (proj1 (readme_entry n d H)). Qed.
Print Assumptions C20_readme_names_are_options.

(* frame: one documented option, applied in any well-formed state, writes exactly one setting
   (the one [writes] names for its action) and leaves every other setting as it was. *)
Theorem C20_frame :
  forall n a v c c', In (n, a) table -> wf c -> step (n, v) c = Ok c' ->
  exists s x, writes a v = Some (s, x) /\ wf c' /\
              forall s', get s' c' = if setting_eqb s' s then x else get s' c.
Proof. exact step_frame. Qed.
Print Assumptions C20_frame.

Theorem C20_initial_state_well_formed : wf default_cfg.
Proof. exact wf_default. Qed.
Print Assumptions C20_initial_state_well_formed.

(* last wins, whatever precedes or follows: for option lists of any length and order over
   documented names, every setting of the accepted result is the value written by the last option
   that names it, else its default; only documented implication: slim switches deep-equal off. *)
Theorem C20_last_wins :
  forall opts c, Forall (fun o => documented (fst o)) opts ->
  handle opts default_cfg = Ok c -> forall s, get s c = expected default_of s opts.
Proof. exact last_wins. Qed.
Print Assumptions C20_last_wins.

(* accepted exactly when every option is valid and no rejected combination results *)
Theorem C20_accepted_iff :
  forall opts, Forall (fun o => documented (fst o)) opts ->
  ((exists c, handle opts default_cfg = Ok c) <-> spec_accepts default_of opts = true).
Proof. exact accepted_iff. Qed.
Print Assumptions C20_accepted_iff.

(* boolean forms: bare and =true set, =false clears, anything else is an error *)
Theorem C20_bool_forms :
  forall n i c, In (n, AFeature i) table -> wf c ->
  step (n, []) c = Ok (set_feat i true c) /\
  step (n, B "true"%string) c = Ok (set_feat i true c) /\
  step (n, B "false"%string) c = Ok (set_feat i false c) /\
  get (SFeat i) (set_feat i true c) = VBool true /\
  get (SFeat i) (set_feat i false c) = VBool false /\
  forall v, v <> [] -> v <> B "true"%string -> v <> B "false"%string -> step (n, v) c = Err EBool.
Proof. exact bool_forms_feature. Qed.
Print Assumptions C20_bool_forms.

Theorem C20_bool_forms_ignore_initialisms :
  forall n c, In (n, AIgnoreInit) table ->
  step (n, []) c = Ok (set_init false c) /\
  step (n, B "true"%string) c = Ok (set_init false c) /\
  step (n, B "false"%string) c = Ok (set_init true c) /\
  forall v, v <> [] -> v <> B "true"%string -> v <> B "false"%string -> step (n, v) c = Err EBool.
Proof. exact bool_forms_initialisms. Qed.
Print Assumptions C20_bool_forms_ignore_initialisms.

(* invalid values are rejected wherever they stand in the list and whatever surrounds them *)
Theorem C20_invalid_rejected :
  forall n a v, In (n, a) table -> writes a v = None ->
  forall before after c, exists e, handle (before ++ (n, v) :: after) c = Err e.
Proof. exact invalid_value_rejected. Qed.
Print Assumptions C20_invalid_rejected.

(* which values are invalid: non-booleans, unknown naming styles, unknown templates, use_package
   without '=' *)
Theorem C20_invalid_values :
  (forall i v, writes (AFeature i) v = None <-> v <> [] /\ v <> B "true"%string /\ v <> B "false"%string) /\
  (forall v, writes AIgnoreInit v = None <-> v <> [] /\ v <> B "true"%string /\ v <> B "false"%string) /\
  (forall v, writes ANamingStyle v = None <-> ~ In v naming_styles) /\
  (forall v, writes ATemplate v = None <-> v <> default_template /\ ~ In v templates) /\
  (forall v, writes AUsePackage v = None <-> ~ In ch_eq v).
Proof.
  exact (conj writes_bool_none (conj writes_init_none (conj writes_style_none
        (conj writes_template_none writes_use_package_none)))).
Qed.
Print Assumptions C20_invalid_values.

(* invalid combinations never survive HandleOptions, from any start state, any list *)
Theorem C20_invalid_combination_rejected :
  forall opts c c', handle opts c = Ok c' ->
  ~ (get_feat ix_apache_warning c' = true /\ get_feat ix_apache_adaptor c' = true) /\
  (get_feat ix_with_field_mask c' = true -> get_feat ix_with_reflection c' = true) /\
  ~ (get_feat ix_snake c' = true /\ get_feat ix_lower_camel c' = true) /\
  (get_feat ix_always_json c' = true -> get_feat ix_gen_json_tag c' = true).
Proof. exact invalid_combination_rejected. Qed.
Print Assumptions C20_invalid_combination_rejected.

(* the indices used above are those of the documented option names *)
Theorem C20_combination_names_resolve : named_indices_ok = true.
Proof. exact named_indices_ok_true. Qed.
Print Assumptions C20_combination_names_resolve.

(* every documented option alone is accepted and sets exactly its feature, the rest default;
   the one exception is with_field_mask=true, documented to require with_reflection *)
Theorem C20_valid_accepted_bool :
  forall n i v b, In (n, AFeature i) table -> parse_bool v = Some b ->
  (b = true -> i <> ix_with_field_mask) ->
  handle [(n, v)] default_cfg = Ok (set_feat i b default_cfg).
Proof. exact single_bool_accepted. Qed.
Print Assumptions C20_valid_accepted_bool.

Theorem C20_valid_accepted_other :
  (forall n s, In (n, ANamingStyle) table -> In s naming_styles ->
     handle [(n, s)] default_cfg = Ok (set_style s default_cfg)) /\
  (forall n v b, In (n, AIgnoreInit) table -> parse_bool v = Some b ->
     handle [(n, v)] default_cfg = Ok (set_init (negb b) default_cfg)) /\
  (forall n v, In (n, APackagePrefix) table ->
     handle [(n, v)] default_cfg = Ok (set_prefix v default_cfg)) /\
  (forall n v, In (n, AImportPath) table ->
     handle [(n, v)] default_cfg = Ok (set_import default_thrift_lib v default_cfg)) /\
  (forall n p r, In (n, AUsePackage) table -> ~ In ch_eq p ->
     handle [(n, p ++ ch_eq :: r)] default_cfg = Ok (set_import p r default_cfg)) /\
  (forall n t, In (n, ATemplate) table -> t = default_template \/ In t templates ->
     handle [(n, t)] default_cfg = Ok (post (set_template t default_cfg))).
Proof.
  exact (conj single_style_accepted (conj single_initialisms_accepted (conj single_prefix_accepted
        (conj single_import_path_accepted (conj single_use_package_accepted single_template_accepted))))).
Qed.
Print Assumptions C20_valid_accepted_other.

(* documented implications *)
Theorem C20_slim_disables_deep_equal :
  forall opts c c', handle opts c = Ok c' -> c_template c' = slim -> get_feat ix_deep_equal c' = false.
Proof. exact slim_disables_deep_equal. Qed.
Print Assumptions C20_slim_disables_deep_equal.

Theorem C20_nested_forces_slim :
  forall opts c,
  get_feat ix_nested (final_state opts default_cfg) = true ->
  (forall o, In o opts -> fst o <> template_name) ->
  handle (check_options opts) default_cfg = Ok c ->
  c_template c = slim /\ get_feat ix_deep_equal c = false.
Proof. exact nested_forces_slim. Qed.
Print Assumptions C20_nested_forces_slim.

Theorem C20_check_options_otherwise_identity :
  forall opts,
  get_feat ix_nested (final_state opts default_cfg) = false \/
  (exists o, In o opts /\ fst o = template_name) ->
  check_options opts = opts.
Proof. exact check_options_keeps. Qed.
Print Assumptions C20_check_options_otherwise_identity.

(* Pack followed by the SplitN of HandleOptions gives back name and value *)
Theorem C20_pack_roundtrip : forall o, ~ In ch_eq (fst o) -> parse_arg (pack o) = o.
Proof. exact parse_pack. Qed.
Print Assumptions C20_pack_roundtrip.

(* the whole command-line path, for ANY -g value: ParseCompactArguments, checkOptions, Pack and
   the SplitN of HandleOptions compose to HandleOptions on the options checkOptions returns (names
   never contain '=', so packing loses nothing) *)
Theorem C20_command_line_handle :
  forall g, handle_packed (targets g) = handle (targets g) default_cfg.
Proof. exact command_line_handle. Qed.
Print Assumptions C20_command_line_handle.

(* hence last-wins holds for what a -g value finally configures *)
Theorem C20_command_line_last_wins :
  forall g c, Forall (fun o => documented (fst o)) (targets g) ->
  handle_packed (targets g) = Ok c -> forall s, get s c = expected default_of s (targets g).
Proof. exact command_line_last_wins. Qed.
Print Assumptions C20_command_line_last_wins.

(* nested structs force slim, at full strength and stated on the outcome: whenever the accepted
   configuration has nested structs on and no option named template was given, the template is slim
   (C20_nested_forces_slim asks it of [final_state], the state before the closing adaptation) *)
Theorem C20_nested_forces_slim_outcome :
  forall opts c, handle (check_options opts) default_cfg = Ok c ->
  get_feat ix_nested c = true ->
  (forall o, In o opts -> fst o <> template_name) ->
  c_template c = slim /\ get_feat ix_deep_equal c = false.
Proof. exact nested_forces_slim_outcome. Qed.
Print Assumptions C20_nested_forces_slim_outcome.

Theorem C20_command_line_nested_forces_slim :
  forall g c, handle_packed (targets g) = Ok c ->
  get_feat ix_nested c = true ->
  (forall o, In o (snd (parse_compact g)) -> fst o <> template_name) ->
  c_template c = slim /\ get_feat ix_deep_equal c = false.
Proof. exact command_line_nested. Qed.
Print Assumptions C20_command_line_nested_forces_slim.

(* what README and the help text say about each option is what the table and the defaults say *)
Theorem C20_documented_defaults_agree :
  forall n d, In (n, d) readme_options ->
  match d with
  | DBool b => (exists i, In (n, AFeature i) table /\ nth i feature_defaults false = b) \/
               (In (n, AIgnoreInit) table /\ init_curinit = negb b /\ init_doinit = negb b)
  | DStr s => In (n, ANamingStyle) table /\ s = default_style
  | DNone => True
  end.
Proof. intros n d H. exact (proj2 (readme_entry n d H)). Qed.
Print Assumptions C20_documented_defaults_agree.

Theorem C20_help_defaults_agree :
  forall n en dep i, In (n, (en, dep)) help_options -> In (n, AFeature i) table ->
  nth i feature_defaults false = en.
Proof. exact help_defaults_agree. Qed.
Print Assumptions C20_help_defaults_agree.

Theorem C20_documented_string_defaults :
  readme_thrift_lib = Some default_thrift_lib /\ help_thrift_lib = Some default_thrift_lib /\
  help_style_default = Some default_style.
Proof. exact doc_string_defaults. Qed.
Print Assumptions C20_documented_string_defaults.

Theorem C20_oracle_defaults_are_model_defaults :
  forall s, match s with SFeat i => i < nfeat | _ => True end -> doc_default_of s = default_of s.
Proof. exact documented_defaults_agree. Qed.
Print Assumptions C20_oracle_defaults_are_model_defaults.

Theorem C20_documented_value_sets :
  (forall s, In s readme_styles <-> In s naming_styles) /\
  (forall s, In s help_styles <-> In s naming_styles) /\
  (forall t, In t readme_templates <-> In t templates) /\
  (forall t, In t help_templates <-> In t templates) /\
  (forall v, In v readme_bool_forms <-> parse_bool v <> None) /\
  (forall v, In v help_bool_forms <-> parse_bool v <> None).
Proof. exact doc_value_sets. Qed.
Print Assumptions C20_documented_value_sets.

(* -h lists exactly the table in lookup order; every README name is in -h; a -h name missing from
   the README is marked deprecated *)
Theorem C20_help_lists_all :
  map fst help_options = map fst table /\
  (forall n, In n (map fst readme_options) -> In n (map fst help_options)) /\
  (forall n en dep, In (n, (en, dep)) help_options -> In n (map fst readme_options) \/ dep = true).
Proof. exact help_lists_all. Qed.
Print Assumptions C20_help_lists_all.

(* NewCodeUtils without proposed_fixes/C20-naming-style-resets-initialisms starts with doInitialisms
   false and a style object that corrects initialisms ([unrepaired_default_cfg]): from that state
   the single option naming_style=golint also switches initialism correction off.  [wf] excludes
   exactly this state, and C20_initial_state_well_formed does not hold of it. *)
Theorem C20_unrepaired_initial_state_refuted :
  exists n s c', existsb (fun e => beqb (fst e) n && action_eqb (snd e) ANamingStyle) table = true /\
    handle [(n, s)] unrepaired_default_cfg = Ok c' /\
    get SInit unrepaired_default_cfg = VBool true /\ get SInit c' = VBool false.
Proof. exact unrepaired_naming_style_resets_initialisms. Qed.
Print Assumptions C20_unrepaired_initial_state_refuted.

(* non-vacuity: the hypotheses are satisfiable on the regenerated table *)
Open Scope string_scope.
Example C20_example_prefix_pair :
  match exact_action (B "code_ref"), exact_action (B "code_ref_slim") with
  | Some (AFeature i), Some (AFeature j) => negb (Nat.eqb i j) && is_prefix (B "code_ref") (B "code_ref_slim")
  | _, _ => false
  end = true.
Proof. vm_compute. reflexivity. Qed.

Example C20_example_list :
  handle_args [B "code_ref_slim"; B "naming_style=golint"; B "gen_setter"; B "gen_setter=false"; B "template=slim"; B "gen_deep_equal"]
  = Ok (set_template slim (set_style (B "golint") (set_feat (feat_index (B "code_ref_slim")) true default_cfg))).
Proof. vm_compute. reflexivity. Qed.

Example C20_example_rejected :
  handle_args [B "apache_warning"; B "apache_adaptor"] = Err (ECombo 1) /\
  handle_args [B "with_field_mask"] = Err (ECombo 2) /\
  handle_args [B "gen_setter=yes"] = Err EBool /\
  handle_args [B "use_package=nopath"] = Err EUsePackage.
Proof. vm_compute. intuition. Qed.

Example C20_example_nested :
  targets (B "go:enable_nested_struct,gen_setter") =
  [(B "enable_nested_struct", []); (B "gen_setter", []); (B "template", B "slim")].
Proof. vm_compute. reflexivity. Qed.

Example C20_example_command_line_nested :
  match handle_packed (targets (B "go:gen_setter,enable_nested_struct,gen_deep_equal")) with
  | Ok c => get_feat ix_nested c && beqb (c_template c) slim && negb (get_feat ix_deep_equal c)
  | Err _ => false
  end = true.
Proof. vm_compute. reflexivity. Qed.
