(* Props/C16.v — property C16 "Trimming keeps exactly what kept services need; meaning is
   unchanged", stated about the model Idl/Trim.v of /repo/tool/trimmer/trim against the
   specification Idl/TrimSpec.v.  Statements only: each proof applies lemmas of
   Idl/TrimFacts.v, Idl/TrimResolves.v or Idl/TrimResolved.v and is followed by
   Print Assumptions.

   Reading guide
     trim matches compiles cp c p   markAST + traversal on the resolved program p under the
                                    configuration c; [matches] / [compiles] / [cp] are the
                                    regexp engines (regexp2 for -m, Go regexp for @preserve)
     Trimmed q                      the files traversal reaches, trimmed (other outcomes:
                                    BadPattern, OutOfFuel, Panics)
     mark_ast matches cp c p fuel = Ok fin
                                    markAST alone; fin = the mark state it ends in
     marks_of matches cp c p fin    mark_ast with the fuel [prog_size p] that [trim] gives it
     reach cp c p false fuel fin (main_name p) [] = Ok q
                                    traversal alone, from the main file, with the marks fin.
                                    [trim ... = Trimmed q] yields both equations at fuel
                                    [prog_size p] for some fin (TrimFacts.trim_trimmed); the
                                    theorems stated with the two equations do not ask that
                                    the patterns compile
     filtering c / no_filter c      a method filter (-m) is / is not given; each is the
                                    negation of the other (Trim.v resp. TrimSpec.v)
     kept_methods c fin             the kept services / methods: [] without a filter (the
                                    specification then starts from every service of the main
                                    file), the marked services and functions with -m
     needed cp c p K n              the specification: n is a root or reached over the edges
                                    of the property text (TrimSpec.v)
     include_needed cp c p K F i    include i of file F is needed, or the files below it
                                    hold constants, typedefs, enums or preserved struct-likes
     all_good cp c p K fin          every mark of fin is needed, or is an include that is
                                    [include_needed], or (with a filter) is any include
     needs_mark n / def_kind n      n is not a typedef or enum (those are never deleted) /
                                    n is not an include
     below p F G / pathm p fin F G  file G is reached from file F over includes / over
                                    includes marked in fin
     node_survives p q n            the definition or include n of p is left in q, in its file
     service_at p F i s             s is service i of file F
     fn_at p T j ts g               ts is the service T = (file, index) and g its function j
     both_marked fin T j            service T and its function j are marked in fin
     fn_selected, complete          the two readings of the method filter, at their theorems
     everything_kept, reset_file    at C16_trim_idempotent_partial
     occ_good                       Idl/ResolveInv.v: the resolution recorded in a type
                                    occurrence is the one C05's specification prescribes
     wf p                           p is a resolved program as the parser + semantic pass
                                    deliver it: [types_wf], distinct file names, every file
                                    [below] the main file, [extends_resolved].  It follows from
                                    the decidable [wf_program p = true] (C16_wf_program_sound),
                                    which is checked on every correspondence case

   Not proved (checked on every run by the correspondence oracles instead):
     - trim_idempotent for all programs WITHOUT a method filter.  Missing: that [needed] is
       stable under trimming (a simulation between the run on p and the run on the
       renumbered output: positions of definitions and includes shift, lookups by name must
       find the corresponding definition, and the second resolution must reproduce Used /
       Name2Category).  With a filter the statement is false:
       [C16_trim_not_idempotent_with_filter_refuted].
     - termination / absence of Go panics on well-formed programs (the theorems assume the
       outcome [Trimmed]; the correspondence check reports OutOfFuel as code 9 and has never
       seen it).

   Proved with a caveat:
     - the method filter: both halves are proved ([..._only_matching_partial],
       [..._complete_partial]) but they differ (plain match vs. markService's prefix rule,
       raw vs. Go names), which is the known finding.
     - trim_resolves holds for every configuration ([C16_trim_resolves_all], and
       [C16_trim_resolves_of_resolved] for the output of C05's resolver).  Its hypotheses
       are all on the INPUT: resolvable, recorded resolution as C05's specification
       prescribes for types ([occ_good]) and base services, struct-like lists by kind.
       The other C16_trim_resolves* statements are special cases of it that keep a
       hypothesis on the output or on the configuration. *)
From Coq Require Import List Bool Arith ZArith.
From Verif Require Import Base.Bytes Idl.Ast Idl.AstUtil Idl.Trim Idl.TrimSpec Idl.TrimWitness Idl.TrimFacts.
From Verif Require Idl.Resolve Idl.ResolveSpec Idl.ResolveInv Idl.ResolvableSpec Idl.ResolvableConst Idl.TrimResolves Idl.TrimResolved.
Import ListNotations.

(* The closure computed for the correspondence oracles is exactly the inductive
   specification. *)
Theorem C16_needed_nodes_spec :
  forall cp c p K l, needed_nodes cp c p K = Some l -> forall n, In n l <-> needed cp c p K n.
Proof. exact needed_nodes_spec. Qed.
Print Assumptions C16_needed_nodes_spec.

(* The hypotheses on the input follow from a decidable test, run on every correspondence case. *)
Theorem C16_wf_program_sound : forall p, wf_program p = true -> wf p.
Proof. exact wf_program_sound. Qed.
Print Assumptions C16_wf_program_sound.

(* trim_sound: every needed struct / union / exception is in the trimmed program, in its
   file, as the very same definition — all programs, all configurations (with or without a
   method filter, preserve on or off). *)
Theorem C16_trim_sound :
  forall matches compiles cp c p, wf p ->
  forall q fin F k i pf s,
    trim matches compiles cp c p = Trimmed q -> marks_of matches cp c p fin ->
    needed cp c p (kept_methods c fin) (NStructLike F k i) ->
    prog_file p F = Some pf -> nth_error (sl_list k pf) i = Some s ->
    exists qf, In (F, qf) q /\ In s (sl_list k qf).
Proof. exact trim_sound_struct_like. Qed.
Print Assumptions C16_trim_sound.

(* the core of it: whatever the specification needs is marked (services, methods,
   struct-likes, includes); with a filter nothing is claimed about includes *)
Theorem C16_needed_is_marked :
  forall matches cp c p, types_wf p -> NoDup (map fst p) ->
  (forall F f, prog_file p F = Some f -> below p (main_name p) F) ->
  forall fuel fin, mark_ast matches cp c p fuel = Ok fin ->
  forall n, needed cp c p (kept_methods c fin) n -> needs_mark n = true ->
    marked fin n = true \/ (no_filter c = false /\ exists F i, n = NInclude F i).
Proof. exact needed_marked. Qed.
Print Assumptions C16_needed_is_marked.

(* ... and the file of every marked definition is reached from the main file over marked
   includes, so traversal keeps it *)
Theorem C16_marked_files_connected :
  forall matches cp c p fuel fin, mark_ast matches cp c p fuel = Ok fin ->
  forall x, def_kind x = true -> marked fin x = true -> pathm p fin (main_name p) (node_file x).
Proof. exact marks_connected. Qed.
Print Assumptions C16_marked_files_connected.

(* trim_minimal: a struct / union / exception left in the output is needed ... *)
Theorem C16_trim_minimal :
  forall matches compiles cp c p, wf p ->
  forall q fin F qf k s,
    trim matches compiles cp c p = Trimmed q -> marks_of matches cp c p fin ->
    In (F, qf) q -> In s (sl_list k qf) ->
    exists pf i, prog_file p F = Some pf /\ nth_error (sl_list k pf) i = Some s /\
                 needed cp c p (kept_methods c fin) (NStructLike F k i).
Proof. exact trim_minimal_struct_like. Qed.
Print Assumptions C16_trim_minimal.

(* ... and, without a method filter, an include left in the output is needed: something
   needed is written through it, or the files behind it hold constants, typedefs, enums
   or preserved struct-likes.  (Full statement = the same without [no_filter c = true];
   it is false: C16_trim_include_not_minimal_with_filter_refuted.) *)
Theorem C16_trim_minimal_include_partial :
  forall matches compiles cp c p, wf p ->
  forall q fin F qf inc,
    trim matches compiles cp c p = Trimmed q -> marks_of matches cp c p fin -> no_filter c = true ->
    In (F, qf) q -> In inc (f_includes qf) ->
    exists pf i inc0, prog_file p F = Some pf /\ nth_error (f_includes pf) i = Some inc0 /\
                      in_path inc = in_path inc0 /\ in_ref inc = in_ref inc0 /\
                      include_needed cp c p (kept_methods c fin) F i.
Proof. exact trim_minimal_include. Qed.
Print Assumptions C16_trim_minimal_include_partial.

(* every mark is justified (the invariant behind the two minimality statements above) *)
Theorem C16_marks_are_needed :
  forall matches cp c p fuel fin, extends_resolved p -> mark_ast matches cp c p fuel = Ok fin ->
  all_good cp c p (kept_methods c fin) fin.
Proof. exact final_marks_good. Qed.
Print Assumptions C16_marks_are_needed.

(* trim_keeps_all_consts_typedefs_enums: a file with constants, typedefs or enums is in
   the output with all of them (repaired code: enums count, C16-2), and every file of the
   output has all its constants, typedefs, enums and namespaces. *)
Theorem C16_trim_keeps_all_consts_typedefs_enums :
  forall matches compiles cp c p, wf p ->
  forall q F pf,
    trim matches compiles cp c p = Trimmed q -> prog_file p F = Some pf -> has_enum_const_typedef pf = true ->
    exists qf, In (F, qf) q /\
      f_constants qf = f_constants pf /\ f_typedefs qf = f_typedefs pf /\ f_enums qf = f_enums pf.
Proof. exact trim_keeps_consts_typedefs_enums. Qed.
Print Assumptions C16_trim_keeps_all_consts_typedefs_enums.

Theorem C16_trim_output_files_keep_all :
  forall matches compiles cp c p q F qf,
    trim matches compiles cp c p = Trimmed q -> In (F, qf) q ->
    exists pf, prog_file p F = Some pf /\
      f_constants qf = f_constants pf /\ f_typedefs qf = f_typedefs pf /\ f_enums qf = f_enums pf /\
      f_namespaces qf = f_namespaces pf /\ f_filename qf = f_filename pf.
Proof. exact trim_output_file_keeps_all. Qed.
Print Assumptions C16_trim_output_files_keep_all.

(* trim_schema_preserved: a kept definition is the original one: struct-likes, typedefs,
   enums, constants and the kept functions are elements of the input's lists (field ids,
   types, requiredness, defaults, annotations untouched).  The statement is about [trim];
   what the second resolution pass adds in [trim_resolved] ([Trim.reresolve_file]: include
   references renumbered, Used and Name2Category written) is compared field by field with
   the real AST on every run. *)
Theorem C16_trim_schema_preserved :
  forall matches compiles cp c p q F qf,
    trim matches compiles cp c p = Trimmed q -> In (F, qf) q ->
    exists pf, prog_file p F = Some pf /\
      (forall k s, In s (sl_list k qf) -> In s (sl_list k pf)) /\
      f_typedefs qf = f_typedefs pf /\ f_enums qf = f_enums pf /\ f_constants qf = f_constants pf /\
      (forall sv, In sv (f_services qf) -> exists sv0, In sv0 (f_services pf) /\ sv_name sv = sv_name sv0 /\
                  forall fn, In fn (sv_functions sv) -> In fn (sv_functions sv0)).
Proof. exact trim_schema_preserved. Qed.
Print Assumptions C16_trim_schema_preserved.

(* method_filter_exact, the "only" half: with -m every method left in the output matches a
   pattern under the name of its own service or of a service that (transitively) extends
   it.  (The "if" half is C16_method_filter_complete_partial; the two halves differ by
   the prefix rule, which traceExtendMethod does not apply.) *)
Theorem C16_method_filter_only_matching_partial :
  forall matches compiles cp c p, filtering c = true ->
  forall q F qf sv fn,
    trim matches compiles cp c p = Trimmed q -> In (F, qf) q -> In sv (f_services qf) -> In fn (sv_functions sv) ->
    exists si s0, service_at p F si s0 /\ sv_name sv = sv_name s0 /\ In fn (sv_functions s0) /\
                  fn_selected matches c p F si s0 fn.
Proof. exact method_filter_only_matching. Qed.
Print Assumptions C16_method_filter_only_matching_partial.

(* method_filter_exact, the "if" half (match_go_name off): after marking, every service of the
   main file is COMPLETE: each of its methods selected by markService's rule
   (MatchString && (name == pattern || !HasPrefix(name, pattern))) is marked with its service, and
   when it extends another service every method of every service reached through `extends`
   (itself included) whose name qualified with the MAIN service's name matches a pattern is
   marked with its service.  With match_go_name the statement is false for services first
   reached by traceExtendMethod (it matches raw names); see the known finding. *)
Theorem C16_method_filter_complete_partial :
  forall matches cp c p, filtering c = true -> c_go_name c = false ->
  forall fuel fin f i s,
    mark_ast matches cp c p fuel = Ok fin -> prog_main p = Some f -> nth_error (f_services f) i = Some s ->
    complete matches c p fin (main_name p) i s.
Proof. exact method_filter_complete. Qed.
Print Assumptions C16_method_filter_complete_partial.

(* ... and a method marked together with its service is in the trimmed program (with or
   without a filter: the proof does not use [filtering c = true]) *)
Theorem C16_marked_function_in_output :
  forall matches compiles cp c p, filtering c = true ->
  forall q fin T j ts g,
    trim matches compiles cp c p = Trimmed q -> marks_of matches cp c p fin ->
    both_marked fin T j -> fn_at p T j ts g ->
    exists qf sv, In (fst T, qf) q /\ In sv (f_services qf) /\ sv_name sv = sv_name ts /\ In g (sv_functions sv).
Proof. intros matches compiles cp c p _. exact (marked_function_in_output matches compiles cp c p). Qed.
Print Assumptions C16_marked_function_in_output.

(* trim_resolves, the part that does not depend on a model of the resolver (all
   configurations): no reference of the trimmed program dangles.  For every definition left
   in the output, every definition its types denote in the input (struct-like, enum, typedef,
   through container element and key types) and every include they are written through is left
   in the output.  That [Resolve.resolve_program] then succeeds on the trimmed program is
   C16_trim_resolves_all below, through C05's completeness theorem.  That its result is
   [trim_resolved p] is not proved; it is checked on every case (oracle 5:
   [Resolve.resolve_program] on the stripped observed output gives the observed output). *)
Theorem C16_trim_resolves_partial :
  forall matches cp c p, wf p ->
  forall q fin,
    mark_ast matches cp c p (prog_size p) = Ok fin ->
    reach cp c p false (prog_size p) fin (main_name p) [] = Ok q ->
  forall F qf, In (F, qf) q ->
    (forall k s m, In s (sl_list k qf) -> In m (tys_nodes p F (map fd_type (sl_fields s))) -> node_survives p q m) /\
    (forall m, In m (tys_nodes p F (map td_type (f_typedefs qf))) -> node_survives p q m) /\
    (forall m, In m (tys_nodes p F (map co_type (f_constants qf))) -> node_survives p q m) /\
    (forall sv fn m, In sv (f_services qf) -> In fn (sv_functions sv) ->
                     In m (tys_nodes p F (function_types fn)) -> node_survives p q m).
Proof. exact references_survive. Qed.
Print Assumptions C16_trim_resolves_partial.

(* trim_resolves against C05's completeness theorem ([resolve_complete]): the trimmed
   program is [resolvable], hence [Resolve.resolve_program] succeeds on it — every
   configuration.  This is the variant with the most hypotheses; the one with none on the
   output is C16_trim_resolves_all.
   Hypotheses on the INPUT: it is resolvable; its recorded resolution is the one C05's
   specification prescribes ([ResolveInv.occ_good] for every type occurrence: what
   [resolve_program_good] proves of every result of the resolver); the parser's three
   struct-like lists hold what their names say.
   Hypotheses on the OUTPUT in THIS statement (decidable), each discharged for every
   configuration further down:
     - the include tree of the output is lower than its number of files
       (C16_trimmed_includes_ok, C16_trim_resolves_given_bases_and_idents);
     - every identifier used as a value keeps exactly one explanation ([ident_ok]:
       C16_trim_resolves_given_bases);
     - its base services resolve ([base_ok]: C16_trim_resolves_all).
   Proved here: distinct plain global names, every type of every kept definition is accepted
   (typedef chains across files, qualified names after includes were deleted), void
   functions. *)
Theorem C16_trim_resolves :
  forall matches cp c p q fin, wf p ->
    mark_ast matches cp c p (prog_size p) = Ok fin ->
    reach cp c p false (prog_size p) fin (main_name p) [] = Ok q ->
    Idl.ResolvableConst.resolvable p = true ->
    (forall fn f, prog_file p fn = Some f -> forall t, In t (Idl.ResolveSpec.file_occs f) -> Idl.ResolveInv.occ_good p fn f t) ->
    (forall fn f k s, prog_file p fn = Some f -> In s (sl_list k f) -> sl_category s = k) ->
    (match q with [] => true | (mn, _) :: _ => Idl.ResolvableSpec.includes_ok (S (List.length q)) q mn end = true) ->
    (forall F qf, In (F, qf) q -> forallb (Idl.ResolvableSpec.base_ok q F qf) (f_services qf) = true) ->
    (forall F qf, In (F, qf) q ->
       forallb (Idl.ResolvableSpec.cv_idents_ok (Idl.ResolvableConst.ident_ok q F)) (file_top_const_values qf) = true) ->
    Idl.ResolvableConst.resolvable q = true /\ exists r, Idl.Resolve.resolve_program q = Idl.Resolve.Ok r.
Proof. exact Idl.TrimResolves.trim_resolves_with. Qed.
Print Assumptions C16_trim_resolves.

(* ... with the include-depth hypothesis discharged (every configuration): the include tree of
   the output lies inside the input's acyclic one and is closed, and an acyclic tree on n files
   is lower than n (pigeonhole).  [matches] does not occur in the statement. *)
Theorem C16_trimmed_includes_ok :
  forall (matches : bytes -> bytes -> bool) cp c p q fin,
    reach cp c p false (prog_size p) fin (main_name p) [] = Ok q ->
    Idl.ResolvableConst.resolvable p = true ->
    match q with [] => true | (mn, _) :: _ => Idl.ResolvableSpec.includes_ok (S (List.length q)) q mn end = true.
Proof. intros _. exact Idl.TrimResolves.trimmed_includes_ok. Qed.
Print Assumptions C16_trimmed_includes_ok.

Theorem C16_trim_resolves_given_bases_and_idents :
  forall matches cp c p q fin, wf p ->
    mark_ast matches cp c p (prog_size p) = Ok fin ->
    reach cp c p false (prog_size p) fin (main_name p) [] = Ok q ->
    Idl.ResolvableConst.resolvable p = true ->
    (forall fn f, prog_file p fn = Some f -> forall t, In t (Idl.ResolveSpec.file_occs f) -> Idl.ResolveInv.occ_good p fn f t) ->
    (forall fn f k s, prog_file p fn = Some f -> In s (sl_list k f) -> sl_category s = k) ->
    (forall F qf, In (F, qf) q -> forallb (Idl.ResolvableSpec.base_ok q F qf) (f_services qf) = true) ->
    (forall F qf, In (F, qf) q ->
       forallb (Idl.ResolvableSpec.cv_idents_ok (Idl.ResolvableConst.ident_ok q F)) (file_top_const_values qf) = true) ->
    Idl.ResolvableConst.resolvable q = true /\ exists r, Idl.Resolve.resolve_program q = Idl.Resolve.Ok r.
Proof. exact Idl.TrimResolves.trim_resolves_given_bases_and_idents. Qed.
Print Assumptions C16_trim_resolves_given_bases_and_idents.

(* ... with [base_ok] discharged instead.  Additional hypothesis on the input: the recorded
   reference of every base service is the include C05's specification chooses
   ([spec_include is_service_kind]).  The only hypothesis left on the output: every
   identifier used as a value keeps exactly one explanation.  The proof does not use
   [filtering c = false]: [base_ok] holds of the output under every configuration. *)
Theorem C16_trim_resolves_no_filter_partial :
  forall matches cp c p q fin, wf p ->
    mark_ast matches cp c p (prog_size p) = Ok fin ->
    reach cp c p false (prog_size p) fin (main_name p) [] = Ok q ->
    Idl.ResolvableConst.resolvable p = true ->
    (forall fn f, prog_file p fn = Some f -> forall t, In t (Idl.ResolveSpec.file_occs f) -> Idl.ResolveInv.occ_good p fn f t) ->
    (forall fn f k s, prog_file p fn = Some f -> In s (sl_list k f) -> sl_category s = k) ->
    filtering c = false ->
    (forall fn f s, prog_file p fn = Some f -> In s (f_services f) ->
       match split_type (sv_extends s) with
       | [pre; m] => exists i gn, Idl.ResolveSpec.spec_include p Idl.ResolveSpec.is_service_kind pre m
                                    (Idl.ResolveSpec.file_incs f) 0 = Some (i, gn) /\
                                  sv_ref s = Some (Ref m (Z.of_nat i))
       | _ => sv_ref s = None
       end) ->
    (forall F qf, In (F, qf) q ->
       forallb (Idl.ResolvableSpec.cv_idents_ok (Idl.ResolvableConst.ident_ok q F)) (file_top_const_values qf) = true) ->
    Idl.ResolvableConst.resolvable q = true /\ exists r, Idl.Resolve.resolve_program q = Idl.Resolve.Ok r.
Proof.
  intros matches cp c p q fin Hwf Hm Hr Hres Hocc Hk _ Hsv.
  apply (Idl.TrimResolves.trim_resolves_given_bases_and_idents matches cp c p q fin Hwf Hm Hr Hres Hocc Hk).
  exact (Idl.TrimResolves.trimmed_base_ok matches cp c p q fin Hwf Hm Hr Hres Hsv).
Qed.
Print Assumptions C16_trim_resolves_no_filter_partial.

(* ... and with the identifier hypothesis discharged as well (every configuration): for a
   file of the output an identifier used as a value has the same number of explanations in
   both programs.  What is left on the output is [base_ok] for its services: *)
Theorem C16_trim_resolves_given_bases :
  forall matches cp c p q fin, wf p ->
    mark_ast matches cp c p (prog_size p) = Ok fin ->
    reach cp c p false (prog_size p) fin (main_name p) [] = Ok q ->
    Idl.ResolvableConst.resolvable p = true ->
    (forall fn f, prog_file p fn = Some f -> forall t, In t (Idl.ResolveSpec.file_occs f) -> Idl.ResolveInv.occ_good p fn f t) ->
    (forall fn f k s, prog_file p fn = Some f -> In s (sl_list k f) -> sl_category s = k) ->
    (forall F qf, In (F, qf) q -> forallb (Idl.ResolvableSpec.base_ok q F qf) (f_services qf) = true) ->
    Idl.ResolvableConst.resolvable q = true /\ exists r, Idl.Resolve.resolve_program q = Idl.Resolve.Ok r.
Proof.
  intros matches cp c p q fin Hwf Hm Hr Hres Hocc Hk Hbase.
  apply (Idl.TrimResolves.trim_resolves_given_bases_and_idents matches cp c p q fin Hwf Hm Hr Hres Hocc Hk Hbase).
  exact (Idl.TrimResolves.trimmed_idents_ok matches cp c p q fin Hwf Hm Hr Hres Hocc Hk).
Qed.
Print Assumptions C16_trim_resolves_given_bases.

(* trim_resolves, no hypothesis on the output left: a resolvable, well-formed resolved
   program whose recorded resolution is the one C05's specification prescribes (types:
   [occ_good]; base services: the include [spec_include is_service_kind] chooses) is, after
   trimming, again resolvable, and [Resolve.resolve_program] succeeds on it.  This is
   C16_trim_resolves_all with the hypothesis [filtering c = false], which the proof does not
   use. *)
Theorem C16_trim_resolves_without_filter :
  forall matches cp c p q fin, wf p ->
    mark_ast matches cp c p (prog_size p) = Ok fin ->
    reach cp c p false (prog_size p) fin (main_name p) [] = Ok q ->
    Idl.ResolvableConst.resolvable p = true ->
    (forall fn f, prog_file p fn = Some f -> forall t, In t (Idl.ResolveSpec.file_occs f) -> Idl.ResolveInv.occ_good p fn f t) ->
    (forall fn f k s, prog_file p fn = Some f -> In s (sl_list k f) -> sl_category s = k) ->
    filtering c = false ->
    (forall fn f s, prog_file p fn = Some f -> In s (f_services f) ->
       match split_type (sv_extends s) with
       | [pre; m] => exists i gn, Idl.ResolveSpec.spec_include p Idl.ResolveSpec.is_service_kind pre m
                                    (Idl.ResolveSpec.file_incs f) 0 = Some (i, gn) /\
                                  sv_ref s = Some (Ref m (Z.of_nat i))
       | _ => sv_ref s = None
       end) ->
    Idl.ResolvableConst.resolvable q = true /\ exists r, Idl.Resolve.resolve_program q = Idl.Resolve.Ok r.
Proof. intros matches cp c p q fin Hwf Hm Hr Hres Hocc Hk _. exact (Idl.TrimResolves.trim_resolves matches cp c p q fin Hwf Hm Hr Hres Hocc Hk). Qed.
Print Assumptions C16_trim_resolves_without_filter.

(* trim_resolves — EVERY configuration (with and without a method filter), no hypothesis on
   the output.  What makes [base_ok] hold with -m: a kept service whose `extends` is not
   cleared has its base service and the include marked
   (Idl/TrimResolves.marked_services_good). *)
Theorem C16_trim_resolves_all :
  forall matches cp c p q fin, wf p ->
    mark_ast matches cp c p (prog_size p) = Ok fin ->
    reach cp c p false (prog_size p) fin (main_name p) [] = Ok q ->
    Idl.ResolvableConst.resolvable p = true ->
    (forall fn f, prog_file p fn = Some f -> forall t, In t (Idl.ResolveSpec.file_occs f) -> Idl.ResolveInv.occ_good p fn f t) ->
    (forall fn f k s, prog_file p fn = Some f -> In s (sl_list k f) -> sl_category s = k) ->
    (forall fn f s, prog_file p fn = Some f -> In s (f_services f) ->
       match split_type (sv_extends s) with
       | [pre; m] => exists i gn, Idl.ResolveSpec.spec_include p Idl.ResolveSpec.is_service_kind pre m
                                    (Idl.ResolveSpec.file_incs f) 0 = Some (i, gn) /\
                                  sv_ref s = Some (Ref m (Z.of_nat i))
       | _ => sv_ref s = None
       end) ->
    Idl.ResolvableConst.resolvable q = true /\ exists r, Idl.Resolve.resolve_program q = Idl.Resolve.Ok r.
Proof. exact Idl.TrimResolves.trim_resolves. Qed.
Print Assumptions C16_trim_resolves_all.

(* trim_resolves for the OUTPUT of the resolver: the hypotheses of C16_trim_resolves_all about
   the recorded resolution (type occurrences, base-service References) are derived from C05
   (resolved_occ, resolve_service_ref) and carried from the parsed program p0 to its
   resolution r with C05's resolution_preserves_definitions.  Left: r is resolvable
   and well formed (decidable, checked on every case), every file of r was resolved, the
   parser's struct-like lists hold what their names say. *)
Theorem C16_trim_resolves_of_resolved :
  forall matches cp c p0 r q fin,
    Idl.ResolveSpec.parsed_program p0 = true ->
    Idl.Resolve.resolve_program p0 = Idl.Resolve.Ok r ->
    (forall fn f', prog_file r fn = Some f' -> f_name2cat f' <> None) ->
    Idl.ResolvableConst.resolvable r = true ->
    wf r ->
    (forall fn f k s, prog_file r fn = Some f -> In s (sl_list k f) -> sl_category s = k) ->
    mark_ast matches cp c r (prog_size r) = Ok fin ->
    reach cp c r false (prog_size r) fin (main_name r) [] = Ok q ->
    Idl.ResolvableConst.resolvable q = true /\ exists r', Idl.Resolve.resolve_program q = Idl.Resolve.Ok r'.
Proof. exact Idl.TrimResolved.trim_resolves_of_resolved. Qed.
Print Assumptions C16_trim_resolves_of_resolved.

(* the part of it that needs no hypothesis on the output: types *)
Theorem C16_trimmed_types_resolve :
  forall matches cp c p q fin, wf p ->
    mark_ast matches cp c p (prog_size p) = Ok fin ->
    reach cp c p false (prog_size p) fin (main_name p) [] = Ok q ->
    Idl.ResolvableConst.resolvable p = true ->
    (forall fn f, prog_file p fn = Some f -> forall t, In t (Idl.ResolveSpec.file_occs f) -> Idl.ResolveInv.occ_good p fn f t) ->
    (forall fn f k s, prog_file p fn = Some f -> In s (sl_list k f) -> sl_category s = k) ->
    forall F qf, In (F, qf) q -> forallb (Idl.ResolvableSpec.ty_ok q F) (Idl.ResolveSpec.file_top_occs qf) = true.
Proof. exact Idl.TrimResolves.trimmed_types_ok. Qed.
Print Assumptions C16_trimmed_types_resolve.

(* without a method filter the base service of a kept service and the include it is written
   through are left in the output as well *)
Theorem C16_base_service_survives_partial :
  forall matches cp c p, wf p ->
  forall q fin,
    mark_ast matches cp c p (prog_size p) = Ok fin ->
    reach cp c p false (prog_size p) fin (main_name p) [] = Ok q ->
  forall F qf i s0 b via,
    filtering c = false -> In (F, qf) q -> service_at p F i s0 -> marked fin (NService F i) = true ->
    base_of p F s0 = Some (b, via) ->
    node_survives p q b /\ forall m, In m via -> node_survives p q m.
Proof. exact base_service_survives. Qed.
Print Assumptions C16_base_service_survives_partial.

(* trim_idempotent, the half that is proved: a file in which traversal keeps every include,
   every struct-like, every service with all its functions (and clears no `extends`) comes out
   unchanged except that Include.Used and Name2Category are reset (and recomputed by the second
   resolution).  So trimming the trimmed program changes nothing as soon as the second run
   keeps everything, which by C16_trim_sound applied to the trimmed program means: every
   definition and include of the trimmed program is needed IN the trimmed program.  That
   stability of [needed] under trimming is the part not proved (see the header). *)
Theorem C16_trim_idempotent_partial :
  forall cp c p st F f, everything_kept cp c p st F f -> trim_file cp c p st F f = Ok (reset_file f).
Proof. exact trim_file_fixpoint. Qed.
Print Assumptions C16_trim_idempotent_partial.

(* trim_idempotent is FALSE with a method filter (known finding): on the real resolved AST of
     main.thrift: include "a.thrift"  service S extends a.Base { void f()  void fooBar() }
     a.thrift:    struct BR {1: i32 x}  service Base { BR g() }          -m S.f
   the first trim keeps f and fooBar and the (now empty) a.thrift, the second drops fooBar
   and the include (Idl/TrimWitness.v; the statement records only that the two outputs
   differ and have 2 resp. 1 files). *)
Theorem C16_trim_not_idempotent_with_filter_refuted :
  exists q q2, w_first = Trimmed q /\ w_second = Trimmed q2 /\ program_eqb q q2 = false /\
               List.length q = 2 /\ List.length q2 = 1.
Proof. exact trim_not_idempotent_with_filter. Qed.
Print Assumptions C16_trim_not_idempotent_with_filter_refuted.

(* "every include no longer needed is removed" is FALSE with a method filter (known
   finding), same witness: include 0 of main.thrift stays and is not needed. *)
Theorem C16_trim_include_not_minimal_with_filter_refuted :
  trim w_matches w_compiles w_preserves w_cfg w_program = Trimmed w_q /\
  mark_ast w_matches w_preserves w_cfg w_program (prog_size w_program) = Ok w_fin /\
  In (main_name w_program, w_qf) w_q /\ In w_inc (f_includes w_qf) /\
  (exists pf, prog_file w_program (main_name w_program) = Some pf /\
              nth_error (f_includes pf) 0 = Some (Include (in_path w_inc) (in_ref w_inc) (Some true))) /\
  ~ include_needed w_preserves w_cfg w_program (kept_methods w_cfg w_fin) (main_name w_program) 0.
Proof. exact trim_include_not_minimal_with_filter. Qed.
Print Assumptions C16_trim_include_not_minimal_with_filter_refuted.

(* the hypotheses are satisfiable: the witness is a well-formed resolved program (and the
   model terminates on it: the two refutations above have outcome [Trimmed]) *)
Example C16_witness_wf : wf_program w_program = true.
Proof. exact w_program_wf. Qed.
