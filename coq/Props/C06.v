(* Props/C06.v — property C06 "Constants and default values in Go equal the values written in
   the IDL", stated about the model Idl/Consts.v of generator/golang/resolver.go and of the
   NewX / InitDefault / getter / IsSet templates.  Statements only; the proofs are in
   Idl/ConstsFacts.v and Idl/ConstsFuel.v (the examples at the end are computed); each
   theorem is followed by Print Assumptions.

   Reading guide.  [eval q n p vf tf t c] is the Go value the compiled package holds for the
   initializer c written in file vf at a position of type t (type written in file tf) of the
   resolved program p; q = go_rules is the pinned generator, q = idl_rules the IDL's own
   reading (the two differ on -0.0, on containers written with a value of another kind, and
   on the fields a struct literal does not mention: see C06_eval_negative_zero_refuted,
   C06_container_kind_mismatch, C06_struct_literal_unmentioned_is_zero_not_default).  The
   theorems hold for EVERY q, so for both readings, unless they name one. *)
From Coq.Strings Require Import String.
From Coq Require Import List Bool ZArith.
From Coq.Strings Require Import Byte.
From Verif Require Import Base.Bytes Idl.Ast Idl.AstUtil Idl.Consts Idl.ConstsFacts Idl.ConstsFuel.
Import ListNotations.
Local Open Scope Z_scope.
Local Open Scope consts_scope.

(* Whatever the evaluator produces — for any program, any nesting, any chain of references —
   is a Go value of the declared type: scalars of the right kind and range, containers of
   typed elements, struct values whose slots follow the Go field representation. *)
Theorem C06_eval_typed :
  forall q n p vf tf t c v, eval q n p vf tf t c = Ok v -> exists m, has_type m p tf t v = true.
Proof. exact eval_typed. Qed.
Print Assumptions C06_eval_typed.

(* one statement per way of writing a value *)

(* number *)
Theorem C06_eval_int_literal :
  forall q n p vf tf t z, int_category (ty_category t) = true -> in_int_range (ty_category t) z = true ->
  eval q (S n) p vf tf t (CInt z) = Ok (VInt z).
Proof. exact eval_int_literal. Qed.
Print Assumptions C06_eval_int_literal.

(* string: the documented literal rule — the text is copied between double quotes with only the
   double quote re-escaped, and Go reads the result *)
Theorem C06_eval_string_literal :
  forall q n p vf tf t s, ty_category t = CatString ->
  eval q (S n) p vf tf t (CLiteral s) = (b <- go_unquote (go_escape_dq s) ;; Ok (VStr b)).
Proof. exact eval_string_literal. Qed.
Print Assumptions C06_eval_string_literal.

(* ... so a text without backslash and control bytes (quotes of either kind allowed) is its own value *)
Theorem C06_eval_string_plain :
  forall q n p vf tf t s, ty_category t = CatString -> forallb plain_byte s = true ->
  eval q (S n) p vf tf t (CLiteral s) = Ok (VStr s).
Proof. exact eval_string_plain. Qed.
Print Assumptions C06_eval_string_plain.

(* ... and the escapes are Go's *)
Theorem C06_go_unquote_escapes :
  forall r,
  go_unquote (c_bs :: c_bs :: r) = (t <- go_unquote r ;; Ok (c_bs :: t)) /\
  go_unquote (c_bs :: c_dq :: r) = (t <- go_unquote r ;; Ok (c_dq :: t)) /\
  go_unquote (c_bs :: x6e :: r) = (t <- go_unquote r ;; Ok (x0a :: t)) /\
  go_unquote (c_bs :: x74 :: r) = (t <- go_unquote r ;; Ok (x09 :: t)) /\
  go_unquote (c_bs :: x72 :: r) = (t <- go_unquote r ;; Ok (x0d :: t)) /\
  (forall h1 h2 a b, hexv h1 = Some a -> hexv h2 = Some b ->
     go_unquote (c_bs :: x78 :: h1 :: h2 :: r) = (t <- go_unquote r ;; Ok (byte_of_Z (a * 16 + b) :: t))) /\
  (forall h1 h2 h3 h4 a b c d enc, hexv h1 = Some a -> hexv h2 = Some b -> hexv h3 = Some c -> hexv h4 = Some d ->
     utf8 (((a * 16 + b) * 16 + c) * 16 + d) = Some enc ->
     go_unquote (c_bs :: x75 :: h1 :: h2 :: h3 :: h4 :: r) = (t <- go_unquote r ;; Ok (enc ++ t))) /\
  (forall e, known_escape e = false -> go_unquote (c_bs :: e :: r) = Error EUnsupportedEscape).
Proof.
  exact (fun r => conj (go_unquote_bs r) (conj (go_unquote_dq r) (conj (go_unquote_n r) (conj (go_unquote_t r)
         (conj (go_unquote_r r) (conj (fun h1 h2 a b => go_unquote_x h1 h2 a b r)
         (conj (fun h1 h2 h3 h4 a b c d enc => go_unquote_u h1 h2 h3 h4 a b c d enc r)
               (fun e => go_unquote_unsupported e r)))))))).
Qed.
Print Assumptions C06_go_unquote_escapes.

(* boolean: true / false ... *)
Theorem C06_eval_bool_word :
  forall q n p vf tf t s ex, ty_category t = CatBool -> is_true s || is_false s = true ->
  eval q (S n) p vf tf t (CIdent s ex) = Ok (VBool (is_true s)).
Proof. exact eval_bool_word. Qed.
Print Assumptions C06_eval_bool_word.

(* ... and 0 / 1 (any integer: positive means true) *)
Theorem C06_eval_bool_int :
  forall q n p vf tf t z, ty_category t = CatBool -> eval q (S n) p vf tf t (CInt z) = Ok (VBool (0 <? z)).
Proof. exact eval_bool_int. Qed.
Print Assumptions C06_eval_bool_int.

(* true / false for an integer type: 1 / 0 *)
Theorem C06_eval_int_true_false :
  forall q n p vf tf t s ex, int_category (ty_category t) = true -> is_true s || is_false s = true ->
  eval q (S n) p vf tf t (CIdent s ex) = Ok (VInt (if is_true s then 1 else 0)).
Proof. exact eval_int_true_false. Qed.
Print Assumptions C06_eval_int_true_false.

(* enum member by name (local: index -1, or through the include the identifier names) *)
Theorem C06_eval_enum_by_name :
  forall q n p vf tf t s ex g en ev, ty_category t = CatEnum -> ex_is_enum ex = true ->
  hop p vf (ex_index ex) = Ok g -> find_enum g (ex_sel ex) = Some en -> find_enum_value en (ex_name ex) = Some ev ->
  eval q (S n) p vf tf t (CIdent s (Some ex)) = Ok (VInt (ev_value ev)).
Proof. exact eval_enum_by_name. Qed.
Print Assumptions C06_eval_enum_by_name.

(* enum member by number: copied *)
Theorem C06_eval_enum_by_number :
  forall q n p vf tf t z, ty_category t = CatEnum -> eval q (S n) p vf tf t (CInt z) = Ok (VInt z).
Proof. exact eval_enum_by_number. Qed.
Print Assumptions C06_eval_enum_by_number.

(* int for double: the float64 nearest to the integer ... *)
Theorem C06_eval_int_for_double :
  forall q n p vf tf t z, ty_category t = CatDouble -> eval q (S n) p vf tf t (CInt z) = Ok (VDbl (z_to_double z)).
Proof. exact eval_int_for_double. Qed.
Print Assumptions C06_eval_int_for_double.

(* ... which below 2^53 is the integer itself: mantissa * 2^(exponent - 52) = z *)
Theorem C06_z_to_double_exact :
  forall z, 0 < z < 2 ^ 53 ->
  let b := z_to_double z in
  let e := b / two52 - 1023 in
  0 <= e <= 52 /\ (two52 + b mod two52) * 2 ^ e = z * two52.
Proof. exact z_to_double_exact. Qed.
Print Assumptions C06_z_to_double_exact.

(* double: its own bit pattern (under go_rules: unless it is a zero, see the refutation) *)
Theorem C06_eval_double_literal :
  forall q n p vf tf t b, ty_category t = CatDouble -> dbl_finite (Z.of_N b) = true ->
  q_negzero_lost q && dbl_is_zero (Z.of_N b) = false ->
  eval q (S n) p vf tf t (CDouble b) = Ok (VDbl (Z.of_N b)).
Proof. exact eval_double_literal. Qed.
Print Assumptions C06_eval_double_literal.

(* An identifier evaluates to what the constant it denotes evaluates to — in that constant's
   own file, at its own type — checked against the position it is written in. *)
Theorem C06_eval_ref_transparent :
  forall q n p vf tf t s ex g co,
  value_category (ty_category t) = true -> bool_word (ty_category t) s = None ->
  denotes p vf ex = Ok (DConst g co) ->
  eval q (S n) p vf tf t (CIdent s (Some ex)) =
  (v <- eval_top q n p g (co_type co) (co_value co) ;; expect n p tf t v).
Proof. exact eval_ref_transparent. Qed.
Print Assumptions C06_eval_ref_transparent.

(* ... where a scalar of the same kind passes the check unchanged *)
Theorem C06_expect_scalar_id :
  forall k p tf t v,
  match ty_category t, v with
  | CatBool, VBool _ | CatDouble, VDbl _ | CatString, VStr _ | CatBinary, VBin _ | CatEnum, VInt _ => True
  | (CatByte | CatI16 | CatI32 | CatI64), VInt z => in_int_range (ty_category t) z = true
  | _, _ => False
  end -> expect k p tf t v = Ok v.
Proof. exact expect_scalar_id. Qed.
Print Assumptions C06_expect_scalar_id.

(* what an identifier denotes: a constant of the file itself ... *)
Theorem C06_denotes_local_const :
  forall p vf ex co, ex_index ex = -1 -> ex_is_enum ex = false -> find_constant vf (ex_name ex) = Some co ->
  denotes p vf ex = Ok (DConst vf co).
Proof. exact denotes_local_const. Qed.
Print Assumptions C06_denotes_local_const.

(* ... or of the include its index names *)
Theorem C06_denotes_included_const :
  forall p vf ex inc g co,
  ex_index ex <> -1 -> nth_include vf (ex_index ex) = Some inc -> include_target p inc = Some g ->
  ex_is_enum ex = false -> find_constant g (ex_name ex) = Some co ->
  denotes p vf ex = Ok (DConst g co).
Proof. exact denotes_included_const. Qed.
Print Assumptions C06_denotes_included_const.

Theorem C06_eval_container_pointwise_list :
  forall q n p vf tf t et l vs,
  (ty_category t = CatList \/ ty_category t = CatSet) -> ty_value t = Some et -> l <> [] ->
  (eval q (S n) p vf tf t (CList l) = Ok (VList vs) <->
   Forall2 (fun c v => eval q n p vf tf et c = Ok v) l vs).
Proof. exact eval_list_forall2. Qed.
Print Assumptions C06_eval_container_pointwise_list.

Theorem C06_eval_container_pointwise_map :
  forall q n p vf tf t kt vt l kvs,
  ty_category t = CatMap -> ty_key t = Some kt -> ty_value t = Some vt -> l <> [] ->
  Forall2 (fun kv ab => eval q n p vf tf (bin2str kt) (fst kv) = Ok (fst ab) /\
                        eval q n p vf tf vt (snd kv) = Ok (snd ab)) l kvs ->
  eval q (S n) p vf tf t (CMap l) = Ok (VMap (collapse_empty kvs)).
Proof. exact eval_map_forall2. Qed.
Print Assumptions C06_eval_container_pointwise_map.

(* entries are kept as written unless keys are pointers to field-less structs *)
Theorem C06_collapse_empty_id :
  forall kvs, forallb (fun kv => negb (is_empty_struct (fst kv))) kvs = true -> collapse_empty kvs = kvs.
Proof. exact collapse_empty_id. Qed.
Print Assumptions C06_collapse_empty_id.

(* Each field the literal mentions holds the value of what was written for it at the field's
   type (types read in the struct's file g, identifiers in the file vf of the literal), stored
   the way the Go field stores it; each field it does not mention is Go zero under go_rules
   and unconstrained under idl_rules. *)
Theorem C06_eval_struct_literal_fields :
  forall q n p vf tf t l g s fs fd,
  is_struct_like_category (ty_category t) = true ->
  get_struct_like p tf t = Ok (g, s) ->
  eval q (S n) p vf tf t (CMap l) = Ok (VStruct fs) ->
  In fd (sl_fields s) ->
  (forall kv, filter (key_names fd) l = [kv] ->
     exists v sl, eval q n p vf g (fd_type fd) (snd kv) = Ok v /\ mention_slot fd (snd kv) v = Ok sl /\
                  In (fd_id fd, sl) fs) /\
  (filter (key_names fd) l = [] ->
     In (fd_id fd, if q_unmentioned_any q then VAny else zero_slot fd) fs).
Proof. exact eval_struct_literal_fields. Qed.
Print Assumptions C06_eval_struct_literal_fields.

Theorem C06_struct_literal_unmentioned_is_zero_not_default :
  eval_top go_rules 3 [(B "m.thrift", lit_file)] lit_file lit_ty (CMap []) = Ok (VStruct [(1, VInt 0)]) /\
  new_struct go_rules 3 [(B "m.thrift", lit_file)] lit_file (StructLike SKStruct (B "S") [lit_field (Some (CInt 7))] [] [])
  = Ok (VStruct [(1, VInt 7)]).
Proof. exact struct_literal_unmentioned_is_zero_not_default. Qed.
Print Assumptions C06_struct_literal_unmentioned_is_zero_not_default.

(* A freshly constructed struct: a field with a declared default holds the value of that
   default, every other field is zero / nil. *)
Theorem C06_new_struct_defaults :
  forall q n p f s x fd,
  new_struct q n p f s = Ok x -> NoDup (map fd_id (sl_fields s)) -> In fd (sl_fields s) ->
  (forall c, fd_default fd = Some c ->
     exists v, eval_top q n p f (fd_type fd) c = Ok v /\ get_slot x (fd_id fd) = Some v) /\
  (fd_default fd = None -> get_slot x (fd_id fd) = Some (zero_slot fd)).
Proof. exact new_struct_defaults. Qed.
Print Assumptions C06_new_struct_defaults.

Theorem C06_init_default_on_zero :
  forall q n p f s, init_default q n p f s (zero_struct s) = new_struct q n p f s.
Proof. exact init_default_on_zero. Qed.
Print Assumptions C06_init_default_on_zero.

(* InitDefault() on ANY object assigns the defaults and touches nothing else *)
Theorem C06_init_default_slots :
  forall q n p f fds slots fs,
  init_fields q n p f fds slots = Ok fs ->
  Forall2 (fun fd_slot e =>
             match fd_default (fst fd_slot) with
             | Some c => exists v, eval_top q n p f (fd_type (fst fd_slot)) c = Ok v /\ e = (fd_id (fst fd_slot), v)
             | None => e = snd fd_slot
             end) (combine fds slots) fs.
Proof. exact init_default_slots. Qed.
Print Assumptions C06_init_default_slots.

(* the getter of an unset field returns the DEFAULT variable: the declared default, or the
   zero value of the plain type *)
Theorem C06_getter_unset_is_default :
  forall fd dv slot, support_isset fd = true -> is_set fd dv slot = false -> getter fd dv slot = default_var fd dv.
Proof. exact getter_unset_is_default. Qed.
Print Assumptions C06_getter_unset_is_default.

(* in particular on a fresh struct: the slot of an optional field with a default holds the
   value of that default, and the getter on that slot returns it *)
Theorem C06_getter_new_struct_default :
  forall q n p f s x fd c,
  new_struct q n p f s = Ok x -> NoDup (map fd_id (sl_fields s)) -> In fd (sl_fields s) ->
  is_optional fd = true -> fd_default fd = Some c ->
  exists v, eval_top q n p f (fd_type fd) c = Ok v /\ get_slot x (fd_id fd) = Some v /\
            (base_scalar (fd_cat fd) = true -> self_equal v = true -> getter fd (Some v) v = v).
Proof. exact getter_new_struct_default. Qed.
Print Assumptions C06_getter_new_struct_default.

(* a scalar field holding a value different from its default reports itself as set
   ([is_set] on a scalar with a default compares the two, optional or not) *)
Theorem C06_isset_when_differs :
  forall fd d v, base_scalar (fd_cat fd) = true -> go_neq v d = true -> is_set fd (Some d) v = true.
Proof. exact isset_when_differs. Qed.
Print Assumptions C06_isset_when_differs.

Theorem C06_isset_when_differs_binary :
  forall fd d v, is_binary (fd_cat fd) = true -> bin_bytes v <> bin_bytes d -> is_set fd (Some d) v = true.
Proof. exact isset_when_differs_binary. Qed.
Print Assumptions C06_isset_when_differs_binary.

(* on an object: store a differing value; IsSet is true and the getter returns what was stored *)
Theorem C06_isset_after_set :
  forall fs fd d v slot,
  is_optional fd = true -> base_scalar (fd_cat fd) = true -> fd_default fd <> None ->
  In (fd_id fd) (map fst fs) -> go_neq v d = true ->
  get_slot (set_slot (VStruct fs) (fd_id fd) v) (fd_id fd) = Some slot ->
  is_set fd (Some d) slot = true /\ getter fd (Some d) slot = v.
Proof. exact isset_after_set. Qed.
Print Assumptions C06_isset_after_set.

(* containers, struct-likes and optional fields without default: set = not nil *)
Theorem C06_isset_pointer :
  forall fd dv v, (dv = None \/ is_base_or_enum (fd_cat fd) = false) -> is_set fd dv v = negb (is_nil v).
Proof. exact isset_pointer. Qed.
Print Assumptions C06_isset_pointer.

(* scalar and struct-like positions: an initializer of another kind is an error *)
Theorem C06_kind_mismatch_is_error :
  forall q n p vf tf t c,
  scalar_or_struct (ty_category t) = true -> kind_ok (ty_category t) c = false ->
  eval q (S n) p vf tf t c = Error EKind.
Proof. exact kind_mismatch_is_error. Qed.
Print Assumptions C06_kind_mismatch_is_error.

Theorem C06_struct_literal_bad_key :
  forall q n p vf tf t l g s,
  is_struct_like_category (ty_category t) = true -> get_struct_like p tf t = Ok (g, s) ->
  keys_ok s l = false -> eval q (S n) p vf tf t (CMap l) = Error EField.
Proof. exact struct_literal_bad_key. Qed.
Print Assumptions C06_struct_literal_bad_key.

Theorem C06_int_out_of_range_is_error :
  forall q n p vf tf t z, int_category (ty_category t) = true -> in_int_range (ty_category t) z = false ->
  eval q (S n) p vf tf t (CInt z) = Error ERange.
Proof. exact eval_int_out_of_range. Qed.
Print Assumptions C06_int_out_of_range_is_error.

(* containers: the generator tolerates a value of another kind (empty literal); by the IDL's
   rules it is an error *)
Theorem C06_container_kind_mismatch :
  forall q n p vf tf t c,
  is_container_category (ty_category t) = true ->
  match c with CInt _ | CDouble _ | CLiteral _ => True | CList _ => ty_category t = CatMap | _ => False end ->
  eval q (S n) p vf tf t c =
  if q_fault_tolerant q then Ok (empty_container (ty_category t)) else Error EKind.
Proof. exact container_kind_mismatch. Qed.
Print Assumptions C06_container_kind_mismatch.

(* shapes the semantic pass accepts and the backend refuses *)
Theorem C06_enum_via_typedef_is_error :
  forall q n p vf tf t s ex g,
  ty_category t = CatEnum -> ex_is_enum ex = true -> hop p vf (ex_index ex) = Ok g ->
  find_enum g (ex_sel ex) = None ->
  eval q (S n) p vf tf t (CIdent s (Some ex)) = Error EUndefined.
Proof. exact enum_via_typedef_is_error. Qed.
Print Assumptions C06_enum_via_typedef_is_error.

Theorem C06_typedef_container_is_error :
  forall q n p vf tf t c l,
  (ty_category t = CatList \/ ty_category t = CatSet) -> ty_value t = None ->
  eval q (S n) p vf tf t (CList (c :: l)) = Error EInternal.
Proof. exact typedef_container_is_error. Qed.
Print Assumptions C06_typedef_container_is_error.

(* where the pinned code violates the property *)

(* -0.0 loses its sign: the generator's value and the IDL's value differ (known finding) *)
Theorem C06_eval_negative_zero_refuted :
  exists f c, eval_top go_rules 1 [] f double_ty c = Ok (VDbl 0) /\
              eval_top idl_rules 1 [] f double_ty c = Ok (VDbl two63) /\ two63 <> 0.
Proof. exact eval_negative_zero_refuted. Qed.
Print Assumptions C06_eval_negative_zero_refuted.

(* every other double reads the same under both rules *)
Theorem C06_go_double_agree :
  forall b, dbl_is_zero b = false -> go_double go_rules b = go_double idl_rules b.
Proof. exact go_double_agree. Qed.
Print Assumptions C06_go_double_agree.

(* The fuel is only a termination device: once the evaluator answers with a value, every
   larger fuel gives the same value, so the value of an initializer is a function of the
   program alone (the theorems above that speak of [S n] hold for every sufficient fuel). *)
Theorem C06_eval_fuel_mono :
  forall q n m p vf tf t c v, (n <= m)%nat -> eval q n p vf tf t c = Ok v -> eval q m p vf tf t c = Ok v.
Proof. exact eval_fuel_mono. Qed.
Print Assumptions C06_eval_fuel_mono.

Theorem C06_eval_fuel_irrelevant :
  forall q n m p vf tf t c v w, eval q n p vf tf t c = Ok v -> eval q m p vf tf t c = Ok w -> v = w.
Proof. exact eval_fuel_irrelevant. Qed.
Print Assumptions C06_eval_fuel_irrelevant.

Theorem C06_new_struct_fuel_mono :
  forall q n m p f s x, (n <= m)%nat -> new_struct q n p f s = Ok x -> new_struct q m p f s = Ok x.
Proof. exact new_struct_fuel_mono. Qed.
Print Assumptions C06_new_struct_fuel_mono.

(* the hypotheses are satisfiable *)

Example C06_ex_string :
  eval go_rules 1 [] (empty_file []) (empty_file []) (Ty (B "string") None None [] [] CatString None None)
       (CLiteral (B "say ""hi"" \t")) = Ok (VStr (B "say ""hi"" " ++ [x09])).
Proof. vm_compute. reflexivity. Qed.

Example C06_ex_int_for_double :
  eval go_rules 1 [] (empty_file []) (empty_file []) double_ty (CInt 3) = Ok (VDbl 4613937818241073152).
Proof. vm_compute. reflexivity. Qed.

Example C06_ex_rounding :
  z_to_double 9007199254740993 = z_to_double 9007199254740992.
Proof. vm_compute. reflexivity. Qed.
