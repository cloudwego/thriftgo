(* Props/C01.v — property C01 "Every accepted IDL yields Go code that compiles" (partial).
   Proved here: (1) the collision-renaming logic every generated identifier table goes through
   (pkg/namespace) never gives one name to two ids, never takes a reserved name away, for
   every sequence of operations and every rename function; (2) for the sequence of table
   operations that the Go backend performs for a resolved file (model Gen/Scope.v of
   generator/golang/scope_internal.go), for every file, feature set and naming style: equal
   names in one table mean equal ids, struct-like type names are pairwise distinct, names with
   distinct ids are distinct (package level, struct members, method parameters), no parameter
   is a Go keyword, a reserve failure is the error result and the only one.
   Not proved (observed by compiling the generated code in the correspondence harness): that
   template text is well-typed Go, and identifiers templates compose without a name table. *)
From Coq Require Import List Bool String ZArith.
From Verif Require Import Base.Bytes Gen.Namespace Gen.NamespaceFacts Idl.Ast Gen.Scope Gen.ScopeFacts Gen.ScopeTypeNames
  Gen.KeywordTable.
Import ListNotations.

Theorem C01_ns_injective :
  forall rename ops s vs i j n,
  run_ops rename ns0 ops = (s, vs) ->
  lookup i (id2name s) = Some n -> lookup j (id2name s) = Some n -> i = j.
Proof. exact ns_injective. Qed.
Print Assumptions C01_ns_injective.

Theorem C01_ns_owner_stable :
  forall rename ops s s' vs, run_ops rename s ops = (s', vs) -> owners_kept s s'.
Proof. exact ns_owner_stable. Qed.
Print Assumptions C01_ns_owner_stable.

Theorem C01_reserve_spec :
  forall s name id,
  (lookup name (name2id s) = None -> exists s', reserve s name id = (s', true) /\ get s' id = name /\ get_id s' name = id) /\
  (lookup name (name2id s) <> None -> reserve s name id = (s, false)).
Proof. exact reserve_spec. Qed.
Print Assumptions C01_reserve_spec.

Theorem C01_add_spec :
  forall rename s name id s' r,
  add rename s name id = Some (s', r) ->
  get s' id = r /\ get_id s' r = id /\
  ((lookup name (name2id s) = None \/ lookup name (name2id s) = Some id) -> r = name).
Proof. exact add_spec. Qed.
Print Assumptions C01_add_spec.

(* non-vacuity: a collision is renamed, a reservation blocks, ids stay apart *)
Open Scope string_scope.
Example C01_example :
  snd (run_ops underscore_suffix ns0
        [OReserve (B "New") (B "r"); OAdd (B "New") (B "a"); OAdd (B "New") (B "b"); OGet (B "a"); OID (B "New__")])
  = [VBool true; VName (B "New_"); VName (B "New__"); VName (B "New_"); VName (B "b")].
Proof. vm_compute. reflexivity. Qed.

(* ---------------------------------------------------------------------------------------------
   The name tables of the Go backend (generator/golang/scope_internal.go), model Gen/Scope.v.
   [scope_run identify lower_first ft f] performs, for a resolved file f, the Add / MustReserve
   operations of installNames / buildService / buildFunction / buildStructLike / buildEnum /
   buildTypedef / buildConstant on the file-level table, the per-struct, per-service,
   per-function and per-enum tables, and returns every operation with the name that came back
   ([SOk es], oldest first) or [SErr EReserve] when a MustReserve found its name occupied.
   The naming style ([identify]) and LowerFirstRune ([lower_first]) are arbitrary functions: the
   theorems hold for every naming style, every feature set and every file. *)
Close Scope string_scope.

(* the table the model consults at every step is the one pkg/namespace builds from the recorded
   operation sequence: the theorems below are statements about run_ops sequences *)
Theorem C01_scope_tables_are_run_ops :
  forall t tr, ns_of t tr = table_after t (chron tr).
Proof. exact ns_of_table_after. Qed.
Print Assumptions C01_scope_tables_are_run_ops.

(* two operations on one table that came back with the same name were made for the same id, and
   the later one is an Add: no side condition *)
Theorem C01_table_same_name :
  forall identify lower_first ft f es a e1 b e2 c,
  scope_run identify lower_first ft f = SOk es ->
  es = a ++ e1 :: b ++ e2 :: c ->
  e_table e1 = e_table e2 -> e_name e1 = e_name e2 ->
  e_id e1 = e_id e2 /\ is_add (e_op e2) = true.
Proof. exact table_same_name. Qed.
Print Assumptions C01_table_same_name.

(* package-level identifiers that go through the file table (type names, New<T>,
   fieldIDToName_<T>, <Svc>Client, <Svc>Processor, <Svc><Func>Args/Result, enums, typedefs,
   constants) are pairwise distinct when the fold raises no reserve failure and the ids are *)
Theorem C01_globals_distinct :
  forall identify lower_first ft f es,
  scope_run identify lower_first ft f = SOk es ->
  NoDup (map e_id (entries_of TGlobals es)) -> NoDup (map e_name (entries_of TGlobals es)).
Proof. exact globals_distinct. Qed.
Print Assumptions C01_globals_distinct.

(* members of a struct-like (reserved methods, Get/Set/IsSet/ReadFieldN/writeFieldN/
   FieldNDeepEqual, field names), user-defined or synthesized args / result *)
Theorem C01_struct_members_distinct :
  forall identify lower_first ft f es t,
  scope_run identify lower_first ft f = SOk es ->
  (exists k, t = TStruct k) \/ (exists i j r, t = TSynth i j r) ->
  NoDup (map e_id (entries_of t es)) -> NoDup (map e_name (entries_of t es)).
Proof. exact struct_members_distinct. Qed.
Print Assumptions C01_struct_members_distinct.

(* no premise about ids: the Go type names of the struct-likes of one file (structs, unions,
   exceptions and the synthesized <Svc><Func>Args / Result) are pairwise distinct in every
   accepted file, because New<name> is reserved right after <name> was obtained *)
Theorem C01_struct_type_names_distinct :
  forall identify lower_first ft f es a e1 b e2 c,
  scope_run identify lower_first ft f = SOk es ->
  es = a ++ e1 :: b ++ e2 :: c ->
  is_struct_type e1 = true -> is_struct_type e2 = true ->
  e_name e1 <> e_name e2.
Proof. exact struct_type_names_distinct. Qed.
Print Assumptions C01_struct_type_names_distinct.

(* any table (also the per-service method table and the per-enum value table) *)
Theorem C01_table_distinct :
  forall identify lower_first ft f es t,
  scope_run identify lower_first ft f = SOk es ->
  NoDup (map e_id (entries_of t es)) -> NoDup (map e_name (entries_of t es)).
Proof. exact table_distinct. Qed.
Print Assumptions C01_table_distinct.

(* receiver, locals, parameters, throws of a method: distinct, and no parameter / throw name is
   a Go keyword *)
Theorem C01_params_distinct_and_not_keywords :
  forall identify lower_first ft f es i j,
  scope_run identify lower_first ft f = SOk es ->
  (NoDup (map e_id (entries_of (TFunction i j) es)) -> NoDup (map e_name (entries_of (TFunction i j) es))) /\
  (forall e, In e es -> (kind_eqb (e_kind e) KParam || kind_eqb (e_kind e) KThrow) = true -> is_keyword (e_name e) = false).
Proof. exact params_distinct_and_not_keywords. Qed.
Print Assumptions C01_params_distinct_and_not_keywords.

(* a reserved name (New<T>, fieldIDToName_<T>, <Svc>Client, <Svc>Processor, Read, Write, p, err,
   ctx, ...) differs from every name recorded earlier in its table: no side condition *)
Theorem C01_reserved_name_fresh :
  forall identify lower_first ft f es a e1 b e2 c,
  scope_run identify lower_first ft f = SOk es ->
  es = a ++ e1 :: b ++ e2 :: c -> e_table e1 = e_table e2 ->
  is_add (e_op e2) = false -> e_name e1 <> e_name e2.
Proof. exact reserved_name_fresh. Qed.
Print Assumptions C01_reserved_name_fresh.

(* MustReserve on an occupied name is the error result *)
Theorem C01_reserve_fails_iff :
  forall t ow k name id tr,
  m_reserve t ow k name id tr = SErr EReserve <-> lookup name (name2id (ns_of t tr)) <> None.
Proof. exact reserve_fails_iff. Qed.
Print Assumptions C01_reserve_fails_iff.

(* [bind], with which every step of the model is sequenced, hands on the error of its first part *)
Theorem C01_error_propagates :
  forall A B (m : M A) (g : A -> M B) tr e, m tr = SErr e -> bind m g tr = SErr e.
Proof. exact @error_propagates. Qed.
Print Assumptions C01_error_propagates.

(* in an accepted run every MustReserve found its name free in the table built so far *)
Theorem C01_reserve_failure_is_error :
  forall identify lower_first ft f es a e c name id,
  scope_run identify lower_first ft f = SOk es ->
  es = a ++ e :: c -> e_op e = OReserve name id ->
  lookup name (name2id (table_after (e_table e) (map (fun x => (e_table x, e_op x)) a))) = None /\ e_name e = name.
Proof. exact reserve_failure_is_error. Qed.
Print Assumptions C01_reserve_failure_is_error.

(* the model never runs out of fuel (Add with the underscore rename terminates within the fuel:
   pigeonhole over name, name_, name__, ...), so a rejected file is a reserve failure *)
Theorem C01_scope_error_is_reserve_failure :
  forall identify lower_first ft f e,
  scope_run identify lower_first ft f = SErr e -> e = EReserve.
Proof. exact scope_error_is_reserve_failure. Qed.
Print Assumptions C01_scope_error_is_reserve_failure.

(* non-vacuity.  With the identity as naming style: a struct with fields x / Getx keeps field
   and getter apart; "struct NewX" before "struct X" is a reserve failure (New ++ X is taken). *)
Open Scope string_scope.
Definition C01_ft0 := Features false false false false false.
Definition C01_i32 := Ty (B "i32") None None [] [] CatI32 None None.
Definition C01_file (structs : list struct_like) (services : list service) : file :=
  File (B "a.thrift") [] [] [] [] [] [] structs [] [] services None.
Definition C01_s1 := StructLike SKStruct (B "S")
  [Field 1%Z (B "x") ReqOptional C01_i32 None [] []; Field 2%Z (B "Getx") ReqDefault C01_i32 None [] []] [] [].

Example C01_scope_example_members :
  match scope_run (fun n => n) (fun n => n) C01_ft0 (C01_file [C01_s1] []) with
  | SOk es => map e_name (entries_of (TStruct 0) es)
  | SErr _ => []
  end = [B "Read"; B "Write"; B "String"; B "InitDefault"; B "Getx"; B "IsSetx"; B "ReadField1"; B "writeField1";
         B "GetGetx"; B "ReadField2"; B "writeField2"; B "x"; B "Getx_"].
Proof. vm_compute. reflexivity. Qed.

Example C01_scope_example_reserve_failure :
  scope_ops (fun n => n) (fun n => n) C01_ft0
    (C01_file [StructLike SKStruct (B "NewX") [] [] []; StructLike SKStruct (B "X") [] [] []] []) = SErr EReserve.
Proof. vm_compute. reflexivity. Qed.

Example C01_scope_example_keyword_param :
  match scope_run (fun n => n) (fun n => n) C01_ft0
        (C01_file [] [Service (B "Svc") [] [Function (B "f") false true (ty_named (B "void"))
                        [Field 1%Z (B "type") ReqDefault C01_i32 None [] []; Field 2%Z (B "p") ReqDefault C01_i32 None [] []] [] [] []] [] None []]) with
  | SOk es => map e_name (entries_of (TFunction 0 0) es)
  | SErr _ => []
  end = [B "p"; B "err"; B "ctx"; B "_type"; B "p_"].
Proof. vm_compute. reflexivity. Qed.

(* The keyword list of the model is the table of generator/golang/types.go (isKeywords) as the
   translator read it on this run (Gen/KeywordTable.v is regenerated by every check): a keyword
   added to or removed from the source breaks this theorem. *)
Theorem C01_keyword_table_is_source : forall n, is_keyword n = existsb (beqb n) src_keywords.
Proof. exact keyword_table_is_source. Qed.
Print Assumptions C01_keyword_table_is_source.
