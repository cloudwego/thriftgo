(* Props/C14.v — property C14 "Field-mask library: queries and JSON transport agree with path
   semantics", stated about the models Mask/{Path,Desc,Trie,Json}.v of fieldmask/*.go and the
   path-set specification Mask/Spec.v.  The models are the library with the repairs C14-1 to
   C14-9 listed in notes/BUILDLOG.md.  The proofs cite lemmas of the Mask/*Facts.v files; every
   Theorem is followed by Print Assumptions.

   Reading guide.  [new_mask env d black strs] is Options{BlackListMode: black}.NewFieldMask
   on the descriptor (env, d) and the path strings; [walk (Some m) q] says whether every
   query of the sequence q (Field id / Int i / Str s, each on the sub mask the previous one
   returned) answered "pass"; [spec_pass black ps q] is the same answer computed from the
   SET ps of simple paths alone.  A list of syntactic paths [ps] (fields by name or id,
   grouped indices and keys, stars) is tied to the strings by [map tokenize strs = map
   tokens_of ps] (checked for every generated case by the correspondence run), typed against
   the descriptor by [elab_all], and expanded to its path set by [path_set].  The domain
   predicates [well_typed], [no_conflict], [in_domain] are decidable booleans.

   Further names in the statements.  Spec.v: [spec_all black ps q] is what All() should answer
   at position q; [same_set] compares two path sets as sets; [no_root_path gs] says no path of
   the list is "$" alone; [wf_path] (non-empty names that are not numbers, ids within int32,
   non-empty key sets without repetition); [simple_seg] (no star, exactly one key); [no_starf]
   (no struct star); [qkeys g] is the query sequence of a path with single keys; [env_ok env]
   says field ids are unique in every struct.  Trie.v: [walk_to] returns the sub mask a query
   sequence reaches together with the flag, [all_q] is All() on it, [observe] is the list of
   flags of a query sequence followed by All() and Exist() of the last sub mask.  Json.v:
   [json_ok t g] says every id and key of g can be carried by the JSON form; [canon] is a
   decidable class of masks (every node set; a starred node holds at most the star child, any
   other node at least one child under distinct carriable keys) that contains the masks built
   on the domain from at least one path with [json_ok] keys.
   The theorem about GetPath on an arbitrary mask uses four invariants of built masks, defined
   with the proofs.  [mtyped env c d] (PimFacts.v): every node carries the mask type of its
   descriptor and every child key has a descriptor below it (so no star child below a struct).
   [SemFacts.inv b c]: every node has a valid type and the mode b, and every child is marked isAll
   or has children.  [allok b c] (PimFacts.v): in black mode every child stored under the star
   key has children, at every depth; it holds of every white mask.  [okc c] (PimFacts.v): if
   the node c itself is black and starred, it has a child. *)
From Coq Require Import List Bool ZArith Permutation.
From Coq.Strings Require Import Byte String.
From Verif Require Import Base.Bytes Mask.Path Mask.Desc Mask.Trie Mask.Json Mask.Spec.
From Verif Require Import Mask.Print Mask.C14Facts Mask.JsonFacts.
From Verif Require Import Mask.PrintFacts Mask.AllFacts Mask.PimFacts Mask.StringFacts.
Import ListNotations.

(* build_sound: on the domain every query walk answers as the path set prescribes.
   white lists: no two paths conflict; black lists: moreover no path ends with a star. *)
Theorem C14_build_sound :
  forall env d black strs ps gs m,
  map tokenize strs = map tokens_of ps ->
  well_typed env d ps = true -> elab_all env d ps = Some gs -> in_domain black gs = true ->
  new_mask env d black strs = Ok m ->
  forall q, walk (Some m) q = spec_pass black (path_set gs) q.
Proof. exact build_sound. Qed.
Print Assumptions C14_build_sound.

(* Path STRINGS end to end.  [print_path] (Mask/Print.v) is the printer of the harness
   (maskkit.Path.Render: names, decimal ids and keys, quoted keys with the escapes backslash,
   quote, n, t, r, xHH); the correspondence run checks on every generated case that the strings
   given to the real library are exactly [map print_path ps].  The tokenizer reads back what
   the printer prints, so the hypothesis [map tokenize strs = map tokens_of ps] of the
   theorems below is discharged for printed paths. *)
Theorem C14_tokenize_print_path :
  forall p, wf_path p = true -> tokenize (print_path p) = tokens_of p.
Proof. exact tokenize_print_path. Qed.
Print Assumptions C14_tokenize_print_path.

Theorem C14_build_sound_strings :
  forall env d black ps gs m,
  well_typed env d ps = true -> elab_all env d ps = Some gs -> in_domain black gs = true ->
  new_mask env d black (map print_path ps) = Ok m ->
  forall q, walk (Some m) q = spec_pass black (path_set gs) q.
Proof. exact build_sound_strings. Qed.
Print Assumptions C14_build_sound_strings.

Theorem C14_build_total_strings :
  forall env d black ps gs,
  well_typed env d ps = true -> elab_all env d ps = Some gs -> no_conflict gs = true ->
  exists m, new_mask env d black (map print_path ps) = Ok m.
Proof. exact build_total_strings. Qed.
Print Assumptions C14_build_total_strings.

(* the JSON round trip and the independence of order and grouping, on printed path strings *)
Theorem C14_json_roundtrip_strings :
  forall env d black ps gs m,
  well_typed env d ps = true -> elab_all env d ps = Some gs -> no_conflict gs = true -> gs <> [] ->
  forallb (json_ok (switch_ft env d)) gs = true ->
  new_mask env d black (map print_path ps) = Ok m ->
  exists m', of_json (to_json m) = Ok m' /\
    (forall q, observe (Some m') q = observe (Some m) q) /\
    (forall q, walk (Some m') q = walk (Some m) q) /\
    to_json m' = to_json m.
Proof. exact json_roundtrip_strings. Qed.
Print Assumptions C14_json_roundtrip_strings.

Theorem C14_order_irrelevant_strings :
  forall env d black ps gs m ps' gs',
  well_typed env d ps = true -> well_typed env d ps' = true ->
  elab_all env d ps = Some gs -> elab_all env d ps' = Some gs' ->
  in_domain black gs = true -> in_domain black gs' = true ->
  same_set (path_set gs) (path_set gs') = true ->
  new_mask env d black (map print_path ps) = Ok m ->
  exists m', new_mask env d black (map print_path ps') = Ok m' /\ forall q, walk (Some m) q = walk (Some m') q.
Proof. exact order_irrelevant_strings. Qed.
Print Assumptions C14_order_irrelevant_strings.

(* all_sound: the answer of All() on the sub mask a passing query walk reaches is what the
   path set prescribes (white and black lists; black: no path of the list is the root path "$") *)
Theorem C14_all_sound :
  forall env d black strs ps gs m,
  map tokenize strs = map tokens_of ps ->
  well_typed env d ps = true -> elab_all env d ps = Some gs -> in_domain black gs = true ->
  (black = true -> no_root_path gs = true) ->
  new_mask env d black strs = Ok m ->
  forall q, walk (Some m) q = true -> all_q (fst (walk_to (Some m) q)) = spec_all black (path_set gs) q.
Proof. exact all_sound. Qed.
Print Assumptions C14_all_sound.

Theorem C14_all_sound_strings :
  forall env d black ps gs m,
  well_typed env d ps = true -> elab_all env d ps = Some gs -> in_domain black gs = true ->
  (black = true -> no_root_path gs = true) ->
  new_mask env d black (map print_path ps) = Ok m ->
  forall q, walk (Some m) q = true -> all_q (fst (walk_to (Some m) q)) = spec_all black (path_set gs) q.
Proof. exact all_sound_strings. Qed.
Print Assumptions C14_all_sound_strings.

(* Path membership: PathInMask (the flag of GetPath) on a path without star and with single
   keys [p] (typed against the descriptor; [qkeys g] is its position) answers whether that
   position passes according to the path set -- for masks built on the domain from at least
   one path, without struct stars (black lists: no path is "$" alone), on descriptors with
   unique field ids ([env_ok]). *)
Theorem C14_path_in_mask_sound :
  forall env d black ps gs m p g,
  env_ok env = true ->
  well_typed env d ps = true -> elab_all env d ps = Some gs -> in_domain black gs = true ->
  gs <> [] -> forallb no_starf ps = true -> (black = true -> no_root_path gs = true) ->
  new_mask env d black (map print_path ps) = Ok m ->
  forallb simple_seg p = true -> wf_path p = true -> elab env d p = Some g ->
  exists a, path_in_mask env d m (print_path p) = Some (spec_pass black (path_set gs) (qkeys g), a).
Proof. exact path_in_mask_strings. Qed.
Print Assumptions C14_path_in_mask_sound.

(* GetPath itself, on any mask that is typed by the descriptor and has the invariants of built
   masks ([inv], [allok], [okc], see the reading guide): the flag is the query walk *)
Theorem C14_get_path_is_the_query_walk :
  forall env, env_ok env = true -> forall p d g,
  elab env d p = Some g -> forallb simple_seg p = true -> wf_path p = true ->
  forall f c last b, List.length (flat_map seg_tokens p) < f ->
  mtyped env c d = true -> SemFacts.inv b c = true -> allok b c = true -> okc c = true ->
  exists r, get_path f env (flat_map seg_tokens p) d (Some c) last = Some (r, walk (Some c) (qkeys g)).
Proof. exact get_path_walk. Qed.
Print Assumptions C14_get_path_is_the_query_walk.

Example C14_path_in_mask_example :
  env_ok wenv = true /\ forallb no_starf ex_ps = true /\ no_root_path (w_gs wroot ex_ps) = true /\
  forallb simple_seg [PName (B "li"); PIdx [2%Z]; PId 1] = true /\
  path_in_mask wenv wroot (w_mask wroot true ex_strs) (print_path [PName (B "li"); PIdx [2%Z]; PId 1]) = Some (false, true) /\
  path_in_mask wenv wroot (w_mask wroot false ex_strs) (print_path [PName (B "li"); PIdx [2%Z]; PId 1]) = Some (true, true).
Proof. repeat split; vm_compute; reflexivity. Qed.

(* build_total_on_D: a well-typed conflict-free list always builds *)
Theorem C14_build_total_on_D :
  forall env d black strs ps gs,
  map tokenize strs = map tokens_of ps ->
  well_typed env d ps = true -> elab_all env d ps = Some gs -> no_conflict gs = true ->
  exists m, new_mask env d black strs = Ok m.
Proof. intros. eexists. eapply build_total_on_D; eauto. Qed.
Print Assumptions C14_build_total_on_D.

(* order_irrelevant: two lists in the domain that denote the same path set (any order,
   any grouping of indices/keys, fields by name or id) build masks with the same answers;
   for a permutation the second list is in the domain as soon as the first is. *)
Theorem C14_order_irrelevant :
  forall env d black strs ps gs m strs' ps' gs',
  map tokenize strs = map tokens_of ps -> map tokenize strs' = map tokens_of ps' ->
  well_typed env d ps = true -> well_typed env d ps' = true ->
  elab_all env d ps = Some gs -> elab_all env d ps' = Some gs' ->
  in_domain black gs = true -> in_domain black gs' = true ->
  same_set (path_set gs) (path_set gs') = true ->
  new_mask env d black strs = Ok m ->
  exists m', new_mask env d black strs' = Ok m' /\ forall q, walk (Some m) q = walk (Some m') q.
Proof.
  intros env d black strs ps gs m strs' ps' gs' H1 H2 H3 H4 H5 H6 H7 H8 H9 H10.
  eapply (order_irrelevant env d black strs ps gs m strs' ps' gs'); eauto. apply same_set_in. exact H9.
Qed.
Print Assumptions C14_order_irrelevant.

Theorem C14_order_irrelevant_permutation :
  forall env d black strs ps gs m strs' ps',
  map tokenize strs = map tokens_of ps -> map tokenize strs' = map tokens_of ps' ->
  Permutation ps ps' ->
  well_typed env d ps = true -> elab_all env d ps = Some gs -> in_domain black gs = true ->
  new_mask env d black strs = Ok m ->
  exists m', new_mask env d black strs' = Ok m' /\ forall q, walk (Some m) q = walk (Some m') q.
Proof. exact order_irrelevant_perm. Qed.
Print Assumptions C14_order_irrelevant_permutation.

(* the specification itself looks at the set only *)
Theorem C14_spec_depends_on_the_set_only :
  forall black ps ps' q, (forall p, In p ps <-> In p ps') ->
  spec_pass black ps q = spec_pass black ps' q /\ spec_all black ps q = spec_all black ps' q.
Proof. intros. split; [apply spec_pass_set | apply spec_all_set]; assumption. Qed.
Print Assumptions C14_spec_depends_on_the_set_only.

(* the domain is inhabited: 8 paths (names and ids, groups, a star, negative and > 63 ids),
   in both modes, and a regrouped / reordered list of 9 paths with the same path set *)
Example C14_domain_example :
  map tokenize ex_strs = map tokens_of ex_ps /\ well_typed wenv wroot ex_ps = true /\
  elab_all wenv wroot ex_ps = Some (w_gs wroot ex_ps) /\
  in_domain false (w_gs wroot ex_ps) = true /\ in_domain true (w_gs wroot ex_ps) = true /\
  List.length (path_set (w_gs wroot ex_ps)) = 9.
Proof. exact domain_example. Qed.

Example C14_regroup_example :
  map tokenize ex_strs' = map tokens_of ex_ps' /\ well_typed wenv wroot ex_ps' = true /\
  elab_all wenv wroot ex_ps' = Some (w_gs wroot ex_ps') /\ in_domain true (w_gs wroot ex_ps') = true /\
  same_set (path_set (w_gs wroot ex_ps)) (path_set (w_gs wroot ex_ps')) = true.
Proof. exact regroup_example. Qed.

(* build_error_cases: one theorem per listed kind of error.  [add_path (S f) env toks d cur]
   is addPath on the remaining tokens at a node cur whose descriptor is d; an error there is
   the error of NewFieldMask ([C14_error_propagates]). *)
Theorem C14_error_propagates :
  forall env d p r cur e,
  add_path (path_fuel p) env p d cur = Err e -> add_tok_paths env d (p :: r) cur = Err e.
Proof. exact err_propagates. Qed.
Print Assumptions C14_error_propagates.

Theorem C14_error_malformed_path :
  (* a token that cannot start a segment (literal, quoted string, closing bracket, comma, star, error token) *)
  (forall f env t r d cur, stray_token t = true -> add_path (S f) env (t :: r) d cur = Err EMalformed) /\
  (* "." at the end, or followed by something that is no name, id or star *)
  (forall f env d cur fs, struct_fields env d = Some fs -> m_typ cur = FtStruct ->
     add_path (S f) env [TField] d cur = Err EMalformed) /\
  (forall f env t r d cur fs, struct_fields env d = Some fs -> m_typ cur = FtStruct -> all_of cur = false ->
     match t with TLitStr _ | TLitInt _ | TAny => false | _ => true end = true ->
     add_path (S f) env (TField :: t :: r) d cur = Err EMalformed) /\
  (* empty index and key sets *)
  (forall f env r d cur e, list_elem d = Some e -> m_typ cur = FtList -> ok_ft (switch_ft env e) = true ->
     add_path (S f) env (TIndexL :: TIndexR :: r) d cur = Err EMalformed) /\
  (forall f env r d cur k v, map_kv d = Some (k, v) ->
     (m_typ cur = FtIntMap \/ m_typ cur = FtStrMap \/ m_typ cur = FtScalar) -> ok_ft (switch_ft env v) = true ->
     add_path (S f) env (TMapL :: TMapR :: r) d cur = Err EMalformed) /\
  (* a field id beyond int32 (repair C14-3), and what the tokenizer turns into error tokens
     (repairs C14-2, C14-4, C14-8): a literal beyond int, an unterminated quote, a stray backslash *)
  (forall f env n r d cur fs, struct_fields env d = Some fs -> m_typ cur = FtStruct -> all_of cur = false ->
     (max_int32 < n)%Z -> add_path (S f) env (TField :: TLitInt n :: r) d cur = Err EMalformed) /\
  tokenize (B "$.99999999999999999999") = [TRoot; TField; TErr] /\
  tokenize (B "$.ms{""abc}") = [TRoot; TField; TLitStr (B "ms"); TMapL; TErr] /\
  tokenize (B "$.li[\") = [TRoot; TField; TLitStr (B "li"); TIndexL; TErr].
Proof.
  repeat split; try reflexivity.
  - exact err_malformed_stray.
  - exact err_malformed_dot_at_end.
  - exact err_malformed_field_token.
  - exact err_malformed_empty_index.
  - exact err_malformed_empty_keys.
  - exact err_malformed_field_id_range.
Qed.
Print Assumptions C14_error_malformed_path.

Theorem C14_error_unknown_field :
  (forall f env n r d cur fs, struct_fields env d = Some fs -> m_typ cur = FtStruct -> all_of cur = false ->
     field_by_name fs n = None -> add_path (S f) env (TField :: TLitStr n :: r) d cur = Err ENoField) /\
  (forall f env n r d cur fs, struct_fields env d = Some fs -> m_typ cur = FtStruct -> all_of cur = false ->
     field_by_id fs n = None ->
     add_path (S f) env (TField :: TLitInt n :: r) d cur = Err ENoField \/
     add_path (S f) env (TField :: TLitInt n :: r) d cur = Err EMalformed).
Proof. split; [exact err_unknown_field_name | exact err_unknown_field_id]. Qed.
Print Assumptions C14_error_unknown_field.

Theorem C14_error_wrong_container_kind :
  (forall f env r d cur, struct_fields env d = None -> add_path (S f) env (TField :: r) d cur = Err EKind) /\
  (forall f env r d cur, list_elem d = None -> add_path (S f) env (TIndexL :: r) d cur = Err EKind) /\
  (forall f env r d cur, map_kv d = None -> add_path (S f) env (TMapL :: r) d cur = Err EKind).
Proof. repeat split; [exact err_kind_not_struct | exact err_kind_not_list | exact err_kind_not_map]. Qed.
Print Assumptions C14_error_wrong_container_kind.

Theorem C14_error_key_kind_mismatch :
  (forall f env n r d cur k v, map_kv d = Some (k, v) -> m_typ cur = FtStrMap -> m_isall cur = false ->
     ok_ft (switch_ft env v) = true -> add_path (S f) env (TMapL :: TLitInt n :: r) d cur = Err EKeyKind) /\
  (forall f env s r d cur k v, map_kv d = Some (k, v) -> m_typ cur = FtIntMap -> m_isall cur = false ->
     ok_ft (switch_ft env v) = true -> add_path (S f) env (TMapL :: TStr s :: r) d cur = Err EKeyKind).
Proof. split; [exact err_key_kind_int_on_string_map | exact err_key_kind_string_on_int_map]. Qed.
Print Assumptions C14_error_key_kind_mismatch.

Theorem C14_error_conflict_with_star :
  (* a field below a struct node that is complete or starred *)
  (forall f env t r d cur fs, struct_fields env d = Some fs -> m_typ cur = FtStruct -> m_isall cur = true ->
     add_path (S f) env (TField :: t :: r) d cur = Err EConflict) /\
  (* an index / a key where a star (or a complete path) is settled, also inside one set *)
  (forall f env n r d cur e, list_elem d = Some e -> m_typ cur = FtList -> m_isall cur = true ->
     ok_ft (switch_ft env e) = true -> add_path (S f) env (TIndexL :: TLitInt n :: r) d cur = Err EConflict) /\
  (forall f env n r d cur e, list_elem d = Some e -> m_typ cur = FtList -> ok_ft (switch_ft env e) = true ->
     add_path (S f) env (TIndexL :: TAny :: TElem :: TLitInt n :: r) d cur = Err EConflict) /\
  (forall f env t r d cur k v, map_kv d = Some (k, v) -> (m_typ cur = FtIntMap \/ m_typ cur = FtStrMap) ->
     m_isall cur = true -> ok_ft (switch_ft env v) = true ->
     match t with TLitInt _ | TStr _ => true | _ => false end = true ->
     add_path (S f) env (TMapL :: t :: r) d cur = Err EConflict) /\
  (* a map keyed by neither integers nor strings takes the star only *)
  (forall f env t r d cur k v, map_kv d = Some (k, v) -> m_typ cur = FtScalar -> ok_ft (switch_ft env v) = true ->
     match t with TLitInt _ | TStr _ => true | _ => false end = true ->
     add_path (S f) env (TMapL :: t :: r) d cur = Err EConflict).
Proof.
  repeat split; [exact err_conflict_field | exact err_conflict_index | exact err_conflict_index_after_star_inside
                | exact err_conflict_key | exact err_conflict_other_keyed_map].
Qed.
Print Assumptions C14_error_conflict_with_star.

(* the children of every node are emitted in ascending key order whatever the order of the
   stores (Go map iteration): the text is a function of the mask's content *)
Theorem C14_json_children_sorted : forall m, jsorted (to_json m) = true.
Proof. exact to_json_sorted. Qed.
Print Assumptions C14_json_children_sorted.

(* json_roundtrip: MarshalJSON then Unmarshal of a mask built on the domain (at least one path;
   keys the JSON form can carry: [json_ok] = ids within int32 / int, no string key "*") gives
   a mask that answers EVERY query sequence identically -- the flag of every step, All() and
   Exist() of the last sub mask ([observe]) -- and that prints to the same JSON again. *)
Theorem C14_json_roundtrip :
  forall env d black strs ps gs m,
  map tokenize strs = map tokens_of ps ->
  well_typed env d ps = true -> elab_all env d ps = Some gs -> no_conflict gs = true -> gs <> [] ->
  forallb (json_ok (switch_ft env d)) gs = true ->
  new_mask env d black strs = Ok m ->
  exists m', of_json (to_json m) = Ok m' /\
    (forall q, observe (Some m') q = observe (Some m) q) /\
    (forall q, walk (Some m') q = walk (Some m) q) /\
    to_json m' = to_json m.
Proof. exact json_roundtrip. Qed.
Print Assumptions C14_json_roundtrip.

(* the same for every canonical mask, however it was obtained ([canon] is decidable) *)
Theorem C14_json_roundtrip_canonical :
  forall m, canon m = true ->
  exists m', of_json (to_json m) = Ok m' /\
    (forall q, observe (Some m') q = observe (Some m) q) /\
    (forall q, walk (Some m') q = walk (Some m) q) /\
    to_json m' = to_json m.
Proof. exact json_roundtrip_canonical. Qed.
Print Assumptions C14_json_roundtrip_canonical.

(* json_stable: the text after a round trip is the text before it *)
Theorem C14_json_stable :
  forall m m', canon m = true -> of_json (to_json m) = Ok m' -> to_json_text m' = to_json_text m.
Proof.
  intros m m' Hc H. rewrite (of_json_to_json m Hc) in H. injection H as <-.
  unfold to_json_text. rewrite (to_json_norm m Hc). reflexivity.
Qed.
Print Assumptions C14_json_stable.

Example C14_json_domain_example :
  forallb (json_ok (switch_ft wenv wroot)) (w_gs wroot ex_ps) = true /\ w_gs wroot ex_ps <> [] /\
  canon (w_mask wroot true ex_strs) = true.
Proof. exact json_domain_example. Qed.

(* What the code as modelled gets wrong outside the domain (known findings) *)

Theorem C14_star_resets_keys_refuted :
  exists env d strs ps gs m q,
  map tokenize strs = map tokens_of ps /\ well_typed env d ps = true /\ elab_all env d ps = Some gs /\
  no_conflict gs = false /\ new_mask env d false strs = Ok m /\
  walk (Some m) q = false /\ spec_pass false (path_set gs) q = true /\
  new_mask env d false (rev strs) = Err EConflict.
Proof.
  exists wenv, wroot, w1_strs, w1_ps, (w_gs wroot w1_ps), (w_mask wroot false w1_strs), w1_q.
  exact star_resets_keys_witness.
Qed.
Print Assumptions C14_star_resets_keys_refuted.

Theorem C14_black_tail_star_refuted :
  exists env d strs ps gs m q,
  map tokenize strs = map tokens_of ps /\ well_typed env d ps = true /\ elab_all env d ps = Some gs /\
  no_conflict gs = true /\ no_tail_star gs = false /\ new_mask env d true strs = Ok m /\
  walk (Some m) q = true /\ spec_pass true (path_set gs) q = false.
Proof.
  exists wenv, wroot, w2_strs, w2_ps, (w_gs wroot w2_ps), (w_mask wroot true w2_strs), w2_q.
  exact black_tail_star_witness.
Qed.
Print Assumptions C14_black_tail_star_refuted.

Theorem C14_black_prefix_refuted :
  exists env d strs ps gs m q,
  map tokenize strs = map tokens_of ps /\ well_typed env d ps = true /\ elab_all env d ps = Some gs /\
  no_conflict gs = false /\ new_mask env d true strs = Ok m /\
  walk (Some m) q = true /\ spec_pass true (path_set gs) q = false /\
  new_mask env d true (rev strs) = Err EConflict.
Proof.
  exists wenv, wroot, w3_strs, w3_ps, (w_gs wroot w3_ps), (w_mask wroot true w3_strs), w3_q.
  exact black_prefix_witness.
Qed.
Print Assumptions C14_black_prefix_refuted.

Theorem C14_malformed_path_accepted_refuted :
  exists env d,
  grammatical (tokenize (B "$.li[1")) = false /\ grammatical (tokenize (B "$.li[,]")) = false /\
  grammatical (tokenize []) = false /\
  (exists m, new_mask env d false [B "$.li[1"] = Ok m) /\
  (exists m, new_mask env d false [B "$.li[,]"] = Ok m) /\
  (exists m, new_mask env d false [[]] = Ok m).
Proof. exists wenv, wroot. exact malformed_accepted_witness. Qed.
Print Assumptions C14_malformed_path_accepted_refuted.

Theorem C14_untyped_field_refuted :
  exists env d m, well_typed env d [[PName (B "u")]] = false /\
  new_mask env d false [B "$.u"] = Ok m /\ walk (Some m) [QF 7] = false.
Proof. exists wenv, wroot, (w_mask wroot false [B "$.u"]). exact untyped_field_witness. Qed.
Print Assumptions C14_untyped_field_refuted.

Theorem C14_struct_star_continuation_refuted :
  exists env d m, well_typed env d [[PStarF; PName (B "b")]] = false /\
  new_mask env d false [B "$.*.b"] = Ok m /\
  walk (Some m) [QF 1; QF 2] = true /\ walk (Some m) [QF 1; QF 1] = false.
Proof. exists wenv, (TyStruct (B "F")), (w_mask (TyStruct (B "F")) false [B "$.*.b"]). exact struct_star_continuation_witness. Qed.
Print Assumptions C14_struct_star_continuation_refuted.

Theorem C14_struct_star_twice_refuted :
  exists env d, (exists m, new_mask env d false [B "$.*"] = Ok m) /\
  new_mask env d false [B "$.*"; B "$.*"] = Err EConflict.
Proof. exists wenv, wroot. exact struct_star_twice_witness. Qed.
Print Assumptions C14_struct_star_twice_refuted.

Theorem C14_json_star_key_refuted :
  exists env d strs m m', new_mask env d false strs = Ok m /\ of_json (to_json m) = Ok m' /\
  walk (Some m) [QF 6; QS (B "zz")] = false /\ walk (Some m') [QF 6; QS (B "zz")] = true.
Proof. destruct json_star_key_witness as [m [m' H]]. exists wenv, wroot, w4_strs, m, m'. exact H. Qed.
Print Assumptions C14_json_star_key_refuted.

Theorem C14_json_empty_mask_refuted : forall black, of_json (to_json (empty_mask black)) = Err EKind.
Proof. exact json_empty_mask_witness. Qed.
Print Assumptions C14_json_empty_mask_refuted.
