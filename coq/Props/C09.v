(* Props/C09.v — property C09: schema evolution — unknown fields are tolerated, and preserved when asked.
   Statements only; proofs are in Wire/UnknownCodecFacts.v, Wire/UnknownEvoFacts.v, Wire/UnknownReadFacts.v,
   Wire/UnknownFacts.v, Wire/UnknownWriteFacts.v.

   Vocabulary (Wire/Unknown.v): o / n = old / new schema program (Wire.Schema.env); extendsb o n = n is o
   after compatible edits; adapt e t v = the value v seen under schema e (slots e does not have are
   dropped: "restrict"; slots v does not have are what NewX() holds: "with defaults");
   to_wire / read_new = Write / Read of plain generated code (Wire/Std.v); to_wire_keep / read_new_keep =
   the same of code generated with keep_unknown_fields; norm = a value after one Write + Read. *)
From Coq Require Import List ZArith Bool.
From Verif Require Import Base.Bytes Base.BE Wire.TType Wire.WVal Wire.Codec Wire.Schema Wire.Value Wire.Std Wire.StdFacts
  Wire.Unknown Wire.UnknownDomain Wire.UnknownCodecFacts Wire.UnknownEvoFacts Wire.UnknownReadFacts Wire.UnknownFacts
  Wire.UnknownWriteFacts.
Import ListNotations.
Open Scope Z_scope.

(* ---- old code reads new data: no error, every common field keeps its value ---- *)

Theorem C09_old_reads_new : forall o n,
  extendsb o n = true -> wf_env o = true -> wf_env n = true ->
  forall so sn v,
  find_struct o (s_name sn) = Some so -> find_struct n (s_name sn) = Some sn -> wt n sn v = true ->
  exists wfs, to_wire n sn v = Ok (WStruct wfs) /\
              read_new o so (WStruct wfs) = Ok (adapt_struct o so (norm_struct n sn v)).
Proof. exact old_reads_new. Qed.
Print Assumptions C09_old_reads_new.

(* stronger, reader against reader: ANY wire value the new schema can read (fields in any order,
   duplicates, fields neither version knows) is read by the old schema, as the restriction *)
Theorem C09_reads_agree_old : forall o n,
  extendsb o n = true -> wf_env o = true ->
  forall w t v', closed_ty o t = true -> from_w n t w = Ok v' -> from_w o t w = Ok (adapt o t v').
Proof. exact reads_agree_old. Qed.
Print Assumptions C09_reads_agree_old.

(* ---- new code reads old data: added fields take what NewX() gives them (defaults) ---- *)

Theorem C09_new_reads_old : forall o n,
  extendsb o n = true -> wf_env o = true -> wf_env n = true ->
  forall so sn v,
  find_struct o (s_name so) = Some so -> find_struct n (s_name so) = Some sn -> wt o so v = true ->
  exists wfs, to_wire o so v = Ok (WStruct wfs) /\
              read_new n sn (WStruct wfs) = Ok (adapt_struct n sn (norm_struct o so v)).
Proof. exact new_reads_old. Qed.
Print Assumptions C09_new_reads_old.

Theorem C09_reads_agree_new : forall o n,
  extendsb o n = true -> wf_env n = true ->
  forall w t v', closed_ty o t = true -> conforms o t w = true ->
                 from_w o t w = Ok v' -> from_w n t w = Ok (adapt n t v').
Proof. exact reads_agree_new. Qed.
Print Assumptions C09_reads_agree_new.

(* ---- the re-encoder of the unknown-fields extension (unknown.go / binary.go) ---- *)

(* binary.go's reader accepts exactly what the TBinaryProtocol model accepts, with the same result *)
Theorem C09_uwrite_dec : forall f t bs, uwrite f t bs = dec f t bs.
Proof. exact uwrite_dec. Qed.
Print Assumptions C09_uwrite_dec.

(* unknown.read: the protocol encoding when the nesting fits, the depth error exactly otherwise *)
Theorem C09_append_val_spec : forall w d,
  append_val d w = if (depth w <=? d)%nat then Some (enc w) else None.
Proof. exact append_val_spec. Qed.
Print Assumptions C09_append_val_spec.

(* within the limit the kept bytes re-encode to exactly the original field *)
Theorem C09_unknown_reencode_id : forall f,
  wf_field f -> (depth (snd f) <= limit)%nat ->
  exists b, append_field limit f = Some b /\ unknown_fields b = Some [f].
Proof. exact unknown_reencode_id. Qed.
Print Assumptions C09_unknown_reencode_id.

(* a whole buffer: arrival order, nothing dropped, duplicated or reordered *)
Theorem C09_unknown_reencode_many : forall fs,
  Forall wf_field fs -> Forall (fun f => (depth (snd f) <= limit)%nat) fs ->
  exists b, append_all [] fs = Some b /\ unknown_fields b = Some fs.
Proof. exact unknown_reencode_many. Qed.
Print Assumptions C09_unknown_reencode_many.

(* beyond the limit Append fails (the Read fails): nothing is cut off silently *)
Theorem C09_unknown_append_limit : forall f, (limit < depth (snd f))%nat -> append_field limit f = None.
Proof. exact unknown_append_limit. Qed.
Print Assumptions C09_unknown_append_limit.

(* ---- keep_unknown_fields: new -> old -> new ----

   Full statement the property asks for:
       read_new n sn (to_wire_keep o so (read_new_keep o so (to_wire n sn v))) = Ok (norm_struct n sn v)
   for every well-typed v.  The unchanged code does not satisfy it: the old code's Write can refuse
   (C09_keep_roundtrip_refuted below: a union whose only set member is unknown to the old code).
   Proved: whenever the old code's Write does not refuse, the bytes decode under the new schema to the
   value.  Whether Write refuses is decided by keep_accepts o n so sn v (C09_keep_write_iff,
   C09_keep_roundtrip_total below).  This holds for every pair of programs related by extendsb and every
   value in the domain
       opt_defaults_ok o n   (Wire/UnknownDomain.v) an optional field of the old program that is already
                          "set" in a fresh NewX() object (a container default) is written by the old code
                          although the new code never sent it: the declared default must read back, under
                          the new schema, as that default (checked by running the models on the default;
                          trivially true when no such field exists: C09_opt_init_unset_defaults_ok),
       keepable n t v     no nil struct pointer in a position where Thrift writes one anyway (such a
                          value is not a fixpoint of write/read even without evolution) and no two map
                          keys that fall together when written (enum keys beyond int32). *)
Theorem C09_keep_roundtrip : forall o n so sn v w x w',
  extendsb o n = true -> wf_env o = true -> wf_env n = true -> opt_defaults_ok o n = true ->
  find_struct o (s_name sn) = Some so -> find_struct n (s_name sn) = Some sn ->
  wt n sn v = true -> keepable n (TRef (s_name sn)) v = true ->
  to_wire n sn v = Ok w -> read_new_keep o so w = KOk x -> to_wire_keep o so x = KOk w' ->
  read_new n sn w' = Ok (norm_struct n sn v).
Proof. exact keep_roundtrip. Qed.
Print Assumptions C09_keep_roundtrip.

(* the same for a value of any type at any nesting depth (list element, map key or value, field) *)
Theorem C09_keep_roundtrip_w : forall o n,
  extendsb o n = true -> wf_env o = true -> wf_env n = true -> opt_defaults_ok o n = true ->
  forall v t key w x,
    wt_val n key t v = true -> keepable n t v = true -> closed_ty o t = true ->
    to_w n t v = Ok w -> from_wk o t w = KOk x ->
    keyrep x = keyrep (norm n t v) /\
    forall w', to_wk o t x = KOk w' -> from_w n t w' = Ok (norm n t v).
Proof. exact keep_roundtrip_w. Qed.
Print Assumptions C09_keep_roundtrip_w.

Theorem C09_keep_roundtrip_refuted :
  exists o n so sn v w x,
    extendsb o n = true /\ wf_env o = true /\ wf_env n = true /\ opt_defaults_ok o n = true /\
    find_struct o (s_name sn) = Some so /\ find_struct n (s_name sn) = Some sn /\
    wt n sn v = true /\ keepable n (TRef (s_name sn)) v = true /\
    to_wire n sn v = Ok w /\ read_new_keep o so w = KOk x /\
    (exists u, assoc_slot 1 (match x with VStruct (_ :: slots) => slots | _ => [] end) = Some u /\ carrying u = true) /\
    to_wire_keep o so x = KErr (KStd (EUnionCount 0)).
Proof. exact keep_union_refuted. Qed.
Print Assumptions C09_keep_roundtrip_refuted.

Theorem C09_opt_init_unset_defaults_ok : forall o n, opt_init_unset o = true -> opt_defaults_ok o n = true.
Proof. exact opt_init_unset_defaults_ok. Qed.
Print Assumptions C09_opt_init_unset_defaults_ok.

(* ---- when does the old code's Write accept what it read?  (Wire/UnknownDomain.v)
   writable e t x: everywhere inside x, every union has exactly one DECLARED member set (members kept
   in the unknown buffer do not count) and no set has two elements that reflect.DeepEqual makes equal;
   slots Write does not emit are not looked at.  These are the two data-dependent refusals of X.Write. ---- *)

(* Write succeeds only on writable objects (any object, any schema) *)
Theorem C09_write_ok_writable : forall e x t w', to_wk e t x = KOk w' -> writable e t x = true.
Proof. exact write_ok_writable. Qed.
Print Assumptions C09_write_ok_writable.

(* for the object the old code holds after reading what the new code wrote, Write
   succeeds EXACTLY when the object is writable *)
Theorem C09_keep_write_iff : forall o n,
  extendsb o n = true -> wf_env o = true -> wf_env n = true -> opt_defaults_ok o n = true ->
  forall v t key w x,
    wt_val n key t v = true -> keepable n t v = true -> closed_ty o t = true ->
    to_w n t v = Ok w -> from_wk o t w = KOk x ->
    ((exists w', to_wk o t x = KOk w') <-> writable o t x = true).
Proof. exact keep_write_iff. Qed.
Print Assumptions C09_keep_write_iff.

(* and when it refuses, the error is the set check or the union count, never anything else (no
   malformed buffer, no ill-formed object): write_refusal e := e = KStd ESetDup \/ exists c, e = KStd (EUnionCount c) *)
Theorem C09_keep_rewrite_errors : forall o n,
  extendsb o n = true -> wf_env o = true -> wf_env n = true -> opt_defaults_ok o n = true ->
  forall v t key w x e,
    wt_val n key t v = true -> keepable n t v = true -> closed_ty o t = true ->
    to_w n t v = Ok w -> from_wk o t w = KOk x -> to_wk o t x = KErr e -> write_refusal e.
Proof. exact keep_rewrite_errors_w. Qed.
Print Assumptions C09_keep_rewrite_errors.

(* the round trip with decidable hypotheses only: keep_accepts o n so sn v = the object the old code
   holds after reading what the new code wrote for v is writable.  (C09_keep_roundtrip_refuted is the
   case keep_accepts = false: C09_keep_accepts_examples.) *)
Theorem C09_keep_roundtrip_total : forall o n so sn v,
  extendsb o n = true -> wf_env o = true -> wf_env n = true -> opt_defaults_ok o n = true ->
  find_struct o (s_name sn) = Some so -> find_struct n (s_name sn) = Some sn ->
  wt n sn v = true -> keepable n (TRef (s_name sn)) v = true ->
  keep_accepts o n so sn v = true ->
  exists w x w', to_wire n sn v = Ok w /\ read_new_keep o so w = KOk x /\ to_wire_keep o so x = KOk w' /\
                 read_new n sn w' = Ok (norm_struct n sn v).
Proof. exact keep_roundtrip_total. Qed.
Print Assumptions C09_keep_roundtrip_total.

(* chains of any length, decidable hypotheses only, no assumption about any outcome *)
Theorem C09_chain_total : forall o n so sn,
  extendsb o n = true -> wf_env o = true -> wf_env n = true -> opt_defaults_ok o n = true ->
  find_struct o (s_name sn) = Some so -> find_struct n (s_name sn) = Some sn ->
  forall k v, chain_dom_total o n so sn k v -> chain o n so sn k v = KOk (iter_norm n sn k v).
Proof. exact chain_total. Qed.
Print Assumptions C09_chain_total.

Example C09_keep_accepts_examples :
  keep_accepts ex_old ex_new ex_s ex_s ex_v = false /\
  chain_dom_total ex2_old ex2_new ex2_so ex2_sn 3 ex2_v.
Proof. exact keep_accepts_examples. Qed.

(* Read of keep-aware code succeeds whenever plain Read does and the nesting stays within the limit
   (beyond it: C09_unknown_append_limit) *)
Theorem C09_keep_read_total : forall e w t y,
  from_w e t w = Ok y -> (depth w <= limit)%nat -> exists x, from_wk e t w = KOk x.
Proof. exact keep_read_total. Qed.
Print Assumptions C09_keep_read_total.

Theorem C09_keep_reads_new : forall o n so sn v,
  extendsb o n = true -> wf_env o = true -> wf_env n = true ->
  find_struct o (s_name sn) = Some so -> find_struct n (s_name sn) = Some sn -> wt n sn v = true ->
  exists wfs, to_wire n sn v = Ok (WStruct wfs) /\
              ((depth (WStruct wfs) <= limit)%nat -> exists x, read_new_keep o so (WStruct wfs) = KOk x).
Proof. exact keep_reads_new. Qed.
Print Assumptions C09_keep_reads_new.

(* ---- chains new -> old(keep) -> new -> old(keep) -> new ... of ANY length (the property asks for 3) ---- *)
Theorem C09_chain : forall o n so sn,
  extendsb o n = true -> wf_env o = true -> wf_env n = true -> opt_defaults_ok o n = true ->
  find_struct o (s_name sn) = Some so -> find_struct n (s_name sn) = Some sn ->
  forall k v x, chain_dom n sn k v -> chain o n so sn k v = KOk x -> x = iter_norm n sn k v.
Proof. exact chain_any_length. Qed.
Print Assumptions C09_chain.

(* ---- CarryingUnknownFields ---- *)

Theorem C09_carrying_iff : forall x, carrying x = true <-> unknown_of x <> [].
Proof. exact carrying_iff. Qed.
Print Assumptions C09_carrying_iff.

(* after Read into a fresh object: exactly when the input had a field id the schema does not declare *)
Theorem C09_carrying_after_read : forall e s wfs x,
  read_new_keep e s (WStruct wfs) = KOk x -> carrying x = existsb (unknown_to s) wfs.
Proof. exact carrying_after_read. Qed.
Print Assumptions C09_carrying_after_read.

(* ---- the hypotheses are satisfiable, and the chain of length 3 runs on a concrete pair ---- *)

Example C09_domain_inhabited :
  extendsb ex2_old ex2_new = true /\ wf_env ex2_old = true /\ wf_env ex2_new = true /\ opt_defaults_ok ex2_old ex2_new = true /\
  find_struct ex2_old (s_name ex2_sn) = Some ex2_so /\ find_struct ex2_new (s_name ex2_sn) = Some ex2_sn /\
  chain_dom ex2_new ex2_sn 3 ex2_v.
Proof. exact keep_example_domain. Qed.

Example C09_chain3_runs :
  chain ex2_old ex2_new ex2_so ex2_sn 3 ex2_v = KOk (iter_norm ex2_new ex2_sn 3 ex2_v) /\
  (exists w x, to_wire ex2_new ex2_sn ex2_v = Ok w /\ read_new_keep ex2_old ex2_so w = KOk x /\ carrying x = true).
Proof. exact keep_example_chain. Qed.

(* opt_defaults_ok is met by an optional field with a container default, which the simpler condition
   opt_init_unset (Wire/Unknown.v) refuses *)
Example C09_widened_domain_example :
  opt_init_unset ex3_old = false /\ opt_defaults_ok ex3_old ex3_new = true /\
  extendsb ex3_old ex3_new = true /\ wf_env ex3_old = true /\ wf_env ex3_new = true /\
  chain_dom_total ex3_old ex3_new ex3_so ex3_sn 2 ex3_v /\
  chain ex3_old ex3_new ex3_so ex3_sn 2 ex3_v = KOk (iter_norm ex3_new ex3_sn 2 ex3_v).
Proof. exact widened_domain_example. Qed.
