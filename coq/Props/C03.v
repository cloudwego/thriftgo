(* Props/C03.v — property C03 "The parser is total and the AST is faithful to the source
   text", stated about the model Idl/Lex.v + Idl/Parse.v of /repo/parser (thrift.peg,
   parser.go).  Statements only; the proof of every general theorem is [exact lemma] and is
   followed by Print Assumptions; the examples and the known finding are computed.  The
   model is tied to /repo on every run by Corr/C03.v. *)
From Coq Require Import List Bool NArith ZArith.
From Coq.Strings Require Import Byte String.
From Verif Require Import Base.Bytes Idl.Ast Idl.Lex Idl.LexFacts Idl.Parse Idl.ParseFacts Idl.Print Idl.PrintFacts.
From Verif Require Import Idl.Peg Idl.PegGrammar Idl.PegFacts Idl.PegTotal.
Import ListNotations.
Local Open Scope string_scope.

(* ---------------------------------------------------------------- the AST is faithful to the text *)

(* lex_render: printing any admissible sequence of tokens with the blanks and comments in
   front of each and lexing the bytes gives the sequence back, trivia included.
   Admissible ([lts_wf]; the boolean check [lts_wfb] implies it, Idl/LexFacts.v [lts_wfb_wf]):
   every token text and every comment is well formed, a line comment is followed by a line
   break, and two word-like tokens (word, integer, double) are separated by at least one
   blank or comment. *)
Theorem C03_lex_render :
  forall lts fin, lts_wf lts fin -> lex (ltoks_bytes lts fin) = Some (lts, fin).
Proof. exact lex_ltoks_bytes. Qed.
Print Assumptions C03_lex_render.

(* parse_print: for every well-formed file a and EVERY way of writing its abstract token
   sequence as concrete tokens ([conc]: any spelling of each number with the right value,
   either quote character and any raw text that unescapes to the literal, each optional
   list separator written as ',' or ';' or left out, implicit field ids / enum values
   written or left out, "()" for an empty annotation list, any requiredness keyword on a
   throws field) with ANY blanks and comments between the tokens, the token parser returns
   a up to the comments it records. *)
Theorem C03_parse_print :
  forall a lts fin, wf_file a = true -> conc (protos_file a) (map snd lts) ->
  exists a', parse_tokens (f_filename a) lts fin = Some a' /\ strip_comments a' = strip_comments a.
Proof. exact parse_tokens_conc. Qed.
Print Assumptions C03_parse_print.

(* parse_print for ANY source order: header lines (include / cpp_include / namespace) in any
   interleaving and definitions of different kinds in any interleaving, written in any of
   the ways [conc] allows with any blanks and comments: the parser returns [file_of n hs ds],
   the file whose per-kind lists hold exactly the definitions written, in source order per
   kind (duplicate / empty include paths dropped as parser.go does), up to recorded comments. *)
Theorem C03_parse_print_any_order :
  forall n hs ds lts fin,
  forallb wf_header hs = true -> forallb wf_def ds = true ->
  conc (flat_map protos_header hs ++ flat_map protos_def ds) (map snd lts) ->
  exists a', parse_tokens n lts fin = Some a' /\ strip_comments a' = strip_comments (file_of n hs ds).
Proof. exact parse_tokens_any_order. Qed.
Print Assumptions C03_parse_print_any_order.

Example C03_any_order_example :
  let ds := [DEnum (Enum (B "E") [] [] []); DTypedef (Typedef (ty_named (B "i32")) (B "T") [] []);
             DEnum (Enum (B "F") [] [] []); DStructLike (StructLike SKUnion (B "U") [] [] [])] in
  forallb wf_def ds = true /\
  map en_name (f_enums (file_of (B "m") [] ds)) = [B "E"; B "F"] /\
  map sl_name (f_unions (file_of (B "m") [] ds)) = [B "U"] /\ f_structs (file_of (B "m") [] ds) = [].
Proof. vm_compute. repeat split. Qed.

(* parse_render: the composition on bytes, for the executable printer [render]. *)
Theorem C03_parse_render :
  forall l a, wf_file a = true -> layout_ok l a ->
  exists a', parse (f_filename a) (render l a) = Some a' /\ strip_comments a' = strip_comments a.
Proof. exact parse_render. Qed.
Print Assumptions C03_parse_render.

(* layout_independent: two admissible layouts of one file give the same AST except for
   recorded comments. *)
Theorem C03_layout_independent :
  forall l1 l2 a, wf_file a = true -> layout_ok l1 a -> layout_ok l2 a ->
  exists a1 a2, parse (f_filename a) (render l1 a) = Some a1 /\ parse (f_filename a) (render l2 a) = Some a2 /\
                strip_comments a1 = strip_comments a2.
Proof. exact layout_independent. Qed.
Print Assumptions C03_layout_independent.

(* the side condition on layouts has a sound boolean check ... *)
Theorem C03_layout_ok_decidable : forall l a, layout_okb l a = true -> layout_ok l a.
Proof. exact layout_okb_ok. Qed.
Print Assumptions C03_layout_ok_decidable.

(* ... and satisfiable: a file with every kind of definition except a union, under a plain
   layout and under a layout with all three comment styles, both separators, both quotes,
   hex numbers, written-out implicit ids and "()" lists. *)
Definition t_i32 := ty_named (B "i32").
Definition example_file : file :=
  File (B "main.thrift")
    [Include (B "a/b.thrift") None None] [B "x.h"]
    [Namespace (B "go") (B "a.b") [Anno (B "k") [B "v"]]; Namespace (B "*") (B "x") []]
    [Typedef (ty_plain (B "map") (Some (ty_named (B "string")))
                (Some (ty_plain (B "list") None (Some t_i32) (B "vec") [Anno (B "t") [B "1"; B "2"]])) [] [])
             (B "M") [] []]
    [Constant (B "c") (ty_named (B "double")) (CDouble 4681608360884174848) [] [];
     Constant (B "d") (ty_named (B "M"))
              (CMap [(CLiteral (B "a""b\\c"), CList [CInt 1; CInt (-2); CIdent (B "c") None])])
              [Anno (B "q") [B ""]] []]
    [Enum (B "E") [EnumValue (B "A") 0 [] []; EnumValue (B "B") 5 [Anno (B "x") [B "y"]] [];
                   EnumValue (B "C") 6 [] []] [] []]
    [StructLike SKStruct (B "S")
       [Field 1 (B "a") ReqDefault t_i32 (Some (CInt 16)) [] [];
        Field 2 (B "b") ReqOptional (ty_named (B "S")) None [Anno (B "p") [B "q"]] [];
        Field (-3) (B "list") ReqRequired (ty_named (B "string")) (Some (CLiteral (B "it's"))) [] []]
       [Anno (B "k") [B "v"; B "w"]] []]
    [] [StructLike SKException (B "X") [] [] []]
    [Service (B "Svc") (B "base.Svc")
       [Function (B "f") true true (ty_named (B "void")) [Field 1 (B "x") ReqDefault t_i32 None [] []] [] [] [];
        Function (B "g") false false (ty_named (B "S")) []
                 [Field 1 (B "e") ReqOptional (ty_named (B "X")) None [] [];
                  Field 2 (B "e2") ReqOptional (ty_named (B "X")) None [] []] [Anno (B "api") [B "g"]] []]
       [] None []]
    None.

Example C03_example_in_domain :
  wf_file example_file = true /\ layout_okb plain_layout example_file = true /\
  layout_okb busy_layout example_file = true.
Proof. vm_compute. repeat split. Qed.

(* the empty file is in the domain, also printed as zero bytes (an error before the repair
   proposed_fixes/C03-empty-document) *)
Example C03_empty_document :
  wf_file (empty_file (B "e.thrift")) = true /\
  layout_okb (Layout (fun _ => []) (fun _ => []) (fun _ => SepNone) (fun _ => c_dq) (fun _ s => s)
                     (fun _ _ => []) (fun _ _ => []) (fun _ => false) (fun _ => None) []) (empty_file (B "e.thrift")) = true /\
  parse (B "e.thrift") [] = Some (empty_file (B "e.thrift")) /\ parse_unrepaired (B "e.thrift") [] = None.
Proof. vm_compute. repeat split. Qed.

Example C03_example_round_trip :
  option_map (fun a => file_eqb a example_file) (parse (B "main.thrift") (render plain_layout example_file)) = Some true /\
  option_map (fun a => (file_eqb_nc a example_file, file_eqb a example_file))
             (parse (B "main.thrift") (render busy_layout example_file)) = Some (true, false).
Proof. vm_compute. split; reflexivity. Qed.

(* ---------------------------------------------------------------- literal text *)

(* Only the enclosing quote is unescaped: a text s printed between quotes q (a backslash
   in front of every q) is read back as s.  Domain (exact, in the statement): no backslash
   of s stands directly in front of a q, and s does not end with a backslash — such texts
   cannot be written as one literal at all. *)
Theorem C03_unescape_spec :
  forall q s, q <> c_bs -> lit_text_ok q s = true -> unescape q (escape q s) = s.
Proof. exact unescape_escape. Qed.
Print Assumptions C03_unescape_spec.

(* The other quote character needs no escape and gets none removed: text escaped for q'
   and enclosed in q comes back byte for byte (backslash pairs included). *)
Theorem C03_unescape_other_quote_untouched :
  forall q q' s, q <> q' -> q <> c_bs -> lit_text_ok q s = true ->
  unescape q (escape q' s) = escape q' s.
Proof. exact unescape_other_quote_untouched. Qed.
Print Assumptions C03_unescape_other_quote_untouched.

Example C03_unescape_example :
  lit_text_ok c_dq (B "say ""hi"" \\ 'there'") = true /\
  escape c_dq (B "say ""hi"" \\ 'there'") = B "say \""hi\"" \\ 'there'" /\
  unescape c_dq (B "say \""hi\"" \\ 'there'") = B "say ""hi"" \\ 'there'".
Proof. vm_compute. repeat split. Qed.

(* ---------------------------------------------------------------- field ids *)

(* Explicit field ids are kept; the i-th field without a written id (NOTSET) gets
   previous + 1 wrapped to int32, the first one 1; nothing else of a field changes.  [assign_ids None] is
   what struct, union, exception, argument and throws lists go through. *)
Theorem C03_ids_spec :
  forall fs i f, nth_error fs i = Some f ->
  exists g, nth_error (assign_ids None fs) i = Some g /\
            field_sans_id g = field_sans_id f /\
            fd_id g = expected_id (fd_id f) (prev_id None (assign_ids None fs) i).
Proof. exact (assign_ids_nth None). Qed.
Print Assumptions C03_ids_spec.

Theorem C03_ids_length : forall fs, List.length (assign_ids None fs) = List.length fs.
Proof. exact (assign_ids_length None). Qed.
Print Assumptions C03_ids_length.

(* ---------------------------------------------------------------- enum values *)

(* Explicit enum values are kept; a value that is not written is previous + 1 wrapped to
   int64, the first one 0; names, annotations and comments are untouched. *)
Theorem C03_enum_values_spec :
  forall vs i v ov, nth_error vs i = Some (v, ov) ->
  exists w, nth_error (assign_enum_values None vs) i = Some w /\
            ev_name w = ev_name v /\ ev_annos w = ev_annos v /\ ev_comments w = ev_comments v /\
            ev_value w = expected_enum_value ov (prev_value None (assign_enum_values None vs) i).
Proof. exact (assign_enum_values_nth None). Qed.
Print Assumptions C03_enum_values_spec.

(* ---------------------------------------------------------------- annotations *)

(* Repeated keys accumulate in order: the annotation list built from the (key, value)
   pairs in source order has the keys in order of first occurrence, each with all its
   values in source order. *)
Theorem C03_annotations_accumulate : forall pairs, annos_of_pairs pairs = grouped pairs.
Proof. exact annos_of_pairs_grouped. Qed.
Print Assumptions C03_annotations_accumulate.

Example C03_annotations_example :
  annos_of_pairs [(B "a", B "1"); (B "b", B "2"); (B "a", B "3")] =
  [Anno (B "a") [B "1"; B "3"]; Anno (B "b") [B "2"]].
Proof. vm_compute. reflexivity. Qed.

(* ---------------------------------------------------------------- the grammar terminates *)

(* peg_total (generic, Ford 2004 section 3.6, mechanised in Idl/PegTotal.v): a grammar that
   passes the well-formedness check — no left recursion, no repetition over an expression
   that can succeed without consuming input — terminates on every input: the fuelled
   interpreter never runs out of (enough) fuel. *)
Theorem C03_peg_total :
  forall g, wf_peg g = true -> forall s, exists n, run n g (PNT 0) s <> RFuel.
Proof. exact peg_total. Qed.
Print Assumptions C03_peg_total.

(* thrift_peg_wf: the grammar of /repo/parser/thrift.peg, as translated by
   harness/cmd/translate-peg on THIS run, is well formed (and the translation is not
   degenerate) ... *)
Theorem C03_thrift_peg_wf : wf_peg thrift_grammar = true /\ Nat.leb 60 (List.length thrift_grammar) = true.
Proof. exact (conj thrift_peg_wf thrift_grammar_size). Qed.
Print Assumptions C03_thrift_peg_wf.

(* ... hence matching any byte string against it terminates, with a match or a failure.
   (This is about the grammar as written; that the generated Go code implements it without
   panicking is observed by the totality stream, not proved.) *)
Theorem C03_thrift_grammar_total :
  forall s, exists n, run n thrift_grammar (PNT 0) s <> RFuel.
Proof. exact (peg_total thrift_grammar thrift_peg_wf). Qed.
Print Assumptions C03_thrift_grammar_total.

(* ---------------------------------------------------------------- known finding *)

(* FieldReq lacks the word-boundary guard: a field without requiredness keyword whose type
   name starts with "required" is read as a required field of the type named by the rest.
   The grammar's reading would be: default requiredness, type requiredThing. *)
Theorem C03_req_prefixed_type_refuted :
  exists src a s f,
    parse (B "main.thrift") src = Some a /\ f_structs a = [s] /\ sl_fields s = [f] /\
    src = B "struct S { 2: requiredThing t }" /\
    fd_req f = ReqRequired /\ ty_name (fd_type f) = B "Thing".
Proof.
  eexists _, _, _, _. repeat split; try (vm_compute; reflexivity).
Qed.
Print Assumptions C03_req_prefixed_type_refuted.
