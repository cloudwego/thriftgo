(* Props/C19.v — property C19 "Concurrent persist: all files written or an error, under every
   schedule", stated about the transition system Gen/Persist.v of asyncPostProcess.OnFinished
   (generator/generator.go).  Statements; the proofs are in Gen/PersistFacts.v, the
   examples at the end are evaluated.

   Every theorem is for ALL job lists (any number of files, any paths and contents), ALL
   concurrency limits k (k = 0 behaves as 1, as in the code), ALL post-processors pp, ALL fault
   oracles (fail_pp j / fail_w j: job j fails in PostProcess / in the write callback) and ALL
   executions: [reachable s] means that s is reached from the initial state by some interleaving
   of the steps of the caller and of the workers, including both arms of the select. *)
From Coq Require Import List Arith Bool Permutation.
From Verif Require Import Base.Bytes Gen.Persist Gen.PersistFacts.
Import ListNotations.

Section C19.
  Variable jobs : list job.
  Variable k : nat.
  Variable pp : bytes -> bytes -> bytes.
  Variable fail_pp fail_w : nat -> bool.

  Notation n := (n jobs).
  Notation step := (step jobs k pp fail_pp fail_w).
  Notation path := (path jobs k pp fail_pp fail_w).
  Notation reachable := (reachable jobs k pp fail_pp fail_w).
  Notation init := (init jobs).
  Notation failing := (failing fail_pp fail_w).

  (* The named invariants (record [Inv], fields I_len, I_front, I_tok, I_cap, I_wg, I_errs,
     I_errs_genuine, I_wlocal, I_disk, I_ret) hold in every reachable state. *)
  Theorem C19_invariant : forall s, reachable s -> Inv jobs k pp fail_pp fail_w s.
  Proof. exact (inv_reachable jobs k pp fail_pp fail_w). Qed.

  (* Token accounting: the semaphore count is the number of workers between acquire and release
     (plus the caller between acquire and go), and never exceeds the limit. *)
  Theorem C19_token_accounting : forall s, reachable s ->
    tokens s = count holds_token (ws s) + match d s with Spawn _ => 1 | _ => 0 end /\ tokens s <= cap k.
  Proof. exact (token_accounting jobs k pp fail_pp fail_w). Qed.

  (* WaitGroup accounting: the counter is the number of spawned workers that have not called Done. *)
  Theorem C19_waitgroup_accounting : forall s, reachable s -> wg s = count in_flight (ws s).
  Proof. exact (waitgroup_accounting jobs k pp fail_pp fail_w). Qed.

  (* The error channel (capacity n) is never full when a worker wants to send. *)
  Theorem C19_error_channel_never_full : forall s, reachable s ->
    List.length (errs s) <= n /\ forall j, getw s j = Failed -> List.length (errs s) < n.
  Proof. exact (error_channel_never_full jobs k pp fail_pp fail_w). Qed.

  (* nil is returned only if every job was post-processed and written, exactly once, under its
     own path with its own post-processed content (the write log is a permutation of the list of
     expected outputs), and then no job is a failing one. *)
  Theorem C19_ok_implies_all_written : forall s, reachable s -> d s = Ret None ->
    (forall j, j < n -> finished_ok (getw s j) = true) /\
    Permutation (disk s) (map (out pp) jobs) /\
    (forall j, j < n -> failing j = false).
  Proof. exact (ok_implies_all_written jobs k pp fail_pp fail_w). Qed.

  (* An error can not be lost: if any started job failed, the call returns an error, and that
     error is the error of a job that fails. *)
  Theorem C19_failure_implies_error : forall s r, reachable s -> d s = Ret r ->
    (exists j, has_failed (getw s j) = true) -> exists e, r = Some e /\ failing e = true.
  Proof. exact (failure_implies_error jobs k pp fail_pp fail_w). Qed.

  (* If the oracle makes any job fail (in either stage) the call can not return nil. *)
  Theorem C19_fault_implies_error : forall s r, reachable s -> d s = Ret r ->
    (exists j, j < n /\ failing j = true) -> r <> None.
  Proof. exact (fault_implies_error jobs k pp fail_pp fail_w). Qed.

  Theorem C19_returned_error_is_genuine : forall s e, reachable s -> d s = Ret (Some e) -> failing e = true.
  Proof. exact (returned_error_is_genuine jobs k pp fail_pp fail_w). Qed.

  (* Full strength of "returns an error iff something failed": the returned error was sent by a
     worker of THIS execution that was started and did fail (second invariant errs_reported: every
     entry of the error channel, and the received one, belongs to a worker in state Reported or
     later), and the result is an error exactly when some started job failed. *)
  Theorem C19_returned_error_from_failed_job : forall s e, reachable s -> d s = Ret (Some e) ->
    has_failed (getw s e) = true /\ failing e = true /\ e < n.
  Proof. exact (returned_error_from_failed_job jobs k pp fail_pp fail_w). Qed.

  Theorem C19_error_iff_failure : forall s r, reachable s -> d s = Ret r ->
    (r <> None <-> exists j, has_failed (getw s j) = true).
  Proof. exact (error_iff_failure jobs k pp fail_pp fail_w). Qed.

  (* At return no worker is between go and wg.Done(): no post-processing or write of this call
     is in flight or still to come ... *)
  Theorem C19_no_write_in_flight_at_return : forall s, reachable s -> is_ret s = true ->
    forall j, in_flight (getw s j) = false /\ write_pending (getw s j) = false.
  Proof. exact (no_write_in_flight_at_return jobs k pp fail_pp fail_w). Qed.

  (* ... and the only steps that remain after return are token releases: nothing is written. *)
  Theorem C19_after_return_only_release : forall s l s', reachable s -> is_ret s = true -> step s l s' ->
    (exists j, l = ERelease j) /\ disk s' = disk s /\ d s' = d s.
  Proof. exact (after_return_only_release jobs k pp fail_pp fail_w). Qed.

  (* In every state of every execution (also those ending in an error) the write log is a
     sub-multiset of the expected outputs: no job is written twice, no content under a foreign path. *)
  Theorem C19_never_twice_never_mixed : forall s, reachable s ->
    exists rest, Permutation (disk s ++ rest) (map (out pp) jobs).
  Proof. exact (never_twice_never_mixed jobs k pp fail_pp fail_w). Qed.

  Theorem C19_no_path_written_twice : forall s, NoDup (map fst jobs) -> reachable s -> NoDup (map fst (disk s)).
  Proof. exact (no_path_written_twice jobs k pp fail_pp fail_w). Qed.

  (* Deadlock freedom: every reachable state that has not returned has a successor. *)
  Theorem C19_progress : forall s, reachable s -> is_ret s = false -> exists l s', step s l s'.
  Proof. exact (progress jobs k pp fail_pp fail_w). Qed.

  (* Termination: a measure decreases on every step, executions have at most 10 n + 3 steps, a
     maximal execution ends in a returned state, and a returned state can always be reached. *)
  Theorem C19_terminates : forall s l s', reachable s -> step s l s' -> measure jobs s' < measure jobs s.
  Proof. exact (terminates jobs k pp fail_pp fail_w). Qed.

  Theorem C19_execution_length_bounded : forall tr s, path init tr s -> List.length tr <= 10 * n + 3.
  Proof. exact (execution_length_bounded jobs k pp fail_pp fail_w). Qed.

  Theorem C19_maximal_execution_returns : forall s tr s', reachable s -> path s tr s' ->
    (forall l s'', ~ step s' l s'') -> is_ret s' = true.
  Proof. exact (maximal_execution_returns jobs k pp fail_pp fail_w). Qed.

  Theorem C19_always_can_return : forall s, reachable s -> exists tr s', path s tr s' /\ is_ret s' = true.
  Proof. exact (always_can_return jobs k pp fail_pp fail_w). Qed.

  (* The written (path, content) pairs do not depend on the interleaving: two executions in which
     the same jobs have completed their write have the same write log up to order; in particular
     all successful executions write the same files. *)
  Theorem C19_schedule_free_content : forall s1 s2, reachable s1 -> reachable s2 ->
    (forall j, written (getw s1 j) = written (getw s2 j)) -> Permutation (disk s1) (disk s2).
  Proof. exact (schedule_free_content jobs k pp fail_pp fail_w). Qed.

  Theorem C19_schedule_free_content_ok : forall s1 s2, reachable s1 -> reachable s2 ->
    d s1 = Ret None -> d s2 = Ret None -> Permutation (disk s1) (disk s2).
  Proof. exact (schedule_free_content_ok jobs k pp fail_pp fail_w). Qed.

  (* The executable presentations used by the correspondence check are the relation. *)
  Theorem C19_accepted_trace_is_execution : forall tr,
    accepts_trace jobs k pp fail_pp fail_w tr = true <-> exists s, path init tr s.
  Proof. exact (accepted_trace_is_execution jobs k pp fail_pp fail_w). Qed.

  Theorem C19_succs_spec : forall s l s', In (l, s') (succs jobs k pp fail_pp fail_w s) <-> step s l s'.
  Proof. exact (succs_spec jobs k pp fail_pp fail_w). Qed.
End C19.

Print Assumptions C19_invariant.
Print Assumptions C19_token_accounting.
Print Assumptions C19_waitgroup_accounting.
Print Assumptions C19_error_channel_never_full.
Print Assumptions C19_ok_implies_all_written.
Print Assumptions C19_failure_implies_error.
Print Assumptions C19_fault_implies_error.
Print Assumptions C19_returned_error_is_genuine.
Print Assumptions C19_returned_error_from_failed_job.
Print Assumptions C19_error_iff_failure.
Print Assumptions C19_no_write_in_flight_at_return.
Print Assumptions C19_after_return_only_release.
Print Assumptions C19_never_twice_never_mixed.
Print Assumptions C19_no_path_written_twice.
Print Assumptions C19_progress.
Print Assumptions C19_terminates.
Print Assumptions C19_execution_length_bounded.
Print Assumptions C19_maximal_execution_returns.
Print Assumptions C19_always_can_return.
Print Assumptions C19_schedule_free_content.
Print Assumptions C19_schedule_free_content_ok.
Print Assumptions C19_accepted_trace_is_execution.
Print Assumptions C19_succs_spec.

(* Non-vacuity: concrete executions. Two jobs, limit 1, job 0 fails in the write callback; one
   schedule in which the caller receives the error in the loop and never starts job 1, one in
   which both jobs run and the error is picked up by the final select; and a successful run. *)
From Coq Require Import String.
Open Scope string_scope.
Definition ex_jobs : list job := [(B "a.go", B "A"); (B "b.go", B "B")].
Definition ex_pp (p c : bytes) : bytes := List.app c (B "!").

Example C19_example_error_in_loop :
  option_map (fun s => (d s, disk s))
    (run_trace ex_jobs 1 ex_pp (fun _ => false) (fun j => Nat.eqb j 0) (init ex_jobs)
       [EDispatch 0; EAcquire 0; ESpawn 0; EDispatch 1; EStart 0; EPP 0; EWrite 0; EErrSend 0;
        ERecvErr 1; EDone 0; EReturn; ERelease 0])
  = Some (Ret (Some 0), []).
Proof. vm_compute. reflexivity. Qed.

Example C19_example_error_at_final_select :
  option_map (fun s => (d s, disk s))
    (run_trace ex_jobs 1 ex_pp (fun _ => false) (fun j => Nat.eqb j 0) (init ex_jobs)
       [EDispatch 0; EAcquire 0; ESpawn 0; EDispatch 1; EStart 0; EPP 0; EWrite 0; EErrSend 0;
        EDone 0; ERelease 0; EAcquire 1; ESpawn 1; EStart 1; EPP 1; EWrite 1; EDone 1;
        EFinalWait; EReturn; ERelease 1])
  = Some (Ret (Some 0), [(B "b.go", B "B!")]).
Proof. vm_compute. reflexivity. Qed.

Example C19_example_ok :
  option_map (fun s => (d s, disk s))
    (run_trace ex_jobs 2 ex_pp (fun _ => false) (fun _ => false) (init ex_jobs)
       [EDispatch 0; EAcquire 0; ESpawn 0; EDispatch 1; EAcquire 1; ESpawn 1; EStart 1; EPP 1;
        EStart 0; EWrite 1; EPP 0; EWrite 0; EDone 0; EDone 1; EFinalWait; ERelease 1; EReturn; ERelease 0])
  = Some (Ret None, [(B "b.go", B "B!"); (B "a.go", B "A!")]).
Proof. vm_compute. reflexivity. Qed.

(* a step that the code can not take is rejected: return on the error path before the worker's Done *)
Example C19_example_rejected :
  accepts_trace ex_jobs 1 ex_pp (fun _ => false) (fun j => Nat.eqb j 0)
    [EDispatch 0; EAcquire 0; ESpawn 0; EDispatch 1; EStart 0; EPP 0; EWrite 0; EErrSend 0; ERecvErr 1; EReturn]
  = false.
Proof. vm_compute. reflexivity. Qed.
